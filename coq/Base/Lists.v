(* List helpers over rationals: positional update, zips, columns. *)
From TFL Require Export Base.QNum.
Open Scope Q_scope.

Fixpoint set_nth (i : nat) (v : Q) (l : list Q) : list Q :=
  match l, i with
  | [], _ => []
  | _ :: r, O => v :: r
  | x :: r, S i' => x :: set_nth i' v r
  end.
Lemma set_nth_length i v l : length (set_nth i v l) = length l.
Proof. revert i; induction l as [|x l IH]; intros [|i]; cbn; auto. Qed.
Lemma nth_set_nth_same i v l : (i < length l)%nat -> nth i (set_nth i v l) 0 = v.
Proof. revert i; induction l as [|x l IH]; intros [|i] H; cbn in *; try lia; auto. apply IH; lia. Qed.
Lemma nth_set_nth_other i j v l : i <> j -> nth j (set_nth i v l) 0 = nth j l 0.
Proof. revert i j; induction l as [|x l IH]; intros [|i] [|j] H; cbn; auto; try lia. Qed.
Lemma nth_set_nth_Q (l : list Q) i v j : (i < length l)%nat ->
  nth j (set_nth i v l) 0 = if (i =? j)%nat then v else nth j l 0.
Proof. intros Hi. destruct (Nat.eqb_spec i j) as [->|N]. apply nth_set_nth_same; exact Hi. apply nth_set_nth_other; exact N. Qed.
Lemma set_nth_twice : forall (l : list Q) i a b, set_nth i b (set_nth i a l) = set_nth i b l.
Proof. induction l as [|h l IH]; intros [|i] a b; cbn [set_nth]; try reflexivity. f_equal. apply IH. Qed.
Lemma set_nth_self : forall (l : list Q) d, set_nth d (nth d l 0) l = l.
Proof. induction l as [|x l IH]; intros [|d]; cbn [set_nth nth]; try reflexivity. f_equal. apply IH. Qed.

Fixpoint map2 {A B C} (f : A -> B -> C) (a : list A) (b : list B) : list C :=
  match a, b with x :: a', y :: b' => f x y :: map2 f a' b' | _, _ => [] end.
Lemma map2_length {A B C} (f : A -> B -> C) a b : length (map2 f a b) = Nat.min (length a) (length b).
Proof. revert b; induction a as [|x a IH]; intros [|y b]; cbn; auto. Qed.
Lemma nth_map2 {A B C} (f : A -> B -> C) a b i da db dc :
  (i < length a)%nat -> (i < length b)%nat -> nth i (map2 f a b) dc = f (nth i a da) (nth i b db).
Proof. revert b i; induction a as [|x a IH]; intros [|y b] [|i] Ha Hb; cbn in *; try lia; auto. apply IH; lia. Qed.
Lemma in_map2 {A B C} (f : A -> B -> C) : forall a b z, In z (map2 f a b) -> exists x y, In x a /\ In y b /\ z = f x y.
Proof. induction a as [|x a IH]; intros [|y b] z H; cbn [map2] in H; try (destruct H; fail).
  destruct H as [<-|H]. exists x, y; cbn; auto.
  destruct (IH b z H) as [x' [y' [H1 [H2 H3]]]]. exists x', y'; cbn; auto. Qed.
Lemma qsum_map2_ext_in {A B} (f g : A -> B -> Q) : forall a b, (forall x y, In y b -> f x y == g x y) ->
  qsum (map2 f a b) == qsum (map2 g a b).
Proof. induction a as [|x a IH]; intros [|y b] H; cbn [map2 qsum]; try reflexivity.
  rewrite (H x y (or_introl eq_refl)), IH. reflexivity. intros; apply H; right; assumption. Qed.

(* matrices as lists of rows; column extraction and transpose *)
Definition column (u : nat) (m : list (list Q)) : list Q := map (fun r => nth u r 0) m.
Definition transpose (ncols : nat) (m : list (list Q)) : list (list Q) := map (fun u => column u m) (seq 0 ncols).
Lemma column_length u (m : list (list Q)) : length (column u m) = length m.
Proof. apply map_length. Qed.
Lemma column_app u (a b : list (list Q)) : column u (a ++ b) = column u a ++ column u b.
Proof. apply map_app. Qed.
Lemma column_tl u (m : list (list Q)) : column u (tl m) = tl (column u m).
Proof. destruct m; reflexivity. Qed.
Lemma nth_column u (m : list (list Q)) n : nth n (column u m) 0 = nth u (nth n m []) 0.
Proof. unfold column. rewrite <- (map_nth (fun r => nth u r 0) m [] n). destruct u; reflexivity. Qed.
Lemma column0_singletons (l : list Q) : column 0 (map (fun v => [v]) l) = l.
Proof. unfold column. rewrite map_map. apply map_id. Qed.
Lemma column_transpose u n (cols : list (list Q)) : (u < length cols)%nat ->
  column u (transpose n cols) = map (fun i => nth i (nth u cols []) 0) (seq 0 n).
Proof. intros Hu. unfold transpose, column at 1. rewrite map_map. apply map_ext. intros i.
  rewrite nth_column. reflexivity. Qed.

Lemma existsb_eqb {A} (eqb : A -> A -> bool) (eqb_eq : forall a b, eqb a b = true <-> a = b) x l :
  existsb (eqb x) l = true <-> In x l.
Proof. rewrite existsb_exists. split. intros [y [H E]]. apply eqb_eq in E. subst; assumption.
  intros H; exists x; split; [assumption|apply eqb_eq; reflexivity]. Qed.

Definition mem_nat (n : nat) (l : list nat) : bool := existsb (Nat.eqb n) l.
Lemma mem_nat_true n l : mem_nat n l = true <-> In n l.
Proof. exact (existsb_eqb Nat.eqb Nat.eqb_eq n l). Qed.
Lemma mem_nat_false n l : mem_nat n l = false <-> ~ In n l.
Proof. rewrite <- mem_nat_true. destruct (mem_nat n l); split; congruence. Qed.

Fixpoint dedup (l : list nat) (seen : list nat) : list nat :=
  match l with [] => [] | x :: r => if mem_nat x seen then dedup r seen else x :: dedup r (x :: seen) end.

Lemma nonnil_length {A B} (a : list A) (b : list B) : length a = length b -> b <> [] -> a <> [].
Proof. intros H Hb ->. destruct b; [congruence|discriminate]. Qed.
Lemma nth_pos_lt (sh : list nat) d k : (k < nth d sh 0)%nat -> (d < length sh)%nat.
Proof. intros H. destruct (Nat.ltb_spec d (length sh)) as [Hd|Hd]; [exact Hd|]. rewrite nth_overflow in H by exact Hd. lia. Qed.
Lemma hd_nth0 {A} (d : A) l : hd d l = nth 0 l d.
Proof. destruct l; reflexivity. Qed.
Lemma last_nth {A} (d : A) l : last l d = nth (length l - 1) l d.
Proof. induction l as [|x [|y l] IH]; try reflexivity.
  change (last (x :: y :: l) d) with (last (y :: l) d). rewrite IH. cbn [length].
  replace (S (S (length l)) - 1)%nat with (S (S (length l) - 1))%nat by lia. reflexivity. Qed.
Lemma firstn_app_le {A} (a b : list A) j : (j <= length a)%nat -> firstn j (a ++ b) = firstn j a.
Proof. intros Hj. rewrite firstn_app. replace (j - length a)%nat with 0%nat by lia. apply app_nil_r. Qed.
Lemma nth_map_seq {A} (f : nat -> A) n u d : (u < n)%nat -> nth u (map f (seq 0 n)) d = f u.
Proof. intros H. rewrite nth_indep with (d' := f 0%nat) by (rewrite map_length, seq_length; exact H).
  rewrite map_nth. rewrite seq_nth by exact H. reflexivity. Qed.
Lemma nth_map_lt {A B} (f : A -> B) l i d d' : (i < length l)%nat -> nth i (map f l) d = f (nth i l d').
Proof. intros H. rewrite nth_indep with (d' := f d') by (rewrite map_length; exact H). apply map_nth. Qed.
Lemma map_nth_seq {A} (l : list A) d : map (fun i => nth i l d) (seq 0 (length l)) = l.
Proof. induction l as [|x l IH]; cbn [length seq map nth]. reflexivity. rewrite <- seq_shift, map_map, IH. reflexivity. Qed.
Lemma map_add_seq a s n : map (fun j => (a + j)%nat) (seq s n) = seq (a + s) n.
Proof. revert s; induction n as [|n IH]; intros s; cbn [seq map]. reflexivity. rewrite IH, Nat.add_succ_r. reflexivity. Qed.
Lemma map_flat_map {A B C} (g : B -> C) (f : A -> list B) l : map g (flat_map f l) = flat_map (fun a => map g (f a)) l.
Proof. induction l as [|a l IH]; cbn [flat_map map]. reflexivity. rewrite map_app, IH. reflexivity. Qed.
Lemma nth_repeat_lt {A} (a d : A) n j : (j < n)%nat -> nth j (repeat a n) d = a.
Proof. revert j; induction n as [|n IH]; intros [|j] H; cbn [repeat nth]; try lia. reflexivity. apply IH; lia. Qed.
Lemma nth_firstn_lt {A} n : forall (l : list A) i d, (i < n)%nat -> nth i (firstn n l) d = nth i l d.
Proof. induction n as [|n IH]; intros [|x l] [|i] d H; cbn [firstn nth]; try lia; try reflexivity. apply IH; lia. Qed.
Lemma nth_skipn_add {A} n : forall (l : list A) i d, nth i (skipn n l) d = nth (n + i) l d.
Proof. induction n as [|n IH]; intros [|x l] i d; cbn [skipn nth Nat.add]; try reflexivity. destruct i; reflexivity. apply IH. Qed.
Lemma nth_concat {A} m u : (u < m)%nat -> forall (K : list (list A)) n, Forall (fun r => length r = m) K ->
  forall d, nth (n * m + u) (concat K) d = nth u (nth n K []) d.
Proof. intros Hu. induction K as [|r K IH]; intros n HF d; cbn [concat].
  - destruct n, u, (_ + _)%nat; reflexivity.
  - inversion HF; subst. destruct n as [|n]; cbn [nth].
    + rewrite app_nth1 by lia. reflexivity.
    + rewrite app_nth2 by lia. replace (S n * length r + u - length r)%nat with (n * length r + u)%nat by lia.
      apply IH; assumption. Qed.
Lemma nth_nonneg (l : list Q) i : (forall x, In x l -> 0 <= x) -> 0 <= nth i l 0.
Proof. intros H. destruct (nth_in_or_default i l 0) as [Hi|E]. apply H, Hi. rewrite E. lra. Qed.
Lemma in_firstn {A} n : forall (l : list A) x, In x (firstn n l) -> In x l.
Proof. induction n as [|n IH]; intros [|y l] x H; cbn [firstn] in H; try contradiction.
  destruct H as [<-|H]; [left; reflexivity|right; apply IH, H]. Qed.
Lemma nodup_app {A} (a b : list A) : NoDup a -> NoDup b -> (forall x, In x a -> ~ In x b) -> NoDup (a ++ b).
Proof. induction a as [|y a IH]; intros Na Nb H; cbn [app]. exact Nb. inversion Na; subst. constructor.
  - rewrite in_app_iff. intros [Hy|Hy]. contradiction. exact (H y (or_introl eq_refl) Hy).
  - apply IH; auto. intros x Hx. apply H. right; exact Hx. Qed.
Lemma NoDup_map_inj_in {A B} (f : A -> B) (l : list A) :
  (forall x y, In x l -> In y l -> f x = f y -> x = y) -> NoDup l -> NoDup (map f l).
Proof. induction l as [|a l IH]; intros Hinj Hnd; cbn [map]. constructor.
  inversion Hnd; subst. constructor.
  - intros Hin. apply in_map_iff in Hin. destruct Hin as [b [Hb Hbl]].
    assert (b = a) by (apply Hinj; [right; assumption|left; reflexivity|assumption]). subst. contradiction.
  - apply IH; [|assumption]. intros x y Hx Hy. apply Hinj; right; assumption. Qed.
Lemma fold_left_inv {A B} (f : A -> B -> A) (P : A -> Prop) l a :
  P a -> (forall a x, In x l -> P a -> P (f a x)) -> P (fold_left f l a).
Proof. revert a; induction l as [|x l IH]; intros a Pa H; cbn [fold_left]. exact Pa.
  apply IH. apply H; [left; reflexivity|exact Pa]. intros; apply H; [right|]; assumption. Qed.

Lemma all_map {A B} (f : A -> B) l (P : B -> Prop) : (forall x, In x (map f l) -> P x) <-> forall i, In i l -> P (f i).
Proof. split.
  - intros H i Hi. apply H, in_map, Hi.
  - intros H x Hx. apply in_map_iff in Hx. destruct Hx as [i [<- Hi]]. apply H, Hi. Qed.
Lemma forallb_iff {A} (f : A -> bool) (P : A -> Prop) l :
  (forall x, In x l -> (f x = true <-> P x)) -> (forallb f l = true <-> forall x, In x l -> P x).
Proof. intros H. rewrite forallb_forall. split; intros G x Hx; apply (H x Hx), G, Hx. Qed.
Lemma Forall_nth0 (P : Q -> Prop) l : Forall P l <-> forall i, (i < length l)%nat -> P (nth i l 0).
Proof. rewrite Forall_nth. split; intros H i; [apply H|]. intros d Hi. rewrite (nth_indep l d 0 Hi). apply H, Hi. Qed.
Lemma Forall_map_impl {A B} (P : A -> Prop) (P' : B -> Prop) (g : A -> B) l :
  Forall P l -> (forall x, P x -> P' (g x)) -> Forall P' (map g l).
Proof. induction 1; cbn [map]; constructor; auto. Qed.
Lemma Forall_map_seq {A} (P : A -> Prop) (F : nat -> A) : forall n a,
  (forall d, (a <= d < a + n)%nat -> P (F d)) -> Forall P (map F (seq a n)).
Proof. intros n a H. apply Forall_forall, all_map. intros d Hd. apply H, in_seq, Hd. Qed.

Lemma Forall2_impl {A B} (P R : A -> B -> Prop) l1 l2 : (forall a b, P a b -> R a b) -> Forall2 P l1 l2 -> Forall2 R l1 l2.
Proof. intros H. induction 1; constructor; auto. Qed.
Lemma Forall2_length {A B} (P : A -> B -> Prop) l1 l2 : Forall2 P l1 l2 -> length l1 = length l2.
Proof. induction 1; cbn; congruence. Qed.
Lemma Forall2_nth {A B} (P : A -> B -> Prop) l1 l2 i da db :
  Forall2 P l1 l2 -> (i < length l1)%nat -> P (nth i l1 da) (nth i l2 db).
Proof. intros H; revert i; induction H; intros [|i] Hi; cbn [length nth] in *; try lia. assumption. apply IHForall2; lia. Qed.
Lemma Forall2_nth_intro {A B} (P : A -> B -> Prop) da db : forall a b, length a = length b ->
  (forall i, (i < length a)%nat -> P (nth i a da) (nth i b db)) -> Forall2 P a b.
Proof. induction a as [|x a IH]; intros [|y b] E H; cbn [length] in *; try discriminate; constructor.
  apply (H 0%nat); lia. apply IH. lia. intros i Hi. apply (H (S i)); lia. Qed.
Lemma Forall2_map_in {T A B} (P : A -> B -> Prop) (f : T -> A) (g : T -> B) l :
  (forall t, In t l -> P (f t) (g t)) -> Forall2 P (map f l) (map g l).
Proof. induction l as [|t l IH]; intros H; constructor. apply H; left; reflexivity.
  apply IH. intros; apply H; right; assumption. Qed.
Lemma Forall2_map_seq {A B} (P : A -> B -> Prop) (f : nat -> A) (g : nat -> B) s n :
  (forall i, (s <= i < s + n)%nat -> P (f i) (g i)) -> Forall2 P (map f (seq s n)) (map g (seq s n)).
Proof. intros H. apply Forall2_map_in. intros i Hi. apply H, in_seq, Hi. Qed.
Lemma Forall2_repeat_map_seq {A B} (P : A -> B -> Prop) x (F : nat -> B) : forall n a,
  (forall u, (a <= u < a + n)%nat -> P x (F u)) -> Forall2 P (repeat x n) (map F (seq a n)).
Proof. induction n as [|n IH]; intros a H; cbn [repeat seq map]; constructor. apply H; lia. apply IH. intros u Hu. apply H; lia. Qed.
Lemma Forall2_impl2 {A B} (P R : A -> B -> Prop) l1 l2 :
  Forall2 (Forall2 P) l1 l2 -> (forall a b, P a b -> R a b) -> Forall2 (Forall2 R) l1 l2.
Proof. intros H HF. apply (Forall2_impl (Forall2 P)); [|exact H]. intros a b. apply Forall2_impl, HF. Qed.
