(* Exact rational arithmetic helpers: min / max / abs / clip as boolean
   conditionals (so that they compute) with characterising lemmas (so that
   proofs never unfold them). *)
From Coq Require Export QArith List Lia Lqa Bool.
From Coq Require Import Permutation.
Export ListNotations.
Open Scope Q_scope.

Definition qmax (x y : Q) : Q := if Qle_bool x y then y else x.
Definition qmin (x y : Q) : Q := if Qle_bool x y then x else y.
Definition qabs (x : Q) : Q := if Qle_bool 0 x then x else - x.
(* tf.clip_by_value(x, lo, hi) = max(min(x, hi), lo) *)
Definition qclip (lo hi x : Q) : Q := qmax (qmin x hi) lo.
Definition qle (x y : Q) : bool := Qle_bool x y.
Definition qlt (x y : Q) : bool := negb (Qle_bool y x).
Definition qhalf (x : Q) : Q := x * (1#2).

Lemma qle_true x y : qle x y = true <-> x <= y.
Proof. unfold qle. apply Qle_bool_iff. Qed.
Lemma qle_false x y : qle x y = false <-> y < x.
Proof. unfold qle. split; intro H.
  - apply Qnot_le_lt. intro H'. apply Qle_bool_iff in H'. congruence.
  - destruct (Qle_bool x y) eqn:E; [|reflexivity]. apply Qle_bool_iff in E. lra. Qed.
Lemma qlt_true x y : qlt x y = true <-> x < y.
Proof. unfold qlt. rewrite negb_true_iff. apply (qle_false y x). Qed.
Lemma qlt_false x y : qlt x y = false <-> y <= x.
Proof. unfold qlt. rewrite negb_false_iff. apply Qle_bool_iff. Qed.
Lemma nqlt_true x y : negb (qlt x y) = true <-> y <= x.
Proof. rewrite negb_true_iff. apply qlt_false. Qed.

Lemma qmax_spec x y : (x <= y /\ qmax x y = y) \/ (y < x /\ qmax x y = x).
Proof. unfold qmax. destruct (Qle_bool x y) eqn:E.
- left. split; [apply Qle_bool_iff; exact E|reflexivity].
- right. split; [|reflexivity]. apply (qle_false x y). exact E. Qed.
Lemma qmin_spec x y : (x <= y /\ qmin x y = x) \/ (y < x /\ qmin x y = y).
Proof. unfold qmin. destruct (Qle_bool x y) eqn:E.
- left. split; [apply Qle_bool_iff; exact E|reflexivity].
- right. split; [|reflexivity]. apply (qle_false x y). exact E. Qed.
Lemma qabs_spec x : (0 <= x /\ qabs x = x) \/ (x < 0 /\ qabs x = - x).
Proof. unfold qabs. destruct (Qle_bool 0 x) eqn:E.
- left. split; [apply Qle_bool_iff; exact E|reflexivity].
- right. split; [|reflexivity]. apply (qle_false 0 x). exact E. Qed.

Ltac qcase_term t :=
  let H := fresh "Hc" in let E := fresh "Ec" in
  lazymatch t with
  | qmax ?a ?b => destruct (qmax_spec a b) as [[H E]|[H E]]
  | qmin ?a ?b => destruct (qmin_spec a b) as [[H E]|[H E]]
  | qabs ?a => destruct (qabs_spec a) as [[H E]|[H E]]
  end; rewrite E in *; clear E.
Ltac qcases :=
  repeat match goal with
  | |- context [qmax ?a ?b] => qcase_term (qmax a b)
  | |- context [qmin ?a ?b] => qcase_term (qmin a b)
  | |- context [qabs ?a] => qcase_term (qabs a)
  | _ : context [qmax ?a ?b] |- _ => qcase_term (qmax a b)
  | _ : context [qmin ?a ?b] |- _ => qcase_term (qmin a b)
  | _ : context [qabs ?a] |- _ => qcase_term (qabs a)
  end.

Global Instance qmax_proper : Proper (Qeq ==> Qeq ==> Qeq) qmax.
Proof. intros a b Hab c d Hcd. qcases; lra. Qed.
Global Instance qmin_proper : Proper (Qeq ==> Qeq ==> Qeq) qmin.
Proof. intros a b Hab c d Hcd. qcases; lra. Qed.
Global Instance qabs_proper : Proper (Qeq ==> Qeq) qabs.
Proof. intros a b Hab. qcases; lra. Qed.
Global Instance qclip_proper : Proper (Qeq ==> Qeq ==> Qeq ==> Qeq) qclip.
Proof. intros a b Hab c d Hcd e f Hef. unfold qclip. rewrite Hab, Hcd, Hef. reflexivity. Qed.

Lemma qmax_l x y : x <= qmax x y. Proof. qcases; lra. Qed.
Lemma qmax_r x y : y <= qmax x y. Proof. qcases; lra. Qed.
Lemma qmin_l x y : qmin x y <= x. Proof. qcases; lra. Qed.
Lemma qmin_r x y : qmin x y <= y. Proof. qcases; lra. Qed.
Lemma qmax_lub x y z : x <= z -> y <= z -> qmax x y <= z. Proof. intros; qcases; lra. Qed.
Lemma qmin_glb x y z : z <= x -> z <= y -> z <= qmin x y. Proof. intros; qcases; lra. Qed.
Lemma qmax_mono a b c d : a <= c -> b <= d -> qmax a b <= qmax c d. Proof. intros; qcases; lra. Qed.
Lemma qmin_mono a b c d : a <= c -> b <= d -> qmin a b <= qmin c d. Proof. intros; qcases; lra. Qed.
Lemma qabs_nonneg x : 0 <= qabs x. Proof. qcases; lra. Qed.
Lemma qabs_lt x e : qabs x < e <-> - e < x /\ x < e. Proof. split; intros H; qcases; lra. Qed.
Lemma qabs_le_iff x e : qabs x <= e <-> - e <= x /\ x <= e. Proof. split; intros H; qcases; lra. Qed.
Lemma qabs_nonpos x : x <= 0 -> qabs x == - x. Proof. intros H. qcases; lra. Qed.
Lemma qabs_0 : qabs 0 == 0. Proof. reflexivity. Qed.
Lemma qmax_either a b : qmax a b = a \/ qmax a b = b. Proof. unfold qmax. destruct (Qle_bool a b); auto. Qed.
Lemma qmin_either a b : qmin a b = a \/ qmin a b = b. Proof. unfold qmin. destruct (Qle_bool a b); auto. Qed.

Lemma qclip_range lo hi x : lo <= hi -> lo <= qclip lo hi x /\ qclip lo hi x <= hi.
Proof. intros H. unfold qclip. qcases; lra. Qed.
Lemma qclip_id lo hi x : lo <= x -> x <= hi -> qclip lo hi x == x.
Proof. intros. unfold qclip. qcases; lra. Qed.
Lemma qclip_mono lo hi x y : x <= y -> qclip lo hi x <= qclip lo hi y.
Proof. intros. unfold qclip. qcases; lra. Qed.

(* Optional bounds (None = unbounded), as used by Linear / Lattice clip. *)
Definition clip_lo (lo : option Q) (x : Q) : Q := match lo with Some l => qmax x l | None => x end.
Definition clip_hi (hi : option Q) (x : Q) : Q := match hi with Some h => qmin x h | None => x end.
Definition clip_opt (lo hi : option Q) (x : Q) : Q := clip_lo lo (clip_hi hi x).
Lemma clip_opt_mono lo hi x y : x <= y -> clip_opt lo hi x <= clip_opt lo hi y.
Proof. intros. unfold clip_opt, clip_lo, clip_hi. destruct lo, hi; qcases; lra. Qed.
Lemma clip_opt_id l h x : l <= x -> x <= h -> clip_opt (Some l) (Some h) x == x.
Proof. intros. unfold clip_opt, clip_lo, clip_hi. qcases; lra. Qed.

(* Sums over lists of rationals *)
Fixpoint qsum (l : list Q) : Q := match l with [] => 0 | x :: r => x + qsum r end.
Lemma qsum_app a b : qsum (a ++ b) == qsum a + qsum b.
Proof. induction a as [|x a IH]; cbn [qsum app]. lra. rewrite IH. lra. Qed.
Lemma qsum_map_ext {A} (f g : A -> Q) l : (forall x, In x l -> f x == g x) -> qsum (map f l) == qsum (map g l).
Proof. induction l as [|x l IH]; intros H; cbn [map qsum]. reflexivity.
  rewrite (H x (or_introl eq_refl)), IH. reflexivity. intros; apply H; right; assumption. Qed.
Lemma qsum_map_le {A} (f g : A -> Q) l : (forall x, In x l -> f x <= g x) -> qsum (map f l) <= qsum (map g l).
Proof. induction l as [|x l IH]; intros H; cbn [map qsum]. lra.
  pose proof (H x (or_introl eq_refl)). assert (qsum (map f l) <= qsum (map g l)) by (apply IH; intros; apply H; right; assumption). lra. Qed.
Lemma qsum_map_scale {A} (f : A -> Q) c l : qsum (map (fun x => c * f x) l) == c * qsum (map f l).
Proof. induction l as [|x l IH]; cbn [map qsum]. lra. rewrite IH. lra. Qed.
Lemma qsum_map_plus {A} (f g : A -> Q) l : qsum (map (fun x => f x + g x) l) == qsum (map f l) + qsum (map g l).
Proof. induction l as [|x l IH]; cbn [map qsum]. lra. rewrite IH. lra. Qed.
Lemma qsum_map_nonneg {A} (f : A -> Q) l : (forall x, In x l -> 0 <= f x) -> 0 <= qsum (map f l).
Proof. induction l as [|x l IH]; intros H; cbn [map qsum]. lra.
  pose proof (H x (or_introl eq_refl)). assert (0 <= qsum (map f l)) by (apply IH; intros; apply H; right; assumption). lra. Qed.
Lemma qsum_map_zero {A} (f : A -> Q) l : (forall x, In x l -> f x == 0) -> qsum (map f l) == 0.
Proof. intros H. rewrite (qsum_map_ext f (fun _ => 0) l H). clear H. induction l; cbn [map qsum]; lra. Qed.
Lemma qsum_nonneg l : (forall x, In x l -> 0 <= x) -> 0 <= qsum l.
Proof. intros H. rewrite <- (map_id l). apply qsum_map_nonneg. exact H. Qed.
Lemma qsum_Forall_nonneg l : Forall (fun x => 0 <= x) l -> 0 <= qsum l.
Proof. intros H. apply qsum_nonneg. apply Forall_forall. exact H. Qed.
Lemma qsum_pos l : l <> [] -> (forall x, In x l -> 0 < x) -> 0 < qsum l.
Proof. destruct l as [|x l]; intros Hne H. congruence. cbn [qsum].
  pose proof (H x (or_introl eq_refl)).
  assert (0 <= qsum l) by (apply qsum_nonneg; intros y Hy; apply Qlt_le_weak, H; right; exact Hy). lra. Qed.
Lemma qsum_abs_nonneg l : (forall x, In x l -> 0 <= x) -> qsum (map qabs l) == qsum l.
Proof. intros H. rewrite <- (map_id l) at 2. apply qsum_map_ext. intros x Hx. pose proof (H x Hx). qcases; lra. Qed.
Lemma qsum_le l l' : Forall2 Qle l l' -> qsum l <= qsum l'.
Proof. induction 1; cbn [qsum]; lra. Qed.
Lemma qsum_perm l l' : Permutation l l' -> qsum l == qsum l'.
Proof. induction 1; cbn [qsum]; lra. Qed.
Lemma qsum_update {B} (K : list B) (G G' : B -> Q) (k : B) : NoDup K -> In k K ->
  (forall k', In k' K -> k' <> k -> G' k' == G k') ->
  qsum (map G' K) == qsum (map G K) - G k + G' k.
Proof. induction K as [|a r IH]; intros Hnd Hin Hoth. destruct Hin.
  inversion Hnd as [|? ? Hnotin Hnd']; subst. cbn [map qsum]. destruct Hin as [->|Hin].
  - assert (E : qsum (map G' r) == qsum (map G r)).
    { apply qsum_map_ext. intros k' Hk'. apply Hoth. right; exact Hk'. intros ->. contradiction. }
    rewrite E. lra.
  - rewrite (IH Hnd' Hin) by (intros k' Hk' Hne; apply Hoth; [right; exact Hk'|exact Hne]).
    rewrite (Hoth a (or_introl eq_refl)) by (intros ->; contradiction). lra. Qed.
Lemma qsum_flat_map {A} (f : A -> list Q) l : qsum (flat_map f l) == qsum (map (fun a => qsum (f a)) l).
Proof. induction l as [|x l IH]; cbn [flat_map map qsum]. reflexivity. rewrite qsum_app, IH. reflexivity. Qed.
Lemma qsum_seq_S (f : nat -> Q) n : qsum (map f (seq 0 (S n))) == qsum (map f (seq 0 n)) + f n.
Proof. rewrite seq_S, map_app, qsum_app. cbn. lra. Qed.
Lemma qsum_seq_ext (f g : nat -> Q) n : (forall k, (k < n)%nat -> f k == g k) ->
  qsum (map f (seq 0 n)) == qsum (map g (seq 0 n)).
Proof. intros H. apply qsum_map_ext. intros k Hk. apply in_seq in Hk. apply H. lia. Qed.
Lemma qsum_seq_zero (f : nat -> Q) n : (forall k, (k < n)%nat -> f k == 0) -> qsum (map f (seq 0 n)) == 0.
Proof. intros H. apply qsum_map_zero. intros k Hk. apply in_seq in Hk. apply H. lia. Qed.
Lemma qsum_firstn_S l : forall k, (k < length l)%nat -> qsum (firstn (S k) l) == qsum (firstn k l) + nth k l 0.
Proof. induction l as [|x l IH]; intros [|k] Hk; cbn [length firstn qsum nth] in *; try lia. lra.
  rewrite (IH k) by lia. lra. Qed.

(* fold max / min over lists *)
Definition maxl0 (l : list Q) : Q := fold_left qmax l 0.
Lemma fold_qmax_ge l : forall a, a <= fold_left qmax l a /\ forall x, In x l -> x <= fold_left qmax l a.
Proof. induction l as [|y l IH]; intros a; cbn [fold_left]. split; [lra|intros x []].
  destruct (IH (qmax a y)) as [H1 H2]. split.
  - pose proof (qmax_l a y). lra.
  - intros x [<-|Hx]. pose proof (qmax_r a y). lra. apply H2; assumption. Qed.
Lemma fold_qmax_lub l : forall a z, a <= z -> (forall x, In x l -> x <= z) -> fold_left qmax l a <= z.
Proof. induction l as [|y l IH]; intros a z Ha H; cbn [fold_left]. exact Ha.
  apply IH. apply qmax_lub. exact Ha. apply H; left; reflexivity. intros; apply H; right; assumption. Qed.
Lemma fold_qmin_le l : forall a, fold_left qmin l a <= a /\ forall x, In x l -> fold_left qmin l a <= x.
Proof. induction l as [|y l IH]; intros a; cbn [fold_left]. split; [lra|intros x []].
  destruct (IH (qmin a y)) as [H1 H2]. split.
  - pose proof (qmin_l a y). lra.
  - intros x [<-|Hx]. pose proof (qmin_r a y). lra. apply H2; assumption. Qed.
Lemma fold_qmin_glb l : forall a z, z <= a -> (forall x, In x l -> z <= x) -> z <= fold_left qmin l a.
Proof. induction l as [|y l IH]; intros a z Ha H; cbn [fold_left]. exact Ha.
  apply IH. apply qmin_glb. exact Ha. apply H; left; reflexivity. intros; apply H; right; assumption. Qed.
Lemma maxl0_nonneg l : 0 <= maxl0 l. Proof. destruct (fold_qmax_ge l 0) as [H _]; exact H. Qed.
Lemma maxl0_ge l x : In x l -> x <= maxl0 l. Proof. destruct (fold_qmax_ge l 0) as [_ H]; apply H. Qed.
Lemma maxl0_zero l : (forall x, In x l -> x <= 0) -> maxl0 l == 0.
Proof. intros H. pose proof (maxl0_nonneg l). assert (maxl0 l <= 0) by (apply fold_qmax_lub; [lra|exact H]). lra. Qed.

(* list max/min with head as start *)
Definition qmaxl (l : list Q) : Q := match l with [] => 0 | x :: r => fold_left qmax r x end.
Definition qminl (l : list Q) : Q := match l with [] => 0 | x :: r => fold_left qmin r x end.
Lemma qmaxl_ge l x : In x l -> x <= qmaxl l.
Proof. destruct l as [|y l]; [intros []|]. intros [<-|H]; cbn [qmaxl]; destruct (fold_qmax_ge l y) as [H1 H2]; auto. Qed.
Lemma qminl_le l x : In x l -> qminl l <= x.
Proof. destruct l as [|y l]; [intros []|]. intros [<-|H]; cbn [qminl]; destruct (fold_qmin_le l y) as [H1 H2]; auto. Qed.
Lemma qmaxl_lub l z : l <> [] -> (forall x, In x l -> x <= z) -> qmaxl l <= z.
Proof. destruct l as [|y l]; [congruence|]. intros _ H. cbn [qmaxl]. apply fold_qmax_lub. apply H; left; reflexivity. intros; apply H; right; assumption. Qed.
Lemma qminl_glb l z : l <> [] -> (forall x, In x l -> z <= x) -> z <= qminl l.
Proof. destruct l as [|y l]; [congruence|]. intros _ H. cbn [qminl]. apply fold_qmin_glb. apply H; left; reflexivity. intros; apply H; right; assumption. Qed.

(* pointwise Qeq on lists *)
Definition qleq (a b : list Q) : Prop := Forall2 Qeq a b.
Lemma qleq_refl l : qleq l l.
Proof. induction l; constructor; [reflexivity|assumption]. Qed.
Lemma qleq_sym a b : qleq a b -> qleq b a.
Proof. induction 1; constructor; [symmetry|]; assumption. Qed.
Lemma qleq_trans a b c : qleq a b -> qleq b c -> qleq a c.
Proof. intros H; revert c; induction H; intros c Hc; inversion Hc; subst; constructor.
  etransitivity; eassumption. apply IHForall2; assumption. Qed.
Lemma qleq_length a b : qleq a b -> length a = length b.
Proof. induction 1; cbn; congruence. Qed.
Lemma qleq_app a a' b b' : qleq a a' -> qleq b b' -> qleq (a ++ b) (a' ++ b').
Proof. apply Forall2_app. Qed.
Lemma qleq_nth a b i : qleq a b -> nth i a 0 == nth i b 0.
Proof. intros H; revert i; induction H; intros [|i]; cbn [nth]; auto; reflexivity. Qed.
Lemma qleq_qsum a b : qleq a b -> qsum a == qsum b.
Proof. induction 1 as [|x y a b E _ IH]; cbn [qsum]. reflexivity. rewrite E, IH. reflexivity. Qed.
Lemma fold_left_qleq (op : Q -> Q -> Q) l l' : Proper (Qeq ==> Qeq ==> Qeq) op -> qleq l l' ->
  forall a a', a == a' -> fold_left op l a == fold_left op l' a'.
Proof. intros Hop H. induction H as [|x y l l' Hx _ IH]; intros a a' Ha; cbn [fold_left]. exact Ha.
  apply IH. rewrite Ha, Hx. reflexivity. Qed.
Lemma maxl0_qleq l l' : qleq l l' -> maxl0 l == maxl0 l'.
Proof. intros H. apply (fold_left_qleq qmax); [exact qmax_proper|exact H|reflexivity]. Qed.
Lemma qmaxl_qleq l l' : qleq l l' -> qmaxl l == qmaxl l'.
Proof. intros [|x y r r' Hx H]; cbn [qmaxl]. reflexivity. apply (fold_left_qleq qmax); [exact qmax_proper|exact H|exact Hx]. Qed.
Lemma qminl_qleq l l' : qleq l l' -> qminl l == qminl l'.
Proof. intros [|x y r r' Hx H]; cbn [qminl]. reflexivity. apply (fold_left_qleq qmin); [exact qmin_proper|exact H|exact Hx]. Qed.
Lemma qleq_map {A} (f g : A -> Q) l : (forall x, In x l -> f x == g x) -> qleq (map f l) (map g l).
Proof. induction l as [|x l IH]; intros H; constructor. apply H; left; reflexivity.
  apply IH. intros; apply H; right; assumption. Qed.
Lemma qleq_Forall (P : Q -> Prop) a b : (forall x y, x == y -> P x -> P y) -> qleq a b -> Forall P a -> Forall P b.
Proof. intros HP H; induction H; intros HF; inversion HF; subst; constructor; eauto. Qed.

Lemma qmul_nonneg a b : 0 <= a -> 0 <= b -> 0 <= a * b.
Proof. apply Qmult_le_0_compat. Qed.
Lemma qsq_nonneg x : 0 <= x * x.
Proof. destruct (Qlt_le_dec x 0). pose proof (qmul_nonneg (- x) (- x) ltac:(lra) ltac:(lra)). lra. apply qmul_nonneg; assumption. Qed.
Lemma qmul_le_l a b c : 0 <= a -> b <= c -> a * b <= a * c.
Proof. intros Ha H. pose proof (qmul_nonneg a (c - b) Ha ltac:(lra)). lra. Qed.
Lemma qmul_le_r a b e : 0 <= e -> a <= b -> a * e <= b * e.
Proof. intros He H. pose proof (qmul_le_l e a b He H). lra. Qed.
Lemma qmul_le_l_neg a b c : a <= 0 -> b <= c -> a * c <= a * b.
Proof. intros Ha H. pose proof (qmul_nonneg (- a) (c - b) ltac:(lra) ltac:(lra)). lra. Qed.
Lemma between_bounds lo hi w a b : 0 <= w <= 1 -> lo <= a <= hi -> lo <= b <= hi -> lo <= a + w * (b - a) <= hi.
Proof. intros Hw Ha Hb.
  pose proof (qmul_nonneg w (b - lo) ltac:(lra) ltac:(lra)). pose proof (qmul_nonneg (1 - w) (a - lo) ltac:(lra) ltac:(lra)).
  pose proof (qmul_nonneg w (hi - b) ltac:(lra) ltac:(lra)). pose proof (qmul_nonneg (1 - w) (hi - a) ltac:(lra) ltac:(lra)).
  split; lra. Qed.
Lemma qabs_mul_nonneg a t : 0 <= t -> qabs (a * t) == qabs a * t.
Proof. intros Ht. destruct (qabs_spec a) as [[H E]|[H E]]; rewrite E.
  - pose proof (qmul_nonneg a t H Ht). qcases; lra.
  - pose proof (qmul_nonneg (- a) t ltac:(lra) Ht). qcases; lra. Qed.
Lemma qdiv_nonneg a b : 0 <= a -> 0 <= b -> 0 <= a / b.
Proof. intros Ha Hb. apply qmul_nonneg. exact Ha. apply Qinv_le_0_compat, Hb. Qed.
Lemma qdiv_le_mono a b l : 0 < l -> a <= b -> a / l <= b / l.
Proof. intros Hl H. apply Qmult_le_compat_r. exact H. apply Qinv_le_0_compat, Qlt_le_weak, Hl. Qed.
Lemma qmul_div_cancel l a : 0 < l -> l * (a / l) == a.
Proof. intros H. field. lra. Qed.

(* nat -> Q casts; the models name inject_Z (Z.of_nat n) qn, qnat or nq *)
Lemma qofnat_0 : inject_Z (Z.of_nat 0) == 0. Proof. reflexivity. Qed.
Lemma qofnat_S n : inject_Z (Z.of_nat (S n)) == inject_Z (Z.of_nat n) + 1.
Proof. rewrite Nat2Z.inj_succ. unfold Z.succ. rewrite inject_Z_plus. reflexivity. Qed.
Lemma qofnat_plus a b : inject_Z (Z.of_nat (a + b)) == inject_Z (Z.of_nat a) + inject_Z (Z.of_nat b).
Proof. rewrite Nat2Z.inj_add, inject_Z_plus. reflexivity. Qed.
Lemma qofnat_le a b : (a <= b)%nat -> inject_Z (Z.of_nat a) <= inject_Z (Z.of_nat b).
Proof. intros H. rewrite <- Zle_Qle. lia. Qed.
Lemma qofnat_lt a b : (a < b)%nat -> inject_Z (Z.of_nat a) < inject_Z (Z.of_nat b).
Proof. intros H. rewrite <- Zlt_Qlt. lia. Qed.
Lemma qofnat_succ_le a b : (a < b)%nat -> inject_Z (Z.of_nat a) + 1 <= inject_Z (Z.of_nat b).
Proof. intros H. rewrite <- qofnat_S. apply qofnat_le. exact H. Qed.
Lemma qofnat_nonneg n : 0 <= inject_Z (Z.of_nat n).
Proof. apply (qofnat_le 0 n). lia. Qed.
Lemma qofnat_pos n : (0 < n)%nat -> 0 < inject_Z (Z.of_nat n).
Proof. apply (qofnat_lt 0 n). Qed.
Lemma qofnat_ge1 n : (1 <= n)%nat -> 1 <= inject_Z (Z.of_nat n).
Proof. apply (qofnat_le 1 n). Qed.
Lemma qofnat_pred n : (1 <= n)%nat -> inject_Z (Z.of_nat (n - 1)) == inject_Z (Z.of_nat n) - 1.
Proof. intros H. replace n with (S (n - 1)) at 2 by lia. rewrite qofnat_S. lra. Qed.

Lemma qsum_const {A} (l : list A) c : qsum (map (fun _ => c) l) == inject_Z (Z.of_nat (length l)) * c.
Proof. induction l as [|a l IH]; cbn [map qsum length]. rewrite qofnat_0; lra. rewrite IH, qofnat_S. lra. Qed.
Lemma qsum_bounds lo hi l : (forall v, In v l -> lo <= v <= hi) ->
  inject_Z (Z.of_nat (length l)) * lo <= qsum l <= inject_Z (Z.of_nat (length l)) * hi.
Proof. intros H.
  pose proof (qsum_map_le (fun _ => lo) (fun v => v) l (fun v Hv => proj1 (H v Hv))) as A.
  pose proof (qsum_map_le (fun v => v) (fun _ => hi) l (fun v Hv => proj2 (H v Hv))) as B.
  rewrite map_id, qsum_const in A, B. split; assumption. Qed.
(* the mean, as every model writes it *)
Lemma qavg_bounds lo hi l : l <> [] -> (forall v, In v l -> lo <= v <= hi) ->
  lo <= qsum l / inject_Z (Z.of_nat (length l)) <= hi.
Proof. intros Hne H. destruct (qsum_bounds lo hi l H) as [A B].
  assert (Hn : 0 < inject_Z (Z.of_nat (length l))) by (apply qofnat_pos; destruct l; [congruence|cbn [length]; lia]).
  split; [apply Qle_shift_div_l|apply Qle_shift_div_r]; try exact Hn; lra. Qed.
Lemma qavg_le a b : Forall2 Qle a b ->
  qsum a / inject_Z (Z.of_nat (length a)) <= qsum b / inject_Z (Z.of_nat (length b)).
Proof. intros H. assert (E : length a = length b) by (induction H; cbn [length]; congruence). rewrite E.
  apply Qmult_le_compat_r; [apply qsum_le; exact H|apply Qinv_le_0_compat, qofnat_nonneg]. Qed.
Lemma qavg_proper a b : qleq a b ->
  qsum a / inject_Z (Z.of_nat (length a)) == qsum b / inject_Z (Z.of_nat (length b)).
Proof. intros H. rewrite (qleq_qsum a b H), (qleq_length a b H). reflexivity. Qed.
