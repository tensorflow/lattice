(* Tensors as memoised functions on index vectors (see DESIGN.md section 2). *)
From TFL Require Export Base.QNum.
Open Scope Q_scope.

Definition idx := list nat.
Definition tens := idx -> Q.

Fixpoint memo (shape : list nat) : tens -> tens :=
  match shape with
  | [] => fun f => let v := f [] in fun _ => v
  | s :: sh => fun f =>
      let rows := map (fun k => memo sh (fun i => f (k :: i))) (seq 0 s) in
      fun i => match i with
               | k :: r => nth k rows (fun _ => 0) r
               | [] => 0
               end
  end.

Inductive valid : list nat -> idx -> Prop :=
| v_nil : valid [] []
| v_cons s sh k r : (k < s)%nat -> valid sh r -> valid (s :: sh) (k :: r).

Lemma memo_ok : forall sh f i, valid sh i -> memo sh f i = f i.
Proof.
  induction sh as [|s sh IH]; intros f i Hv; inversion Hv; subst; cbn [memo].
  - reflexivity.
  - rewrite nth_indep with (d' := memo sh (fun i => f (0%nat :: i))) by (rewrite map_length, seq_length; lia).
    change (memo sh (fun i => f (0%nat :: i))) with ((fun k => memo sh (fun i => f (k :: i))) 0%nat).
    rewrite map_nth. rewrite seq_nth by lia. cbn [Nat.add].
    match goal with H : valid sh ?r |- _ => exact (IH (fun i => f (k :: i)) r H) end.
Qed.

Fixpoint upd (i : idx) (d k : nat) : idx :=
  match i, d with
  | [], _ => []
  | _ :: r, O => k :: r
  | x :: r, S d' => x :: upd r d' k
  end.

Fixpoint all_idx (shape : list nat) : list idx :=
  match shape with [] => [[]] | s :: sh => flat_map (fun k => map (cons k) (all_idx sh)) (seq 0 s) end.
Fixpoint flat (shape : list nat) (i : idx) : nat :=
  match shape, i with s :: sh, k :: r => k * fold_right Nat.mul 1%nat sh + flat sh r | _, _ => 0%nat end.
Definition of_list (shape : list nat) (l : list Q) : tens := memo shape (fun i => nth (flat shape i) l 0).
Definition to_list (shape : list nat) (t : tens) : list Q := map t (all_idx shape).

Lemma valid_length sh i : valid sh i -> length i = length sh.
Proof. induction 1; cbn; congruence. Qed.
Lemma valid_nth sh i d : valid sh i -> (d < length sh)%nat -> (nth d i 0%nat < nth d sh 0%nat)%nat.
Proof. intros H; revert d; induction H; intros d Hd; cbn in *. lia. destruct d; [assumption|apply IHvalid; lia]. Qed.
Lemma valid_iff sh i :
  valid sh i <-> length i = length sh /\ forall e, (e < length sh)%nat -> (nth e i 0 < nth e sh 0)%nat.
Proof. split.
  - intros H. split. apply valid_length; assumption. intros e He. apply valid_nth; assumption.
  - revert i. induction sh as [|s sh IH]; intros [|k r] [Hl H]; cbn in Hl; try discriminate. constructor.
    constructor. apply (H 0%nat); cbn; lia. apply IH. split. lia. intros e He. apply (H (S e)). cbn; lia. Qed.
Lemma upd_valid sh i d k : valid sh i -> (k < nth d sh 0%nat)%nat -> valid sh (upd i d k).
Proof. intros H; revert d; induction H; intros d Hk; cbn in *. constructor.
  destruct d; constructor; auto. Qed.
Lemma upd_length i d k : length (upd i d k) = length i.
Proof. revert d; induction i as [|x r IH]; intros [|d]; cbn; auto. Qed.
Lemma upd_oob i d k : (length i <= d)%nat -> upd i d k = i.
Proof. revert d; induction i as [|x r IH]; intros d H; cbn in *. reflexivity.
  destruct d; [lia|]. f_equal. apply IH; lia. Qed.
Lemma upd_valid_gen sh i d k :
  valid sh i -> ((d < length sh)%nat -> (k < nth d sh 0)%nat) -> valid sh (upd i d k).
Proof. intros Hv H. destruct (Nat.ltb_spec d (length sh)) as [Hd|Hd].
  - apply upd_valid; auto.
  - rewrite upd_oob. assumption. rewrite (valid_length sh i Hv). assumption. Qed.
Lemma nth_upd_same i d k : (d < length i)%nat -> nth d (upd i d k) 0%nat = k.
Proof. revert d; induction i as [|x r IH]; intros d H; cbn in *. lia. destruct d; cbn; [reflexivity|apply IH; lia]. Qed.
Lemma nth_upd_other i d d' k : d <> d' -> nth d' (upd i d k) 0%nat = nth d' i 0%nat.
Proof. revert d d'; induction i as [|x r IH]; intros d d' H; cbn. reflexivity.
  destruct d, d'; cbn; try reflexivity; try lia. apply IH; lia. Qed.
Lemma upd_upd i d k k' : upd (upd i d k) d k' = upd i d k'.
Proof. revert d; induction i as [|x r IH]; intros d; cbn. reflexivity. destruct d; cbn; [reflexivity|f_equal; apply IH]. Qed.
Lemma upd_comm i d d' k k' : d <> d' -> upd (upd i d k) d' k' = upd (upd i d' k') d k.
Proof. revert d d'; induction i as [|x r IH]; intros d d' H; cbn. reflexivity.
  destruct d, d'; cbn; try reflexivity; try lia. f_equal; apply IH; lia. Qed.
Lemma upd_self i d : upd i d (nth d i 0%nat) = i.
Proof. revert d; induction i as [|x r IH]; intros d; cbn. reflexivity. destruct d; cbn; [reflexivity|f_equal; apply IH]. Qed.

Lemma all_idx_valid sh i : In i (all_idx sh) <-> valid sh i.
Proof. revert i; induction sh as [|s sh IH]; intros i; cbn [all_idx].
  - split. intros [<-|[]]. constructor. intros H; inversion H; left; reflexivity.
  - rewrite in_flat_map. split.
    + intros [k [Hk Hi]]. apply in_map_iff in Hi. destruct Hi as [r [<- Hr]]. apply in_seq in Hk.
      constructor. lia. apply IH; assumption.
    + intros H; inversion H; subst. exists k. split. apply in_seq; lia. apply in_map. apply IH; assumption. Qed.

Lemma prod_snoc sh n : fold_right Nat.mul 1%nat (sh ++ [n]) = (fold_right Nat.mul 1%nat sh * n)%nat.
Proof. induction sh as [|s sh IH]; cbn [app fold_right]. lia. rewrite IH. lia. Qed.
Lemma valid_snoc sh i n u : valid sh i -> (u < n)%nat -> valid (sh ++ [n]) (i ++ [u]).
Proof. intros H Hu. induction H; cbn [app]; repeat constructor; assumption. Qed.
Lemma flat_snoc sh i n u : valid sh i -> flat (sh ++ [n]) (i ++ [u]) = (flat sh i * n + u)%nat.
Proof. induction 1 as [|s sh k r Hk Hr IH]; cbn [app flat fold_right]. lia. rewrite IH, prod_snoc. lia. Qed.
Lemma upd_app_l (i t : idx) d k : (d < length i)%nat -> upd (i ++ t) d k = upd i d k ++ t.
Proof. revert d; induction i as [|x i IH]; intros [|d] H; cbn [length app upd] in *; try lia. reflexivity.
  f_equal. apply IH. lia. Qed.
Lemma upd_app_here : forall (pre : idx) c cs x, upd (pre ++ c :: cs) (length pre) x = pre ++ x :: cs.
Proof. induction pre as [|p pre IH]; intros; cbn [app length upd]. reflexivity. f_equal. apply IH. Qed.

Lemma flat_lt sh i : valid sh i -> (flat sh i < fold_right Nat.mul 1 sh)%nat.
Proof. induction 1 as [|s sh k r Hk Hr IH]; cbn [flat fold_right]. lia. nia. Qed.
Lemma nth_flat_map_seq {B} (g : nat -> list B) m d : forall s a k j, (forall k', length (g k') = m) ->
  (k < s)%nat -> (j < m)%nat -> nth (k * m + j) (flat_map g (seq a s)) d = nth j (g (a + k)%nat) d.
Proof. induction s as [|s IH]; intros a k j Hg Hk Hj. lia. cbn [seq flat_map]. destruct k as [|k].
  - rewrite app_nth1 by (rewrite Hg; exact Hj). rewrite Nat.add_0_r. reflexivity.
  - rewrite app_nth2 by (rewrite Hg; lia). rewrite Hg. replace (S k * m + j - m)%nat with (k * m + j)%nat by lia.
    rewrite IH by (auto; lia). rewrite Nat.add_succ_r. reflexivity. Qed.
Lemma all_idx_length sh : length (all_idx sh) = fold_right Nat.mul 1%nat sh.
Proof. induction sh as [|s sh IH]; cbn [all_idx fold_right]. reflexivity.
  rewrite <- IH. generalize 0%nat. induction s as [|s IHs]; intros a; cbn [seq flat_map]. reflexivity.
  rewrite app_length, map_length, IHs. reflexivity. Qed.
Lemma nth_flat_all_idx sh i : valid sh i -> nth (flat sh i) (all_idx sh) [] = i.
Proof. induction 1 as [|s sh k r Hk Hr IH]; cbn [all_idx flat]. reflexivity.
  rewrite (nth_flat_map_seq _ (fold_right Nat.mul 1%nat sh)); try assumption.
  - cbn [Nat.add]. rewrite nth_indep with (d' := k :: []) by (rewrite map_length, all_idx_length; apply flat_lt, Hr).
    rewrite map_nth. f_equal. exact IH.
  - intros k'. rewrite map_length. apply all_idx_length.
  - apply flat_lt, Hr. Qed.
Lemma to_list_nth sh t i : valid sh i -> nth (flat sh i) (to_list sh t) 0 = t i.
Proof. intros H. unfold to_list. rewrite nth_indep with (d' := t []) by (rewrite map_length, all_idx_length; apply flat_lt, H).
  rewrite map_nth, nth_flat_all_idx by exact H. reflexivity. Qed.
