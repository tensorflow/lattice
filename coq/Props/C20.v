(* C20 — Linear layer computes the clipped affine function.  Property
   theorems only; proofs live in Proofs/LinearEval.v, Proofs/LinearComposed.v,
   Proofs/SqrtRobust.v.

   The square root of the order-2 normalisation (rt : Q -> Q): every
   C20_projected_* theorem below is quantified over ALL functions rt with NO
   hypothesis -- not exactness, not even positivity (the guard `norm < 1e-8 ->
   divide by 1` of the constraint makes the divisor positive whatever rt
   returns) -- so none of them is idealised; C20_projected_executed_root spells
   out the instance rt := qsqrt (the executed truncated Newton root).  The
   weighted-average statements are about order 1 (no root).  The L2 analogue
   (|output - bias| <= ||clipped input||_2 up to the root's relative error) is
   C20_projected_l2_output_approximate_root (root with relative error e) and
   C20_projected_l2_output_executed_root (executed root). *)
From TFL Require Import Model.LinearEval Proofs.LinearEval.
From TFL Require Import Model.LinearLayer Proofs.PartialOrder Proofs.LinearProject Proofs.LinearComposed.
From TFL Require Import Proofs.SqrtRobust.
Open Scope Q_scope.

(* Output of unit u = bias_u + sum_i K[i,u] * clip_i(x_i). *)
Theorem C20_formula : forall units K bias bs xs u, (u < units)%nat ->
  nth u (linear_eval units K bias bs xs) 0 = lin_unit (column u K) (nth u bias 0) bs (nth u xs []).
Proof. exact linear_eval_unit. Qed.
Print Assumptions C20_formula.

(* Sign-constrained weights give a monotone function for EVERY pair of points
   (inside, on or outside the clip bounds). *)
Theorem C20_monotone : forall ms k b bs x y,
  length ms = length k -> length x = length k -> length y = length k ->
  coords_ok ms k x y -> lin_unit k b bs x <= lin_unit k b bs y.
Proof. exact lin_unit_monotone. Qed.
Print Assumptions C20_monotone.

Theorem C20_monotonic_dominance_effect : forall k b bs x dom weak d,
  (dom < length k)%nat -> (weak < length k)%nat -> length bs = length k -> length x = length k ->
  nth dom bs nob = (None, None) -> nth weak bs nob = (None, None) ->
  0 <= d -> nth weak k 0 <= nth dom k 0 ->
  lin_unit k b bs (set_nth weak (nth weak x 0 + d) x) - lin_unit k b bs x <=
  lin_unit k b bs (set_nth dom (nth dom x 0 + d) x) - lin_unit k b bs x.
Proof. exact lin_dominance_effect. Qed.
Print Assumptions C20_monotonic_dominance_effect.

Theorem C20_range_dominance_effect : forall k b bs x dom weak ld hd lw hw,
  (dom < length k)%nat -> (weak < length k)%nat -> length bs = length k -> length x = length k ->
  nth dom bs nob = (Some ld, Some hd) -> nth weak bs nob = (Some lw, Some hw) ->
  ld <= hd -> lw <= hw ->
  (hw - lw) * nth weak k 0 <= (hd - ld) * nth dom k 0 ->
  lin_unit k b bs (set_nth weak hw x) - lin_unit k b bs (set_nth weak lw x) <=
  lin_unit k b bs (set_nth dom hd x) - lin_unit k b bs (set_nth dom ld x).
Proof. exact lin_range_dominance_effect. Qed.
Print Assumptions C20_range_dominance_effect.

Theorem C20_weighted_average : forall k bs x lo hi,
  length bs = length k -> length x = length k ->
  (forall q, In q k -> 0 <= q) -> qsum k == 1 ->
  (forall c, In c (clipped bs x) -> lo <= c /\ c <= hi) ->
  lo <= lin_unit k 0 bs x /\ lin_unit k 0 bs x <= hi.
Proof. exact lin_weighted_average. Qed.
Print Assumptions C20_weighted_average.

(* ======================================================================
   The second sentence of the property, closed over the constraint (C06):
   r is what the layer's kernel constraint linear_lib.project returns for an
   ARBITRARY kernel column w under an arbitrary valid configuration c
   (lin_valid: what verify_hyperparameters checks + acyclic dominance graphs;
   the projection uses the code's own topological sort), and the layer clips by
   the bounds of the same configuration (layer_bounds c n).  No hypothesis on
   the weights remains.  Proofs in Proofs/LinearComposed.v.
   ====================================================================== *)

(* (1) monotone: dir_le c x y = y is >= x in every increasing input, <= x in
   every decreasing input, equal in the unconstrained ones *)
Theorem C20_projected_monotone : forall rt c n w r b x y,
  lin_valid c n -> length w = n -> lin_project_col rt c w = Some r ->
  length x = n -> length y = n -> dir_le c x y ->
  lin_unit r b (layer_bounds c n) x <= lin_unit r b (layer_bounds c n) y.
Proof. exact projected_monotone. Qed.
Print Assumptions C20_projected_monotone.

(* every pair of values v <= v' of one constrained input, all other inputs fixed *)
Theorem C20_projected_monotone_coordinate : forall rt c n w r b x i v v',
  lin_valid c n -> length w = n -> lin_project_col rt c w = Some r -> length x = n -> (i < n)%nat -> v <= v' ->
  (mono c i = 1%Z -> lin_unit r b (layer_bounds c n) (set_nth i v x) <= lin_unit r b (layer_bounds c n) (set_nth i v' x)) /\
  (mono c i = (-1)%Z -> lin_unit r b (layer_bounds c n) (set_nth i v' x) <= lin_unit r b (layer_bounds c n) (set_nth i v x)).
Proof. exact projected_monotone_coordinate. Qed.
Print Assumptions C20_projected_monotone_coordinate.

(* (2) every configured monotonic dominance pair, every step d >= 0, wherever
   the DOMINANT input is not clipped at x_dom and x_dom + d (unclipped b v :=
   clip_opt (fst b) (snd b) v == v; a saturated dominant input cannot move the
   output at all, so that guard is necessary); the weak input may be clipped *)
Theorem C20_projected_monotonic_dominance_effect : forall rt c n w r b x dom weak d,
  lin_valid c n -> length w = n -> lin_project_col rt c w = Some r -> length x = n ->
  In (dom, weak) (lc_mdom c) -> 0 <= d ->
  unclipped (nth dom (layer_bounds c n) nob) (nth dom x 0) ->
  unclipped (nth dom (layer_bounds c n) nob) (nth dom x 0 + d) ->
  lin_unit r b (layer_bounds c n) (set_nth weak (nth weak x 0 + d) x) - lin_unit r b (layer_bounds c n) x <=
  lin_unit r b (layer_bounds c n) (set_nth dom (nth dom x 0 + d) x) - lin_unit r b (layer_bounds c n) x.
Proof. exact projected_mdom_effect. Qed.
Print Assumptions C20_projected_monotonic_dominance_effect.

(* (3) every configured range dominance pair: both inputs have proper ranges in
   the layer's own bounds, and sweeping the dominant input across its range
   moves the output at least as much as sweeping the weak input across its
   range, from every base point x (signed for increasing / decreasing pairs,
   and in absolute value) *)
Theorem C20_projected_range_dominance_effect : forall rt c n w r b x dom weak,
  lin_valid c n -> length w = n -> lin_project_col rt c w = Some r -> length x = n ->
  In (dom, weak) (lc_rdom c) ->
  exists ld hd lw hw,
    nth dom (layer_bounds c n) nob = (Some ld, Some hd) /\ nth weak (layer_bounds c n) nob = (Some lw, Some hw) /\
    ld < hd /\ lw < hw /\
    (mono c dom = 1%Z ->
       lin_unit r b (layer_bounds c n) (set_nth weak hw x) - lin_unit r b (layer_bounds c n) (set_nth weak lw x) <=
       lin_unit r b (layer_bounds c n) (set_nth dom hd x) - lin_unit r b (layer_bounds c n) (set_nth dom ld x)) /\
    (mono c dom = (-1)%Z ->
       lin_unit r b (layer_bounds c n) (set_nth weak lw x) - lin_unit r b (layer_bounds c n) (set_nth weak hw x) <=
       lin_unit r b (layer_bounds c n) (set_nth dom ld x) - lin_unit r b (layer_bounds c n) (set_nth dom hd x)) /\
    qabs (lin_unit r b (layer_bounds c n) (set_nth weak hw x) - lin_unit r b (layer_bounds c n) (set_nth weak lw x)) <=
    qabs (lin_unit r b (layer_bounds c n) (set_nth dom hd x) - lin_unit r b (layer_bounds c n) (set_nth dom ld x)).
Proof. exact projected_rdom_effect. Qed.
Print Assumptions C20_projected_range_dominance_effect.

(* (4) normalization order 1, all inputs increasing: the weights are >= 0, sum
   to one and the output minus the bias lies between any lo/hi that bound the
   clipped inputs -- PROVIDED the un-normalized projection w3 of the column has
   L1 norm >= _NORMALIZATION_EPS (1e-8).  The guard is necessary, see
   C20_projected_weighted_average_zero_refuted. *)
Theorem C20_projected_weighted_average : forall rt c n w w3 r b x lo hi,
  lin_valid c n -> length w = n -> lc_norm c = 1%nat -> all_increasing c n ->
  lin_project_col rt c w = Some r -> lin_project_col rt (with_norm c 0) w = Some w3 ->
  norm_eps <= qsum (map qabs w3) -> length x = n ->
  (forall v, In v (clipped (layer_bounds c n) x) -> lo <= v /\ v <= hi) ->
  (forall q, In q r -> 0 <= q) /\ qsum r == 1 /\
  lo <= lin_unit r b (layer_bounds c n) x - b /\ lin_unit r b (layer_bounds c n) x - b <= hi.
Proof. exact projected_weighted_average. Qed.
Print Assumptions C20_projected_weighted_average.

(* the same with a guard on the RAW weights when no dominance is configured:
   one raw weight of at least 1e-8 suffices *)
Theorem C20_projected_weighted_average_plain : forall rt c n w r b x lo hi i,
  lin_valid c n -> length w = n -> lc_norm c = 1%nat -> all_increasing c n ->
  lc_mdom c = [] -> lc_rdom c = [] -> (i < n)%nat -> norm_eps <= nth i w 0 ->
  lin_project_col rt c w = Some r -> length x = n ->
  (forall v, In v (clipped (layer_bounds c n) x) -> lo <= v /\ v <= hi) ->
  (forall q, In q r -> 0 <= q) /\ qsum r == 1 /\
  lo <= lin_unit r b (layer_bounds c n) x - b /\ lin_unit r b (layer_bounds c n) x - b <= hi.
Proof. exact projected_weighted_average_plain. Qed.
Print Assumptions C20_projected_weighted_average_plain.

(* below the guard: the constraint returns the numerically-zero column as it is
   (C06_norm_one_or_zero), the weights sum to s < 1e-8 and the output minus the
   bias is only between lo * s and hi * s *)
Theorem C20_projected_weighted_average_degenerate : forall rt c n w w3 r b x lo hi,
  lin_valid c n -> length w = n -> lc_norm c = 1%nat -> all_increasing c n ->
  lin_project_col rt c w = Some r -> lin_project_col rt (with_norm c 0) w = Some w3 ->
  qsum (map qabs w3) < norm_eps -> length x = n ->
  (forall v, In v (clipped (layer_bounds c n) x) -> lo <= v /\ v <= hi) ->
  peq r w3 /\ 0 <= qsum r /\ qsum r < norm_eps /\
  lo * qsum r <= lin_unit r b (layer_bounds c n) x - b /\ lin_unit r b (layer_bounds c n) x - b <= hi * qsum r.
Proof. exact projected_weighted_average_degenerate. Qed.
Print Assumptions C20_projected_weighted_average_degenerate.

(* without the guard the weighted-average claim is FALSE (known finding D32):
   monotonicities (1, 1), normalization order 1, raw column (-1, -2) -> the
   constraint returns (0, 0); input (1, 2), no bias: output 0, not in [1, 2] *)
Theorem C20_projected_weighted_average_zero_refuted :
  exists rt c n w r x lo hi,
    lin_valid c n /\ length w = n /\ lc_norm c = 1%nat /\ all_increasing c n /\
    lin_project_col rt c w = Some r /\ length x = n /\
    (forall v, In v (clipped (layer_bounds c n) x) -> lo <= v /\ v <= hi) /\
    ~ (lo <= lin_unit r 0 (layer_bounds c n) x).
Proof. exact weighted_average_zero_refuted. Qed.
Print Assumptions C20_projected_weighted_average_zero_refuted.

(* (5) Linear.call with its two branches (units == 1: one row, tf.matmul;
   units > 1: one row per unit, reduce_sum(inputs * transpose(kernel))) and the
   optional bias (None = use_bias off): whenever defined, entry u is the clipped
   affine function of kernel column u.  bias_of None u = 0; row_of (In1 x) u = x,
   row_of (InN xs) u = nth u xs []. *)
Theorem C20_call_formula : forall units K bias bs inp out, linear_call units K bias bs inp = Some out ->
  length out = units /\
  forall u, (u < units)%nat -> nth u out 0 == lin_unit (column u K) (bias_of bias u) bs (row_of inp u).
Proof. exact linear_call_spec. Qed.
Print Assumptions C20_call_formula.

(* use_bias off = a bias of zeros *)
Theorem C20_no_bias : forall units K bs inp zs, (forall u, nth u zs 0 == 0) ->
  oqeq (linear_call units K None bs inp) (linear_call units K (Some zs) bs inp).
Proof. exact linear_call_no_bias. Qed.
Print Assumptions C20_no_bias.

(* unit u of a units > 1 layer = the units == 1 layer with kernel column u and
   bias_u on unit u's row: both input forms compute the same per-unit function *)
Theorem C20_unit_forms : forall units K bias bs xs out u, (u < units)%nat ->
  linear_call units K bias bs (InN xs) = Some out ->
  exists v, linear_call 1 (col_matrix (column u K)) (option_map (fun b => [nth u b 0]) bias) bs (In1 (nth u xs [])) = Some [v] /\
            nth u out 0 == v.
Proof. exact linear_call_unit_forms. Qed.
Print Assumptions C20_unit_forms.

(* the whole layer after its constraint (linear_constrained = project the
   (n, units) kernel, then call): unit u is the clipped affine function of the
   PROJECTED column u, so every C20_projected_* theorem applies to every unit *)
Theorem C20_projected_layer : forall rt c units W bias inp out u,
  lin_valid c (length W) -> linear_constrained rt c units W bias inp = Some out -> (u < units)%nat ->
  exists r, lin_project_col rt c (column u W) = Some r /\
    nth u out 0 == lin_unit r (bias_of bias u) (layer_bounds c (length W)) (row_of inp u).
Proof. exact projected_layer. Qed.
Print Assumptions C20_projected_layer.

Theorem C20_projected_layer_defined : forall rt c units W bias inp, lin_valid c (length W) ->
  (match inp with In1 _ => units = 1%nat | InN _ => units <> 1%nat end) ->
  exists out, linear_constrained rt c units W bias inp = Some out.
Proof. exact projected_layer_defined. Qed.
Print Assumptions C20_projected_layer_defined.

(* end to end for one unit of the constrained layer *)
Theorem C20_projected_layer_monotone : forall rt c units W bias inp inp' out out' u,
  lin_valid c (length W) -> (u < units)%nat ->
  linear_constrained rt c units W bias inp = Some out -> linear_constrained rt c units W bias inp' = Some out' ->
  length (row_of inp u) = length W -> length (row_of inp' u) = length W -> dir_le c (row_of inp u) (row_of inp' u) ->
  nth u out 0 <= nth u out' 0.
Proof. exact projected_layer_monotone. Qed.
Print Assumptions C20_projected_layer_monotone.

(* ---------------- order-2 normalisation and the square root ---------------- *)
(* the theorems above at the executed root (rt := qsqrt, what the
   correspondence check runs), any normalisation order: monotone, monotonic
   dominance effect; they need nothing about the root *)
Theorem C20_projected_executed_root : forall c n w r b,
  lin_valid c n -> length w = n -> lin_project_col qsqrt c w = Some r ->
  (forall x y, length x = n -> length y = n -> dir_le c x y ->
     lin_unit r b (layer_bounds c n) x <= lin_unit r b (layer_bounds c n) y) /\
  (forall x dom weak d, length x = n -> In (dom, weak) (lc_mdom c) -> 0 <= d ->
     unclipped (nth dom (layer_bounds c n) nob) (nth dom x 0) ->
     unclipped (nth dom (layer_bounds c n) nob) (nth dom x 0 + d) ->
     lin_unit r b (layer_bounds c n) (set_nth weak (nth weak x 0 + d) x) - lin_unit r b (layer_bounds c n) x <=
     lin_unit r b (layer_bounds c n) (set_nth dom (nth dom x 0 + d) x) - lin_unit r b (layer_bounds c n) x).
Proof. intros c n w r b V L E. split.
  - intros x y Lx Ly D. exact (projected_monotone qsqrt c n w r b x y V L E Lx Ly D).
  - intros x dom weak d Lx Hin Hd U1 U2. exact (projected_mdom_effect qsqrt c n w r b x dom weak d V L E Lx Hin Hd U1 U2). Qed.
Print Assumptions C20_projected_executed_root.

(* Cauchy-Schwarz, any kernel: (output - bias)^2 <= ||kernel||_2^2 * ||clipped input||_2^2 *)
Theorem C20_l2_output_bound : forall k b bs x,
  (lin_unit k b bs x - b) * (lin_unit k b bs x - b) <= sumsq k * sumsq (clipped bs x).
Proof. exact lin_unit_cs. Qed.
Print Assumptions C20_l2_output_bound.

(* order 2, root with relative error e in the square, norm guard passed:
   (1 - e) (output - bias)^2 <= ||clipped input||_2^2 *)
Theorem C20_projected_l2_output_approximate_root : forall rt c n w r b x,
  lin_valid c n -> length w = n -> lc_norm c = 2%nat -> lin_project_col rt c w = Some r ->
  exists w3, lin_project_col rt (with_norm c 0) w = Some w3 /\
    let S := sumsq w3 in let out := lin_unit r b (layer_bounds c n) x in
    forall e, e < 1 -> (1 - e) * S <= rt S * rt S -> rt S * rt S <= (1 + e) * S -> norm_eps <= rt S ->
    (1 - e) * ((out - b) * (out - b)) <= sumsq (clipped (layer_bounds c n) x).
Proof. exact projected_l2_output_approx. Qed.
Print Assumptions C20_projected_l2_output_approximate_root.

(* the executed root, no hypothesis on it left *)
Theorem C20_projected_l2_output_executed_root : forall c n w r b x,
  lin_valid c n -> length w = n -> lc_norm c = 2%nat -> lin_project_col qsqrt c w = Some r ->
  exists w3, lin_project_col qsqrt (with_norm c 0) w = Some w3 /\
    let out := lin_unit r b (layer_bounds c n) x in
    (norm_eps <= qsqrt (sumsq w3) ->
     (out - b) * (out - b) <= (1 + (1 # 2 ^ 51)) * sumsq (clipped (layer_bounds c n) x)).
Proof. exact projected_l2_output_executed. Qed.
Print Assumptions C20_projected_l2_output_executed_root.

(* satisfiable: column (1, 1) (sum of squares 2, not a square), input (3, 4), bias 5 *)
Example C20_projected_l2_example : exists r,
  lin_project_col qsqrt rt2_cfg [1; 1] = Some r /\ norm_eps <= qsqrt (sumsq [1; 1]) /\
  let out := lin_unit r 5 (layer_bounds rt2_cfg 2) [3; 4] in
  sumsq (clipped (layer_bounds rt2_cfg 2) [3; 4]) == 25 /\
  (out - 5) * (out - 5) <= (1 + (1 # 2 ^ 51)) * 25.
Proof. exact projected_l2_applies. Qed.

(* ======================================================================
   Dominance effects for BOUNDED inputs at weights level (Proofs/LinearEval.v,
   Proofs/LinearComposed.v), and the guard of the monotonic-dominance effect
   (Proofs/LinearDominanceGuards.v).
   ====================================================================== *)
From TFL Require Import Proofs.LinearDominanceGuards.

(* ANY weights with k_weak <= k_dom and 0 <= k_dom (what the monotonic-dominance
   constraint asks of an increasing pair), ANY bounds on both inputs: the effect
   clause holds wherever the DOMINANT input is unclipped at x_dom and x_dom + d
   (the weak input may be clipped).  Generalises C20_monotonic_dominance_effect
   (both inputs unbounded) and, for weights not produced by the projection,
   C20_projected_monotonic_dominance_effect. *)
Theorem C20_monotonic_dominance_effect_unclipped : forall k b bs x dom weak d,
  (dom < length k)%nat -> (weak < length k)%nat -> length bs = length k -> length x = length k ->
  0 <= d -> nth weak k 0 <= nth dom k 0 -> 0 <= nth dom k 0 ->
  unclipped (nth dom bs nob) (nth dom x 0) -> unclipped (nth dom bs nob) (nth dom x 0 + d) ->
  lin_unit k b bs (set_nth weak (nth weak x 0 + d) x) - lin_unit k b bs x <=
  lin_unit k b bs (set_nth dom (nth dom x 0 + d) x) - lin_unit k b bs x.
Proof. exact mdom_effect_unclipped. Qed.
Print Assumptions C20_monotonic_dominance_effect_unclipped.

(* what holds at EVERY point (dominant input inside, on or outside its bounds): the weak
   step moves the output by at most k_dom * d; the dominant step moves it by
   k_dom * (clip(x_dom + d) - clip(x_dom)), which lies between 0 and k_dom * d *)
Theorem C20_monotonic_dominance_effect_general : forall k b bs x dom weak d,
  (dom < length k)%nat -> (weak < length k)%nat -> length bs = length k -> length x = length k ->
  0 <= d -> nth weak k 0 <= nth dom k 0 -> 0 <= nth dom k 0 ->
  let cd v := clip_opt (fst (nth dom bs nob)) (snd (nth dom bs nob)) v in
  lin_unit k b bs (set_nth weak (nth weak x 0 + d) x) - lin_unit k b bs x <= nth dom k 0 * d /\
  lin_unit k b bs (set_nth dom (nth dom x 0 + d) x) - lin_unit k b bs x ==
    nth dom k 0 * (cd (nth dom x 0 + d) - cd (nth dom x 0)) /\
  0 <= lin_unit k b bs (set_nth dom (nth dom x 0 + d) x) - lin_unit k b bs x /\
  lin_unit k b bs (set_nth dom (nth dom x 0 + d) x) - lin_unit k b bs x <= nth dom k 0 * d.
Proof. exact mdom_effect_general. Qed.
Print Assumptions C20_monotonic_dominance_effect_general.

(* the guard `unclipped` is NECESSARY: the property's clause "changes at least as much
   along a dominant input as along its weak partner per unit step" is FALSE where the
   dominant input is saturated.  Witness (reproduced on the real layer):
   Linear(num_input_dims=2, monotonicities=[1, 1], monotonic_dominances=[(0, 1)],
   input_min=[0.0, None], input_max=[1.0, None], use_bias=False), kernel (1, 1) = its own
   projection, x = (1, 0), d = 1: dominant step 0, weak step 1. *)
Theorem C20_monotonic_dominance_effect_clipped_refuted :
  exists rt c n w r b x dom weak d,
    lin_valid c n /\ length w = n /\ lin_project_col rt c w = Some r /\ length x = n /\
    In (dom, weak) (lc_mdom c) /\ 0 <= d /\
    unclipped (nth dom (layer_bounds c n) nob) (nth dom x 0) /\
    ~ unclipped (nth dom (layer_bounds c n) nob) (nth dom x 0 + d) /\
    ~ (lin_unit r b (layer_bounds c n) (set_nth weak (nth weak x 0 + d) x) - lin_unit r b (layer_bounds c n) x <=
       lin_unit r b (layer_bounds c n) (set_nth dom (nth dom x 0 + d) x) - lin_unit r b (layer_bounds c n) x).
Proof. exact mdom_effect_clipped_refuted. Qed.
Print Assumptions C20_monotonic_dominance_effect_clipped_refuted.

(* range dominance at weights level, DECREASING orientation (C20_range_dominance_effect is
   the increasing one): (hd - ld) * k_dom <= (hw - lw) * k_weak, both typically <= 0 *)
Theorem C20_range_dominance_effect_decreasing : forall k b bs x dom weak ld hd lw hw,
  (dom < length k)%nat -> (weak < length k)%nat -> length bs = length k -> length x = length k ->
  nth dom bs nob = (Some ld, Some hd) -> nth weak bs nob = (Some lw, Some hw) ->
  ld <= hd -> lw <= hw ->
  (hd - ld) * nth dom k 0 <= (hw - lw) * nth weak k 0 ->
  lin_unit k b bs (set_nth weak lw x) - lin_unit k b bs (set_nth weak hw x) <=
  lin_unit k b bs (set_nth dom ld x) - lin_unit k b bs (set_nth dom hd x).
Proof. exact rdom_effect_decreasing. Qed.
Print Assumptions C20_range_dominance_effect_decreasing.

(* both orientations in absolute value *)
Theorem C20_range_dominance_effect_abs : forall k b bs x dom weak ld hd lw hw,
  (dom < length k)%nat -> (weak < length k)%nat -> length bs = length k -> length x = length k ->
  nth dom bs nob = (Some ld, Some hd) -> nth weak bs nob = (Some lw, Some hw) ->
  ld <= hd -> lw <= hw ->
  qabs (nth weak k 0) * (hw - lw) <= qabs (nth dom k 0) * (hd - ld) ->
  qabs (lin_unit k b bs (set_nth weak hw x) - lin_unit k b bs (set_nth weak lw x)) <=
  qabs (lin_unit k b bs (set_nth dom hd x) - lin_unit k b bs (set_nth dom ld x)).
Proof. exact rdom_effect_abs. Qed.
Print Assumptions C20_range_dominance_effect_abs.

(* satisfiable: kernel (2, 1), bounds [0, 4] and [0, 1], x = (1, 1/2), d = 1 (weak input clipped,
   dominant not): weak step 1/2, dominant step 2; decreasing pair (-2, -1) on [0, 1]^2: sweeps 1 and 2 *)
Example C20_monotonic_dominance_unclipped_example :
  let k := [2; 1] in let bs := [(Some 0, Some 4); (Some 0, Some 1)] in let x := [1; 1#2] in
  nth 1 k 0 <= nth 0 k 0 /\ 0 <= nth 0 k 0 /\
  unclipped (nth 0 bs nob) (nth 0 x 0) /\ unclipped (nth 0 bs nob) (nth 0 x 0 + 1) /\
  lin_unit k 0 bs (set_nth 1 (nth 1 x 0 + 1) x) - lin_unit k 0 bs x == 1#2 /\
  lin_unit k 0 bs (set_nth 0 (nth 0 x 0 + 1) x) - lin_unit k 0 bs x == 2.
Proof. exact mdom_unclipped_applies. Qed.
Example C20_range_dominance_decreasing_example :
  let k := [-(2); -(1)] in let bs := [(Some 0, Some 1); (Some 0, Some 1)] in
  (1 - 0) * nth 0 k 0 <= (1 - 0) * nth 1 k 0 /\
  qabs (nth 1 k 0) * (1 - 0) <= qabs (nth 0 k 0) * (1 - 0) /\
  lin_unit k 0 bs (set_nth 1 0 [0; 0]) - lin_unit k 0 bs (set_nth 1 1 [0; 0]) == 1 /\
  lin_unit k 0 bs (set_nth 0 0 [0; 0]) - lin_unit k 0 bs (set_nth 0 1 [0; 0]) == 2.
Proof. exact rdom_decreasing_applies. Qed.
