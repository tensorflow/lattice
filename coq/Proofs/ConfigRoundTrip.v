(* C11 — generic lemmas about the config round-trip interpreter of
   Model/ConfigModel.v.  Everything here is proved ONCE for every class
   description d; the per-class theorems of Props/C11.v instantiate d with the
   description the translator extracted from the source and discharge the
   decidable side condition (roundtrip_okb d = true etc.) by computation. *)
From Coq Require Import String List Bool.
From TFL Require Import Model.ConfigModel.
Import ListNotations.
Open Scope string_scope.
Open Scope list_scope.

(* every parameter that __init__ stores in the object, and every required
   parameter, is a key of get_config, and the entry reads the attribute the
   parameter was stored in *)
Definition keys_cover_init (d : class_desc) : Prop :=
  (forall s, In s (c_stores d) ->
     exists e, In e (c_emits d) /\ em_key e = ps_param s /\
               (em_src e = Attr (ps_attr s) \/ em_src e = Serialized (ps_attr s))) /\
  (forall p, In p (required_params d) -> In p (emit_keys d)).

(* every key get_config writes itself is accepted by __init__ *)
Definition keys_are_params (d : class_desc) : Prop :=
  forall k, In k (emit_keys d) ->
    In k (param_names d) \/ (c_var_kw d = true /\ In k (c_base_keys d)).

(* get_config never reads an attribute __init__ left unset *)
Definition reads_are_set (d : class_desc) : Prop :=
  forall e a, In e (c_emits d) -> (em_src e = Attr a \/ em_src e = Serialized a) ->
    exists s, In s (c_stores d) /\ ps_attr s = a /\
      (ps_cond s = None \/ exists c ca, ps_cond s = Some c /\ em_cond e = Some ca /\ cond_pairb d c ca = true).

Lemma mem_In : forall k l, mem k l = true <-> In k l.
Proof.
  unfold mem. intros k l. rewrite existsb_exists. split.
  - intros [x [Hin Heq]]. apply String.eqb_eq in Heq. subst. exact Hin.
  - intros H. exists k. split; [exact H | apply String.eqb_refl].
Qed.

Lemma mem_false_not_In : forall k l, mem k l = false -> ~ In k l.
Proof. intros k l H Hin. apply mem_In in Hin. congruence. Qed.

Lemma inclb_spec : forall a b, inclb a b = true -> forall x, In x a -> In x b.
Proof.
  unfold inclb. intros a b H x Hx. rewrite forallb_forall in H. apply mem_In. auto.
Qed.

Lemma find_emit_In : forall k es e, find_emit k es = Some e -> In e es /\ em_key e = k.
Proof.
  induction es as [|e0 r IH]; simpl; intros e H; [discriminate|].
  destruct (String.eqb k (em_key e0)) eqn:E.
  - inversion H; subst. apply String.eqb_eq in E. auto.
  - destruct (IH _ H). auto.
Qed.

Lemma find_emit_none : forall k es, mem k (map em_key es) = false -> find_emit k es = None.
Proof.
  induction es as [|e0 r IH]; simpl; intros H; [reflexivity|].
  apply orb_false_iff in H. destruct H as [H1 H2]. rewrite H1. auto.
Qed.

Lemma find_store_by_attr_In : forall a ss s, find_store_by_attr a ss = Some s -> In s ss /\ ps_attr s = a.
Proof.
  induction ss as [|s0 r IH]; simpl; intros s H; [discriminate|].
  destruct (String.eqb a (ps_attr s0)) eqn:E.
  - inversion H; subst. apply String.eqb_eq in E. auto.
  - destruct (IH _ H). auto.
Qed.

Lemma find_store_by_param_In : forall p ss s, find_store_by_param p ss = Some s -> In s ss /\ ps_param s = p.
Proof.
  induction ss as [|s0 r IH]; simpl; intros s H; [discriminate|].
  destruct (String.eqb p (ps_param s0)) eqn:E.
  - inversion H; subst. apply String.eqb_eq in E. auto.
  - destruct (IH _ H). auto.
Qed.

Lemma find_store_nodup : forall ss s, nodupb (map ps_attr ss) = true -> In s ss ->
  find_store_by_attr (ps_attr s) ss = Some s.
Proof.
  induction ss as [|s0 r IH]; simpl; intros s Hnd Hin; [contradiction|].
  apply andb_true_iff in Hnd. destruct Hnd as [Hn Hr].
  destruct Hin as [->|Hin].
  - rewrite String.eqb_refl. reflexivity.
  - destruct (String.eqb (ps_attr s) (ps_attr s0)) eqn:E.
    + apply String.eqb_eq in E. apply negb_true_iff in Hn. apply mem_false_not_In in Hn.
      exfalso. apply Hn. rewrite <- E. apply in_map. exact Hin.
    + auto.
Qed.

Lemma keys_cover_init_spec : forall d, keys_cover_initb d = true -> keys_cover_init d.
Proof.
  intros d H. unfold keys_cover_initb in H. apply andb_true_iff in H. destruct H as [H1 H2].
  split.
  - intros s Hs. rewrite forallb_forall in H1. specialize (H1 _ Hs). unfold store_coveredb in H1.
    destruct (find_emit (ps_param s) (c_emits d)) as [e|] eqn:E; [|discriminate].
    apply find_emit_In in E. destruct E as [Hin Hk]. exists e. split; [exact Hin|]. split; [exact Hk|].
    unfold reads in H1. destruct (em_src e); try discriminate; apply String.eqb_eq in H1; subst; auto.
  - apply inclb_spec. exact H2.
Qed.

Lemma keys_are_params_spec : forall d, keys_are_paramsb d = true -> keys_are_params d.
Proof.
  intros d H k Hk. unfold keys_are_paramsb in H. rewrite forallb_forall in H. specialize (H _ Hk).
  unfold key_acceptedb in H. apply orb_true_iff in H. destruct H as [H|H].
  - left. apply mem_In. exact H.
  - right. apply andb_true_iff in H. destruct H. split; [assumption| apply mem_In; assumption].
Qed.

(* an entry that reads attribute a takes the attribute branch of a case analysis on its source *)
Lemma src_reads_match {B} (f g : string -> B) (x : B) s a : s = Attr a \/ s = Serialized a ->
  match s with Attr a' | Serialized a' => f a' | BaseAttr k => g k | Other => x end = f a.
Proof. intros [->| ->]; reflexivity. Qed.

Lemma reads_are_set_spec : forall d, reads_are_setb d = true -> reads_are_set d.
Proof.
  intros d H e a He Hsrc. unfold reads_are_setb in H. rewrite forallb_forall in H. specialize (H _ He).
  unfold emit_reads_setb in H. apply andb_true_iff in H. destruct H as [H _].
  rewrite (src_reads_match _ _ _ _ a Hsrc) in H.
  destruct (find_store_by_attr a (c_stores d)) as [s|] eqn:E; [|discriminate].
  apply find_store_by_attr_In in E. destruct E as [Hin Ha]. exists s. split; [exact Hin|]. split; [exact Ha|].
  destruct (ps_cond s) as [c|]; [|left; reflexivity].
  right. destruct (em_cond e) as [ca|]; [|discriminate]. exists c, ca. auto.
Qed.

Lemma wrap_single_tuple_idem : forall v, wrap_single_tuple (wrap_single_tuple v) = wrap_single_tuple v.
Proof.
  intros v. destruct v; try reflexivity.
  destruct l as [|x1 l1]; [reflexivity|]. destruct x1; reflexivity.
Qed.
Lemma wrap_single_pair_idem : forall v, wrap_single_pair (wrap_single_pair v) = wrap_single_pair v.
Proof.
  intros v. destruct v; try reflexivity.
  destruct l as [|x1 l1]; [reflexivity|].
  destruct l1 as [|x2 l2]; [reflexivity|].
  destruct x2; try reflexivity; destruct l2; reflexivity.
Qed.
Lemma wrap_float_idem : forall v, wrap_float (wrap_float v) = wrap_float v.
Proof. intros v. destruct v; reflexivity. Qed.
Lemma wrap_list_idem : forall v, wrap_list (wrap_list v) = wrap_list v.
Proof. intros v. destruct v; reflexivity. Qed.

Lemma known_wrapper_idem : forall w f v, known_wrapper w = Some f -> f (f v) = f v.
Proof.
  unfold known_wrapper. intros w f v H.
  destruct (String.eqb w "single_tuple_to_list"); [inversion H; apply wrap_single_tuple_idem|].
  destruct (String.eqb w "single_pair_to_list"); [inversion H; apply wrap_single_pair_idem|].
  destruct (String.eqb w "float"); [inversion H; apply wrap_float_idem|].
  destruct (String.eqb w "list"); [inversion H; apply wrap_list_idem|].
  discriminate.
Qed.

Lemma assoc_app : forall (k : string) (a b : kwargs),
  assoc k (a ++ b) = match assoc k a with Some v => Some v | None => assoc k b end.
Proof.
  induction a as [|[k' v] r IH]; simpl; intros b; [reflexivity|].
  destruct (String.eqb k k'); auto.
Qed.

Lemma assoc_keymap : forall (f : string -> value) k ks,
  assoc k (map (fun k0 => (k0, f k0)) ks) = if mem k ks then Some (f k) else None.
Proof.
  induction ks as [|k0 r IH]; simpl; [reflexivity|].
  destruct (String.eqb k k0) eqn:E; simpl.
  - apply String.eqb_eq in E. subst. reflexivity.
  - exact IH.
Qed.

Lemma assoc_stores : forall (f : pstore -> value) a ss,
  assoc a (map (fun s => (ps_attr s, f s)) ss) = option_map f (find_store_by_attr a ss).
Proof.
  induction ss as [|s0 r IH]; simpl; [reflexivity|].
  destruct (String.eqb a (ps_attr s0)); simpl; auto.
Qed.

Lemma assoc_emits : forall (g : emit -> value) (on : emit -> bool) k es,
  nodupb (map em_key es) = true ->
  assoc k (map (fun e => (em_key e, g e)) (filter on es)) =
  match find_emit k es with
  | Some e => if on e then Some (g e) else None
  | None => None
  end.
Proof.
  induction es as [|e0 r IH]; simpl; intros Hnd; [reflexivity|].
  apply andb_true_iff in Hnd. destruct Hnd as [Hn Hr].
  destruct (String.eqb k (em_key e0)) eqn:E.
  - destruct (on e0) eqn:Eon; simpl.
    + rewrite E. reflexivity.
    + rewrite (IH Hr). apply String.eqb_eq in E. subst.
      apply negb_true_iff in Hn. rewrite (find_emit_none _ _ Hn). reflexivity.
  - destruct (on e0); simpl; [rewrite E|]; auto.
Qed.

Section RoundTrip.
Variable wrap_oracle : string -> value -> value.
Variable ser deser : value -> value.
(* canonicalisers are idempotent *)
Hypothesis H_idem : forall w v, wrap_oracle w (wrap_oracle w v) = wrap_oracle w v.
(* a keras `get` applied to the serialised form of what it returned gives the same object *)
Hypothesis H_get_ser : forall w v, wrap_oracle w (ser (wrap_oracle w v)) = wrap_oracle w v.
(* deserialize_keras_object inverts serialize_keras_object *)
Hypothesis H_deser_ser : forall v, deser (ser v) = v.

Notation wrap := (wrap wrap_oracle).
Notation apply_how := (apply_how wrap_oracle).
Notation store_val := (store_val wrap_oracle).
Notation init := (init wrap_oracle).
Notation get_config := (get_config ser).
Notation own_config := (own_config ser).
Notation emit_val := (emit_val ser).
Notation from_config := (from_config deser).
Notation rebuild := (rebuild wrap_oracle deser).

Lemma wrap_idem : forall w v, wrap w (wrap w v) = wrap w v.
Proof.
  intros w v. unfold ConfigModel.wrap. destruct (known_wrapper w) as [f|] eqn:E.
  - eapply known_wrapper_idem; eauto.
  - apply H_idem.
Qed.

Lemma assoc_from_config : forall d k c,
  assoc k (from_config d c) =
  if passes d k then (if mem k (c_deser d) then option_map deser (assoc k c) else assoc k c) else None.
Proof.
  intros d k. unfold ConfigModel.from_config.
  induction c as [|[k' v] r IH]; simpl.
  - destruct (passes d k); [destruct (mem k (c_deser d))|]; reflexivity.
  - destruct (String.eqb k k') eqn:E.
    + apply String.eqb_eq in E. subst k'.
      destruct (passes d k) eqn:Ep; simpl.
      * destruct (mem k (c_deser d)); simpl; rewrite String.eqb_refl; reflexivity.
      * rewrite IH. reflexivity.
    + destruct (passes d k') eqn:Ep'; simpl.
      * destruct (mem k' (c_deser d)); simpl; rewrite E; exact IH.
      * exact IH.
Qed.

Section OneClass.
Variable d : class_desc.
Hypothesis Hok : roundtrip_okb d = true.
Variable kw : kwargs.
(* a parameter that is always stored but reported only under a condition must
   either be reported (condition true) or have been left at its default *)
Hypothesis Hvis : forall p c, In (p, c) (hidden_pairs d) ->
  truthy (arg d kw c) = true \/ assoc p kw = None.

Let kw' := from_config d (get_config d (init d kw)).

Lemma ok_parts :
  nodupb (emit_keys d) = true /\ nodupb (map ps_attr (c_stores d)) = true /\ nodupb (c_base_keys d) = true /\
  (forall s, In s (c_stores d) -> store_rt_okb d s = true) /\
  (forall k, In k (c_base_keys d) -> base_rt_okb d k = true).
Proof.
  pose proof Hok as H. unfold roundtrip_okb in H. rewrite !andb_true_iff, !forallb_forall in H. tauto.
Qed.

Lemma attr_init_any : forall kw0 s, In s (c_stores d) ->
  attr_val (init d kw0) (ps_attr s) = store_val d kw0 s.
Proof.
  intros kw0 s Hs. destruct ok_parts as (_ & Hnd & _).
  unfold attr_val, ConfigModel.init. simpl. rewrite assoc_stores.
  rewrite (find_store_nodup _ _ Hnd Hs). reflexivity.
Qed.

Lemma store_val_uncond : forall kw0 s, ps_cond s = None ->
  store_val d kw0 s = apply_how (ps_how s) (arg d kw0 (ps_param s)).
Proof. intros kw0 s Hc. unfold ConfigModel.store_val. rewrite Hc. reflexivity. Qed.

(* cond_pairb c ca: parameter c is stored as it is, always, in attribute ca, and always reported *)
Lemma cond_pair_store : forall c ca, cond_pairb d c ca = true ->
  exists sc e, In sc (c_stores d) /\ ps_param sc = c /\ ps_attr sc = ca /\ ps_how sc = Direct /\ ps_cond sc = None /\
               find_emit c (c_emits d) = Some e /\ em_cond e = None.
Proof.
  intros c ca H. unfold cond_pairb in H. apply andb_true_iff in H. destruct H as [H Hem].
  destruct (find_store_by_param c (c_stores d)) as [sc|] eqn:E; [|discriminate].
  apply find_store_by_param_In in E. destruct E as [Hin Hp].
  apply andb_true_iff in H. destruct H as [Ha Hh]. apply String.eqb_eq in Ha.
  destruct (ps_how sc) eqn:Eh; [|discriminate]. destruct (ps_cond sc) eqn:Ec; [discriminate|].
  destruct (find_emit c (c_emits d)) as [e|]; [|discriminate]. destruct (em_cond e) eqn:Eec; [discriminate|].
  exists sc, e. auto 10.
Qed.

Lemma attr_of_cond_any : forall kw0 c ca, cond_pairb d c ca = true ->
  attr_val (init d kw0) ca = arg d kw0 c.
Proof.
  intros kw0 c ca H. destruct (cond_pair_store c ca H) as (sc & _ & Hin & <- & <- & Eh & Ec & _).
  rewrite (attr_init_any kw0 _ Hin), (store_val_uncond kw0 sc Ec), Eh. reflexivity.
Qed.

(* an entry written under `if self.ca` is written iff the parameter behind ca is true *)
Lemma emit_on_cond : forall kw0 e c ca, em_cond e = Some ca -> cond_pairb d c ca = true ->
  emit_on (init d kw0) e = truthy (arg d kw0 c).
Proof. intros kw0 e c ca Ec H. unfold emit_on. rewrite Ec, (attr_of_cond_any kw0 c ca H). reflexivity. Qed.

Lemma assoc_own_config : forall k,
  assoc k (own_config d (init d kw)) =
  match find_emit k (c_emits d) with
  | Some e => if emit_on (init d kw) e then Some (emit_val (init d kw) e) else None
  | None => None
  end.
Proof.
  intros k. destruct ok_parts as (Hnd & _). unfold ConfigModel.own_config.
  apply assoc_emits. exact Hnd.
Qed.

Lemma assoc_base_init : forall k,
  assoc k (snd (init d kw)) = if mem k (c_base_keys d) then Some (argb kw k) else None.
Proof. intros k. unfold ConfigModel.init. simpl. apply assoc_keymap. Qed.

(* a key that is not a Keras base key is read from the class's own entries *)
Lemma assoc_get_config_own : forall k, mem k (c_base_keys d) = false ->
  assoc k (get_config d (init d kw)) = assoc k (own_config d (init d kw)).
Proof.
  intros k Hk. unfold ConfigModel.get_config. destruct (c_base d).
  - reflexivity.
  - rewrite assoc_app, assoc_base_init, Hk. reflexivity.
  - rewrite assoc_app, assoc_base_init, Hk. destruct (assoc k (own_config d (init d kw))); reflexivity.
Qed.

(* what the call cls( **kw' ) binds to the parameter of store s: the entry e of s when it is written,
   else the default *)
Lemma arg_rt_entry : forall s e, In s (c_stores d) -> find_emit (ps_param s) (c_emits d) = Some e ->
  arg d kw' (ps_param s) =
  if emit_on (init d kw) e
  then (if mem (ps_param s) (c_deser d) then deser (emit_val (init d kw) e) else emit_val (init d kw) e)
  else match default_of d (ps_param s) with Some v => v | None => VUnset end.
Proof.
  intros s e Hs Ee. destruct ok_parts as (_ & _ & _ & Hst & _).
  specialize (Hst _ Hs). unfold store_rt_okb in Hst. rewrite Ee in Hst.
  apply andb_true_iff in Hst. destruct Hst as [Hst _].
  apply andb_true_iff in Hst. destruct Hst as [Hpass Hnb]. apply negb_true_iff in Hnb.
  unfold arg, kw'. rewrite assoc_from_config, Hpass, (assoc_get_config_own _ Hnb), assoc_own_config, Ee.
  destruct (emit_on (init d kw) e), (mem (ps_param s) (c_deser d)); reflexivity.
Qed.

Lemma arg_rt_emitted : forall s e, In s (c_stores d) ->
  find_emit (ps_param s) (c_emits d) = Some e ->
  emit_on (init d kw) e = true ->
  store_val d kw s = apply_how (ps_how s) (arg d kw (ps_param s)) ->
  apply_how (ps_how s) (arg d kw' (ps_param s)) = store_val d kw s /\
  (ps_how s = Direct -> arg d kw' (ps_param s) = arg d kw (ps_param s)).
Proof.
  intros s e Hs Ee Hon Hsv. rewrite (arg_rt_entry s e Hs Ee), Hon. destruct ok_parts as (_ & _ & _ & Hst & _).
  specialize (Hst _ Hs). unfold store_rt_okb in Hst. rewrite Ee in Hst.
  apply andb_true_iff in Hst. destruct Hst as [_ He]. apply andb_true_iff in He. destruct He as [Hsrc _].
  unfold ConfigModel.emit_val.
  destruct (em_src e) as [a|a|k|] eqn:Esrc; try discriminate.
  - (* Attr *)
    destruct (mem (ps_param s) (c_deser d)); [destruct (ps_how s); discriminate|].
    assert (a = ps_attr s) by (destruct (ps_how s); apply String.eqb_eq in Hsrc; exact Hsrc). subst a.
    rewrite (attr_init_any kw _ Hs), Hsv.
    destruct (ps_how s) as [|w]; simpl; split; auto; try discriminate.
    apply wrap_idem.
  - (* Serialized *)
    destruct (ps_how s) as [|w] eqn:Eh.
    + destruct (mem (ps_param s) (c_deser d)); [|discriminate].
      apply String.eqb_eq in Hsrc. subst a.
      rewrite (attr_init_any kw _ Hs), Hsv. simpl. rewrite H_deser_ser. auto.
    + destruct (mem (ps_param s) (c_deser d)); [discriminate|].
      apply andb_true_iff in Hsrc. destruct Hsrc as [Ha Hkn]. apply String.eqb_eq in Ha. subst a.
      rewrite (attr_init_any kw _ Hs), Hsv. simpl. split; [|discriminate].
      unfold ConfigModel.wrap. destruct (known_wrapper w); [discriminate|]. apply H_get_ser.
Qed.

Lemma arg_rt_omitted : forall s e, In s (c_stores d) ->
  find_emit (ps_param s) (c_emits d) = Some e ->
  emit_on (init d kw) e = false ->
  arg d kw' (ps_param s) = match default_of d (ps_param s) with Some v => v | None => VUnset end.
Proof. intros s e Hs Ee Hon. rewrite (arg_rt_entry s e Hs Ee), Hon. reflexivity. Qed.

(* the parameter c behind a condition attribute ca round-trips *)
Lemma cond_param_rt : forall c ca, cond_pairb d c ca = true ->
  arg d kw' c = arg d kw c /\ attr_val (init d kw) ca = arg d kw c.
Proof.
  intros c ca H. split; [|apply attr_of_cond_any, H].
  destruct (cond_pair_store c ca H) as (sc & e & Hin & <- & _ & Eh & Ec & Ee & Eec).
  apply (arg_rt_emitted sc e Hin Ee); [unfold emit_on; rewrite Eec; reflexivity|apply store_val_uncond, Ec|exact Eh].
Qed.

Lemma hidden_pair_In : forall s e ca c, In s (c_stores d) -> ps_cond s = None ->
  find_emit (ps_param s) (c_emits d) = Some e -> em_cond e = Some ca -> cond_param_of d ca = Some c ->
  In (ps_param s, c) (hidden_pairs d).
Proof.
  intros s e ca c Hs Hc Ee Eec Ecp. unfold hidden_pairs. apply in_flat_map. exists s. split; [exact Hs|].
  rewrite Hc, Ee, Eec, Ecp. left. reflexivity.
Qed.

Lemma cond_param_of_pair : forall ca c, cond_param_of d ca = Some c -> cond_pairb d c ca = true.
Proof.
  unfold cond_param_of. intros ca c H.
  destruct (find_store_by_attr ca (c_stores d)) as [sc|]; [|discriminate].
  destruct (cond_pairb d (ps_param sc) ca) eqn:E; [|discriminate]. inversion H; subst. exact E.
Qed.

(* visibility of ONE store: if it is always stored but reported only under
   `if self.ca`, then the condition holds or the argument was left out *)
Definition store_visible (s : pstore) : Prop :=
  forall e ca c, find_emit (ps_param s) (c_emits d) = Some e -> ps_cond s = None ->
    em_cond e = Some ca -> cond_param_of d ca = Some c ->
    truthy (arg d kw c) = true \/ assoc (ps_param s) kw = None.

Lemma store_rt_local : forall s, In s (c_stores d) -> store_visible s ->
  store_val d kw' s = store_val d kw s.
Proof.
  intros s Hs Hloc. destruct ok_parts as (_ & _ & _ & Hst & _).
  specialize (Hst _ Hs). unfold store_rt_okb in Hst.
  apply andb_true_iff in Hst. destruct Hst as [_ He].
  destruct (find_emit (ps_param s) (c_emits d)) as [e|] eqn:Ee; [|discriminate].
  apply andb_true_iff in He. destruct He as [_ Hcond].
  destruct (ps_cond s) as [c|] eqn:Hc; destruct (em_cond e) as [ca|] eqn:Eec; try discriminate.
  - (* stored under `if c`, written under `if self.ca` *)
    unfold ConfigModel.store_val at 1. rewrite Hc, (proj1 (cond_param_rt _ _ Hcond)).
    destruct (truthy (arg d kw c)) eqn:Et.
    + apply (arg_rt_emitted s e Hs Ee).
      * rewrite (emit_on_cond kw e c ca Eec Hcond). exact Et.
      * unfold ConfigModel.store_val. rewrite Hc, Et. reflexivity.
    + unfold ConfigModel.store_val. rewrite Hc, Et. reflexivity.
  - (* stored always, written under `if self.ca` *)
    destruct (cond_param_of d ca) as [c|] eqn:Ecp; [|discriminate].
    pose proof (emit_on_cond kw e c ca Eec (cond_param_of_pair _ _ Ecp)) as Hon.
    rewrite (store_val_uncond kw' s Hc). destruct (truthy (arg d kw c)) eqn:Et.
    + apply (arg_rt_emitted s e Hs Ee Hon), store_val_uncond, Hc.
    + destruct (Hloc e ca c Ee Hc Eec Ecp) as [Ht|Hnone]; [congruence|].
      rewrite (store_val_uncond kw s Hc), (arg_rt_omitted s e Hs Ee Hon). unfold arg. rewrite Hnone. reflexivity.
  - (* stored always, written always *)
    rewrite (store_val_uncond kw' s Hc).
    apply (arg_rt_emitted s e Hs Ee); [unfold emit_on; rewrite Eec; reflexivity|apply store_val_uncond, Hc].
Qed.

Lemma store_rt : forall s, In s (c_stores d) -> store_val d kw' s = store_val d kw s.
Proof.
  intros s Hs. apply store_rt_local; [exact Hs|].
  intros e ca c Ee Hc Eec Ecp. apply Hvis. eapply hidden_pair_In; eauto.
Qed.

Lemma base_rt : forall k, In k (c_base_keys d) -> argb kw' k = argb kw k.
Proof.
  intros k Hk. destruct ok_parts as (_ & _ & _ & _ & Hb).
  specialize (Hb _ Hk). unfold base_rt_okb in Hb.
  apply andb_true_iff in Hb. destruct Hb as [Hb Hm].
  apply andb_true_iff in Hb. destruct Hb as [Hpass Hnd]. apply negb_true_iff in Hnd.
  assert (Hmem : mem k (c_base_keys d) = true) by (apply mem_In; exact Hk).
  unfold argb at 1. unfold kw'. rewrite assoc_from_config, Hpass, Hnd.
  unfold ConfigModel.get_config. destruct (c_base d) eqn:Eb.
  - rewrite assoc_own_config.
    destruct (find_emit k (c_emits d)) as [e|] eqn:Ee; [|discriminate].
    destruct (em_src e) as [a|a|k0|] eqn:Esrc; try discriminate.
    destruct (em_cond e) eqn:Ec; [discriminate|]. apply String.eqb_eq in Hm. subst k0.
    unfold emit_on. rewrite Ec. unfold ConfigModel.emit_val. rewrite Esrc.
    unfold base_val. rewrite assoc_base_init, Hmem. reflexivity.
  - rewrite assoc_app, assoc_base_init, Hmem. reflexivity.
  - rewrite assoc_app, assoc_own_config.
    apply negb_true_iff in Hm. unfold emit_keys in Hm. rewrite (find_emit_none _ _ Hm).
    rewrite assoc_base_init, Hmem. reflexivity.
Qed.

Theorem rebuild_get_config_init : rebuild d (get_config d (init d kw)) = init d kw.
Proof.
  unfold ConfigModel.rebuild. fold kw'. unfold ConfigModel.init. f_equal.
  - apply map_ext_in. intros s Hs. f_equal. apply store_rt. exact Hs.
  - apply map_ext_in. intros k Hk. f_equal. apply base_rt. exact Hk.
Qed.

(* the rebuilt object reports the same configuration *)
Corollary config_stable :
  get_config d (rebuild d (get_config d (init d kw))) = get_config d (init d kw).
Proof. rewrite rebuild_get_config_init. reflexivity. Qed.

Lemma base_state_rt : snd (init d kw') = snd (init d kw).
Proof.
  unfold ConfigModel.init. simpl. apply map_ext_in. intros k Hk. f_equal. apply base_rt. exact Hk.
Qed.

Hypothesis Hemits : emits_okb d = true.

Lemma emit_ok : forall e, In e (c_emits d) -> emit_okb d e = true.
Proof. apply forallb_forall, Hemits. Qed.

(* the rebuilt object writes an entry iff the original did: the condition is the value of a parameter
   that round-trips *)
Lemma emit_on_rt : forall e, In e (c_emits d) -> emit_on (init d kw') e = emit_on (init d kw) e.
Proof.
  intros e He. pose proof (emit_ok e He) as H. apply andb_true_iff in H. destruct H as [Hc _].
  destruct (em_cond e) as [ca|] eqn:Eec; [|unfold emit_on; rewrite Eec; reflexivity].
  destruct (cond_param_of d ca) as [c|] eqn:Ecp; [|discriminate].
  pose proof (cond_param_of_pair _ _ Ecp) as Hpair.
  rewrite !(emit_on_cond _ e c ca Eec Hpair), (proj1 (cond_param_rt _ _ Hpair)). reflexivity.
Qed.

(* an attribute read by a written entry is reproduced: if its store is reported only under `if self.ca0`,
   the entry is written under the same condition, which therefore holds *)
Lemma read_attr_rt : forall e a, In e (c_emits d) -> emit_on (init d kw) e = true ->
  em_src e = Attr a \/ em_src e = Serialized a -> attr_val (init d kw') a = attr_val (init d kw) a.
Proof.
  intros e a He Hon Hsrc. pose proof (emit_ok e He) as H. apply andb_true_iff in H. destruct H as [_ Hs].
  rewrite (src_reads_match _ _ _ _ a Hsrc) in Hs.
  destruct (find_store_by_attr a (c_stores d)) as [s|] eqn:Ef.
  - apply find_store_by_attr_In in Ef. destruct Ef as [Hin Ha]. subst a.
    rewrite (attr_init_any kw' _ Hin), (attr_init_any kw _ Hin).
    apply store_rt_local; [exact Hin|].
    intros e0 ca0 c0 Ee0 Hcs Eec0 Ecp0. left.
    rewrite Hcs, Ee0, Eec0 in Hs.
    destruct (em_cond e) as [ca|] eqn:Eec; [|discriminate]. apply String.eqb_eq in Hs. subst ca.
    rewrite (emit_on_cond kw e c0 ca0 Eec (cond_param_of_pair _ _ Ecp0)) in Hon. exact Hon.
  - unfold attr_val, ConfigModel.init. simpl. rewrite !assoc_stores, Ef. reflexivity.
Qed.

Lemma emit_rt : forall e, In e (c_emits d) ->
  emit_on (init d kw') e = emit_on (init d kw) e /\
  (emit_on (init d kw) e = true -> emit_val (init d kw') e = emit_val (init d kw) e).
Proof.
  intros e He. split; [apply emit_on_rt, He|]. intros Hon.
  unfold ConfigModel.emit_val. destruct (em_src e) as [a|a|k|] eqn:Esrc.
  - apply (read_attr_rt e a He Hon). left. exact Esrc.
  - f_equal. apply (read_attr_rt e a He Hon). right. exact Esrc.
  - unfold base_val. rewrite base_state_rt. reflexivity.
  - reflexivity.
Qed.

Lemma map_filter_ext : forall (g1 g2 : emit -> value) (on1 on2 : emit -> bool) (l : list emit),
  (forall e, In e l -> on1 e = on2 e /\ (on2 e = true -> g1 e = g2 e)) ->
  map (fun e => (em_key e, g1 e)) (filter on1 l) = map (fun e => (em_key e, g2 e)) (filter on2 l).
Proof.
  induction l as [|e r IH]; intros H; [reflexivity|]. simpl.
  destruct (H e (or_introl eq_refl)) as [Hon Hg]. rewrite Hon.
  assert (Hr : forall e0, In e0 r -> on1 e0 = on2 e0 /\ (on2 e0 = true -> g1 e0 = g2 e0)).
  { intros e0 H0. apply H. right. exact H0. }
  destruct (on2 e) eqn:E; simpl.
  - rewrite (Hg eq_refl), (IH Hr). reflexivity.
  - apply IH. exact Hr.
Qed.

(* the rebuilt object reports an equal config, WITHOUT the visibility guard *)
Theorem config_stable_strong :
  get_config d (rebuild d (get_config d (init d kw))) = get_config d (init d kw).
Proof.
  unfold ConfigModel.rebuild. fold kw'.
  assert (Hown : own_config d (init d kw') = own_config d (init d kw)).
  { unfold ConfigModel.own_config. apply map_filter_ext. intros e He. apply emit_rt. exact He. }
  unfold ConfigModel.get_config. rewrite Hown, base_state_rt. reflexivity.
Qed.
End OneClass.
End RoundTrip.

(* The oracle hypotheses are satisfiable (identity wrappers, identity
   serialisation), so the round-trip theorems are not vacuous. *)
Example oracle_hypotheses_satisfiable :
  let w := fun (_ : string) (v : value) => v in
  let s := fun v : value => v in
  (forall n v, w n (w n v) = w n v) /\ (forall n v, w n (s (w n v)) = w n v) /\ (forall v, s (s v) = v).
Proof. simpl. auto. Qed.

(* Closed forms used by the generated Props/C11.v. *)
Definition oracles_ok (wrap_oracle : string -> value -> value) (ser deser : value -> value) : Prop :=
  (forall w v, wrap_oracle w (wrap_oracle w v) = wrap_oracle w v) /\
  (forall w v, wrap_oracle w (ser (wrap_oracle w v)) = wrap_oracle w v) /\
  (forall v, deser (ser v) = v).

(* rebuilding from get_config() gives an object in the same state, for every
   constructor call cls( **kw ) *)
Definition roundtrip_for (d : class_desc) : Prop :=
  forall wrap_oracle ser deser, oracles_ok wrap_oracle ser deser ->
  forall kw : kwargs,
    rebuild wrap_oracle deser d (get_config ser d (init wrap_oracle d kw)) = init wrap_oracle d kw.

(* ... and the rebuilt object's get_config() is equal *)
Definition config_stable_for (d : class_desc) : Prop :=
  forall wrap_oracle ser deser, oracles_ok wrap_oracle ser deser ->
  forall kw : kwargs,
    get_config ser d (rebuild wrap_oracle deser d (get_config ser d (init wrap_oracle d kw))) =
    get_config ser d (init wrap_oracle d kw).

Theorem roundtrip_generic : forall d, roundtrip_okb d = true -> hidden_pairs d = [] -> roundtrip_for d.
Proof.
  intros d Hok Hh wo ser deser (H1 & H2 & H3) kw.
  apply rebuild_get_config_init; try assumption. rewrite Hh. intros p c [].
Qed.

Theorem config_stable_generic : forall d, roundtrip_okb d = true -> hidden_pairs d = [] -> config_stable_for d.
Proof.
  intros d Hok Hh wo ser deser (H1 & H2 & H3) kw.
  apply config_stable; try assumption. rewrite Hh. intros p c [].
Qed.

(* Guarded forms for a class that stores a parameter p always but reports it
   only under `if self.<c>:` (Linear: bias_regularizer / use_bias): the state is
   reproduced whenever c is true or p was left at its default. *)
Definition visible_args (d : class_desc) (kw : kwargs) : Prop :=
  forall p c, In (p, c) (hidden_pairs d) -> truthy (arg d kw c) = true \/ assoc p kw = None.
Definition roundtrip_guarded_for (d : class_desc) : Prop :=
  forall wrap_oracle ser deser, oracles_ok wrap_oracle ser deser ->
  forall kw : kwargs, visible_args d kw ->
    rebuild wrap_oracle deser d (get_config ser d (init wrap_oracle d kw)) = init wrap_oracle d kw.
Definition config_stable_guarded_for (d : class_desc) : Prop :=
  forall wrap_oracle ser deser, oracles_ok wrap_oracle ser deser ->
  forall kw : kwargs, visible_args d kw ->
    get_config ser d (rebuild wrap_oracle deser d (get_config ser d (init wrap_oracle d kw))) =
    get_config ser d (init wrap_oracle d kw).

Theorem roundtrip_guarded_generic : forall d, roundtrip_okb d = true -> roundtrip_guarded_for d.
Proof.
  intros d Hok wo ser deser (H1 & H2 & H3) kw Hv.
  apply rebuild_get_config_init; assumption.
Qed.
Theorem config_stable_guarded_generic : forall d, roundtrip_okb d = true -> config_stable_guarded_for d.
Proof.
  intros d Hok wo ser deser (H1 & H2 & H3) kw Hv.
  apply config_stable; assumption.
Qed.

(* The rebuilt object reports an equal config for EVERY constructor call (no
   visibility guard): what get_config hides, it hides on both sides. *)
Theorem config_stable_unguarded_generic : forall d,
  roundtrip_okb d = true -> emits_okb d = true -> config_stable_for d.
Proof.
  intros d Hok He wo ser deser (H1 & H2 & H3) kw.
  apply config_stable_strong; assumption.
Qed.

(* Known finding D23 (open): the four premade model classes take a `dtype`
   constructor argument that is stored nowhere; the guard names exactly that. *)
Definition d23_premade_dtype (d : class_desc) (p : string) : bool :=
  String.eqb (c_module d) "premade" && String.eqb (c_kind d) "model" && String.eqb p "dtype".
Definition no_dropped_params (d : class_desc) : Prop :=
  forall p, In p (c_dropped d) -> d23_premade_dtype d p = true.
Definition no_dropped_paramsb (d : class_desc) : bool := forallb (d23_premade_dtype d) (c_dropped d).
Lemma no_dropped_params_spec : forall d, no_dropped_paramsb d = true -> no_dropped_params d.
Proof. intros d H p Hp. unfold no_dropped_paramsb in H. rewrite forallb_forall in H. auto. Qed.

(* custom-object registry *)
Definition needs_registry (d : class_desc) : bool :=
  String.eqb (c_kind d) "layer" || String.eqb (c_kind d) "model" || String.eqb (c_kind d) "config".
Definition registry_covers_layers (reg : list (string * string)) (cs : list class_desc) : Prop :=
  forall d, In d cs -> needs_registry d = true -> registered reg d = true.
Lemma registry_covers_layers_spec : forall reg cs,
  forallb (fun d => negb (needs_registry d) || registered reg d) cs = true -> registry_covers_layers reg cs.
Proof.
  intros reg cs H d Hd Hn. rewrite forallb_forall in H. specialize (H _ Hd). rewrite Hn in H. exact H.
Qed.

Definition pwl_scoped (d : class_desc) : bool :=
  String.eqb (c_module d) "pwl_calibration_layer" &&
  (String.eqb (c_kind d) "regularizer" || String.eqb (c_kind d) "initializer").
Definition registry_covers_but_pwl (reg : list (string * string)) (cs : list class_desc) : Prop :=
  forall d, In d cs -> registered reg d = true \/ pwl_scoped d = true.
Lemma registry_covers_but_pwl_spec : forall reg cs,
  forallb (fun d => registered reg d || pwl_scoped d) cs = true -> registry_covers_but_pwl reg cs.
Proof.
  intros reg cs H d Hd. rewrite forallb_forall in H. specialize (H _ Hd). apply orb_true_iff in H. exact H.
Qed.

(* Attributes that hold a constructor argument verbatim and survive the round
   trip: used for the inputs of the seed-derived structures (RTL layer, random
   ensembles), whose construction is a FUNCTION of these values (C17 model:
   rtl_structure cfg sh1 sh2 with the shuffles determined by random_seed), so
   equal values give equal structure. *)
Definition attrs_survive (d : class_desc) (attrs : list string) : Prop :=
  forall wrap_oracle ser deser, oracles_ok wrap_oracle ser deser ->
  forall (kw : kwargs) (a : string), In a attrs ->
    attr_val (init wrap_oracle d kw) a = arg d kw a /\
    attr_val (rebuild wrap_oracle deser d (get_config ser d (init wrap_oracle d kw))) a = arg d kw a.

Definition direct_attrb (d : class_desc) (a : string) : bool :=
  match find_store_by_attr a (c_stores d) with
  | Some s => String.eqb (ps_param s) a &&
              match ps_how s, ps_cond s with Direct, None => true | _, _ => false end
  | None => false
  end.

Theorem attrs_survive_generic : forall d attrs,
  roundtrip_okb d = true -> hidden_pairs d = [] -> forallb (direct_attrb d) attrs = true ->
  attrs_survive d attrs.
Proof.
  intros d attrs Hok Hh Hd wo ser deser Hor kw a Ha.
  rewrite forallb_forall in Hd. specialize (Hd _ Ha). unfold direct_attrb in Hd.
  assert (H1 : attr_val (init wo d kw) a = arg d kw a).
  { unfold attr_val, init. simpl. rewrite assoc_stores.
    destruct (find_store_by_attr a (c_stores d)) as [s|]; [|discriminate].
    apply andb_true_iff in Hd. destruct Hd as [Hp Hd]. apply String.eqb_eq in Hp.
    simpl. unfold store_val. destruct (ps_how s); [|discriminate Hd]. destruct (ps_cond s); [discriminate Hd|].
    simpl. rewrite Hp. reflexivity. }
  split; [exact H1|].
  rewrite (roundtrip_generic d Hok Hh wo ser deser Hor kw). exact H1.
Qed.
