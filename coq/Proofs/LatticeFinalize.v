(* Assembly of the C01 theorems about finalize / the strict Lattice constraint
   from the per-pass lemmas (LatticeMono, LatticeEdgeworth, LatticeTrapezoid,
   LatticeBounds). *)
From TFL Require Import Proofs.LatticeSpecFacts Proofs.LatticeMono Proofs.LatticeBounds
                        Proofs.LatticeEdgeworth Proofs.LatticeTrapezoid.
Open Scope Q_scope.

Section Assembly.
Variable c : lat_cfg.
Hypothesis Hc : cfg_valid c.
Let sh := l_shape c.
Let ud := l_ud c.
Let units := l_units c.
Let md := mono_dims (l_monos c).

Definition AM (W : tens) := approx_mono sh md W.
Definition AE (W : tens) := approx_edgeworth sh ud units (l_edge c) W.
Definition AT (W : tens) := approx_trapezoid sh ud units (l_trap c) (l_edge c) W.
Definition AB (W : tens) := approx_bounds sh ud units (l_min c) (l_max c) W.
Definition CB (W : tens) := clip_bounds sh (l_min c) (l_max c) W.

(* the three shapes finalize can take *)
Lemma finalize_cases W :
  (md = [] /\ finalize c W = W) \/
  (md <> [] /\ l_edge c = [] /\ l_trap c = [] /\ finalize c W = AM W) \/
  (md <> [] /\ (l_edge c <> [] \/ l_trap c <> []) /\ finalize c W = AB (AT (AE (AM W)))).
Proof.
  unfold finalize, AM, AE, AT, AB, md, sh, ud, units.
  destruct (mono_dims (l_monos c)) as [|d ds] eqn:E.
  - left. split; reflexivity.
  - right. destruct (l_edge c) as [|e es] eqn:Ee; destruct (l_trap c) as [|t ts] eqn:Et.
    + left. repeat split; congruence.
    + right. split; [congruence|]. split; [right; congruence|reflexivity].
    + right. split; [congruence|]. split; [left; congruence|reflexivity].
    + right. split; [congruence|]. split; [left; congruence|reflexivity].
Qed.

(* a configured trust forces a monotone dimension *)
Lemma trust_gives_mono t : In t (all_trusts c) -> md <> [].
Proof.
  intros Ht Hmd. destruct Hc as (_ & _ & Hlen & _ & Htr & _).
  destruct t as [[m cd] dir]. destruct (Htr _ Ht) as (Hm & _ & Hmono & _).
  assert (In m (mono_dims (l_monos c))).
  { apply mono_dims_spec. split. rewrite Hlen; exact Hm. rewrite Hmono. discriminate. }
  fold md in H. rewrite Hmd in H. destruct H.
Qed.

(* finalize, applied to ANY kernel: monotone along every monotone dimension that the
   scalar-mode trapezoid pass cannot disturb (the condition on d is named
   outside_trapezoid_conditionals in LatticeMonoDims.v) *)
Theorem finalize_mono_along W d : In d md ->
  (l_edge c = [] \/ forall t, In t (l_trap c) -> snd (fst t) <> d) -> mono_along sh d (finalize c W).
Proof.
  intros Hd Hg. destruct (finalize_cases W) as [[Hmd E]|[(Hmd & He & Ht & E)|(Hmd & Htr & E)]]; rewrite E.
  - rewrite Hmd in Hd. destruct Hd.
  - apply approx_mono_monotone_kernel; [exact Hc|exact Hd].
  - apply approx_bounds_cfg_mono; [exact Hc|exact Hd|].
    apply approx_trapezoid_mono_dim; [exact Hc|exact Hd|exact Hg|].
    apply approx_edgeworth_mono; [exact Hc| |exact Hd].
    apply approx_mono_monotone_kernel; exact Hc.
Qed.

Theorem finalize_monotone W : ~ trap_mono_cond_with_edgeworth c -> monotone_kernel c (finalize c W).
Proof. intros Hg d Hd. apply finalize_mono_along; [exact Hd|apply T_not_d1; assumption]. Qed.

Theorem finalize_edgeworth W t : In t (l_edge c) -> edgeworth_holds sh t (finalize c W).
Proof.
  intros Ht. destruct (finalize_cases W) as [[Hmd E]|[(Hmd & He & _ & E)|(Hmd & Htr & E)]]; rewrite E.
  - exfalso. exact (trust_gives_mono t (edge_in_all c t Ht) Hmd).
  - rewrite He in Ht. destruct Ht.
  - apply approx_bounds_cfg_edgeworth; [exact Hc|apply edge_in_all; exact Ht|].
    apply approx_trapezoid_keeps_edgeworth; [exact Hc| |exact Ht].
    intros te Hte. apply approx_edgeworth_established; [exact Hc|exact Hte].
Qed.

Theorem finalize_trapezoid W t : ~ documented_exception c -> In t (l_trap c) -> trapezoid_holds sh t (finalize c W).
Proof.
  intros Hg Ht. destruct (finalize_cases W) as [[Hmd E]|[(Hmd & _ & He & E)|(Hmd & Htr & E)]]; rewrite E.
  - exfalso. exact (trust_gives_mono t (trap_in_all c t Ht) Hmd).
  - rewrite He in Ht. destruct Ht.
  - apply approx_bounds_cfg_trapezoid; [exact Hc|apply trap_in_all; exact Ht|].
    apply approx_trapezoid_established; [exact Hc|exact Hg|exact Ht].
Qed.

(* when a trust is configured finalize itself lands inside the bounds *)
Theorem finalize_bounds_with_trust W : (l_edge c <> [] \/ l_trap c <> []) ->
  lower_ok sh (l_min c) (finalize c W) /\ upper_ok sh (l_max c) (finalize c W).
Proof.
  intros Htr. destruct (finalize_cases W) as [[Hmd E]|[(Hmd & He & Ht & E)|(Hmd & _ & E)]]; rewrite E.
  - exfalso. destruct Htr as [H|H].
    + destruct (l_edge c) as [|t ts] eqn:Ee; [congruence|]. apply (trust_gives_mono t); [|exact Hmd].
      apply edge_in_all. rewrite Ee. left; reflexivity.
    + destruct (l_trap c) as [|t ts] eqn:Ee; [congruence|]. apply (trust_gives_mono t); [|exact Hmd].
      apply trap_in_all. rewrite Ee. left; reflexivity.
  - destruct Htr; congruence.
  - split; [apply approx_bounds_cfg_lower|apply approx_bounds_cfg_upper]; exact Hc.
Qed.

Theorem finalize_fixed W : monotone_kernel c W ->
  (forall t, In t (l_edge c) -> edgeworth_holds sh t W) ->
  (forall t, In t (l_trap c) -> trapezoid_holds sh t W) ->
  lower_ok sh (l_min c) W -> upper_ok sh (l_max c) W ->
  teq sh (finalize c W) W.
Proof.
  intros Hm He Ht Hlo Hhi.
  destruct (finalize_cases W) as [[Hmd E]|[(Hmd & _ & _ & E)|(Hmd & _ & E)]]; rewrite E.
  - apply teq_refl.
  - apply approx_mono_kernel_fixed; assumption.
  - unfold AB, AT, AE, AM.
    pose proof (approx_mono_kernel_fixed c W Hc Hm) as E1.
    pose proof (approx_edgeworth_fixed_gen c Hc W _ He E1) as E2.
    pose proof (fun t Hin => trapezoid_holds_teq sh t W _ (teq_sym _ _ _ E2) (Ht t Hin)) as Ht2.
    pose proof (teq_trans _ _ _ _ (approx_trapezoid_fixed c Hc _ Ht2) E2) as E3.
    eapply teq_trans; [|exact E3].
    apply (approx_bounds_cfg_fixed c Hc).
    + apply (lower_ok_teq sh _ W); [apply teq_sym; exact E3|exact Hlo].
    + apply (upper_ok_teq sh _ W); [apply teq_sym; exact E3|exact Hhi].
Qed.

(* The strict layer constraint after the Dykstra stage.
   [ran] = the projection block of LatticeConstraints.__call__ was entered; it
   is skipped only when no dimension is monotone or unimodal and no joint
   constraint is configured - in particular then no dimension is monotone. *)
Definition block_ok (ran : bool) : Prop := ran = true \/ md = [].

Definition LC (ran : bool) (Wd : tens) := lattice_constraint_after_dykstra c ran Wd.

Lemma LC_unfold ran Wd : LC ran Wd = CB (if ran then finalize c Wd else Wd).
Proof. reflexivity. Qed.

Theorem constraint_mono_along ran Wd d : block_ok ran -> In d md ->
  (l_edge c = [] \/ forall t, In t (l_trap c) -> snd (fst t) <> d) -> mono_along sh d (LC ran Wd).
Proof.
  intros Hb Hd Hg. rewrite LC_unfold. unfold CB. apply clip_bounds_mono.
  destruct ran.
  - apply finalize_mono_along; assumption.
  - destruct Hb as [H|H]; [discriminate|]. rewrite H in Hd. destruct Hd.
Qed.

Theorem constraint_monotone ran Wd : block_ok ran -> ~ trap_mono_cond_with_edgeworth c -> monotone_kernel c (LC ran Wd).
Proof. intros Hb Hg d Hd. apply constraint_mono_along; [exact Hb|exact Hd|apply T_not_d1; assumption]. Qed.

Lemma block_ok_trust ran t : block_ok ran -> In t (all_trusts c) -> ran = true.
Proof. intros [H|H] Ht; [exact H|]. exfalso. exact (trust_gives_mono t Ht H). Qed.

Lemma clip_of_finalize_with_trust Wd : (l_edge c <> [] \/ l_trap c <> []) -> teq sh (CB (finalize c Wd)) (finalize c Wd).
Proof. intros Htr. destruct (finalize_bounds_with_trust Wd Htr) as [Hl Hu]. apply clip_bounds_id; assumption. Qed.

Theorem constraint_edgeworth ran Wd t : block_ok ran -> In t (l_edge c) -> edgeworth_holds sh t (LC ran Wd).
Proof.
  intros Hb Ht. rewrite LC_unfold. rewrite (block_ok_trust ran t Hb (edge_in_all c t Ht)).
  apply (edgeworth_holds_teq sh t (finalize c Wd)).
  - apply teq_sym. apply clip_of_finalize_with_trust. left. intro E. rewrite E in Ht. destruct Ht.
  - apply finalize_edgeworth; exact Ht.
Qed.

Theorem constraint_trapezoid ran Wd t : block_ok ran -> ~ documented_exception c -> In t (l_trap c) ->
  trapezoid_holds sh t (LC ran Wd).
Proof.
  intros Hb Hg Ht. rewrite LC_unfold. rewrite (block_ok_trust ran t Hb (trap_in_all c t Ht)).
  apply (trapezoid_holds_teq sh t (finalize c Wd)).
  - apply teq_sym. apply clip_of_finalize_with_trust. right. intro E. rewrite E in Ht. destruct Ht.
  - apply finalize_trapezoid; assumption.
Qed.

Theorem constraint_bounds ran Wd : lower_ok sh (l_min c) (LC ran Wd) /\ upper_ok sh (l_max c) (LC ran Wd).
Proof. rewrite LC_unfold. unfold CB. apply (clip_bounds_cfg_in c Hc). Qed.

Theorem constraint_feasible_fixed ran W : feasible_kernel c W -> teq sh (LC ran W) W.
Proof.
  intros (Hm & He & Ht & Hlo & Hhi). rewrite LC_unfold. destruct ran.
  - pose proof (finalize_fixed W Hm He Ht Hlo Hhi) as E.
    eapply teq_trans; [|exact E].
    eapply teq_trans; [apply clip_bounds_teq; exact E|].
    eapply teq_trans; [apply clip_bounds_id; assumption|]. apply teq_sym; exact E.
  - apply clip_bounds_id; assumption.
Qed.
End Assembly.
