(* C09, Lattice part: units never interact.

   The Lattice models (Model/LatticeFinalize.v, Model/LatticeDykstra.v) work on
   the kernel as a tensor of shape  sizes ++ [units]  and perform explicit
   per-unit reductions ([unit_viols], [unit_vals]: maxima / minima over all axes
   but the last).  This file proves that the multi-unit result restricted to
   unit u is the single-unit model (units = 1) run on unit u's column alone.

   Method.  The relation
       sim A W  :=  forall x, uix x -> A x == W (lift x)
   ("A is column u of W"; lift x = x with the unit coordinate set to u) is
   preserved by every pass of the models when the left side runs with units = 1
   and the right side with the real unit count.  [sim] is stated on all indices
   of the right rank, not only on the valid ones: [memo] returns 0 at an
   out-of-range index on both sides, so no validity side conditions arise for
   the indices a pass reads. *)
From TFL Require Import Proofs.LatticeSpecFacts Proofs.LatticeMono Harness.H_C09.
Open Scope Q_scope.

Lemma memo_cases sh : forall f i, length i = length sh ->
  (valid sh i /\ memo sh f i = f i) \/ (~ valid sh i /\ memo sh f i = 0).
Proof. induction sh as [|s sh IH]; intros f i Hl.
  - destruct i; [|discriminate]. left. split; [constructor|reflexivity].
  - destruct i as [|k r]; [discriminate|]. cbn in Hl. cbn [memo].
    destruct (Nat.ltb_spec k s) as [Hk|Hk].
    + rewrite nth_indep with (d' := memo sh (fun i => f (0%nat :: i))) by (rewrite map_length, seq_length; lia).
      change (memo sh (fun i => f (0%nat :: i))) with ((fun k => memo sh (fun i => f (k :: i))) 0%nat).
      rewrite map_nth. rewrite seq_nth by lia. cbn [Nat.add].
      destruct (IH (fun i => f (k :: i)) r ltac:(lia)) as [[Hv E]|[Hv E]].
      * left. split; [constructor; assumption|exact E].
      * right. split; [|exact E]. intros H; inversion H; subst; auto.
    + right. split. intros H; inversion H; subst; lia.
      rewrite nth_overflow by (rewrite map_length, seq_length; lia). reflexivity. Qed.

Lemma if_qeq (b : bool) x x' y y' : x == x' -> y == y' -> (if b then x else y) == (if b then x' else y').
Proof. destruct b; auto. Qed.

Lemma fold_rel {S1 S2 T} (R : S1 -> S2 -> Prop) (F1 : S1 -> T -> S1) (F2 : S2 -> T -> S2) (l : list T) :
  (forall t a b, In t l -> R a b -> R (F1 a t) (F2 b t)) -> forall a b, R a b -> R (fold_left F1 l a) (fold_left F2 l b).
Proof. induction l as [|t l IH]; intros H a b HR; cbn [fold_left]. exact HR.
  apply IH. intros; apply H; [right|]; assumption. apply H; [left; reflexivity|exact HR]. Qed.
Lemma fold_rel2 {S1 S2 K1 K2} (RK : K1 -> K2 -> Prop) (R : S1 -> S2 -> Prop) {F1 : S1 -> K1 -> S1} {F2 : S2 -> K2 -> S2} {l1 l2} :
  Forall2 RK l1 l2 -> (forall k1 k2 a b, RK k1 k2 -> R a b -> R (F1 a k1) (F2 b k2)) ->
  forall a b, R a b -> R (fold_left F1 l1 a) (fold_left F2 l2 b).
Proof. intros HL H. induction HL as [|k1 k2 l1 l2 Hk _ IH]; intros a b HR; cbn [fold_left]. exact HR.
  apply IH. apply H; assumption. Qed.
Lemma Forall2_flat_map {T X Y} (R : X -> Y -> Prop) (F1 : T -> list X) (F2 : T -> list Y) l :
  (forall t, In t l -> Forall2 R (F1 t) (F2 t)) -> Forall2 R (flat_map F1 l) (flat_map F2 l).
Proof. induction l as [|t l IH]; intros H; cbn [flat_map]. constructor.
  apply Forall2_app. apply H; left; reflexivity. apply IH. intros; apply H; right; assumption. Qed.
Lemma find_ext {T} {f : T -> bool} g {l} : (forall e, f e = g e) -> find f l = find g l.
Proof. intros H. induction l as [|e l IH]; cbn [find]. reflexivity. rewrite H, IH. reflexivity. Qed.

Section Units.
Variable sizes : list nat.
Variable units : nat.
Variable u : nat.

Definition ud := length sizes.
Definition sh := sizes ++ [units].
Definition sh1 := sizes ++ [1%nat].
Definition lift (x : idx) : idx := upd x ud u.
Definition slice (W : tens) : tens := fun x => W (lift x).
(* indices of the kernel's rank whose unit coordinate is 0 *)
Definition uix (x : idx) : Prop := length x = S ud /\ nth ud x 0%nat = 0%nat.
Definition sim (A W : tens) : Prop := forall x, uix x -> A x == W (lift x).

Lemma sh_length : length sh = S ud. Proof. unfold sh, ud. rewrite app_length. cbn. lia. Qed.
Lemma sh1_length : length sh1 = S ud. Proof. unfold sh1, ud. rewrite app_length. cbn. lia. Qed.
Lemma sh_nth_ud : nth ud sh 0%nat = units. Proof. apply unit_axis_nth. Qed.
Lemma sh1_nth_ud : nth ud sh1 0%nat = 1%nat. Proof. apply unit_axis_nth. Qed.
Lemma sh_nth {d} : d <> ud -> nth d sh 0%nat = nth d sh1 0%nat.
Proof. intros Hd. unfold sh, sh1. destruct (Nat.ltb_spec d ud).
  - rewrite !app_nth1 by assumption. reflexivity.
  - rewrite !nth_overflow; [reflexivity| |]; rewrite app_length; cbn; unfold ud in *; lia. Qed.

Lemma uix_valid x : valid sh1 x -> uix x.
Proof. intros Hv. split. rewrite (valid_length _ _ Hv). apply sh1_length.
  pose proof (valid_nth sh1 x ud Hv ltac:(rewrite sh1_length; lia)). rewrite sh1_nth_ud in H. lia. Qed.
Lemma uix_upd {x d} k : uix x -> d <> ud -> uix (upd x d k).
Proof. intros [Hl H0] Hd. split. rewrite upd_length. exact Hl. rewrite nth_upd_other by exact Hd. exact H0. Qed.
Lemma uix_at2 {x m c i j} : uix x -> m <> ud -> c <> ud -> uix (at2 x m c i j).
Proof. intros H Hm Hc. unfold at2. apply uix_upd; [apply uix_upd|]; assumption. Qed.
Lemma uix_upd0 x : length x = S ud -> uix (upd x ud 0%nat).
Proof. intros Hl. split. rewrite upd_length. exact Hl. apply nth_upd_same. lia. Qed.

Lemma lift_nth x {d} : d <> ud -> nth d (lift x) 0%nat = nth d x 0%nat.
Proof. intros Hd. unfold lift. apply nth_upd_other. auto. Qed.
Lemma lift_nth_ud x : uix x -> nth ud (lift x) 0%nat = u.
Proof. intros [Hl _]. unfold lift. apply nth_upd_same. lia. Qed.
Lemma lift_upd x {d} k : d <> ud -> upd (lift x) d k = lift (upd x d k).
Proof. intros Hd. unfold lift. apply upd_comm. auto. Qed.
Lemma lift_at2 x m c i j : m <> ud -> c <> ud -> at2 (lift x) m c i j = lift (at2 x m c i j).
Proof. intros Hm Hc. unfold at2. rewrite !lift_upd by assumption. reflexivity. Qed.
Lemma lift_upd0 x : lift (upd x ud 0%nat) = upd x ud u.
Proof. unfold lift. apply upd_upd. Qed.
Lemma lift_length x : length (lift x) = length x.
Proof. apply upd_length. Qed.

Lemma set_coords_lift {dims} : (forall d, In d dims -> d <> ud) -> forall vals x,
  set_coords (lift x) dims vals = lift (set_coords x dims vals).
Proof. induction dims as [|d dims IH]; intros H vals x; destruct vals as [|v vals]; cbn [set_coords]; try reflexivity.
  rewrite lift_upd by (apply H; left; reflexivity). apply IH. intros; apply H; right; assumption. Qed.
Lemma set_coords_uix {dims} : (forall d, In d dims -> d <> ud) -> forall vals x, uix x -> uix (set_coords x dims vals).
Proof. induction dims as [|d dims IH]; intros H vals x Hx; destruct vals as [|v vals]; cbn [set_coords]; try exact Hx.
  apply IH. intros; apply H; right; assumption. apply uix_upd. exact Hx. apply H; left; reflexivity. Qed.
Lemma coords_eqb_lift {dims} : (forall d, In d dims -> d <> ud) -> forall vals x,
  coords_eqb (lift x) dims vals = coords_eqb x dims vals.
Proof. induction dims as [|d dims IH]; intros H vals x; destruct vals as [|v vals]; cbn [coords_eqb]; try reflexivity.
  rewrite lift_nth by (apply H; left; reflexivity). f_equal. apply IH. intros; apply H; right; assumption. Qed.
Lemma dims_sizes {dims} : (forall d, In d dims -> d <> ud) ->
  map (fun d => nth d sh 0%nat) dims = map (fun d => nth d sh1 0%nat) dims.
Proof. intros H. apply map_ext_in. intros d Hd. apply sh_nth. apply H. exact Hd. Qed.

(* the index sets of the per-unit reductions do not depend on the unit count *)
Lemma upd_unit_axis (n k : nat) : upd (sizes ++ [n]) ud k = sizes ++ [k].
Proof. unfold ud. induction sizes as [|s l IH]; cbn. reflexivity. f_equal. exact IH. Qed.
Lemma behind1_eq : behind sh [ud] = behind sh1 [ud].
Proof. unfold behind, sh, sh1. cbn [fold_left]. rewrite !upd_unit_axis. reflexivity. Qed.
Lemma behind3_eq {m c} : m <> ud -> c <> ud -> behind sh [m; c; ud] = behind sh1 [m; c; ud].
Proof. intros Hm Hc. unfold behind. cbn [fold_left]. f_equal.
  rewrite (upd_comm (upd sh m 1%nat) c ud) by exact Hc. rewrite (upd_comm sh m ud) by exact Hm.
  rewrite (upd_comm (upd sh1 m 1%nat) c ud) by exact Hc. rewrite (upd_comm sh1 m ud) by exact Hm.
  unfold sh, sh1. rewrite !upd_unit_axis. reflexivity. Qed.
Lemma behind_len keep b : In b (behind sh1 keep) -> length b = S ud.
Proof. intros Hb. apply behind_iff in Hb. rewrite (proj1 Hb). apply sh1_length. Qed.

Lemma sim_slice W : sim (slice W) W.
Proof. intros x _. reflexivity. Qed.
Lemma sim_teq A W : sim A W -> teq sh1 A (slice W).
Proof. intros H x Hv. apply H. apply uix_valid. exact Hv. Qed.
Lemma sim_at_unit A W b : sim A W -> length b = S ud -> A (upd b ud 0%nat) == W (upd b ud u).
Proof. intros HS Hl. rewrite (HS _ (uix_upd0 b Hl)), lift_upd0. reflexivity. Qed.

Hypothesis Hu : (u < units)%nat.

Lemma valid_lift x : uix x -> (valid sh1 x <-> valid sh (lift x)).
Proof. intros [Hl H0]. rewrite !valid_iff, lift_length, sh_length, sh1_length. split; intros [_ H]; (split; [exact Hl|]); intros e He.
  - destruct (Nat.eq_dec e ud) as [->|Hne].
    + rewrite lift_nth_ud by (split; assumption). rewrite sh_nth_ud. exact Hu.
    + rewrite lift_nth, sh_nth by exact Hne. apply H; exact He.
  - destruct (Nat.eq_dec e ud) as [->|Hne].
    + rewrite H0, sh1_nth_ud. lia.
    + specialize (H e He). rewrite lift_nth, sh_nth in H by exact Hne. exact H. Qed.

(* the only way the passes build tensors *)
Lemma sim_memo f1 f : (forall x, valid sh1 x -> uix x -> f1 x == f (lift x)) -> sim (memo sh1 f1) (memo sh f).
Proof. intros H x Hx.
  destruct (memo_cases sh1 f1 x) as [[Hv ->]|[Hv ->]]. rewrite sh1_length; apply Hx.
  - rewrite memo_ok by (apply valid_lift; assumption). apply H; assumption.
  - destruct (memo_cases sh f (lift x)) as [[Hv' _]|[_ ->]]. rewrite lift_length, sh_length; apply Hx.
    + exfalso. apply Hv. apply valid_lift; assumption.
    + reflexivity. Qed.

Lemma sim_sub A W B V : sim A W -> sim B V ->
  sim (memo sh1 (fun x => Qred (A x - B x))) (memo sh (fun x => Qred (W x - V x))).
Proof. intros HA HB. apply sim_memo. intros x _ Hx. rewrite !Qred_correct, (HA x Hx), (HB x Hx). reflexivity. Qed.

Lemma sim_prefmax A W d : d <> ud -> sim A W -> forall k x, uix x ->
  prefmax A x d k == prefmax W (lift x) d k.
Proof. intros Hd HS. induction k as [|k IH]; intros x Hx; cbn [prefmax]; rewrite lift_upd by exact Hd.
  - apply HS. apply uix_upd; assumption.
  - rewrite (HS _ (uix_upd (S k) Hx Hd)), (IH x Hx). reflexivity. Qed.
Lemma sim_sufmin A W d : d <> ud -> sim A W -> forall n k x, uix x ->
  sufmin A x d k n == sufmin W (lift x) d k n.
Proof. intros Hd HS. induction n as [|n IH]; intros k x Hx; cbn [sufmin]; rewrite lift_upd by exact Hd.
  - apply HS. apply uix_upd; assumption.
  - rewrite (HS _ (uix_upd k Hx Hd)), (IH (S k) x Hx). reflexivity. Qed.

Lemma sim_cummax A W d : d <> ud -> sim A W -> sim (cummax sh1 d A) (cummax sh d W).
Proof. intros Hd HS. unfold cummax. apply sim_memo. intros x _ Hx.
  rewrite lift_nth by exact Hd. apply sim_prefmax; assumption. Qed.
Lemma sim_cummin A W d : d <> ud -> sim A W -> sim (cummin sh1 d A) (cummin sh d W).
Proof. intros Hd HS. unfold cummin. apply sim_memo. intros x _ Hx.
  rewrite lift_nth, sh_nth by exact Hd. apply sim_sufmin; assumption. Qed.

Lemma sim_approx_mono monos A W : ~ In ud monos -> sim A W ->
  sim (approx_mono sh1 monos A) (approx_mono sh monos W).
Proof. intros Hn HS. unfold approx_mono.
  assert (Hd : forall d, In d monos -> d <> ud) by (intros d Hd ->; auto).
  apply (fold_rel sim). intros; apply sim_cummin; auto.
  apply sim_memo. intros x _ Hx. rewrite !Qred_correct.
  rewrite (HS x Hx).
  rewrite (fold_rel sim (fun acc d => cummax sh1 d acc) (fun acc d => cummax sh d acc) monos
             ltac:(intros; apply sim_cummax; auto) A W HS x Hx). reflexivity. Qed.

Lemma sim_unit_vals A W : sim A W -> qleq (unit_vals sh1 ud A 0) (unit_vals sh ud W u).
Proof. intros HS. unfold unit_vals. rewrite behind1_eq. apply qleq_map.
  intros b Hb. apply sim_at_unit. exact HS. exact (behind_len _ b Hb). Qed.

Lemma sim_approx_bounds omin omax A W : sim A W ->
  sim (approx_bounds sh1 ud 1 omin omax A) (approx_bounds sh ud units omin omax W).
Proof. intros HS. pose proof (qminl_qleq _ _ (sim_unit_vals A W HS)) as Emin. pose proof (qmaxl_qleq _ _ (sim_unit_vals A W HS)) as Emax.
  unfold approx_bounds. destruct omin as [lo|], omax as [hi|]; [| | |exact HS];
    apply sim_memo; intros x _ Hx; cbv zeta; rewrite (lift_nth_ud x Hx), (proj2 Hx);
    rewrite ?(nth_map_seq _ units u 0 Hu), ?(nth_map_seq _ 1%nat 0%nat 0 Nat.lt_0_1);
    rewrite !Qred_correct, (HS x Hx), ?Emin, ?Emax; reflexivity. Qed.

Lemma sim_clip_bounds omin omax A W : sim A W -> sim (clip_bounds sh1 omin omax A) (clip_bounds sh omin omax W).
Proof. intros HS. unfold clip_bounds. apply sim_memo. intros x _ Hx.
  unfold clip_hi, clip_lo. destruct omin, omax; rewrite (HS x Hx); reflexivity. Qed.

(* the per-unit violation lists: entry u of the multi-unit list is the single
   entry of the single-unit list *)
Definition lsim (l1 l : list Q) : Prop := length l1 = 1%nat /\ length l = units /\ nth 0 l1 0 == nth u l 0.

Lemma lsim_viols B g1 g : (forall b, In b B -> length b = S ud) -> sim g1 g ->
  lsim (unit_viols ud 1 B g1) (unit_viols ud units B g).
Proof. intros HB H. split; [|split]; try apply unit_viols_length.
  rewrite (unit_viols_nth ud units B g u Hu), (unit_viols_nth ud 1 B g1 0 Nat.lt_0_1).
  apply maxl0_qleq, qleq_map. intros b Hb. apply sim_at_unit; [exact H|exact (HB b Hb)]. Qed.
Lemma lsim_comb (se : bool) raw1 raw l1 l : lsim raw1 raw -> lsim l1 l ->
  lsim (if se then map2 qmax raw1 l1 else raw1) (if se then map2 qmax raw l else raw).
Proof. intros (A1 & A2 & A3) (B1 & B2 & B3). destruct se; [|repeat split; assumption].
  split; [|split]. rewrite map2_length; lia. rewrite map2_length; lia.
  rewrite (nth_map2 qmax raw1 l1 0%nat 0 0 0) by lia. rewrite (nth_map2 qmax raw l u 0 0 0) by lia.
  rewrite A3, B3. reflexivity. Qed.
Lemma lsim_zeros : lsim (map (fun _ => 0) (seq 0 1)) (map (fun _ => 0) (seq 0 units)).
Proof. split; [|split]. reflexivity. rewrite map_length, seq_length; reflexivity.
  rewrite (nth_map_seq _ units u 0 Hu). reflexivity. Qed.

Lemma sim_diff_at2 {A W m c i j i' j' y} : sim A W -> m <> ud -> c <> ud -> uix y ->
  A (at2 y m c i j) - A (at2 y m c i' j') == W (at2 (lift y) m c i j) - W (at2 (lift y) m c i' j').
Proof. intros HS Hm Hc Hy. rewrite !lift_at2 by assumption.
  rewrite !(HS _ (uix_at2 Hy Hm Hc)). reflexivity. Qed.
Lemma sim_esq {A W m c i j y} : sim A W -> m <> ud -> c <> ud -> uix y -> esq A m c i j y == esq W m c i j (lift y).
Proof. intros HS Hm Hc Hy. unfold esq. rewrite !(sim_diff_at2 HS Hm Hc Hy). reflexivity. Qed.

Definition op_sim (f1 f : tens -> tens) : Prop := forall A W, sim A W -> sim (f1 A) (f W).

(* The shape of every step of the Edgeworth and trapezoid passes: the entries
   of one (m, c)-slab are recomputed from the current kernel, the others kept. *)
Definition slab (s : list nat) (m c a b : nat) (F : tens -> idx -> Q) (T : tens) : tens :=
  memo s (fun x => if (nth m x 0 =? a)%nat && (nth c x 0 =? b)%nat then Qred (F T x) else T x).

Lemma sim_slab m c a b (F1 F : tens -> idx -> Q) A W : m <> ud -> c <> ud ->
  op_sim F1 F -> sim A W -> sim (slab sh1 m c a b F1 A) (slab sh m c a b F W).
Proof. intros Hm Hc HF HS. apply sim_memo. intros x _ Hx. rewrite !lift_nth by assumption.
  apply if_qeq; [rewrite !Qred_correct; apply HF|apply HS]; assumption. Qed.

(* ... by a per-unit amount read from a violation list *)
Lemma sim_slab_units (op : Q -> Q -> Q) m c a b t1 t A W : Proper (Qeq ==> Qeq ==> Qeq) op -> m <> ud -> c <> ud ->
  lsim t1 t -> sim A W ->
  sim (slab sh1 m c a b (fun T x => op (T x) (nth (nth ud x 0%nat) t1 0)) A)
      (slab sh m c a b (fun T x => op (T x) (nth (nth ud x 0%nat) t 0)) W).
Proof. intros Hop Hm Hc (_ & _ & Ht) HS. apply sim_slab; try assumption.
  intros T1 T H x Hx. rewrite (lift_nth_ud x Hx), (proj2 Hx), (H x Hx), Ht. reflexivity. Qed.

Lemma sim_edge_step_pos m c A W p : m <> ud -> c <> ud -> sim A W ->
  sim (edge_step_pos sh1 ud 1 (behind sh1 [m; c; ud]) m c A p) (edge_step_pos sh ud units (behind sh [m; c; ud]) m c W p).
Proof. intros Hm Hc HS. destruct p as [i j]. unfold edge_step_pos. rewrite (behind3_eq Hm Hc).
  apply (sim_slab_units Qplus); try assumption. exact Qplus_comp.
  apply lsim_viols. apply behind_len. intros y Hy. apply sim_esq; assumption. Qed.
Lemma sim_edge_step_neg m c A W p : m <> ud -> c <> ud -> sim A W ->
  sim (edge_step_neg sh1 ud 1 (behind sh1 [m; c; ud]) m c A p) (edge_step_neg sh ud units (behind sh [m; c; ud]) m c W p).
Proof. intros Hm Hc HS. destruct p as [i j]. unfold edge_step_neg. rewrite (behind3_eq Hm Hc).
  apply (sim_slab_units Qminus); try assumption. exact Qminus_comp.
  apply lsim_viols. apply behind_len. intros y Hy. rewrite (sim_esq HS Hm Hc Hy). reflexivity. Qed.

Definition trust_off_unit (t : trust) : Prop := fst (fst t) <> ud /\ snd (fst t) <> ud.

Lemma sim_edgeworth_one t A W : trust_off_unit t -> sim A W ->
  sim (edgeworth_one sh1 ud 1 A t) (edgeworth_one sh ud units W t).
Proof. destruct t as [[m c] dir]. intros [Hm Hc] HS. cbn in Hm, Hc. unfold edgeworth_one.
  rewrite (sh_nth Hm), (sh_nth Hc). destruct (0 <? dir)%Z; apply (fold_rel sim); auto; intros.
  apply sim_edge_step_pos; assumption. apply sim_edge_step_neg; assumption. Qed.
Lemma sim_approx_edgeworth ts A W : (forall t, In t ts -> trust_off_unit t) -> sim A W ->
  sim (approx_edgeworth sh1 ud 1 ts A) (approx_edgeworth sh ud units ts W).
Proof. intros Hts HS. unfold approx_edgeworth. apply (fold_rel sim); auto. intros. apply sim_edgeworth_one; auto. Qed.

Definition tsim (s1 s : trap_state) : Prop :=
  sim (ts_W s1) (ts_W s) /\ lsim (ts_l s1) (ts_l s) /\ lsim (ts_r s1) (ts_r s).

(* one side of a step with Edgeworth trusts present: the slab is moved by the
   per-unit violations, combined with those of the earlier steps *)
Lemma sim_trap_side (op : Q -> Q -> Q) (se : bool) {m c} a b {B} (G : tens -> idx -> Q) {l1 l A W} : Proper (Qeq ==> Qeq ==> Qeq) op ->
  m <> ud -> c <> ud -> (forall y, In y B -> length y = S ud) -> sim (G A) (G W) ->
  lsim l1 l -> sim A W ->
  let t1 := if se then map2 qmax (unit_viols ud 1 B (G A)) l1 else unit_viols ud 1 B (G A) in
  let t := if se then map2 qmax (unit_viols ud units B (G W)) l else unit_viols ud units B (G W) in
  lsim t1 t /\
  sim (slab sh1 m c a b (fun T x => op (T x) (nth (nth ud x 0%nat) t1 0)) A)
      (slab sh m c a b (fun T x => op (T x) (nth (nth ud x 0%nat) t 0)) W).
Proof. intros Hop Hm Hc HB Hg HL HS t1 t.
  assert (Ht : lsim t1 t) by (apply lsim_comb; [apply lsim_viols|]; assumption).
  split; [exact Ht|apply (sim_slab_units op); assumption]. Qed.

Lemma sim_trap_step m c (rvb any_e same_e : bool) s1 s j : m <> ud -> c <> ud -> tsim s1 s ->
  tsim (trap_step sh1 ud 1 (behind sh1 [m; c; ud]) m c rvb any_e same_e s1 j)
       (trap_step sh ud units (behind sh [m; c; ud]) m c rvb any_e same_e s j).
Proof. intros Hm Hc (HS & HL & HR). unfold trap_step. rewrite (behind3_eq Hm Hc), (sh_nth Hm), (sh_nth Hc).
  set (j0 := cj rvb _ j). set (j1 := cj rvb _ (S j)). set (mx := (_ - 1)%nat). cbv zeta. destruct any_e.
  - (* the violations of the lower side are read from the current kernel, those of the upper
       side from the kernel after the lower slab has moved *)
    set (Gl := fun (T : tens) y => T (at2 y m c 0%nat j1) - T (at2 y m c 0%nat j0)).
    set (Gr := fun (T : tens) y => T (at2 y m c mx j0) - T (at2 y m c mx j1)).
    assert (HGl : sim (Gl (ts_W s1)) (Gl (ts_W s))) by (intros y Hy; exact (sim_diff_at2 HS Hm Hc Hy)).
    destruct (sim_trap_side Qminus same_e 0%nat j1 Gl Qminus_comp Hm Hc (behind_len [m; c; ud]) HGl HL HS) as [EL HS1].
    assert (HGr : sim (Gr _) (Gr _)) by (intros y Hy; exact (sim_diff_at2 HS1 Hm Hc Hy)).
    destruct (sim_trap_side Qplus same_e mx j1 Gr Qplus_comp Hm Hc (behind_len [m; c; ud]) HGr HR HS1) as [ER HS2].
    split; [exact HS2|split; [exact EL|exact ER]].
  - split; [|split; [exact HL|exact HR]]. cbn [ts_W].
    set (Fl := fun (T : tens) x => T x - qmax (T x - T (upd x c j0)) 0).
    set (Fr := fun (T : tens) x => T x + qmax (T (upd x c j0) - T x) 0).
    assert (HFl : op_sim Fl Fl)
      by (intros T1 T H x Hx; unfold Fl; rewrite (lift_upd x j0 Hc), (H x Hx), (H _ (uix_upd j0 Hx Hc)); reflexivity).
    assert (HFr : op_sim Fr Fr)
      by (intros T1 T H x Hx; unfold Fr; rewrite (lift_upd x j0 Hc), (H x Hx), (H _ (uix_upd j0 Hx Hc)); reflexivity).
    apply (sim_slab m c mx j1 Fr Fr _ _ Hm Hc HFr). apply (sim_slab m c 0%nat j1 Fl Fl _ _ Hm Hc HFl). exact HS. Qed.

Lemma sim_trapezoid_one edge t A W : trust_off_unit t -> sim A W ->
  sim (trapezoid_one sh1 ud 1 edge A t) (trapezoid_one sh ud units edge W t).
Proof. destruct t as [[m c] dir]. intros [Hm Hc] HS. cbn in Hm, Hc. unfold trapezoid_one.
  rewrite (sh_nth Hc). cbv zeta.
  apply (fold_rel tsim). intros j s1 s Hs. apply sim_trap_step; assumption.
  split; [exact HS|split; apply lsim_zeros]. Qed.
Lemma sim_approx_trapezoid trap edge A W : (forall t, In t trap -> trust_off_unit t) -> sim A W ->
  sim (approx_trapezoid sh1 ud 1 trap edge A) (approx_trapezoid sh ud units trap edge W).
Proof. intros Hts HS. unfold approx_trapezoid. apply (fold_rel sim); auto. intros. apply sim_trapezoid_one; auto. Qed.

(* the Dykstra stage: every group projection reads one column only *)
Definition pair_off_unit (pq : nat * nat) : Prop := fst pq <> ud /\ snd pq <> ud.

Lemma sim_mono_group mono uni d g : d <> ud -> op_sim (mono_group sh1 mono uni d g) (mono_group sh mono uni d g).
Proof. intros Hd A W HS. unfold mono_group. rewrite (sh_nth Hd). apply sim_memo. intros x _ Hx.
  rewrite (lift_nth x Hd). destruct (pair_pos g (nth d sh1 0%nat) (nth d x 0%nat)) as [[i up]|]; [|apply HS; exact Hx].
  cbv zeta. rewrite !(lift_upd x _ Hd). rewrite !Qred_correct.
  pose proof (HS _ (uix_upd i Hx Hd)) as E1. pose proof (HS _ (uix_upd (S i) Hx Hd)) as E2.
  destruct (mono =? 1)%Z; repeat apply if_qeq; rewrite ?E1, ?E2; reflexivity. Qed.

Lemma sim_edge_group t g0 g1 : trust_off_unit t -> op_sim (edge_group sh1 t g0 g1) (edge_group sh t g0 g1).
Proof. destruct t as [[m c] dir]. intros [Hm Hc] A W HS. cbn in Hm, Hc. unfold edge_group.
  rewrite (sh_nth Hm), (sh_nth Hc). apply sim_memo. intros x _ Hx. rewrite (lift_nth x Hm), (lift_nth x Hc).
  destruct (pair_pos g0 _ _) as [[i pm]|]; [|apply HS; exact Hx].
  destruct (pair_pos g1 _ _) as [[j pc]|]; [|apply HS; exact Hx].
  cbv beta zeta. unfold quarter. rewrite !Qred_correct.
  apply if_qeq; rewrite (HS x Hx), !(sim_diff_at2 HS Hm Hc Hx); reflexivity. Qed.

Lemma sim_trap_group t g : trust_off_unit t -> op_sim (trap_group sh1 t g) (trap_group sh t g).
Proof. destruct t as [[m c] dir]. intros [Hm Hc] A W HS. cbn in Hm, Hc. unfold trap_group.
  rewrite (sh_nth Hm), (sh_nth Hc). apply sim_memo. intros x _ Hx. cbv beta zeta.
  rewrite (lift_nth x Hm), (lift_nth x Hc).
  destruct (pair_pos g _ _) as [[j up]|]; [|apply HS; exact Hx].
  destruct (nth m x 0 =? 0)%nat; [|destruct (nth m x 0 =? _)%nat; [|apply HS; exact Hx]];
    rewrite !Qred_correct; apply if_qeq; rewrite (HS x Hx), (sim_diff_at2 HS Hm Hc Hx); reflexivity. Qed.

(* the correction of a constraint on a 2 x 2 square reads column u only *)
Lemma sim_sq_corr {cl : Q -> Q -> Q} {A W p q x i j i' j' i'' j''} : Proper (Qeq ==> Qeq ==> Qeq) cl ->
  sim A W -> p <> ud -> q <> ud -> uix x ->
  cl (third ((A (at2 x p q i j) + A (at2 x p q i' j')) * (1#2) - A (at2 x p q i'' j''))) 0 ==
  cl (third ((W (at2 (lift x) p q i j) + W (at2 (lift x) p q i' j')) * (1#2) - W (at2 (lift x) p q i'' j''))) 0.
Proof. intros Hcl HS Hp Hq Hx. unfold third. rewrite !lift_at2 by assumption.
  rewrite !(HS _ (uix_at2 Hx Hp Hq)). reflexivity. Qed.

Lemma sim_mdom_group p q g0 g1 g2 : p <> ud -> q <> ud -> op_sim (mdom_group sh1 p q g0 g1 g2) (mdom_group sh p q g0 g1 g2).
Proof. intros Hp Hq A W HS. unfold mdom_group.
  rewrite (sh_nth Hp), (sh_nth Hq). apply sim_memo. intros x _ Hx. rewrite (lift_nth x Hp), (lift_nth x Hq).
  destruct (pair_pos g0 _ _) as [[i pa]|]; [|apply HS; exact Hx].
  destruct (pair_pos g1 _ _) as [[j pb]|]; [|apply HS; exact Hx].
  cbv beta zeta. destruct g2, pa, pb; rewrite ?Qred_correct, ?(sim_sq_corr _ HS Hp Hq Hx), (HS x Hx); reflexivity. Qed.

Lemma sim_jmono_group p q g0 g1 g2 : p <> ud -> q <> ud -> op_sim (jmono_group sh1 p q g0 g1 g2) (jmono_group sh p q g0 g1 g2).
Proof. intros Hp Hq A W HS. unfold jmono_group.
  rewrite (sh_nth Hp), (sh_nth Hq). apply sim_memo. intros x _ Hx. rewrite (lift_nth x Hp), (lift_nth x Hq).
  destruct (pair_pos g0 _ _) as [[i pa]|]; [|apply HS; exact Hx].
  destruct (pair_pos g1 _ _) as [[j pb]|]; [|apply HS; exact Hx].
  cbv beta zeta. destruct g2, pa, pb; rewrite ?Qred_correct, ?(sim_sq_corr _ HS Hp Hq Hx), (HS x Hx); reflexivity. Qed.

Lemma sim_rdom_group p q i j : p <> ud -> q <> ud -> op_sim (rdom_group sh1 p q i j) (rdom_group sh p q i j).
Proof. intros Hp Hq A W HS. unfold rdom_group. cbv zeta.
  rewrite ?(sh_nth Hp), ?(sh_nth Hq). apply sim_memo. intros x _ Hx. cbv beta zeta. unfold quarter.
  rewrite ?(lift_nth x Hp), ?(lift_nth x Hq).
  apply if_qeq; rewrite !Qred_correct; repeat apply Qplus_comp; repeat apply if_qeq;
    rewrite ?(HS x Hx), ?(sim_diff_at2 HS Hp Hq Hx); reflexivity. Qed.

Lemma sim_junimod_group dims valley vertex offs : (forall d, In d dims -> d <> ud) ->
  match junimod_group sh1 dims valley vertex offs, junimod_group sh dims valley vertex offs with
  | Some f1, Some f => op_sim f1 f
  | None, None => True
  | _, _ => False
  end.
Proof. intros Hd. unfold junimod_group. rewrite (dims_sizes Hd). cbv zeta.
  destruct (forallb _ _); [exact I|]. destruct (ju_terms _ _ _ _ _) as [[|t terms]|]; try exact I.
  intros A W HS. apply sim_memo. intros x _ Hx.
  rewrite (find_ext (fun e => coords_eqb x dims (fst e)) (fun e => coords_eqb_lift Hd (fst e) x)).
  destruct (find _ _) as [e|]; [|apply HS; exact Hx]. rewrite !Qred_correct, (HS x Hx).
  destruct valley;
    rewrite (qsum_map_ext (fun e => A (set_coords x dims (fst e)) * snd e) (fun e => W (set_coords (lift x) dims (fst e)) * snd e));
    try reflexivity; intros e' _; rewrite (set_coords_lift Hd), (HS _ (set_coords_uix Hd (fst e') x Hx)); reflexivity. Qed.

End Units.

Arguments slice sizes u W x /.

(* no constrained dimension is the unit axis.  Every configuration accepted by
   verify_hyperparameters satisfies this ([cfg_valid_units_wf]); the statement
   is false without it (a monotonicity flag or a trust on the unit axis makes
   cummax / the behind set run across units). *)
Definition lat_units_wf (c : lat_cfg) : Prop :=
  ~ In (l_ud c) (mono_dims (l_monos c)) /\
  (forall t, In t (l_edge c) -> trust_off_unit (l_sizes c) t) /\
  (forall t, In t (l_trap c) -> trust_off_unit (l_sizes c) t).

Lemma cfg_valid_units_wf c : cfg_valid c -> lat_units_wf c.
Proof. intros Hc. split; [|split].
  - intros H. pose proof (cfg_mono_dims_lt c _ Hc H). lia.
  - intros [[m cd] dir] Ht. destruct (cfg_edge_dims c m cd dir Hc Ht) as (H1 & H2 & _). split; cbn; unfold l_ud, ud in *; lia.
  - intros [[m cd] dir] Ht. destruct (cfg_trap_dims c m cd dir Hc Ht) as (H1 & H2 & _). split; cbn; unfold l_ud, ud in *; lia. Qed.

Section Lat.
Variable c : lat_cfg.
Variable u : nat.
Hypothesis Hu : (u < l_units c)%nat.
Hypothesis Hwf : lat_units_wf c.
Let sizes := l_sizes c.
Let units := l_units c.

Lemma sim_finalize A W : sim sizes u A W -> sim sizes u (finalize (lat1 c) A) (finalize c W).
Proof. intros HS. destruct Hwf as (Hm & He & Ht). unfold finalize. cbn [lat1 l_monos l_edge l_trap l_min l_max].
  destruct (mono_dims (l_monos c)) as [|d0 md] eqn:E; [exact HS|]. rewrite <- E in *. cbv zeta.
  pose proof (sim_approx_mono sizes units u Hu _ A W Hm HS) as H1.
  (* only with both trust lists empty are the three later passes skipped; in the other
     three cases finalize is the same composition *)
  revert He Ht. generalize (l_edge c) (l_trap c). intros [|e edge] [|t trap] He Ht; [exact H1| | |];
    (apply (sim_approx_bounds sizes units u Hu), (sim_approx_trapezoid sizes units u Hu), (sim_approx_edgeworth sizes units u Hu); assumption).
Qed.

Lemma sim_constraint_after_dykstra ran A W : sim sizes u A W ->
  sim sizes u (lattice_constraint_after_dykstra (lat1 c) ran A) (lattice_constraint_after_dykstra c ran W).
Proof. intros HS. unfold lattice_constraint_after_dykstra. apply (sim_clip_bounds sizes units u Hu).
  destruct ran; [apply sim_finalize|]; exact HS. Qed.

Theorem lattice_finalize_column W :
  teq (l_shape (lat1 c)) (finalize (lat1 c) (slice sizes u W)) (slice sizes u (finalize c W)).
Proof. apply (sim_teq sizes u). apply sim_finalize. apply sim_slice. Qed.

Theorem lattice_constraint_after_dykstra_column ran W :
  teq (l_shape (lat1 c)) (lattice_constraint_after_dykstra (lat1 c) ran (slice sizes u W))
                         (slice sizes u (lattice_constraint_after_dykstra c ran W)).
Proof. apply (sim_teq sizes u). apply sim_constraint_after_dykstra. apply sim_slice. Qed.
End Lat.

Definition dyk_units_wf (c : dyk_cfg) : Prop :=
  (forall t, In t (k_edge c) -> trust_off_unit (k_sizes c) t) /\
  (forall t, In t (k_trap c) -> trust_off_unit (k_sizes c) t) /\
  (forall pq, In pq (k_mdom c) -> pair_off_unit (k_sizes c) pq) /\
  (forall pq, In pq (k_rdom c) -> pair_off_unit (k_sizes c) pq) /\
  (forall pq, In pq (k_jmono c) -> pair_off_unit (k_sizes c) pq) /\
  (forall ju, In ju (k_juni c) -> forall d, In d (fst ju) -> d <> ud (k_sizes c)).

Section Dyk.
Variable c : dyk_cfg.
Variable u : nat.
Hypothesis Hu : (u < k_units c)%nat.
Hypothesis Hwf : dyk_units_wf c.
Let sizes := k_sizes c.
Let units := k_units c.

Definition kop_sim (a b : key * (tens -> tens)) : Prop := fst a = fst b /\ op_sim sizes u (snd a) (snd b).
(* a group that the skip rule may drop *)
Lemma kops_opt (skip : bool) k f1 f : op_sim sizes u f1 f ->
  Forall2 kop_sim (if skip then [] else [(k, f1)]) (if skip then [] else [(k, f)]).
Proof. intros H. destruct skip; constructor; [split; [reflexivity|exact H]|constructor]. Qed.

(* same keys in the same order (the skip rules look at lattice sizes only),
   and each operation acts on column u as its single-unit instance *)
Lemma group_ops_sim : Forall2 kop_sim (group_ops (dyk1 c)) (group_ops c).
Proof. destruct Hwf as (He & Ht & Hmd & Hrd & Hjm & Hju). unfold group_ops.
  change (k_shape (dyk1 c)) with (sh1 sizes). change (k_shape c) with (sh sizes units).
  cbn [dyk1 k_sizes k_monos k_unis k_edge k_trap k_mdom k_rdom k_jmono k_juni]. cbv beta zeta. repeat apply Forall2_app.
  - apply Forall2_flat_map; intros d Hd. apply in_seq in Hd. assert (Hne : d <> ud sizes) by (unfold ud, sizes; lia).
    destruct (_ && _); [constructor|].
    apply Forall2_flat_map; intros g _. rewrite (sh_nth sizes units Hne).
    apply kops_opt, sim_mono_group; assumption.
  - apply Forall2_flat_map; intros [[m cd] dir] Hin. destruct (He _ Hin) as [Hm Hc]. cbn [fst snd] in Hm, Hc.
    apply Forall2_flat_map; intros [g0 g1] _. rewrite (sh_nth sizes units Hm), (sh_nth sizes units Hc).
    apply kops_opt, sim_edge_group; [exact Hu|split; assumption].
  - apply Forall2_flat_map; intros [[m cd] dir] Hin. destruct (Ht _ Hin) as [Hm Hc]. cbn [fst snd] in Hm, Hc.
    apply Forall2_flat_map; intros g _. rewrite (sh_nth sizes units Hc).
    apply kops_opt, sim_trap_group; [exact Hu|split; assumption].
  - apply Forall2_flat_map; intros [p q] Hin. destruct (Hmd _ Hin) as [Hp Hq]. cbn [fst snd] in Hp, Hq.
    apply Forall2_flat_map; intros [[g0 g1] g2] _. rewrite (sh_nth sizes units Hp), (sh_nth sizes units Hq).
    apply kops_opt, sim_mdom_group; assumption.
  - apply Forall2_flat_map; intros [p q] Hin. destruct (Hrd _ Hin) as [Hp Hq]. cbn [fst snd] in Hp, Hq.
    rewrite (sh_nth sizes units Hp), (sh_nth sizes units Hq).
    apply Forall2_map_in. intros ij _. split; [reflexivity|]. apply sim_rdom_group; assumption.
  - apply Forall2_flat_map; intros [p q] Hin. destruct (Hjm _ Hin) as [Hp Hq]. cbn [fst snd] in Hp, Hq.
    apply Forall2_flat_map; intros [[g0 g1] g2] _. rewrite (sh_nth sizes units Hp), (sh_nth sizes units Hq).
    apply kops_opt, sim_jmono_group; assumption.
  - apply Forall2_flat_map; intros [dims valley] Hin. pose proof (Hju _ Hin) as Hd. cbn [fst] in Hd.
    rewrite (dims_sizes sizes units Hd).
    apply Forall2_flat_map; intros v _. apply Forall2_flat_map; intros o _.
    pose proof (sim_junimod_group sizes units u Hu dims valley v o Hd) as HJ.
    destruct (junimod_group (sh1 sizes) dims valley v o), (junimod_group (sh sizes units) dims valley v o); try contradiction.
    constructor; [exact (conj eq_refl HJ)|constructor]. constructor. Qed.

Lemma group_ops_keys : map fst (group_ops (dyk1 c)) = map fst (group_ops c).
Proof. induction group_ops_sim as [|a b l1 l [Hk _] _ IH]; cbn [map]. reflexivity. rewrite Hk, IH. reflexivity. Qed.

(* state of the run: current weights and the last-change dictionary *)
Definition lc_sim (l1 l : list (key * tens)) : Prop :=
  Forall2 (fun a b => fst a = fst b /\ sim sizes u (snd a) (snd b)) l1 l.
Definition st_sim (s1 s : tens * list (key * tens)) : Prop := sim sizes u (fst s1) (fst s) /\ lc_sim (snd s1) (snd s).

Lemma lc_get_sim l1 l k : lc_sim l1 l -> sim sizes u (lc_get l1 k) (lc_get l k).
Proof. unfold lc_get. induction 1 as [|a b l1 l [Hk Hs] _ IH]; cbn [find]. intros x _; reflexivity.
  rewrite Hk. destruct (key_eqb (fst b) k); [exact Hs|exact IH]. Qed.
Lemma lc_set_sim l1 l k t1 t : lc_sim l1 l -> sim sizes u t1 t -> lc_sim (lc_set l1 k t1) (lc_set l k t).
Proof. intros H Ht. induction H as [|a b l1 l [Hk Hs] Hr IH]; cbn [lc_set].
  - constructor; [split; [reflexivity|exact Ht]|constructor].
  - rewrite Hk. destruct (key_eqb (fst b) k).
    + constructor; [split; [reflexivity|exact Ht]|exact Hr].
    + constructor; [split; assumption|exact IH]. Qed.

Lemma dyk_step_sim s1 s k1 k : kop_sim k1 k -> st_sim s1 s -> st_sim (dyk_step (sh1 sizes) s1 k1) (dyk_step (sh sizes units) s k).
Proof. destruct s1 as [A l1], s as [W l], k1 as [key1 op1], k as [key2 op2]. intros [Hk Ho] [HS HL]. cbn [fst snd] in *. subst key2.
  unfold dyk_step. cbv zeta.
  pose proof (sim_sub sizes units u Hu _ _ _ _ HS (lc_get_sim l1 l key1 HL)) as HR.
  split; cbn [fst snd]. apply Ho; exact HR.
  apply lc_set_sim. exact HL. apply (sim_sub sizes units u Hu); [apply Ho|]; exact HR. Qed.

Lemma dyk_loop_sim n : forall s1 s, st_sim s1 s ->
  st_sim (dyk_loop (sh1 sizes) (group_ops (dyk1 c)) n s1) (dyk_loop (sh sizes units) (group_ops c) n s).
Proof. induction n as [|n IH]; intros s1 s Hs; cbn [dyk_loop]. exact Hs.
  apply IH. unfold dyk_sweep. apply (fold_rel2 kop_sim st_sim group_ops_sim); [|exact Hs].
  intros k1 k2 a b Hk Hab. apply dyk_step_sim; assumption. Qed.

Lemma sim_project_by_dykstra A W : sim sizes u A W -> sim sizes u (project_by_dykstra (dyk1 c) A) (project_by_dykstra c W).
Proof. intros HS. unfold project_by_dykstra.
  cbn [dyk1 k_iters k_monos k_unis k_jmono k_juni k_rdom].
  destruct (k_iters c =? 0)%nat; [exact HS|]. destruct (_ && _); [exact HS|]. cbv zeta.
  apply (dyk_loop_sim (k_iters c) (A, []) (W, [])). split; [exact HS|constructor]. Qed.

Theorem lattice_dykstra_column W :
  teq (k_shape (dyk1 c)) (project_by_dykstra (dyk1 c) (slice sizes u W)) (slice sizes u (project_by_dykstra c W)).
Proof. apply (sim_teq sizes u). apply sim_project_by_dykstra. apply sim_slice. Qed.
End Dyk.

Definition nprod (l : list nat) : nat := fold_right Nat.mul 1%nat l.
Lemma flat_map_seq_blocks P : forall s a, flat_map (fun k => seq (k * P) P) (seq a s) = seq (a * P) (s * P).
Proof. induction s as [|s IH]; intros a; cbn [seq flat_map]. reflexivity.
  rewrite IH. replace (S s * P)%nat with (P + s * P)%nat by lia. rewrite seq_app. do 2 f_equal. lia. Qed.

(* all_idx enumerates the valid indices in increasing row-major order *)
Lemma all_idx_flat_seq sh : map (flat sh) (all_idx sh) = seq 0 (nprod sh).
Proof. induction sh as [|s sh IH]; cbn [all_idx]. reflexivity.
  change (nprod (s :: sh)) with (s * nprod sh)%nat.
  change (seq 0 (s * nprod sh)) with (seq (0 * nprod sh) (s * nprod sh)). rewrite <- (flat_map_seq_blocks (nprod sh) s 0%nat).
  rewrite map_flat_map. apply flat_map_ext. intros k. rewrite map_map. cbn [flat]. fold (nprod sh).
  rewrite <- (map_map (flat sh) (fun j => (k * nprod sh + j)%nat)), IH, map_add_seq. f_equal. lia. Qed.

(* row-major position of an index of  sizes ++ [n] : row * n + unit *)
Lemma flat_unit_axis n : forall sizes x, length x = S (length sizes) ->
  flat (sizes ++ [n]) x = (flat sizes x * n + nth (length sizes) x 0)%nat.
Proof. induction sizes as [|s l IH]; intros x Hl; destruct x as [|k r]; try discriminate.
  - destruct r; [|discriminate]. cbn. lia.
  - cbn [app flat length nth]. rewrite prod_snoc, IH by (cbn in Hl; lia). lia. Qed.
Lemma flat_upd_beyond : forall sizes x k, flat sizes (upd x (length sizes) k) = flat sizes x.
Proof. induction sizes as [|s l IH]; intros x k. destruct x; reflexivity.
  destruct x as [|a r]; cbn [length upd flat]. reflexivity. rewrite IH. reflexivity. Qed.

(* column u of a flat row-major (vertices x units) list *)
Definition flat_column (sizes : list nat) (units u : nat) (r : list Q) : list Q :=
  map (fun v => nth (v * units + u) r 0) (seq 0 (nprod sizes)).

(* for a matrix given by rows it is the matrix column *)
Lemma flat_column_concat sizes units u (R : list (list Q)) : (u < units)%nat -> length R = nprod sizes ->
  (forall r, In r R -> length r = units) -> flat_column sizes units u (concat R) = column u R.
Proof. intros Hu Hl Hr. unfold flat_column. rewrite <- Hl. unfold column.
  apply nth_ext with (d := 0) (d' := 0). rewrite !map_length, seq_length. reflexivity.
  intros n Hn. rewrite map_length, seq_length in Hn.
  rewrite (nth_map_seq _ (length R) n 0 Hn), (nth_concat units u Hu R n (proj2 (Forall_forall _ _) Hr)).
  symmetry. apply (nth_column u R n). Qed.

Section Flat.
Variable sizes : list nat.
Variable units : nat.
Variable u : nat.
Hypothesis Hu : (u < units)%nat.

Lemma flat_sh1 x : uix sizes x -> flat (sh1 sizes) x = flat sizes x.
Proof. intros [Hl H0]. unfold sh1. rewrite flat_unit_axis by exact Hl. fold (ud sizes). rewrite H0. lia. Qed.
Lemma flat_sh_lift x : uix sizes x -> flat (sh sizes units) (lift sizes u x) = (flat sizes x * units + u)%nat.
Proof. intros Hx. unfold sh. rewrite flat_unit_axis by (rewrite lift_length; apply Hx). fold (ud sizes).
  rewrite (lift_nth_ud sizes u x Hx). unfold lift, ud. rewrite flat_upd_beyond. reflexivity. Qed.

(* the single-unit input of the run-time tie is column u of the multi-unit input *)
Lemma sim_of_list_column (W : list (list Q)) : (forall r, In r W -> length r = units) ->
  sim sizes u (of_list (sh1 sizes) (column u W)) (of_list (sh sizes units) (concat W)).
Proof. intros Hr. unfold of_list. apply (sim_memo sizes units u Hu). intros x _ Hx.
  rewrite (flat_sh1 x Hx), (flat_sh_lift x Hx), nth_column, (nth_concat units u Hu W _ (proj2 (Forall_forall _ _) Hr)). reflexivity. Qed.

(* passing through a flat list and back keeps the column relation *)
Lemma sim_of_to_list T1 T : sim sizes u T1 T ->
  sim sizes u (of_list (sh1 sizes) (to_list (sh1 sizes) T1)) (of_list (sh sizes units) (to_list (sh sizes units) T)).
Proof. intros HS. unfold of_list. apply (sim_memo sizes units u Hu). intros x Hv Hx.
  rewrite (to_list_nth _ T1 x Hv). rewrite (to_list_nth _ T (lift sizes u x)) by (apply (valid_lift sizes units u Hu x Hx); exact Hv).
  apply HS. exact Hx. Qed.

(* reading the result: the single-unit output list is column u of the multi-unit output list *)
Lemma to_list_column T1 T : sim sizes u T1 T ->
  qleq (to_list (sh1 sizes) T1) (flat_column sizes units u (to_list (sh sizes units) T)).
Proof. intros HS. unfold flat_column, to_list at 1.
  replace (nprod sizes) with (nprod (sh1 sizes)) by (unfold sh1, nprod; rewrite prod_snoc; lia).
  rewrite <- all_idx_flat_seq, map_map. apply Forall2_map_in. intros x Hx. apply all_idx_valid in Hx.
  pose proof (uix_valid sizes x Hx) as Hux.
  rewrite (flat_sh1 x Hux), <- (flat_sh_lift x Hux).
  rewrite to_list_nth by (apply (valid_lift sizes units u Hu x Hux); exact Hx). apply HS. exact Hux. Qed.
End Flat.

(* the model of LatticeConstraints.__call__ used by the run-time tie (H_C09.check):
   the single-unit model on column u of the kernel returns column u of the
   multi-unit model's result *)
Theorem lattice_constraint_column dc lc ran strict (W : list (list Q)) u :
  k_sizes dc = l_sizes lc -> k_units dc = l_units lc -> dyk_units_wf dc -> lat_units_wf lc ->
  (u < l_units lc)%nat -> (forall r, In r W -> length r = l_units lc) ->
  qleq (lattice_constraint_model (dyk1 dc) (lat1 lc) ran strict (column u W))
       (flat_column (l_sizes lc) (l_units lc) u (lattice_constraint_model dc lc ran strict (concat W))).
Proof. intros Es Eu Hdw Hlw Hu Hr. set (sizes := l_sizes lc). set (units := l_units lc).
  pose proof (sim_of_list_column sizes units u Hu W Hr) as H0.
  assert (H1 : sim sizes u (of_list (sh1 sizes) (if ran then dykstra_flat (dyk1 dc) (column u W) else column u W))
                           (of_list (sh sizes units) (if ran then dykstra_flat dc (concat W) else concat W))).
  { destruct ran; [|exact H0]. unfold dykstra_flat, k_shape. cbn [dyk1 k_sizes k_units]. rewrite Es, Eu.
    apply (sim_of_to_list sizes units u Hu).
    pose proof (sim_project_by_dykstra dc u ltac:(rewrite Eu; exact Hu) Hdw) as HP. rewrite Es in HP. apply HP. exact H0. }
  unfold lattice_constraint_model, constraint_flat. cbv zeta.
  destruct strict; apply (to_list_column sizes units u Hu).
  - apply (sim_constraint_after_dykstra lc u Hu Hlw). exact H1.
  - apply (sim_clip_bounds sizes units u Hu). exact H1. Qed.

(* new column u := old column s u, row by row *)
Definition permute_columns (units : nat) (s : nat -> nat) (W : list (list Q)) : list (list Q) :=
  map (fun r => map (fun u => nth (s u) r 0) (seq 0 units)) W.
Lemma permute_columns_rows units s W r : In r (permute_columns units s W) -> length r = units.
Proof. unfold permute_columns. intros H. apply in_map_iff in H. destruct H as [r0 [<- _]]. rewrite map_length, seq_length. reflexivity. Qed.
Lemma column_permute units s W u : (u < units)%nat -> column u (permute_columns units s W) = column (s u) W.
Proof. intros Hu. unfold column, permute_columns. rewrite map_map. apply map_ext. intros r.
  rewrite nth_map_seq by exact Hu. reflexivity. Qed.

(* column u of the result for the permuted kernel = column (s u) of the result
   for the original kernel; s need not be a bijection (any selection of columns) *)
Theorem lattice_permutation dc lc ran strict (W : list (list Q)) (s : nat -> nat) u :
  k_sizes dc = l_sizes lc -> k_units dc = l_units lc -> dyk_units_wf dc -> lat_units_wf lc ->
  (u < l_units lc)%nat -> (s u < l_units lc)%nat -> (forall r, In r W -> length r = l_units lc) ->
  qleq (flat_column (l_sizes lc) (l_units lc) u
          (lattice_constraint_model dc lc ran strict (concat (permute_columns (l_units lc) s W))))
       (flat_column (l_sizes lc) (l_units lc) (s u) (lattice_constraint_model dc lc ran strict (concat W))).
Proof. intros Es Eu Hdw Hlw Hu Hsu Hr.
  eapply qleq_trans; [apply qleq_sym; apply (lattice_constraint_column dc lc ran strict _ u Es Eu Hdw Hlw Hu); apply permute_columns_rows|].
  rewrite (column_permute _ s W u Hu). apply lattice_constraint_column; assumption. Qed.

Section PassColumns.
Variable sizes : list nat.
Variable units : nat.
Variable u : nat.
Hypothesis Hu : (u < units)%nat.
Let SH := sh sizes units.
Let SH1 := sh1 sizes.
Let UD := ud sizes.
Notation SL := (slice sizes u).

Lemma approx_mono_column monos W : ~ In UD monos ->
  teq SH1 (approx_mono SH1 monos (SL W)) (SL (approx_mono SH monos W)).
Proof. intros H. apply sim_teq. apply (sim_approx_mono sizes units u Hu); [exact H|apply sim_slice]. Qed.
Lemma approx_edgeworth_column ts W : (forall t, In t ts -> trust_off_unit sizes t) ->
  teq SH1 (approx_edgeworth SH1 UD 1 ts (SL W)) (SL (approx_edgeworth SH UD units ts W)).
Proof. intros H. apply sim_teq. apply (sim_approx_edgeworth sizes units u Hu); [exact H|apply sim_slice]. Qed.
Lemma approx_trapezoid_column trap edge W : (forall t, In t trap -> trust_off_unit sizes t) ->
  teq SH1 (approx_trapezoid SH1 UD 1 trap edge (SL W)) (SL (approx_trapezoid SH UD units trap edge W)).
Proof. intros H. apply sim_teq. apply (sim_approx_trapezoid sizes units u Hu); [exact H|apply sim_slice]. Qed.
Lemma approx_bounds_column omin omax W :
  teq SH1 (approx_bounds SH1 UD 1 omin omax (SL W)) (SL (approx_bounds SH UD units omin omax W)).
Proof. apply sim_teq. apply (sim_approx_bounds sizes units u Hu). apply sim_slice. Qed.
Lemma clip_bounds_column omin omax W :
  teq SH1 (clip_bounds SH1 omin omax (SL W)) (SL (clip_bounds SH omin omax W)).
Proof. apply sim_teq. apply (sim_clip_bounds sizes units u Hu). apply sim_slice. Qed.
(* the per-unit reduction itself: entry u of the multi-unit violation vector
   is the single entry of the single-unit one, for any behind set B of rank
   |sizes|+1 and any pointwise-related integrands *)
Lemma unit_viols_column B (g : idx -> Q) : (forall b, In b B -> length b = S UD) ->
  nth 0 (unit_viols UD 1 B (fun y => g (lift sizes u y))) 0 == nth u (unit_viols UD units B g) 0.
Proof. intros HB. apply (lsim_viols sizes units u Hu); [exact HB|]. intros y _. reflexivity. Qed.
End PassColumns.

(* every single-unit pass respects equality of kernels: the units = 1, u = 0
   instance of the simulation *)
Lemma sim0_eq sizes A B : sim sizes 0 A B <-> (forall x, uix sizes x -> A x == B x).
Proof. unfold sim. split; intros H x Hx; specialize (H x Hx); unfold lift in *;
  rewrite (upd_eq_self x (ud sizes) 0%nat (proj2 Hx)) in *; exact H. Qed.
Lemma finalize_single_proper c A B : l_units c = 1%nat -> lat_units_wf c ->
  (forall x, uix (l_sizes c) x -> A x == B x) -> forall x, uix (l_sizes c) x -> finalize (lat1 c) A x == finalize c B x.
Proof. intros H1 Hwf HE. apply sim0_eq. apply sim_finalize. rewrite H1; lia. exact Hwf. apply sim0_eq. exact HE. Qed.
Lemma dykstra_single_proper c A B : k_units c = 1%nat -> dyk_units_wf c ->
  (forall x, uix (k_sizes c) x -> A x == B x) -> forall x, uix (k_sizes c) x -> project_by_dykstra (dyk1 c) A x == project_by_dykstra c B x.
Proof. intros H1 Hwf HE. apply sim0_eq. apply sim_project_by_dykstra. rewrite H1; lia. exact Hwf. apply sim0_eq. exact HE. Qed.

(* Examples: the hypotheses are satisfiable, and the statement is not vacuous
   (2 x 3 lattice, 3 units whose columns differ by orders of magnitude; every
   kind of constraint switched on) *)
Definition exu_lc : lat_cfg :=
  mkLat [2; 3]%nat 3 [1; 1]%Z [(0, 1, 1%Z)]%nat [(0, 1, 1%Z)]%nat (Some (-10)) (Some 10).
Definition exu_dc : dyk_cfg :=
  mkDykCfg [2; 3]%nat 3 [1; 0]%Z [0; 1]%Z [(0, 1, 1%Z)]%nat [(0, 1, (-1)%Z)]%nat [(1, 0)]%nat [(0, 1)]%nat [(0, 1)]%nat
           [([1]%nat, false)] 3.
Definition exu_W : list (list Q) :=
  [ [3; 100; -2000]; [0; -500; 7000]; [1; 250; 1000]; [5; -300; 4000]; [2; 900; -6000]; [-1; 50; 3000] ].

Example exu_lat_wf : cfg_valid exu_lc /\ lat_units_wf exu_lc.
Proof. assert (H : cfg_valid exu_lc) by (apply cfg_validb_ok; reflexivity).
  split; [exact H|apply cfg_valid_units_wf; exact H]. Qed.
Example exu_dyk_wf : dyk_units_wf exu_dc.
Proof. unfold dyk_units_wf, exu_dc, trust_off_unit, pair_off_unit, ud; cbn. repeat split;
  try (match goal with H : _ \/ False |- _ => destruct H as [<-|[]] end; cbn; lia). intros ju [<-|[]] d [<-|[]]. lia. Qed.
Example exu_hyps : k_sizes exu_dc = l_sizes exu_lc /\ k_units exu_dc = l_units exu_lc /\
  (forall r, In r exu_W -> length r = l_units exu_lc).
Proof. repeat split. intros r H. cbn in H. repeat (destruct H as [<-|H]; [reflexivity|]). destruct H. Qed.
(* the three result columns are pairwise different and the kernel is changed *)
Example exu_not_vacuous :
  let out u := lattice_constraint_model (dyk1 exu_dc) (lat1 exu_lc) true true (column u exu_W) in
  forallb (fun p => negb (qlist_close 0 (out (fst p)) (out (snd p)))) [(0, 1); (0, 2); (1, 2)]%nat = true /\
  forallb (fun u => negb (qlist_close 0 (out u) (column u exu_W))) [0; 1; 2]%nat = true.
Proof. cbv zeta. cbn [forallb fst snd].
  (* each column is projected once; the comparisons then run on the three results *)
  eassert (E0 : lattice_constraint_model (dyk1 exu_dc) (lat1 exu_lc) true true (column 0 exu_W) = _) by (vm_compute; reflexivity).
  eassert (E1 : lattice_constraint_model (dyk1 exu_dc) (lat1 exu_lc) true true (column 1 exu_W) = _) by (vm_compute; reflexivity).
  eassert (E2 : lattice_constraint_model (dyk1 exu_dc) (lat1 exu_lc) true true (column 2 exu_W) = _) by (vm_compute; reflexivity).
  rewrite E0, E1, E2. vm_compute. split; reflexivity. Qed.
