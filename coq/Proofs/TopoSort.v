(* Correctness of the explicit-stack DFS topological sort of
   Model/PartialOrder.v (internal_utils._topological_sort): for every non-empty
   ACYCLIC pair list the sort neither raises (no TopoCircular), nor runs out of
   the model's fuel (no TopoFuel), and the order it returns is a valid
   topological order (topo_ok). *)
From TFL Require Import Model.PartialOrder Proofs.PartialOrder.
From Coq Require Import Relations.
Local Open Scope nat_scope.
Implicit Types ps qs : pairs.

Definition edge (ps : pairs) (a b : nat) : Prop := In (a, b) ps.
(* non-empty chain of pairs from a to b *)
Definition path (ps : pairs) : nat -> nat -> Prop := clos_trans nat (edge ps).
Definition acyclic (ps : pairs) : Prop := forall a, ~ path ps a a.

Lemma path_step ps a b : In (a, b) ps -> path ps a b.
Proof. intros H. apply t_step. exact H. Qed.
Lemma path_trans ps a b c : path ps a b -> path ps b c -> path ps a c.
Proof. intros H1 H2. eapply t_trans; eassumption. Qed.

(* a strictly increasing rank on the pairs excludes cycles (used to discharge
   acyclicity of concrete graphs) *)
Lemma path_rank ps (f : nat -> nat) : (forall a b, In (a, b) ps -> f a < f b) ->
  forall a b, path ps a b -> f a < f b.
Proof. intros Hf a b H. induction H as [a b H|a b c _ IH1 _ IH2]. apply Hf; exact H. lia. Qed.
Lemma acyclic_rank ps (f : nat -> nat) : (forall a b, In (a, b) ps -> f a < f b) -> acyclic ps.
Proof. intros Hf a H. pose proof (path_rank ps f Hf a a H). lia. Qed.

Lemma path_map ps qs (g : nat -> nat) : (forall a b, In (a, b) ps -> In (g a, g b) qs) ->
  forall a b, path ps a b -> path qs (g a) (g b).
Proof. intros Hg a b H. induction H as [a b H|a b c _ IH1 _ IH2]. apply path_step, Hg, H. eapply path_trans; eassumption. Qed.
Lemma acyclic_incl ps qs : (forall a b, In (a, b) ps -> In (a, b) qs) -> acyclic qs -> acyclic ps.
Proof. intros Hi Hq a H. apply (Hq a). apply (path_map ps qs (fun x => x) Hi a a H). Qed.

Lemma in_dedup l : forall seen x, In x (dedup l seen) <-> In x l /\ ~ In x seen.
Proof. induction l as [|a l IH]; intros seen x; cbn [dedup]; [cbn [In]; tauto|].
  (* a is skipped when seen already, kept and added to the seen ones otherwise *)
  destruct (mem_nat a seen) eqn:E; cbn [In]; rewrite IH; cbn [In].
  - apply mem_nat_true in E. destruct (Nat.eq_dec a x) as [->|Hne]; tauto.
  - apply mem_nat_false in E. destruct (Nat.eq_dec a x) as [->|Hne]; tauto. Qed.
Lemma NoDup_dedup l : forall seen, NoDup (dedup l seen).
Proof. induction l as [|a l IH]; intros seen; cbn [dedup]. constructor.
  destruct (mem_nat a seen) eqn:E. apply IH. constructor; [|apply IH].
  rewrite in_dedup. intros [_ H]. apply H. left; reflexivity. Qed.

Lemma in_keys ps x : In x (keys ps) <-> In x (map fst ps).
Proof. unfold keys. rewrite in_dedup. split; [intros [H _]; exact H|intros H; split; [exact H|intros []]]. Qed.
Lemma in_nodes ps x : In x (nodes ps) <-> In x (map fst ps) \/ In x (map snd ps).
Proof. unfold nodes. rewrite in_dedup, in_app_iff. split; [intros [H _]; exact H|intros H; split; [exact H|intros []]]. Qed.
Lemma in_roots ps x : In x (roots ps) <-> In x (map fst ps) /\ ~ In x (map snd ps).
Proof. unfold roots. rewrite filter_In, in_keys, negb_true_iff, mem_nat_false. reflexivity. Qed.
Lemma NoDup_nodes ps : NoDup (nodes ps). Proof. apply NoDup_dedup. Qed.
Lemma NoDup_roots ps : NoDup (roots ps).
Proof. unfold roots. apply NoDup_filter. apply NoDup_dedup. Qed.

Lemma in_snd_pred {ps b} : In b (map snd ps) -> exists a, In (a, b) ps.
Proof. intros H. apply in_map_iff in H. destruct H as [[a b'] [E H]]. cbn in E. subst. exists a. exact H. Qed.
Lemma in_fst_succ {ps a} : In a (map fst ps) -> exists b, In (a, b) ps.
Proof. intros H. apply in_map_iff in H. destruct H as [[a' b] [E H]]. cbn in E. subst. exists b. exact H. Qed.
Lemma pair_nodes ps a b : In (a, b) ps -> In a (nodes ps) /\ In b (nodes ps).
Proof. intros H. rewrite !in_nodes. split; [left; exact (in_map fst _ _ H)|right; exact (in_map snd _ _ H)]. Qed.
Lemma node_nodes ps k : node ps k <-> In k (nodes ps).
Proof. rewrite in_nodes. split.
  - intros [x [H|H]]; [left; exact (in_map fst _ _ H)|right; exact (in_map snd _ _ H)].
  - intros [H|H]. destruct (in_fst_succ H) as [b Hb]. exists b; left; exact Hb.
    destruct (in_snd_pred H) as [a Ha]. exists a; right; exact Ha. Qed.

Lemma filter_nil {A} {f : A -> bool} {l} : filter f l = [] -> forall x, In x l -> f x = false.
Proof. intros E x Hx. destruct (f x) eqn:F; [|reflexivity].
  assert (H : In x (filter f l)) by (apply filter_In; split; assumption). rewrite E in H. destruct H. Qed.
Lemma filter_head {A} {f : A -> bool} {l x r} : filter f l = x :: r -> In x l /\ f x = true.
Proof. intros E. apply filter_In. rewrite E. left; reflexivity. Qed.

Section Sort.
  Variable ps : pairs.
  Hypothesis Hac : acyclic ps.

  Lemma nopred_root h : In h (nodes ps) -> preds ps h = [] -> In h (roots ps).
  Proof. intros Hn E. assert (Hs : ~ In h (map snd ps)).
    { intros H. destruct (in_snd_pred H) as [a Ha]. apply in_preds in Ha. rewrite E in Ha. destruct Ha. }
    apply in_roots. split; [|exact Hs]. apply in_nodes in Hn. destruct Hn as [H|H]; [exact H|contradiction]. Qed.

  (* Walk backwards from h along predecessors; l collects the nodes passed, all
     distinct by acyclicity, so the walk ends within |nodes| - |l| steps. *)
  Lemma has_root_aux : forall k h l, NoDup (h :: l) -> incl (h :: l) (nodes ps) ->
    (forall y, In y l -> path ps h y) -> length (nodes ps) <= k + length l ->
    exists r, In r (roots ps) /\ (r = h \/ path ps r h).
  Proof. induction k as [|k IH]; intros h l Hnd Hin Hp Hlen.
    - pose proof (NoDup_incl_length Hnd Hin) as HL. cbn [length] in HL. lia.
    - destruct (preds ps h) as [|p pr] eqn:E.
      + exists h. split; [|left; reflexivity]. apply nopred_root; [apply Hin; left; reflexivity|exact E].
      + assert (Hph : path ps p h) by (apply path_step, in_preds; rewrite E; left; reflexivity).
        assert (Hall : forall y, In y (h :: l) -> path ps p y).
        { intros y [<-|Hy]; [exact Hph|]. eapply path_trans; [exact Hph|apply Hp; exact Hy]. }
        destruct (IH p (h :: l)) as [r [Hr Hrp]]; [| |exact Hall|cbn [length]; lia|].
        * constructor; [|exact Hnd]. intros Hi. exact (Hac p (Hall p Hi)).
        * intros y [<-|Hy]; [|apply Hin; exact Hy]. apply node_nodes. exists h. left. apply in_preds. rewrite E; left; reflexivity.
        * exists r. split; [exact Hr|]. right. destruct Hrp as [->|Hrp]; [exact Hph|]. eapply path_trans; eassumption. Qed.

  (* every node of a finite acyclic graph is reachable from a root *)
  Lemma has_root x : In x (nodes ps) -> exists r, In r (roots ps) /\ (r = x \/ path ps r x).
  Proof. intros Hx. apply (has_root_aux (length (nodes ps)) x []).
    - constructor; [intros []|constructor].
    - intros y [<-|[]]. exact Hx.
    - intros y [].
    - cbn [length]. lia. Qed.

  (* every stack element that has a predecessor is connected by a path to every
     element above it (the stack is [roots not yet started] below a path) *)
  Fixpoint chain (q : list nat) : Prop :=
    match q with
    | [] => True
    | a :: t => (forall y, In y t -> In y (map snd ps) -> path ps y a) /\ chain t
    end.

  Record Inv (q seen result : list nat) : Prop := {
    inv_nodup_q : NoDup q;
    inv_disj : forall x, In x q -> ~ In x result;
    inv_seen : forall x, In x seen -> In x result \/ In x q;
    inv_res_seen : forall x, In x result -> In x seen;
    inv_below : forall x, In x (tl q) -> In x seen \/ ~ In x (map snd ps);
    inv_chain : chain q;
    inv_closed : forall x y, In x result -> In (x, y) ps -> In y result;
    inv_nodup_r : NoDup result;
    inv_ordered : ordered ps result;
    inv_roots : forall r, In r (roots ps) -> In r result \/ In r q;
    inv_nodes : forall x, In x q \/ In x result -> In x (nodes ps)
  }.

  Lemma chain_nopred q : (forall x, In x q -> ~ In x (map snd ps)) -> chain q.
  Proof. induction q as [|a q IH]; intros H; cbn [chain]. exact I. split.
    - intros y Hy Hs. exfalso. exact (H y (or_intror Hy) Hs).
    - apply IH. intros x Hx. apply H. right; exact Hx. Qed.

  Lemma Inv_init : Inv (rev (roots ps)) [] [].
  Proof. assert (Hr : forall x, In x (rev (roots ps)) -> In x (map fst ps) /\ ~ In x (map snd ps)).
    { intros x Hx. apply in_roots. apply in_rev. exact Hx. }
    constructor.
    - apply NoDup_rev. apply NoDup_roots.
    - intros x _ [].
    - intros x [].
    - intros x [].
    - intros x Hx. right. apply Hr. destruct (rev (roots ps)); [destruct Hx|right; exact Hx].
    - apply chain_nopred. intros x Hx. apply Hr; exact Hx.
    - intros x y [].
    - constructor.
    - exact I.
    - intros r Hr'. right. apply in_rev in Hr'. exact Hr'.
    - intros x [Hx|[]]. apply in_nodes. left. apply Hr; exact Hx. Qed.

  (* push: x is the first successor of the top v that is not yet seen *)
  Lemma Inv_push v q seen result x : Inv (v :: q) seen result ->
    In (v, x) ps -> ~ In x (v :: seen) -> Inv (x :: v :: q) (v :: seen) result.
  Proof. intros [I1 I2 I3 I4 I5 I6 I7 I8 I9 I10 I11] Hvx Hx. constructor.
    - constructor; [|exact I1]. intros [E|Hq].
      + apply Hx. left; exact E.
      + destruct (I5 x Hq) as [H|H]. apply Hx; right; exact H. apply H. exact (in_map snd _ _ Hvx).
    - intros y [<-|Hy]. intros Hr. apply Hx. right. apply I4; exact Hr. apply I2; exact Hy.
    - intros y. specialize (I3 y). cbn [In] in *. tauto.
    - intros y Hy. right. apply I4; exact Hy.
    - intros y. specialize (I5 y). cbn [tl In] in *. tauto.
    - cbn [chain]. split; [|exact I6]. intros y [<-|Hy] Hs. apply path_step; exact Hvx.
      cbn [chain] in I6. destruct I6 as [Hc _]. eapply path_trans; [apply Hc; assumption|apply path_step; exact Hvx].
    - exact I7.
    - exact I8.
    - exact I9.
    - intros r Hr. specialize (I10 r Hr). cbn [In] in *. tauto.
    - intros y [[<-|Hy]|Hy]. apply (pair_nodes ps v x Hvx). apply I11; left; exact Hy. apply I11; right; exact Hy. Qed.

  (* pop: every successor of the top v is seen *)
  Lemma Inv_pop v q seen result : Inv (v :: q) seen result ->
    (forall y, In (v, y) ps -> In y (v :: seen)) -> Inv q (v :: seen) (v :: result).
  Proof. intros [I1 I2 I3 I4 I5 I6 I7 I8 I9 I10 I11] Hall.
    assert (Hvq : ~ In v q) by (inversion I1; assumption).
    assert (Hvr : ~ In v result) by (apply I2; left; reflexivity).
    (* a successor of v on the stack would close a cycle through the chain *)
    assert (Hsucc : forall y, In (v, y) ps -> In y result).
    { intros y Hvy. assert (H : In y result \/ In y (v :: q)).
      { destruct (Hall y Hvy) as [E|Hs]; [right; left; exact E|apply I3; exact Hs]. }
      destruct H as [H|[E|Hq]]; [exact H| |]; exfalso; apply (Hac v).
      - subst y. apply path_step; exact Hvy.
      - eapply path_trans; [apply path_step; exact Hvy|]. apply (proj1 I6); [exact Hq|exact (in_map snd _ _ Hvy)]. }
    constructor.
    - inversion I1; assumption.
    - intros x Hx [E|Hr]. subst x. exact (Hvq Hx). exact (I2 x (or_intror Hx) Hr).
    - intros x. specialize (I3 x). cbn [In] in *. tauto.
    - intros x [<-|Hx]; [left; reflexivity|right; apply I4; exact Hx].
    - intros x Hx. assert (Hq : In x q) by (destruct q; [destruct Hx|right; exact Hx]).
      destruct (I5 x Hq) as [H|H]; [left; right; exact H|right; exact H].
    - cbn [chain] in I6. apply I6.
    - intros x y [<-|Hx] Hxy. right. apply Hsucc; exact Hxy. right. eapply I7; eassumption.
    - constructor; assumption.
    - cbn [ordered]. split; [|exact I9]. intros p Hp Hr. apply Hvr. eapply I7; eassumption.
    - intros r Hr. specialize (I10 r Hr). cbn [In] in *. tauto.
    - intros x Hx. apply I11. cbn [In] in *. tauto. Qed.

  Lemma Inv_final seen result : Inv [] seen result ->
    topo_ok ps result /\ (forall v, In v result -> In v (nodes ps)).
  Proof. intros [I1 I2 I3 I4 I5 I6 I7 I8 I9 I10 I11]. split; [|intros v Hv; apply I11; right; exact Hv].
    assert (Hcl : forall a b, path ps a b -> In a result -> In b result).
    { intros a b H. induction H as [a b H|a b c _ IH1 _ IH2]; intros Ha. eapply I7; eassumption. auto. }
    assert (Hall : forall x, In x (nodes ps) -> In x result).
    { intros x Hx. destruct (has_root x Hx) as [r [Hr Hrx]].
      assert (Hrr : In r result) by (destruct (I10 r Hr) as [H|[]]; exact H).
      destruct Hrx as [->|Hp]; [exact Hrr|]. eapply Hcl; eassumption. }
    split; [exact I8|split; [|exact I9]].
    intros i j Hij. destruct (pair_nodes ps i j Hij) as [Hi Hj]. split; apply Hall; assumption. Qed.

  (* count: the stack and the result are disjoint duplicate-free sets of nodes *)
  Lemma Inv_count q seen result : Inv q seen result -> length result + length q <= length (nodes ps).
  Proof. intros [I1 I2 I3 I4 I5 I6 I7 I8 I9 I10 I11]. rewrite <- app_length. apply NoDup_incl_length.
    - apply nodup_app; try assumption. intros x Hr Hq. exact (I2 x Hq Hr).
    - intros x Hx. apply in_app_iff in Hx. apply I11. tauto. Qed.

  (* total correctness of the loop: 2*|nodes| - 2*|result| - |q| + 1 units of
     fuel suffice from every state satisfying the invariant *)
  Lemma dfs_correct : forall fuel q seen result, Inv q seen result ->
    2 * length (nodes ps) + 1 <= fuel + 2 * length result + length q ->
    exists s, dfs fuel ps q seen result = Some s /\ topo_ok ps s /\ (forall v, In v s -> In v (nodes ps)).
  Proof. induction fuel as [|f IH]; intros q seen result HI Hf.
    - exfalso. pose proof (Inv_count q seen result HI). lia.
    - destruct q as [|v q]; cbn [dfs].
      + exists result. split; [reflexivity|]. eapply Inv_final; exact HI.
      + destruct (filter (fun x => negb (mem_nat x (v :: seen))) (succs ps v)) as [|x rest] eqn:E.
        * apply IH.
          -- apply Inv_pop; [exact HI|]. intros y Hy. apply in_succs in Hy.
             pose proof (filter_nil E y Hy) as H. cbn beta in H. apply negb_false_iff in H. apply mem_nat_true; exact H.
          -- cbn [length] in *. lia.
        * apply filter_head in E. destruct E as [E1 E2]. apply in_succs in E1.
          apply negb_true_iff in E2. apply mem_nat_false in E2. apply IH.
          -- apply Inv_push; assumption.
          -- cbn [length] in *. lia. Qed.

  Lemma roots_nonempty : ps <> [] -> roots ps <> [].
  Proof. intros Hne. destruct ps as [|[a b] rest] eqn:Eps; [congruence|]. rewrite <- Eps in *.
    assert (Ha : In a (nodes ps)) by (apply (pair_nodes ps a b); rewrite Eps; left; reflexivity).
    destruct (has_root a Ha) as [r [Hr _]]. intros E. rewrite E in Hr. destruct Hr. Qed.

End Sort.

(* the sort returns a valid order that consists of nodes of the pairs only *)
Theorem toposort_correct_nodes : forall ps, ps <> [] -> acyclic ps ->
  exists s, toposort ps = TopoOk s /\ topo_ok ps s /\ (forall v, In v s -> In v (nodes ps)).
Proof. intros ps Hne Hac. unfold toposort. pose proof (roots_nonempty ps Hac Hne) as Hr.
  destruct (roots ps) as [|r0 rs] eqn:R; [congruence|]. rewrite <- R.
  destruct (dfs_correct ps Hac (2 * length (nodes ps) + 2) (rev (roots ps)) [] [] (Inv_init ps)) as [s [E T]].
  cbn [length]; lia. rewrite E. exists s. split; [reflexivity|exact T]. Qed.

Theorem toposort_correct : forall ps, ps <> [] -> acyclic ps ->
  exists s, toposort ps = TopoOk s /\ topo_ok ps s.
Proof. intros ps Hne Hac. destruct (toposort_correct_nodes ps Hne Hac) as [s [E [T _]]]. exists s. split; assumption. Qed.

Lemma po_project_defined ps w : ps <> [] -> acyclic ps -> pairs_in_range ps w ->
  exists s, topo_ok ps s /\ (forall v, In v s -> (v < length w)%nat) /\ po_project ps w = Some (po_with_order ps s w).
Proof. intros Hne Hac Hr. destruct (toposort_correct_nodes ps Hne Hac) as [s [E [T N]]].
  exists s. split; [exact T|split].
  - intros v Hv. apply N in Hv. apply node_nodes in Hv. destruct Hv as [x [H|H]]; apply (Hr _ _ H).
  - unfold po_project. rewrite E. reflexivity. Qed.

(* a diamond 0 -> {1,2} -> 3 with a duplicate pair, pairs listed out of order *)
Example diamond : pairs := [(2, 3); (0, 1); (1, 3); (0, 2); (0, 1)].
Example diamond_acyclic : acyclic diamond.
Proof. apply (acyclic_rank diamond (fun x => x)). intros a b H. cbn in H.
  repeat (destruct H as [H|H]; [inversion H; subst; lia|]). destruct H. Qed.
Example diamond_sorted : toposort diamond = TopoOk [0; 2; 1; 3].
Proof. vm_compute. reflexivity. Qed.
