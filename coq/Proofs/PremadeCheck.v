(* Soundness of the boolean wiring check of Model/PremadeCheck.v at tolerance 0:
   [ens_ok 0 false e = true] implies the hypotheses of the ensemble composition
   theorems of Props/C03.v (C03_ensemble_monotone_mixed,
   C03_ensemble_bounded_mixed) and hence monotonicity / boundedness of
   [ensemble2_eval] on the extracted structure, for ALL inputs; all-vertices
   lattice members and KroneckerFactoredLattice units alike (kfl_layer_ok
   decides kfl_feasible: term_ok_sound). *)
From TFL Require Import Model.PremadeKFL Model.PremadeCheck Proofs.Premade Proofs.PremadeKFL.
From TFL Require Import Proofs.PWLEval Proofs.LinearEval Proofs.LatticeInterp.
Open Scope Q_scope.

Lemma forallb_In {A} {f : A -> bool} {l x} : forallb f l = true -> In x l -> f x = true.
Proof. intros H. exact (proj1 (forallb_forall f l) H x). Qed.

Lemma le_t0 a b : le_t 0 a b = true -> a <= b.
Proof. unfold le_t. intros H. apply Qle_bool_iff in H. lra. Qed.

Lemma in_opt_range0 {lo hi v} : in_opt_range 0 (Some lo) (Some hi) v = true -> lo <= v <= hi.
Proof. unfold in_opt_range. intros H. apply andb_prop in H. destruct H as [H1 H2].
  split; apply le_t0; assumption. Qed.
Lemma in_opt_range0_lo lo hi v : in_opt_range 0 (Some lo) hi v = true -> lo <= v.
Proof. unfold in_opt_range. intros H. apply andb_prop in H. destruct H as [H1 _]. apply le_t0; assumption. Qed.
Lemma in_opt_range0_hi lo hi v : in_opt_range 0 lo (Some hi) v = true -> v <= hi.
Proof. unfold in_opt_range. intros H. apply andb_prop in H. destruct H as [_ H2]. apply le_t0; assumption. Qed.

Lemma adjacent_nth (r : Q -> Q -> bool) : forall l j, adjacent r l = true -> (S j < length l)%nat ->
  r (nth j l 0) (nth (S j) l 0) = true.
Proof. induction l as [|a l IH]; intros j H Hj; cbn in Hj; [lia|].
  destruct l as [|b l]; [cbn in Hj; lia|]. cbn [adjacent] in H. apply andb_prop in H. destruct H as [H1 H2].
  destruct j as [|j]. exact H1. cbn [nth]. apply (IH j H2). cbn in *. lia. Qed.

Lemma adjacent_nondecr {col} : adjacent (le_t 0) (outs_of col) = true -> outs_nondecr col.
Proof. intros H j Hj. unfold kp_outs. apply le_t0. apply (adjacent_nth (le_t 0) (outs_of col) j H).
  unfold outs_of. rewrite cumsum_incl_length. exact Hj. Qed.
Lemma adjacent_nonincr {col} : adjacent (fun a b => le_t 0 b a) (outs_of col) = true -> outs_nonincr col.
Proof. intros H j Hj. unfold kp_outs. apply le_t0.
  apply (adjacent_nth (fun a b => le_t 0 b a) (outs_of col) j H).
  unfold outs_of. rewrite cumsum_incl_length. exact Hj. Qed.

Lemma seg_ok_segments : forall {kps lens}, seg_ok kps lens = true -> exists e, segments kps lens e.
Proof. induction kps as [|k kps IH]; intros [|l lens] H; cbn [seg_ok] in H; try discriminate.
  - exists 0. exact I.
  - apply andb_prop in H. destruct H as [H H3]. apply andb_prop in H. destruct H as [H1 H2].
    apply qlt_true in H1. rename H1 into Hl.
    destruct kps as [|k' kps].
    + destruct lens; [|cbn in H3; discriminate]. exists (k + l). cbn. split. exact Hl. split. reflexivity. exact I.
    + destruct (IH _ H3) as [e He]. exists e. cbn [segments]. split. exact Hl. split.
      apply Qeq_bool_iff. exact H2. exact He. Qed.

Lemma seg_ok_pos {kps lens} : seg_ok kps lens = true -> Forall (fun l => 0 < l) lens.
Proof. intros H. destruct (seg_ok_segments H) as [e He]. exact (segments_pos kps lens e He). Qed.

Lemma calib_ok_range {lo hi f c} : calib_ok 0 (Some lo) (Some hi) f c = true -> calib_range c lo hi.
Proof. destruct c as [kps lens col miss|vals d]; cbn [calib_ok calib_range]; intros H.
  - rewrite !Bool.andb_true_iff in H. destruct H as ((((S & L) & R) & M) & _).
    split. exact (seg_ok_segments S). split. apply Nat.eqb_eq. exact L. split.
    + intros y Hy. apply in_opt_range0. exact (forallb_In R Hy).
    + destruct miss as [[miv mo]|]; [exact (in_opt_range0 M)|exact I].
  - apply andb_prop in H. destruct H as [H _]. intros v Hv. apply in_opt_range0. exact (forallb_In H Hv). Qed.

(* numeric feature: the calibrator is a PWL unit of the feature's direction *)
Lemma calib_ok_numeric {lo hi m c} : m <> 0%Z -> calib_ok 0 lo hi (MNum m) c = true ->
  exists kps lens col miss, c = CPwl kps lens col miss /\ Forall (fun l => 0 < l) lens /\
    (m = 1%Z -> outs_nondecr col) /\ (m = (-1)%Z -> outs_nonincr col).
Proof. destruct c as [kps lens col miss|vals d]; cbn [calib_ok]; intros Hm H.
  - rewrite !Bool.andb_true_iff in H. destruct H as ((((S & _) & _) & _) & D). exists kps, lens, col, miss.
    split. reflexivity. split. exact (seg_ok_pos S).
    split; intros ->; cbn in D. exact (adjacent_nondecr D). exact (adjacent_nonincr D).
  - apply andb_prop in H. destruct H as [_ H]. apply Z.eqb_eq in H. contradiction. Qed.

Lemma calib_ok_pairs {lo hi ps c} : ps <> [] -> calib_ok 0 lo hi (MPairs ps) c = true ->
  exists vals d, c = CCat vals d /\
    forall a b, In (a, b) ps -> (a < length vals)%nat /\ (b < length vals)%nat /\ nth a vals 0 <= nth b vals 0.
Proof. destruct c as [kps lens col miss|vals d]; cbn [calib_ok]; intros Hne H.
  - rewrite Bool.andb_false_r in H. discriminate.
  - apply andb_prop in H. destruct H as [_ H]. exists vals, d. split. reflexivity. intros a b Hab.
    pose proof (forallb_In H Hab) as G. cbn [fst snd] in G.
    apply andb_prop in G. destruct G as [G G3]. apply andb_prop in G. destruct G as [G1 G2].
    split. apply Nat.ltb_lt; assumption. split. apply Nat.ltb_lt; assumption. apply le_t0; assumption. Qed.

Lemma oc_ok_monotone {lo hi oc} : oc_ok 0 lo hi oc = true -> out_monotone oc.
Proof. destruct oc as [[[kps lens] col]|]; cbn [oc_ok out_monotone]; [|auto]. intros H.
  rewrite !Bool.andb_true_iff in H. destruct H as (((S & _) & A) & _).
  split. exact (seg_ok_pos S). exact (adjacent_nondecr A). Qed.
Lemma oc_ok_range {lo hi oc} : oc_ok 0 (Some lo) (Some hi) oc = true -> out_range oc lo hi.
Proof. destruct oc as [[[kps lens] col]|]; cbn [oc_ok out_range]; [|auto]. intros H.
  rewrite !Bool.andb_true_iff in H. destruct H as (((S & L) & _) & R). split. exact (seg_ok_segments S).
  split. apply Nat.eqb_eq. exact L. intros y Hy. apply in_opt_range0. exact (forallb_In R Hy). Qed.

Lemma nondecr_along_knondecr sizes K d : nondecr_along 0 sizes K d = true -> knondecr sizes K d.
Proof. unfold nondecr_along, knondecr. intros H i Hi Hd.
  pose proof (forallb_In H (proj2 (all_idx_valid sizes i) Hi)) as G. cbn beta in G.
  apply Nat.ltb_lt in Hd. rewrite Hd in G. apply le_t0. exact G. Qed.

(* KroneckerFactoredLattice layers: kfl_layer_ok decides kfl_feasible *)
Lemma adjacent_sorted : forall v, adjacent (le_t 0) v = true -> PK.sorted v.
Proof. induction v as [|a v IH]; intros H. exact I. destruct v as [|b v]. exact I.
  cbn [adjacent] in H. apply andb_prop in H. destruct H as [H1 H2]. split. apply le_t0; exact H1. apply IH; exact H2. Qed.
Lemma adjacent_rsorted : forall v, adjacent (fun a b => le_t 0 b a) v = true -> PK.rsorted v.
Proof. induction v as [|a v IH]; intros H. exact I. destruct v as [|b v]. exact I.
  cbn [adjacent] in H. apply andb_prop in H. destruct H as [H1 H2]. split. apply le_t0; exact H1. apply IH; exact H2. Qed.

Lemma forallb_combine_Forall2 {A B} (f : A * B -> bool) : forall (a : list A) (b : list B), length a = length b ->
  forallb f (combine a b) = true -> Forall2 (fun x y => f (x, y) = true) a b.
Proof. induction a as [|x a IH]; intros [|y b] Hl H; try discriminate; constructor.
  - cbn in H. apply andb_prop in H. tauto.
  - apply IH. cbn in Hl; lia. cbn in H. apply andb_prop in H. tauto. Qed.

Lemma count_true_existsb : forall ms, (0 < MK.count_true ms)%nat -> existsb (fun b => b) ms = true.
Proof. unfold MK.count_true. induction ms as [|[|] ms IH]; cbn; intros H; [lia|reflexivity|apply IH; exact H]. Qed.

Lemma nonneg_tnonneg vs : forallb (forallb (le_t 0 0)) vs = true -> PK.tnonneg vs.
Proof. intros H. apply Forall_forall. intros v Hv. apply Forall_forall. intros w Hw. apply le_t0.
  exact (forallb_In (forallb_In H Hv) Hw). Qed.

Lemma qabs_le0 a b : qabs_le 0 a b = true -> - b <= a <= b.
Proof. unfold qabs_le. intros H. apply andb_prop in H. destruct H as [H1 H2]. apply le_t0 in H1, H2. lra. Qed.

Lemma term_ok_sound c dims s vs : (forall ms, MK.canon_monos (MK.c_monos c) = Some ms -> length ms = dims) ->
  term_ok 0 c dims s vs = true -> PK.tshape (MK.c_size c) dims vs /\ PK.kgood c s vs /\ PK.sgood c s.
Proof. intros Hms H. unfold term_ok in H. cbn zeta in H.
  rewrite !Bool.andb_true_iff in H. destruct H as (((((T1 & T2) & T3) & T4) & T5) & T6). apply Nat.eqb_eq in T1.
  split. { split. exact T1. apply Forall_forall. intros v Hv. apply Nat.eqb_eq. exact (forallb_In T2 Hv). }
  split.
  - split; [|split].
    + intros ms Em Hc. rewrite Em in T4. rewrite (count_true_existsb ms Hc) in T4.
      apply Bool.orb_prop in T4. destruct T4 as [Z|G].
      * left. apply qabs_le0 in Z. lra.
      * apply andb_prop in G. destruct G as [G1 G2]. apply nonneg_tnonneg in G1.
        pose proof (forallb_combine_Forall2 _ ms vs ltac:(rewrite (Hms ms Em); lia) G2) as F. cbn [fst snd] in F.
        destruct (Qle_bool 0 s) eqn:E.
        -- apply Qle_bool_iff in E. destruct (Qlt_le_dec 0 s) as [Hp|Hn]; [|left; lra].
           right. left. split. exact Hp. split. exact G1. eapply Forall2_impl; [|exact F]. cbn beta. intros m v Hmv ->.
           apply adjacent_sorted. exact Hmv.
        -- right. right. split. apply qlt_true. unfold qlt. rewrite E. reflexivity. split. exact G1.
           eapply Forall2_impl; [|exact F]. cbn beta. intros m v Hmv ->. apply adjacent_rsorted. exact Hmv.
    + intros I1 I2. destruct (MK.c_min c), (MK.c_max c); try discriminate. unfold PK.prodmax. apply le_t0 in T5. lra.
    + intros I. destruct (MK.c_min c), (MK.c_max c); cbn in I; try congruence; apply nonneg_tnonneg; exact T6.
  - unfold PK.sgood. destruct (MK.c_min c) as [lo|], (MK.c_max c) as [hi|].
    + apply qabs_le0 in T3. lra.
    + apply le_t0 in T3. exact T3.
    + apply le_t0 in T3. exact T3.
    + exact I. Qed.

Lemma qeq_opt a lo : match a, lo with Some a, Some b => Qeq_bool a b | None, None => true | _, _ => false end = true ->
  forall l, lo = Some l -> exists l', a = Some l' /\ l' == l.
Proof. intros H l ->. destruct a as [a|]; [|discriminate]. exists a. split. reflexivity. apply Qeq_bool_iff. exact H. Qed.

(* the layer was configured with the bounds it is checked against, and has one bias per scale row *)
Lemma kfl_layer_ok_cfg {lo hi c p dims} : kfl_layer_ok 0 lo hi c p dims = true ->
  PK.cfg_ok c dims /\ length (MK.p_bias p) = length (MK.p_scale p) /\
  (forall l, lo = Some l -> exists l', MK.c_min c = Some l' /\ l' == l) /\
  (forall h, hi = Some h -> exists h', MK.c_max c = Some h' /\ h' == h).
Proof. unfold kfl_layer_ok. rewrite !Bool.andb_true_iff.
  intros ((((((((((K1 & K2) & K3) & _) & K5) & K6) & K7) & _) & K9) & _) & _).
  split; [|split; [apply Nat.eqb_eq; exact K9|split; apply qeq_opt; assumption]].
  split. apply Nat.leb_le; exact K5. split. apply Nat.leb_le; exact K6. split.
  - intros l h El Eh. rewrite El, Eh in K3. exact (proj1 (qlt_true _ _) K3).
  - intros ms E. destruct (MK.c_monos c) as [ms0|]; [|discriminate]. apply Nat.eqb_eq in K7.
    destruct ms0; cbn in E; [discriminate|]. injection E as <-. exact K7. Qed.

Lemma kfl_layer_ok_feasible lo hi c p dims : kfl_layer_ok 0 lo hi c p dims = true -> kfl_feasible c dims p.
Proof. intros HL. destruct (kfl_layer_ok_cfg HL) as ((_ & _ & _ & Hms) & _).
  unfold kfl_layer_ok in HL. rewrite !Bool.andb_true_iff in HL. destruct HL as ((((_ & K8) & _) & K10) & K11).
  apply Nat.eqb_eq in K8. split.
  - pose proof (forallb_combine_Forall2 _ _ _ K8 K10) as F. eapply Forall2_impl; [|exact F]. cbn beta.
    intros su ku G. cbn [fst snd] in G. apply andb_prop in G. destruct G as [G1 G2]. apply Nat.eqb_eq in G1.
    pose proof (forallb_combine_Forall2 _ _ _ G1 G2) as F2. eapply Forall2_impl; [|exact F2]. cbn beta.
    intros s vs G3. cbn [fst snd] in G3. exact (term_ok_sound c dims s vs Hms G3).
  - intros Hb. rewrite Hb in K11. apply Forall_forall. intros b Hin. pose proof (forallb_In K11 Hin) as G.
    apply qabs_le0 in G. lra. Qed.

Lemma kfl_mono_at_dim c q : kfl_mono_at c q = true -> kfl_mono_dim c q.
Proof. unfold kfl_mono_at. intros H. destruct (MK.canon_monos (MK.c_monos c)) as [ms|] eqn:E; [|discriminate].
  exists ms. split. exact E. exact H. Qed.

Lemma forallb_seq {f : nat -> bool} {n} q : forallb f (seq 0 n) = true -> (q < n)%nat -> f q = true.
Proof. intros H Hq. apply (forallb_In H). apply in_seq. lia. Qed.

Lemma pos_ok_facts {feat size mono_at i cal} : pos_ok 0 feat size mono_at i cal = true ->
  (i < length feat)%nat /\ calib_range cal 0 (qn size - 1) /\
  calib_ok 0 (Some 0) (Some (qn size - 1)) (nth i feat (MNum 0)) cal = true /\
  (lattice_dim_mono (nth i feat (MNum 0)) = 1%Z -> mono_at = true).
Proof. unfold pos_ok. intros H. apply andb_prop in H. destruct H as [H H3]. apply andb_prop in H. destruct H as [H1 H2].
  split. apply Nat.ltb_lt; exact H1. split. exact (calib_ok_range H2). split. exact H2.
  intros E. rewrite E in H3. exact H3. Qed.

Definition member_bounded (lo hi : option Q) (m : member2) : Prop :=
  forall l h, lo = Some l -> hi = Some h -> exists l' h', l' == l /\ h' == h /\ member2_in_bounds m l' h'.

Lemma member_ok_b_sound {feat lo hi multi m} : member_ok_b 0 feat lo hi multi m = true ->
  member2_ok m /\ member_bounded lo hi m /\
  (multi = false -> nodupb (member2_idx m) = true) /\
  forall q, (q < length (member2_idx m))%nat ->
    (nth q (member2_idx m) 0 < length feat)%nat /\
    (exists size, calib_ok 0 (Some 0) (Some (qn size - 1)) (nth (nth q (member2_idx m) 0%nat) feat (MNum 0))
                           (nth q (member2_cals m) dcal) = true) /\
    (lattice_dim_mono (nth (nth q (member2_idx m) 0%nat) feat (MNum 0)) = 1%Z -> member2_mono_dim m q).
Proof. unfold member_ok_b. intros H. apply andb_prop in H. destruct H as [Hd H].
  assert (D : multi = false -> nodupb (member2_idx m) = true) by (intros ->; exact Hd). clear Hd.
  destruct m as [m|idx cals c p u]; cbn [member2_idx member2_cals member2_ok member2_mono_dim]; cbn zeta in H;
    rewrite !Bool.andb_true_iff in H.
  - destruct H as (((((((H1 & H2) & H3) & H4) & H5) & H6) & HP) & H8).
    apply Nat.leb_le in H1. apply Nat.eqb_eq in H3, H5, H6.
    split; [|split; [|split; [exact D|]]].
    + unfold member_ok. split. { intros E. rewrite E in H1. cbn in H1. lia. }
      split. { apply Forall_forall. intros s Hs. apply Nat.leb_le. exact (forallb_In H2 Hs). }
      split. { split. lia. apply Forall_forall. intros r Hr. apply Nat.eqb_eq. exact (forallb_In H4 Hr). }
      split. exact H3. split. exact H5. split. exact H6.
      intros j Hj. apply (pos_ok_facts (forallb_seq j HP Hj)).
    + intros l h -> ->. exists l, h. split. reflexivity. split. reflexivity. cbn [member2_in_bounds].
      apply column_bounds_kern. exact H3. intros v Hv. apply in_opt_range0. exact (forallb_In H8 Hv).
    + intros q Hq. destruct (pos_ok_facts (forallb_seq q HP ltac:(lia))) as (F1 & _ & F3 & F4).
      split. exact F1. split. exists (nth q (m_sizes m) 0%nat). exact F3.
      intros E. apply nondecr_along_knondecr. exact (F4 E).
  - destruct H as (((Hc & HL) & Hu) & HP). apply Nat.eqb_eq in Hc. apply Nat.ltb_lt in Hu.
    destruct (kfl_layer_ok_cfg HL) as (Hcfg & Lb & Blo & Bhi).
    split; [|split; [|split; [exact D|]]].
    + exists (length idx). split. exact Hcfg. split. exact (kfl_layer_ok_feasible _ _ _ _ _ HL).
      split. reflexivity. split. exact Hc.
      intros j Hj. rewrite repeat_length in Hj. rewrite nth_repeat_lt by exact Hj.
      apply (pos_ok_facts (forallb_seq j HP Hj)).
    + intros l h El Eh. destruct (Blo l El) as (l' & A1 & A2). destruct (Bhi h Eh) as (h' & B1 & B2).
      exists l', h'. split. exact A2. split. exact B2. cbn [member2_in_bounds]. split. exact A1. split. exact B1. split. exact Hu. lia.
    + intros q Hq. destruct (pos_ok_facts (forallb_seq q HP Hq)) as (F1 & _ & F3 & F4).
      split. exact F1. split. exists (MK.c_size c). exact F3. intros E. apply kfl_mono_at_dim. exact (F4 E). Qed.

Lemma comb_ok_monotone {d wavg n c} : comb_ok 0 d wavg n c = true -> comb_monotone c.
Proof. destruct c as [|w b]; cbn [comb_ok comb_monotone]; [auto|]. intros H.
  apply andb_prop in H. destruct H as [H _]. apply andb_prop in H. destruct H as [_ H].
  intros q Hq. apply le_t0. exact (forallb_In H Hq). Qed.

Lemma comb_ok_average_like {n c} : comb_ok 0 false true n c = true -> comb_average_like c n.
Proof. destruct c as [|w b]; cbn [comb_ok comb_average_like]; intros H.
  - apply Nat.leb_le in H. lia.
  - apply andb_prop in H. destruct H as [H H3]. apply andb_prop in H. destruct H as [H1 H2].
    apply andb_prop in H3. destruct H3 as [H3 H4]. cbn [andb] in H3. rewrite Bool.orb_false_r in H3.
    apply andb_prop in H3. destruct H3 as [S1 S2]. apply le_t0 in S1, S2.
    split. apply Nat.eqb_eq; exact H1. split. apply Qeq_bool_iff; exact H4.
    split. intros q Hq. apply le_t0. exact (forallb_In H2 Hq). lra. Qed.

Definition ens_lo (e : ens) : option Q := if has_some (en_oc e) then Some 0 else en_lo e.
Definition ens_hi (e : ens) : option Q := if has_some (en_oc e) then Some 1 else en_hi e.

Lemma ens_ok_parts {t d e} : ens_ok t d e = true ->
  oc_ok t (en_lo e) (en_hi e) (en_oc e) = true /\
  comb_ok t d (has_some (en_oc e) || has_some (en_lo e) || has_some (en_hi e)) (length (en_ms e)) (en_comb e) = true /\
  forallb (member_ok_b t (en_feat e) (ens_lo e) (ens_hi e) (en_multi e)) (en_ms e) = true.
Proof. unfold ens_ok, ens_lo, ens_hi. destruct (has_some (en_oc e)); cbn zeta; intros H;
    apply andb_prop in H; destruct H as [H H3]; apply andb_prop in H; destruct H as [H1 H2]; auto. Qed.

Definition feat_at (e : ens) (i : nat) : fmono := nth i (en_feat e) (MNum 0).
(* the calibrator units through which the members read model feature i *)
Definition reader (e : ens) (i : nat) (c : calib) : Prop :=
  exists m q, In m (en_ms e) /\ (q < length (member2_idx m))%nat /\ nth q (member2_idx m) 0%nat = i /\
              c = nth q (member2_cals m) dcal.

(* The check at tolerance 0 (D32 escape off) implies the hypotheses of
   C03_ensemble_monotone_mixed and C03_ensemble_bounded_mixed on the extracted
   structure. *)
Theorem ens_ok_hypotheses e : ens_ok 0 false e = true ->
  comb_monotone (en_comb e) /\ out_monotone (en_oc e) /\
  (forall m, In m (en_ms e) -> member2_ok m) /\
  (* a feature with a monotone lattice dimension flag (increasing, decreasing, categorical pairs) is read
     through monotone dimensions only: member2_monotone_in reduces to the calibrator units *)
  (forall m i xi v, In m (en_ms e) -> lattice_dim_mono (feat_at e i) = 1%Z ->
     (forall c, reader e i c -> calib_eval c xi <= calib_eval c v) -> member2_monotone_in m i xi v) /\
  (* every reader of a feature is a calibrator unit of the feature's kind and direction *)
  (forall i c, reader e i c ->
     (forall mo, feat_at e i = MNum mo -> mo <> 0%Z ->
        exists kps lens col miss, c = CPwl kps lens col miss /\ Forall (fun l => 0 < l) lens /\
          (mo = 1%Z -> outs_nondecr col) /\ (mo = (-1)%Z -> outs_nonincr col)) /\
     (forall ps, feat_at e i = MPairs ps -> ps <> [] ->
        exists vals d, c = CCat vals d /\
          forall a b, In (a, b) ps -> (a < length vals)%nat /\ (b < length vals)%nat /\ nth a vals 0 <= nth b vals 0)) /\
  (forall lo hi, en_lo e = Some lo -> en_hi e = Some hi -> out_range (en_oc e) lo hi) /\
  (en_oc e = None -> forall lo hi, en_lo e = Some lo -> en_hi e = Some hi ->
     comb_average_like (en_comb e) (length (en_ms e)) /\
     forall m, In m (en_ms e) -> exists lo' hi', lo' == lo /\ hi' == hi /\ member2_in_bounds m lo' hi') /\
  (* explicit / random / Crystals structures: no lattice reads a feature twice *)
  (en_multi e = false -> forall m, In m (en_ms e) -> nodupb (member2_idx m) = true).
Proof. intros H. destruct (ens_ok_parts H) as (Hoc & Hc & Hm).
  pose proof (fun m Hin => member_ok_b_sound (forallb_In (x := m) Hm Hin)) as S.
  split. exact (comb_ok_monotone Hc). split. exact (oc_ok_monotone Hoc).
  split. { intros m Hin. exact (proj1 (S m Hin)). }
  split. { intros m i xi v Hin Hf Hcal q Hq Eq.
    destruct (S m Hin) as (_ & _ & _ & P). destruct (P q Hq) as (_ & _ & P3).
    split. apply P3. unfold feat_at in Hf. rewrite Eq. exact Hf.
    apply Hcal. exists m, q. auto. }
  split. { intros i c (m & q & Hin & Hq & Eq & ->).
    destruct (S m Hin) as (_ & _ & _ & P). destruct (P q Hq) as (_ & (size & P2) & _).
    rewrite Eq in P2. fold (feat_at e i) in P2. split.
    - intros mo Ef Hmo. rewrite Ef in P2. exact (calib_ok_numeric Hmo P2).
    - intros ps Ef Hps. rewrite Ef in P2. exact (calib_ok_pairs Hps P2). }
  split. { intros lo hi El Eh. rewrite El, Eh in Hoc. exact (oc_ok_range Hoc). }
  split. { intros Eo lo hi El Eh. rewrite Eo, El in Hc. cbn in Hc.
    split. exact (comb_ok_average_like Hc).
    intros m Hin. destruct (S m Hin) as (_ & Bd & _).
    apply (Bd lo hi); [unfold ens_lo|unfold ens_hi]; rewrite Eo; assumption. }
  intros Emu m Hin. destruct (S m Hin) as (_ & _ & Dd & _). exact (Dd Emu). Qed.

Definition ens_eval (e : ens) (x : list Q) : Q := ensemble2_eval (en_ms e) (en_comb e) (en_oc e) x.

(* whenever every calibrator unit reading feature i does not decrease, the checked ensemble does not decrease *)
Lemma ens_ok_core e n i : ens_ok 0 false e = true -> (i < n)%nat -> lattice_dim_mono (feat_at e i) = 1%Z ->
  follows (ens_eval e) n i (reader e i).
Proof. intros H Hi Hf x v Hx Hc. destruct (ens_ok_hypotheses e H) as (C1 & C2 & C3 & C4 & _).
  apply ensemble2_compose_monotone; try assumption. lia.
  intros m Hin. split. exact (C3 m Hin). exact (C4 m i _ v Hin Hf Hc). Qed.

(* END-TO-END on the extracted structure: increasing feature, all pairs of non-missing inputs *)
Theorem ens_ok_increasing e i x v : ens_ok 0 false e = true -> (i < length x)%nat ->
  feat_at e i = MNum 1 ->
  (forall c, reader e i c -> regular_input c (nth i x 0) /\ regular_input c v) -> nth i x 0 <= v ->
  ens_eval e x <= ens_eval e (set_nth i v x).
Proof. intros H Hi Hf Hr Hle. apply (ens_ok_core e (length x) i H Hi); [rewrite Hf; reflexivity|reflexivity|].
  intros c Hc. destruct (ens_ok_hypotheses e H) as (_ & _ & _ & _ & C5 & _).
  destruct (proj1 (C5 i c Hc) 1%Z Hf ltac:(lia)) as (kps & lens & col & miss & -> & Hl & Hup & _).
  destruct (Hr _ Hc) as [R1 R2]. exact (proj1 (calib_pwl_monotone kps lens col miss _ _ Hl R1 R2 Hle) (Hup eq_refl)). Qed.

Theorem ens_ok_decreasing e i x v : ens_ok 0 false e = true -> (i < length x)%nat ->
  feat_at e i = MNum (-1) ->
  (forall c, reader e i c -> regular_input c (nth i x 0) /\ regular_input c v) -> nth i x 0 <= v ->
  ens_eval e (set_nth i v x) <= ens_eval e x.
Proof. intros H Hi Hf Hr Hle.
  apply (follows_back _ (length x) i (reader e i)); [|exact Hi|reflexivity|].
  apply ens_ok_core; try assumption. rewrite Hf. reflexivity.
  intros c Hc. destruct (ens_ok_hypotheses e H) as (_ & _ & _ & _ & C5 & _).
  destruct (proj1 (C5 i c Hc) (-1)%Z Hf ltac:(lia)) as (kps & lens & col & miss & -> & Hl & _ & Hdn).
  destruct (Hr _ Hc) as [R1 R2]. exact (proj2 (calib_pwl_monotone kps lens col miss _ _ Hl R1 R2 Hle) (Hdn eq_refl)). Qed.

(* categorical feature, ordering pair (a, b), neither being the default bucket of a reader *)
Theorem ens_ok_categorical e i x ps a b : ens_ok 0 false e = true -> (i < length x)%nat ->
  feat_at e i = MPairs ps -> In (a, b) ps ->
  (forall vals d, reader e i (CCat vals d) -> d <> Some (Z.of_nat a) /\ d <> Some (Z.of_nat b)) ->
  ens_eval e (set_nth i (qn a) x) <= ens_eval e (set_nth i (qn b) x).
Proof. intros H Hi Hf Hab Hd. assert (Hps : ps <> []) by (intros ->; destruct Hab).
  apply (follows_between _ (length x) i (reader e i)); [|exact Hi|reflexivity|].
  apply ens_ok_core; try assumption. rewrite Hf. destruct ps; [congruence|reflexivity].
  intros c Hc. destruct (ens_ok_hypotheses e H) as (_ & _ & _ & _ & C5 & _).
  destruct (proj2 (C5 i c Hc) ps Hf Hps) as (vals & d & -> & Hp). destruct (Hp a b Hab) as (La & Lb & Hv).
  destruct (Hd vals d Hc) as [Da Db]. exact (calib_cat_pair vals d a b La Lb Da Db Hv). Qed.

(* bounds for ALL inputs, missing values included *)
Theorem ens_ok_bounded e lo hi x : ens_ok 0 false e = true ->
  en_lo e = Some lo -> en_hi e = Some hi -> lo <= ens_eval e x <= hi.
Proof. intros H El Eh. destruct (ens_ok_hypotheses e H) as (_ & _ & C3 & _ & _ & C6 & C7 & _).
  unfold ens_eval, ensemble2_eval. apply out_eval_range. exact (C6 lo hi El Eh). intros Eo.
  destruct (C7 Eo lo hi El Eh) as [Ca Cb]. apply Proofs.Premade.combine_range. rewrite map_length. exact Ca.
  intros y Hy. apply in_map_iff in Hy. destruct Hy as [m [<- Hin]]. destruct (Cb m Hin) as (lo' & hi' & E1 & E2 & Hb).
  pose proof (member2_bounds m x lo' hi' (C3 m Hin) Hb). lra. Qed.

(* non-vacuity: a two-member ensemble (one lattice, one KFL unit) passes the exact check *)
Definition exc_cal : calib := CPwl [0] [1] [0; 1] None.
Definition exc_ens : ens :=
  mkEns [MLat (mkMember [0; 1]%nat [exc_cal; exc_cal] Hypercube [2; 2]%nat [[0]; [1#2]; [1#4]; [1]]);
         MKfl [1]%nat [exc_cal] lk_cfg lk_par 0]
        (LinComb [1#4; 3#4] 0) None [MNum 0; MNum 1] (Some (-(1))) (Some 1) false.
Example exc_passes : ens_ok 0 false exc_ens = true.
Proof. vm_compute. reflexivity. Qed.
