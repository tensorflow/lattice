(* Proofs about the model of lattice_lib._approximately_project_edgeworth
   (Model/LatticeFinalize.v: edge_step_pos / edge_step_neg / edgeworth_one /
   approx_edgeworth).

   Every step of a pass adds a per-unit amount to one whole (main, cond, unit)-column
   ([shifted]); a pass is therefore a rigid column move ([rigid]), which cannot change
   the difference between two points of one column.  From this:
   - established: the squares are visited in lexicographic (dir < 0: reverse
     lexicographic) order, each step repairs its own square and keeps the earlier ones;
   - monotonicity along other dimensions, other trusts: differences inside a column;
   - monotonicity along main / cond: the slope is monotone across the squares
     (established inequality) and starts from a never-modified boundary column / row;
   - fixed point: all per-unit maxima are 0. *)
From TFL Require Import Proofs.LatticeSpecFacts Proofs.LatticeMono.
From Coq Require Import Sorted.
Open Scope Q_scope.

Ltac eqb_simpl :=
  repeat (match goal with
          | |- context [(?a =? ?b)%nat] => destruct (Nat.eqb_spec a b); try lia
          end);
  cbn [andb].

Lemma E_at2_self b m c : at2 b m c (nth m b 0%nat) (nth c b 0%nat) = b.
Proof. apply at2_self. Qed.

Lemma E_valid_upd0 sh x d : valid sh x -> valid (upd sh d 1%nat) (upd x d 0%nat).
Proof. intros H; revert d; induction H; intros d; cbn. constructor.
  destruct d; cbn; constructor; auto; lia. Qed.
Lemma E_valid_upd1 : forall sh d b, ((d < length sh)%nat -> (1 <= nth d sh 0)%nat) ->
  valid (upd sh d 1%nat) b -> valid sh b.
Proof. induction sh as [|s sh IH]; intros d b Hp Hv; cbn in *. exact Hv.
  destruct d; inversion Hv; subst; constructor; auto.
  - specialize (Hp ltac:(lia)). lia.
  - apply (IH d); auto. intros; apply Hp; lia. Qed.

Lemma E_SS_app {A} (R : A -> A -> Prop) l1 l2 :
  StronglySorted R l1 -> StronglySorted R l2 -> (forall x y, In x l1 -> In y l2 -> R x y) ->
  StronglySorted R (l1 ++ l2).
Proof. induction l1 as [|a l1 IH]; intros H1 H2 H; cbn. exact H2.
  apply StronglySorted_inv in H1. destruct H1 as [H1 HF]. constructor.
  - apply IH; auto. intros; apply H; auto. right; auto.
  - apply Forall_app. split. exact HF. apply Forall_forall. intros y Hy. apply H; auto. left; auto. Qed.
Lemma E_SS_rev {A} (R : A -> A -> Prop) l :
  StronglySorted R l -> StronglySorted (fun x y => R y x) (rev l).
Proof. induction 1 as [|a l HS IH HF]; cbn. constructor.
  apply E_SS_app. exact IH. repeat constructor.
  intros x y Hx [<-|[]]. rewrite Forall_forall in HF. apply HF. apply in_rev. exact Hx. Qed.
Lemma E_SS_seq : forall n s, StronglySorted lt (seq s n).
Proof. induction n as [|n IH]; intros s; cbn. constructor. constructor. apply IH.
  apply Forall_forall. intros x Hx. apply in_seq in Hx. lia. Qed.

Definition lexlt (q p : nat * nat) : Prop :=
  (fst q < fst p \/ (fst q = fst p /\ snd q < snd p))%nat.

Lemma E_SS_prod l1 l2 : StronglySorted lt l1 -> StronglySorted lt l2 -> StronglySorted lexlt (list_prod l1 l2).
Proof. intros H1 H2. induction H1 as [|x l1 HS IH HF]; cbn [list_prod]. constructor.
  apply E_SS_app.
  - clear -H2. induction H2 as [|y l2 HS IH HF]; cbn; constructor; auto.
    rewrite Forall_forall in *. intros q Hq. apply in_map_iff in Hq. destruct Hq as [y' [<- Hy]].
    right; cbn; split; auto.
  - exact IH.
  - intros [a1 b1] [a2 b2] Ha Hb. apply in_map_iff in Ha. destruct Ha as [y [E Hy]]. inversion E; subst.
    apply in_prod_iff in Hb. destruct Hb as [Hb _]. rewrite Forall_forall in HF. left; cbn. apply HF; exact Hb. Qed.
Lemma E_grid_sorted a b : StronglySorted lexlt (grid_pairs a b).
Proof. apply E_SS_prod; apply E_SS_seq. Qed.
Lemma E_grid_in a b i j : In (i, j) (grid_pairs a b) <-> (i < a /\ j < b)%nat.
Proof. unfold grid_pairs. rewrite in_prod_iff, !in_seq. lia. Qed.

Section Rigid.
Variables (sh : list nat) (ud m c : nat).
Definition rigid (W W' : tens) : Prop := forall x y, valid sh x -> valid sh y ->
  nth m x 0%nat = nth m y 0%nat -> nth c x 0%nat = nth c y 0%nat -> nth ud x 0%nat = nth ud y 0%nat ->
  W' x - W x == W' y - W y.
Lemma rigid_refl W : rigid W W.
Proof. intros x y _ _ _ _ _. lra. Qed.
Lemma rigid_trans W1 W2 W3 : rigid W1 W2 -> rigid W2 W3 -> rigid W1 W3.
Proof. intros A A' x y Hx Hy E1 E2 E3. specialize (A x y Hx Hy E1 E2 E3). specialize (A' x y Hx Hy E1 E2 E3). lra. Qed.

(* a dimension other than m, c, ud runs inside the columns *)
Definition inner (d : nat) : Prop := d <> m /\ d <> c /\ d <> ud.

(* the one preservation principle: differences along an inner dimension do not change *)
Lemma rigid_along W W' d x k : rigid W W' -> inner d -> valid sh x -> (k < nth d sh 0)%nat ->
  W' (upd x d k) - W' x == W (upd x d k) - W x.
Proof. intros R (Hm & Hc & Hu) Hv Hk.
  pose proof (R (upd x d k) x (upd_valid sh x d k Hv Hk) Hv) as H.
  rewrite !nth_upd_other in H by assumption. specialize (H eq_refl eq_refl eq_refl). lra. Qed.

Lemma rigid_pmono W W' P d up : rigid W W' -> inner d -> pmono sh P d up W -> pmono sh P d up W'.
Proof. intros R Hd Hp x Hv Px Hs. specialize (Hp x Hv Px Hs).
  pose proof (rigid_along W W' d x _ R Hd Hv Hs). destruct up; lra. Qed.

(* a square of another pair of dimensions: one of the two runs inside the columns *)
Lemma rigid_esq W W' m2 c2 i j b : rigid W W' -> m2 <> c2 -> inner m2 \/ inner c2 -> valid sh b ->
  (S i < nth m2 sh 0%nat)%nat -> (S j < nth c2 sh 0%nat)%nat -> esq W' m2 c2 i j b == esq W m2 c2 i j b.
Proof. intros R Hne Hin Hv Hi Hj. unfold esq. destruct Hin as [Hd|Hd].
  - rewrite <- !(at2_upd_m b m2 c2 i _ (S i)) by assumption.
    pose proof (rigid_along W W' m2 (at2 b m2 c2 i j) (S i) R Hd
                  (at2_valid sh b m2 c2 i j Hv ltac:(lia) ltac:(lia)) Hi).
    pose proof (rigid_along W W' m2 (at2 b m2 c2 i (S j)) (S i) R Hd
                  (at2_valid sh b m2 c2 i (S j) Hv ltac:(lia) Hj) Hi). lra.
  - rewrite <- !(at2_upd_c b m2 c2 _ j (S j)).
    pose proof (rigid_along W W' c2 (at2 b m2 c2 i j) (S j) R Hd
                  (at2_valid sh b m2 c2 i j Hv ltac:(lia) ltac:(lia)) Hj).
    pose proof (rigid_along W W' c2 (at2 b m2 c2 (S i) j) (S j) R Hd
                  (at2_valid sh b m2 c2 (S i) j Hv Hi ltac:(lia)) Hj). lra. Qed.

Lemma rigid_edgeworth W W' m2 c2 d2 : rigid W W' -> m2 <> c2 -> inner m2 \/ inner c2 ->
  edgeworth_holds sh (m2, c2, d2) W -> edgeworth_holds sh (m2, c2, d2) W'.
Proof. intros R Hne Hin H b i j Hv Hi Hj. specialize (H b i j Hv Hi Hj).
  pose proof (rigid_esq W W' m2 c2 i j b R Hne Hin Hv Hi Hj). destruct (0 <? d2)%Z; lra. Qed.
End Rigid.

Lemma esq_swap f a d i j b : a <> d -> esq f d a j i b == esq f a d i j b.
Proof. intros Hne. unfold esq, at2. rewrite !(upd_comm b d a) by auto. lra. Qed.

(* monotonicity along a from the squares of (a, d): the slope along a is
   monotone in d and non-negative on the first (up) / last d-slice *)
Section Slope.
Variables (sh : list nat) (a d : nat) (f : tens).
Hypothesis Had : a <> d.
Hypothesis Hd : (d < length sh)%nat.
Definition slope : tens := fun x => f (upd x a (S (nth a x 0%nat))) - f x.

Lemma esq_slope x : esq f a d (nth a x 0%nat) (nth d x 0%nat) x = slope x - slope (upd x d (S (nth d x 0%nat))).
Proof. unfold esq, slope. rewrite at2_self, (nth_upd_other x d a) by auto.
  unfold at2. rewrite (upd_self x a), (upd_comm x d a) by auto.
  rewrite (upd_eq_self (upd x a _) d (nth d x 0%nat)) by (apply nth_upd_other; assumption). reflexivity. Qed.

Lemma mono_from_slope (up : bool) :
  (forall x, valid sh x -> (S (nth a x 0) < nth a sh 0)%nat -> (S (nth d x 0) < nth d sh 0)%nat ->
     if up then esq f a d (nth a x 0%nat) (nth d x 0%nat) x <= 0 else 0 <= esq f a d (nth a x 0%nat) (nth d x 0%nat) x) ->
  (forall x, valid sh x -> (S (nth a x 0) < nth a sh 0)%nat ->
     nth d x 0%nat = (if up then 0 else nth d sh 0 - 1)%nat -> 0 <= slope x) ->
  mono_along sh a f.
Proof. intros Hsq Hb x Hv Hs.
  set (P := fun y : idx => (S (nth a y 0) < nth a sh 0)%nat).
  assert (PS : stable_along d P) by (intros y k Hy; unfold P; rewrite nth_upd_other by auto; exact Hy).
  assert (PM : pmono sh P d up slope).
  { intros y Hy Py Hj. specialize (Hsq y Hy Py Hj). rewrite esq_slope in Hsq. destruct up; lra. }
  pose proof (valid_nth sh x d Hv Hd) as Hj.
  set (j0 := (if up then 0 else nth d sh 0 - 1)%nat).
  assert (Hj0 : (j0 < nth d sh 0)%nat) by (unfold j0; destruct up; lia).
  specialize (Hb (upd x d j0) (upd_valid sh x d j0 Hv Hj0) (PS x j0 Hs)
                (nth_upd_same x d j0 ltac:(rewrite (valid_length sh x Hv); exact Hd))).
  assert (G : slope (upd x d j0) <= slope x).
  { rewrite <- (upd_self x d) at 2. unfold j0. destruct up.
    - apply (pmono_le sh P d true slope x PM PS Hv Hs); lia.
    - apply (pmono_le sh P d false slope x PM PS Hv Hs); lia. }
  unfold slope in G at 2. lra. Qed.
End Slope.

Section Col.
Variables (sh : list nat) (ud units m c : nat).
Hypothesis Hmc : m <> c.
Hypothesis Hm : (m < ud)%nat.
Hypothesis Hc : (c < ud)%nat.
Hypothesis Hlen : (ud < length sh)%nat.
Hypothesis Hunits : nth ud sh 0%nat = units.
Local Notation sm := (nth m sh 0%nat).
Local Notation sc := (nth c sh 0%nat).

(* W' = W + a per-column, per-unit shift D *)
Definition shifted (W W' : tens) (D : nat -> nat -> nat -> Q) : Prop :=
  forall x, valid sh x -> W' x == W x + D (nth m x 0%nat) (nth c x 0%nat) (nth ud x 0%nat).

Lemma shifted_rigid W W' D : shifted W W' D -> rigid sh ud m c W W'.
Proof. intros H x y Hx Hy E1 E2 E3. rewrite (H x Hx), (H y Hy), E1, E2, E3. lra. Qed.

Lemma shifted_at W W' D b i j : shifted W W' D -> valid sh b -> (i < sm)%nat -> (j < sc)%nat ->
  W' (at2 b m c i j) == W (at2 b m c i j) + D i j (nth ud b 0%nat).
Proof. intros H Hv Hi Hj. rewrite (H _ (at2_valid sh b m c i j Hv Hi Hj)).
  pose proof (valid_length sh b Hv) as Hl.
  rewrite at2_nth_m, at2_nth_c, at2_nth_other by lia. reflexivity. Qed.

Lemma esq_shifted {W W' D} b i j : shifted W W' D -> valid sh b -> (S i < sm)%nat -> (S j < sc)%nat ->
  esq W' m c i j b == esq W m c i j b
     + D (S i) j (nth ud b 0%nat) - D i j (nth ud b 0%nat)
     - D (S i) (S j) (nth ud b 0%nat) + D i (S j) (nth ud b 0%nat).
Proof. intros H Hv Hi Hj. unfold esq. rewrite !(shifted_at W W' D b) by (assumption || lia). lra. Qed.

Variable B : list idx.
Definition amt (g : idx -> Q) (u : nat) : Q := nth u (unit_viols ud units B g) 0.
Lemma amt_lt g u : (u < units)%nat -> amt g u = maxl0 (map (fun b => g (upd b ud u)) B).
Proof. apply unit_viols_nth. Qed.
Lemma amt_nonneg g u : 0 <= amt g u.
Proof. destruct (lt_dec u units) as [H|H]. rewrite amt_lt by assumption. apply maxl0_nonneg.
  unfold amt. rewrite nth_overflow. lra. rewrite unit_viols_length. lia. Qed.
Lemma amt_ge g u b : (u < units)%nat -> In b B -> g (upd b ud u) <= amt g u.
Proof. intros H Hb. rewrite amt_lt by assumption. apply maxl0_ge.
  apply (in_map (fun b => g (upd b ud u))). exact Hb. Qed.
Lemma amt_zero g u : ((u < units)%nat -> forall b, In b B -> g (upd b ud u) <= 0) -> amt g u == 0.
Proof. intros Hz. destruct (lt_dec u units) as [H|H].
  - rewrite amt_lt by assumption. apply maxl0_zero. intros x Hx. apply in_map_iff in Hx.
    destruct Hx as [b [<- Hb]]. apply Hz; assumption.
  - unfold amt. rewrite nth_overflow. reflexivity. rewrite unit_viols_length. lia. Qed.

Definition Dpos (i j : nat) (a : nat -> Q) : nat -> nat -> nat -> Q :=
  fun i' j' u => if (i' =? S i)%nat && (j' =? S j)%nat then a u else 0.
Definition Dneg (i j : nat) (a : nat -> Q) : nat -> nat -> nat -> Q :=
  fun i' j' u => if (i' =? i)%nat && (j' =? j)%nat then - a u else 0.
Local Notation spos := (edge_step_pos sh ud units B m c).
Local Notation sneg := (edge_step_neg sh ud units B m c).

Lemma step_pos_shifted W i j : shifted W (spos W (i, j)) (Dpos i j (amt (esq W m c i j))).
Proof. intros x Hv. unfold edge_step_pos, Dpos, amt. cbv beta iota zeta. rewrite memo_ok by assumption.
  destruct (_ && _). apply Qred_correct. lra. Qed.
Lemma step_neg_shifted W i j : shifted W (sneg W (i, j)) (Dneg i j (amt (fun b => - esq W m c i j b))).
Proof. intros x Hv. unfold edge_step_neg, Dneg, amt. cbv beta iota zeta. rewrite memo_ok by assumption.
  destruct (_ && _). rewrite Qred_correct. lra. lra. Qed.

Definition Dom (p : nat * nat) : Prop := (S (fst p) < sm /\ S (snd p) < sc)%nat.
(* the inequality of the trust on square p, in the direction of the pass *)
Definition holds_at (pos : bool) (W : tens) (p : nat * nat) : Prop := forall b, valid sh b ->
  if pos then esq W m c (fst p) (snd p) b <= 0 else 0 <= esq W m c (fst p) (snd p) b.

(* B contains a representative of every column *)
Hypothesis B_repr : forall x, valid sh x ->
  exists b, In b B /\ forall i j, at2 (upd b ud (nth ud x 0%nat)) m c i j = at2 x m c i j.

(* a quantity read off the (m, c)-grid through x is among those maximised for the unit of x *)
Lemma grid_le_amt (g : idx -> Q) x : valid sh x ->
  (forall b, (forall i j, at2 b m c i j = at2 x m c i j) -> g b = g x) -> g x <= amt g (nth ud x 0%nat).
Proof. intros Hv Hg. destruct (B_repr x Hv) as [b [Hb He]]. rewrite <- (Hg _ He).
  apply amt_ge; [apply (unit_lt sh ud units x)|]; assumption. Qed.
Lemma esq_grid W i j x b : (forall i j, at2 b m c i j = at2 x m c i j) -> esq W m c i j b = esq W m c i j x.
Proof. intros He. unfold esq. rewrite !He. reflexivity. Qed.

Lemma step_pos_fixes W p : Dom p -> holds_at true (spos W p) p.
Proof. destruct p as [i j]. intros [Hi Hj] b Hv; cbn [fst snd] in *.
  rewrite (esq_shifted b i j (step_pos_shifted W i j)) by assumption.
  unfold Dpos. eqb_simpl. pose proof (grid_le_amt (esq W m c i j) b Hv (esq_grid W i j b)). lra. Qed.
Lemma step_neg_fixes W p : Dom p -> holds_at false (sneg W p) p.
Proof. destruct p as [i j]. intros [Hi Hj] b Hv; cbn [fst snd] in *.
  rewrite (esq_shifted b i j (step_neg_shifted W i j)) by assumption.
  unfold Dneg. eqb_simpl.
  pose proof (grid_le_amt (fun b => - esq W m c i j b) b Hv (fun b' He => f_equal Qopp (esq_grid W i j b b' He))) as H.
  cbv beta in H. lra. Qed.

Lemma step_pos_keeps W p q : Dom p -> Dom q -> lexlt q p -> holds_at true W q -> holds_at true (spos W p) q.
Proof. destruct p as [i j], q as [i' j']. unfold lexlt. intros [Hi Hj] [Hi' Hj'] Hlt Hh b Hv; cbn [fst snd] in *.
  rewrite (esq_shifted b i' j' (step_pos_shifted W i j)) by assumption.
  specialize (Hh b Hv). cbn [fst snd] in Hh.
  unfold Dpos. eqb_simpl; lra. Qed.
Lemma step_neg_keeps W p q : Dom p -> Dom q -> lexlt p q -> holds_at false W q -> holds_at false (sneg W p) q.
Proof. destruct p as [i j], q as [i' j']. unfold lexlt. intros [Hi Hj] [Hi' Hj'] Hlt Hh b Hv; cbn [fst snd] in *.
  rewrite (esq_shifted b i' j' (step_neg_shifted W i j)) by assumption.
  specialize (Hh b Hv). cbn [fst snd] in Hh.
  unfold Dneg. eqb_simpl; lra. Qed.

Local Notation ps := (grid_pairs (sm - 1) (sc - 1)).
Definition run (pos : bool) (W : tens) : tens :=
  if pos then fold_left spos ps W else fold_left sneg (rev ps) W.

Lemma ps_dom : Forall Dom ps.
Proof. apply Forall_forall. intros [i j] H. apply E_grid_in in H. unfold Dom; cbn [fst snd]. lia. Qed.
Lemma dom_ps p : Dom p -> In p ps.
Proof. destruct p as [i j]. unfold Dom; cbn [fst snd]. intros H. apply E_grid_in. lia. Qed.

Lemma run_established pos W p : Dom p -> holds_at pos (run pos W) p.
Proof. intros Hp. destruct pos.
  - apply (fold_left_establishes spos (holds_at true) lexlt Dom step_pos_fixes step_pos_keeps);
      [apply ps_dom|apply E_grid_sorted|exact Hp|left; apply dom_ps; exact Hp].
  - apply (fold_left_establishes sneg (holds_at false) (fun x y => lexlt y x) Dom step_neg_fixes
             (fun W p q Hp Hq H => step_neg_keeps W p q Hp Hq H));
      [apply Forall_rev; apply ps_dom|apply E_SS_rev; apply E_grid_sorted|exact Hp|].
    left. apply -> in_rev. apply dom_ps. exact Hp. Qed.

(* the pass is a rigid column move that never touches the columns U *)
Definition rigidU (U : nat -> nat -> Prop) (W W' : tens) : Prop :=
  exists D, shifted W W' D /\ forall i j u, U i j -> D i j u == 0.
Lemma rigidU_refl U W : rigidU U W W.
Proof. exists (fun _ _ _ => 0). split. intros x _. lra. intros; reflexivity. Qed.
Lemma rigidU_trans U W1 W2 W3 : rigidU U W1 W2 -> rigidU U W2 W3 -> rigidU U W1 W3.
Proof. intros [D1 [H1 U1]] [D2 [H2 U2]]. exists (fun i j u => D1 i j u + D2 i j u). split.
  - intros x Hv. rewrite (H2 x Hv), (H1 x Hv). lra.
  - intros i j u HU. rewrite U1, U2 by assumption. lra. Qed.
Lemma rigidU_rigid U W W' : rigidU U W W' -> rigid sh ud m c W W'.
Proof. intros [D [HD _]]. exact (shifted_rigid W W' D HD). Qed.

(* dir > 0: first row and first column; dir < 0: last row and last column *)
Definition Uof (pos : bool) (i j : nat) : Prop :=
  if pos then i = 0%nat \/ j = 0%nat else (sm <= S i \/ sc <= S j)%nat.
Lemma step_pos_rigid W p : rigidU (Uof true) W (spos W p).
Proof. destruct p as [i j]. exists (Dpos i j (amt (esq W m c i j))). split. apply step_pos_shifted.
  intros i' j' u [-> | ->]; unfold Dpos; eqb_simpl; reflexivity. Qed.
Lemma step_neg_rigid W p : Dom p -> rigidU (Uof false) W (sneg W p).
Proof. destruct p as [i j]. intros [Hi Hj]; cbn [fst snd] in *.
  exists (Dneg i j (amt (fun b => - esq W m c i j b))). split. apply step_neg_shifted.
  intros i' j' u HU; cbn in HU; unfold Dneg; eqb_simpl; reflexivity. Qed.
Lemma ps_in_dom p : In p ps -> Dom p.
Proof. exact (proj1 (Forall_forall _ _) ps_dom p). Qed.
Lemma run_rigid pos W : rigidU (Uof pos) W (run pos W).
Proof. destruct pos; unfold run.
  - apply (fold_left_inv _ (rigidU _ W)); [apply rigidU_refl|]. intros W' p _ H.
    eapply rigidU_trans; [exact H|]. apply step_pos_rigid.
  - apply (fold_left_inv _ (rigidU _ W)); [apply rigidU_refl|]. intros W' p Hp H.
    eapply rigidU_trans; [exact H|]. apply step_neg_rigid, ps_in_dom, in_rev. exact Hp. Qed.

Lemma mono_main pos W W' : rigidU (Uof pos) W W' -> (forall p, Dom p -> holds_at pos W' p) ->
  mono_along sh m W -> mono_along sh m W'.
Proof. intros [D [HD HU]] Hest Hmono.
  apply (mono_from_slope sh m c W' Hmc ltac:(lia) pos).
  - intros x Hv Hi Hj. exact (Hest (nth m x 0%nat, nth c x 0%nat) (conj Hi Hj) x Hv).
  - intros x Hv Hi Hj. unfold slope. specialize (Hmono x Hv Hi).
    pose proof (HD x Hv) as E1. pose proof (HD _ (upd_valid sh x m _ Hv Hi)) as E2.
    rewrite (nth_upd_other x m c), (nth_upd_other x m ud) in E2 by lia.
    assert (Z : forall i u, D i (nth c x 0%nat) u == 0)
      by (intros; apply HU; rewrite Hj; destruct pos; right; lia).
    rewrite Z in E1, E2. lra. Qed.

Lemma mono_cond pos W W' : rigidU (Uof pos) W W' -> (forall p, Dom p -> holds_at pos W' p) ->
  mono_along sh c W -> mono_along sh c W'.
Proof. intros [D [HD HU]] Hest Hmono.
  apply (mono_from_slope sh c m W' ltac:(auto) ltac:(lia) pos).
  - intros x Hv Hj Hi. pose proof (Hest (nth m x 0%nat, nth c x 0%nat) (conj Hi Hj) x Hv) as H.
    cbn [fst snd] in H. pose proof (esq_swap W' m c (nth m x 0%nat) (nth c x 0%nat) x Hmc). destruct pos; lra.
  - intros x Hv Hj Hi. unfold slope. specialize (Hmono x Hv Hj).
    pose proof (HD x Hv) as E1. pose proof (HD _ (upd_valid sh x c _ Hv Hj)) as E2.
    rewrite (nth_upd_other x c m), (nth_upd_other x c ud) in E2 by lia.
    assert (Z : forall j u, D (nth m x 0%nat) j u == 0)
      by (intros; apply HU; rewrite Hi; destruct pos; left; lia).
    rewrite !Z in E1, E2. lra. Qed.

Hypothesis B_valid : forall b, In b B -> valid sh b.
Lemma amt_valid_zero g u : (forall b, valid sh b -> g b <= 0) -> amt g u == 0.
Proof. intros H. apply amt_zero. intros Hu b Hb. apply H.
  apply upd_valid; [apply B_valid; exact Hb|rewrite Hunits; exact Hu]. Qed.

(* a step at a square whose inequality already holds does nothing *)
Lemma step_pos_fixed W W1 p : Dom p -> holds_at true W p -> teq sh W1 W -> teq sh (spos W1 p) W.
Proof. destruct p as [i j]. intros [Hi Hj] Hh Ht x Hv; cbn [fst snd] in *.
  rewrite (step_pos_shifted W1 i j x Hv), (Ht x Hv). unfold Dpos.
  assert (Z : amt (esq W1 m c i j) (nth ud x 0%nat) == 0).
  { apply amt_valid_zero. intros b Hb. rewrite (esq_teq sh W1 W m c i j b Ht Hb Hi Hj). exact (Hh b Hb). }
  destruct (_ && _); lra. Qed.
Lemma step_neg_fixed W W1 p : Dom p -> holds_at false W p -> teq sh W1 W -> teq sh (sneg W1 p) W.
Proof. destruct p as [i j]. intros [Hi Hj] Hh Ht x Hv; cbn [fst snd] in *.
  rewrite (step_neg_shifted W1 i j x Hv), (Ht x Hv). unfold Dneg.
  assert (Z : amt (fun b => - esq W1 m c i j b) (nth ud x 0%nat) == 0).
  { apply amt_valid_zero. intros b Hb. rewrite (esq_teq sh W1 W m c i j b Ht Hb Hi Hj).
    specialize (Hh b Hb). cbn [fst snd] in Hh. lra. }
  destruct (_ && _); lra. Qed.

Lemma run_fixed pos W W' : (forall p, Dom p -> holds_at pos W p) -> teq sh W' W -> teq sh (run pos W') W.
Proof. intros Hh Ht0. destruct pos; unfold run.
  - apply (fold_left_inv _ (fun W1 => teq sh W1 W)); [exact Ht0|]. intros W1 p Hp Ht.
    apply ps_in_dom in Hp. apply step_pos_fixed; [exact Hp|apply Hh; exact Hp|exact Ht].
  - apply (fold_left_inv _ (fun W1 => teq sh W1 W)); [exact Ht0|]. intros W1 p Hp Ht.
    apply in_rev, ps_in_dom in Hp. apply step_neg_fixed; [exact Hp|apply Hh; exact Hp|exact Ht]. Qed.
End Col.

Section One.
Variables (sh : list nat) (ud units m c : nat) (dir : Z).
Hypothesis Hmc : m <> c.
Hypothesis Hm : (m < ud)%nat.
Hypothesis Hc : (c < ud)%nat.
Hypothesis Hlen : (ud < length sh)%nat.
Hypothesis Hunits : nth ud sh 0%nat = units.
Local Notation E W := (edgeworth_one sh ud units W (m, c, dir)).
Local Notation B := (behind sh [m; c; ud]).
Local Notation pos := (0 <? dir)%Z.

Lemma E_behind_repr x : valid sh x ->
  exists b, In b B /\ forall i j, at2 (upd b ud (nth ud x 0%nat)) m c i j = at2 x m c i j.
Proof. apply behind3_repr; lia. Qed.
Lemma E_behind_valid x b : valid sh x -> In b B -> valid sh b.
Proof. intros Hv. apply behind_valid. intros d _ Hd. pose proof (valid_pos sh x d Hv Hd). lia. Qed.

Lemma edgeworth_one_run W : E W = run sh ud units m c B pos W.
Proof. reflexivity. Qed.

Lemma edgeworth_one_holds_at W p : Dom sh m c p -> holds_at sh m c pos (E W) p.
Proof. rewrite edgeworth_one_run. apply run_established; try assumption. exact E_behind_repr. Qed.

Lemma edgeworth_one_established W : edgeworth_holds sh (m, c, dir) (E W).
Proof. intros b i j Hv Hi Hj. exact (edgeworth_one_holds_at W (i, j) (conj Hi Hj) b Hv). Qed.

Lemma edgeworth_one_rigidU W : rigidU sh ud m c (Uof sh m c pos) W (E W).
Proof. rewrite edgeworth_one_run. apply run_rigid; assumption. Qed.
Lemma edgeworth_one_rigid W : rigid sh ud m c W (E W).
Proof. exact (rigidU_rigid sh ud m c _ W (E W) (edgeworth_one_rigidU W)). Qed.

Lemma edgeworth_one_mono_other W d : d <> m -> d <> c -> d <> ud ->
  mono_along sh d W -> mono_along sh d (E W).
Proof. intros Hdm Hdc Hdu H. apply mono_along_pmono. apply mono_along_pmono in H.
  exact (rigid_pmono sh ud m c W (E W) _ d true (edgeworth_one_rigid W) (conj Hdm (conj Hdc Hdu)) H). Qed.

Lemma edgeworth_one_mono_main W : mono_along sh m W -> mono_along sh m (E W).
Proof. apply (mono_main sh ud units m c Hmc Hm Hc Hlen Hunits pos). apply edgeworth_one_rigidU.
  apply edgeworth_one_holds_at. Qed.
Lemma edgeworth_one_mono_cond W : mono_along sh c W -> mono_along sh c (E W).
Proof. apply (mono_cond sh ud units m c Hmc Hm Hc Hlen Hunits pos). apply edgeworth_one_rigidU.
  apply edgeworth_one_holds_at. Qed.

(* other trusts: only a trust on the same two features (in either role) can be disturbed *)
Lemma edgeworth_one_keeps_trust_gen W m2 c2 d2 : m2 <> c2 -> (m2 < ud)%nat -> (c2 < ud)%nat ->
  ~ (m2 = m /\ c2 = c) -> ~ (m2 = c /\ c2 = m) ->
  edgeworth_holds sh (m2, c2, d2) W -> edgeworth_holds sh (m2, c2, d2) (E W).
Proof. intros H1 H2 H3 H4 H5. apply (rigid_edgeworth sh ud m c W (E W)). apply edgeworth_one_rigid. exact H1.
  unfold inner. lia. Qed.
Lemma edgeworth_one_keeps_trust W m2 c2 d2 : edgeworth_holds sh (m2, c2, d2) W ->
  m <> c2 -> c <> m2 -> (m2, c2) <> (m, c) -> m2 <> c2 -> (m2 < ud)%nat -> (c2 < ud)%nat ->
  edgeworth_holds sh (m2, c2, d2) (E W).
Proof. intros H H1 H2 H3 H4 H5 H6. apply edgeworth_one_keeps_trust_gen; auto.
  intros [-> ->]. apply H3; reflexivity. intros [-> _]. apply H2; reflexivity. Qed.

Lemma edgeworth_one_fixed_gen W W' : edgeworth_holds sh (m, c, dir) W -> teq sh W' W -> teq sh (E W') W.
Proof. intros H Ht x Hv. rewrite edgeworth_one_run.
  apply (run_fixed sh ud units m c Hmc Hm Hc Hlen Hunits B (fun b => E_behind_valid x b Hv) pos W W'); try assumption.
  intros [i j] [Hi Hj] b Hb. exact (H b i j Hb Hi Hj). Qed.
Lemma edgeworth_one_fixed W : edgeworth_holds sh (m, c, dir) W -> teq sh (E W) W.
Proof. intros H. apply edgeworth_one_fixed_gen. exact H. apply teq_refl. Qed.
End One.

Section ListLevel.
Variable cf : lat_cfg.
Hypothesis Hcfg : cfg_valid cf.
Local Notation sh := (l_shape cf).
Local Notation ud := (l_ud cf).
Local Notation units := (l_units cf).
Local Notation EO := (edgeworth_one (l_shape cf) (l_ud cf) (l_units cf)).

Lemma E_edge_one_dir t1 t2 : In t1 (l_edge cf) -> In t2 (l_edge cf) -> fst t1 = fst t2 -> t1 = t2.
Proof. intros H1 H2 E. pose proof (cfg_trust_dir cf t1 t2 Hcfg (edge_in_all _ _ H1) (edge_in_all _ _ H2) E).
  destruct t1, t2; cbn in *; congruence. Qed.

Ltac shape_side := first [apply l_ud_lt | apply l_ud_units | assumption | lia].

Lemma E_pass_establishes W t : In t (l_edge cf) -> edgeworth_holds sh t (EO W t).
Proof. destruct t as [[m c] dir]. intros Ht. destruct (cfg_edge_dims cf m c dir Hcfg Ht) as (Hm & Hc & Hmc & _).
  apply edgeworth_one_established; shape_side. Qed.
Lemma E_pass_keeps W a t : In a (l_edge cf) -> In t (l_edge cf) ->
  edgeworth_holds sh t W -> edgeworth_holds sh t (EO W a).
Proof. intros Ha Ht H.
  pose proof (cfg_trust_cross cf t a Hcfg (edge_in_all _ _ Ht) (edge_in_all _ _ Ha)) as N3.
  pose proof (E_edge_one_dir t a Ht Ha) as Esame.
  destruct a as [[m c] dir], t as [[m2 c2] d2]; cbn [fst snd] in *.
  destruct (cfg_edge_dims cf m c dir Hcfg Ha) as (Hm & Hc & Hmc & _).
  destruct (cfg_edge_dims cf m2 c2 d2 Hcfg Ht) as (Hm2 & Hc2 & Hmc2 & _).
  destruct (Nat.eq_dec m2 m) as [->|N1]; [destruct (Nat.eq_dec c2 c) as [->|N2]|].
  - (* the same pair: the same trust, which the pass establishes *)
    rewrite (Esame eq_refl). apply E_pass_establishes. exact Ha.
  - (* another conditional feature *)
    apply edgeworth_one_keeps_trust_gen; shape_side.
  - (* another main feature *)
    apply edgeworth_one_keeps_trust_gen; shape_side. Qed.

Lemma approx_edgeworth_established W t : In t (l_edge cf) ->
  edgeworth_holds sh t (approx_edgeworth sh ud units (l_edge cf) W).
Proof. intros Ht. unfold approx_edgeworth.
  apply (fold_left_establishes EO (fun W t => edgeworth_holds sh t W) (fun _ _ => True) (fun t => In t (l_edge cf))).
  - intros W' p. apply E_pass_establishes.
  - intros W' p q Hp Hq _. apply E_pass_keeps; assumption.
  - apply Forall_forall. auto.
  - apply SS_total. auto.
  - exact Ht.
  - left; exact Ht. Qed.

Lemma edgeworth_one_monotone_kernel W t : In t (l_edge cf) ->
  monotone_kernel cf W -> monotone_kernel cf (EO W t).
Proof. destruct t as [[m c] dir]. intros Ht HW d Hd.
  destruct (cfg_edge_dims cf m c dir Hcfg Ht) as (Hm & Hc & Hmc & _).
  pose proof (cfg_mono_dims_lt cf d Hcfg Hd) as Hdu.
  specialize (HW d Hd).
  destruct (Nat.eq_dec d m) as [->|Ndm]; [|destruct (Nat.eq_dec d c) as [->|Ndc]].
  - apply edgeworth_one_mono_main; shape_side.
  - apply edgeworth_one_mono_cond; shape_side.
  - apply edgeworth_one_mono_other; shape_side. Qed.

Lemma approx_edgeworth_mono W :
  monotone_kernel cf W -> monotone_kernel cf (approx_edgeworth sh ud units (l_edge cf) W).
Proof. intros HW. unfold approx_edgeworth. apply fold_left_inv. exact HW.
  intros W' t Ht. apply edgeworth_one_monotone_kernel; exact Ht. Qed.

Lemma approx_edgeworth_fixed_gen W W' : (forall t, In t (l_edge cf) -> edgeworth_holds sh t W) ->
  teq sh W' W -> teq sh (approx_edgeworth sh ud units (l_edge cf) W') W.
Proof. intros HW Ht. apply (fold_left_inv _ (fun W1 => teq sh W1 W)). exact Ht. intros W1 [[m c] dir] Ha.
  destruct (cfg_edge_dims cf m c dir Hcfg Ha) as (Hm & Hc & Hmc & _).
  apply edgeworth_one_fixed_gen; try shape_side. apply HW; exact Ha. Qed.
Lemma approx_edgeworth_fixed W : (forall t, In t (l_edge cf) -> edgeworth_holds sh t W) ->
  teq sh (approx_edgeworth sh ud units (l_edge cf) W) W.
Proof. intros H. apply approx_edgeworth_fixed_gen. exact H. apply teq_refl. Qed.
End ListLevel.

(* the hypotheses are satisfiable: a 3x2x3 lattice with 2 units, one trust
   in each direction, a kernel monotone in dims 0 and 2 that violates both
   trusts; the pass changes it and (computed, not only proved) repairs it *)
Definition ex_cf : lat_cfg :=
  mkLat [3; 2; 3]%nat 2%nat [1; 0; 1]%Z [(0, 1, 1%Z); (2, 1, (-1)%Z)]%nat [] None None.
Definition ex_W : tens :=
  of_list (l_shape ex_cf)
    (map inject_Z [5; -7; 5; -4; 5; 5; 6; 1; 6; 1; 6; 1; 5; 0; 5; 0; 5; 5; 6; 1; 6; 1; 7; 1;
                   5; 0; 5; 1; 5; 5; 6; 8; 6; 8; 7; 8]%Z).
Definition ex_R : tens :=
  approx_edgeworth (l_shape ex_cf) (l_ud ex_cf) (l_units ex_cf) (l_edge ex_cf) ex_W.

Example ex_cfg_valid : cfg_valid ex_cf.
Proof. apply cfg_validb_ok. reflexivity. Qed.
Example ex_monotone : monotone_kernel ex_cf ex_W.
Proof. intros d [<-|[<-|[]]]; apply mono_alongb_ok; vm_compute; reflexivity. Qed.
Example ex_violates :
  map (fun t => edgeworth_holdsb (l_shape ex_cf) t ex_W) (l_edge ex_cf) = [false; false].
Proof. vm_compute. reflexivity. Qed.
Example ex_repaired :
  map (fun t => edgeworth_holdsb (l_shape ex_cf) t ex_R) (l_edge ex_cf) = [true; true]
  /\ map (fun d => mono_alongb (l_shape ex_cf) d ex_R) (mono_dims (l_monos ex_cf)) = [true; true]
  /\ teqb (l_shape ex_cf) ex_R ex_W = false.
Proof. vm_compute. repeat split. Qed.
Example ex_theorems :
  (forall t, In t (l_edge ex_cf) -> edgeworth_holds (l_shape ex_cf) t ex_R) /\ monotone_kernel ex_cf ex_R.
Proof. split. intros t Ht. apply approx_edgeworth_established. apply ex_cfg_valid. exact Ht.
  apply approx_edgeworth_mono. apply ex_cfg_valid. apply ex_monotone. Qed.
Example ex_fixed : teq (l_shape ex_cf) (approx_edgeworth (l_shape ex_cf) (l_ud ex_cf) (l_units ex_cf) (l_edge ex_cf) ex_R) ex_R.
Proof. apply approx_edgeworth_fixed. apply ex_cfg_valid. apply ex_theorems. Qed.

Print Assumptions edgeworth_one_established.
Print Assumptions edgeworth_one_mono_other.
Print Assumptions edgeworth_one_mono_main.
Print Assumptions edgeworth_one_mono_cond.
Print Assumptions edgeworth_one_keeps_trust.
Print Assumptions edgeworth_one_fixed.
Print Assumptions approx_edgeworth_established.
Print Assumptions approx_edgeworth_mono.
Print Assumptions approx_edgeworth_fixed.
