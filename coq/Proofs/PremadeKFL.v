(* Premade / composed models with KroneckerFactoredLattice members: lemmas for
   the KFL part of Props/C03.v.  Re-uses Proofs/KFL.v (property C07): the
   per-(unit, term) invariant [kgood] / [sgood] that the two KFL constraints
   establish ([run_good]) and from which monotonicity and bounds of a state
   follow ([units_monotone], [units_bounded]); and Proofs/Premade.v
   (calibrators, combiners, layer state machine). *)
From TFL Require Import Model.PremadeKFL Proofs.Premade.
From TFL Require Import Proofs.PWLEval Proofs.LatticeInterp.
From TFL Require Proofs.KFL.
Module PK := TFL.Proofs.KFL.
Open Scope Q_scope.

(* Exactly what C07_monotone and C07_bounded use of "both constraints have
   been applied": for every (unit, term) the weights have the layer's shape,
   satisfy [kgood] relative to the CURRENT scale of the term (sign-relative
   sortedness and non-negativity of the monotone factors, product of the
   per-dimension max-abs weights <= 1 with two bounds, non-negative weights
   with one bound) and the scale satisfies [sgood] (inside the half-width /
   of the bounded sign); and the bias of a bounded layer has its fixed value. *)
Definition kfl_feasible (c : MK.config) (dims : nat) (p : MK.params) : Prop :=
  Forall2 (Forall2 (fun s vs => PK.tshape (MK.c_size c) dims vs /\ PK.kgood c s vs /\ PK.sgood c s))
          (MK.p_scale p) (MK.p_kern p) /\
  (MK.has_bounds c = true -> Forall (fun b => b == MK.bias_init1 (MK.c_min c) (MK.c_max c)) (MK.p_bias p)).

(* C07's statement form: a constraint history containing both constraints,
   from ANY well-shaped parameters, ends in the feasible set *)
Lemma run_feasible root c dims steps p : PK.root_ok root -> PK.cfg_ok c dims -> PK.shaped c dims p ->
  PK.hasK steps = true -> PK.hasS steps = true ->
  (MK.has_bounds c = true -> Forall (fun b => b == MK.bias_init1 (MK.c_min c) (MK.c_max c)) (MK.p_bias p)) ->
  kfl_feasible c dims (MK.run root c steps p).
Proof. intros Hr Hc Hsh HK HS Hb. split.
  - pose proof (PK.run_good root Hr c dims steps p Hc Hsh) as H. rewrite HK, HS in H.
    eapply Forall2_impl2. exact H. intros s vs (H1 & H2 & H3). auto.
  - rewrite PK.run_bias. exact Hb. Qed.

(* the KFL layer as ONE variable of the layer state machine *)
Definition kfl_shape (d : kfl_desc) (raw : MK.params) : Prop := PK.shaped (kd_cfg d) (kd_dims d) raw.
Definition kfl_inv (d : kfl_desc) (p : MK.params) : Prop := kfl_feasible (kd_cfg d) (kd_dims d) p.
(* tf.pow facts, accepted configuration, every update applies BOTH constraints
   (in the order kd_steps), feasible initial parameters (KFL initializers: C10) *)
Definition kfl_desc_ok (d : kfl_desc) : Prop :=
  PK.root_ok (kd_root d) /\ PK.cfg_ok (kd_cfg d) (kd_dims d) /\
  PK.hasK (kd_steps d) = true /\ PK.hasS (kd_steps d) = true /\ kfl_inv d (kd_init d).

Lemma kfl_update_feasible d raw : kfl_desc_ok d -> kfl_shape d raw -> kfl_inv d (kfl_update d raw).
Proof. intros (Hr & Hc & HK & HS & Hi) Hsh. unfold kfl_inv, kfl_update. apply run_feasible; try assumption.
  - unfold kfl_fix_bias, kfl_shape, PK.shaped in *. destruct (MK.has_bounds (kd_cfg d)); exact Hsh.
  - intros Hb. unfold kfl_fix_bias. rewrite Hb. cbn [MK.p_bias]. destruct Hi as [_ Hi]. exact (Hi Hb). Qed.

Theorem reachable_feasible_kfl ds ops : (forall d, In d ds -> kfl_desc_ok d) ->
  ops_shaped MK.params kfl_desc kfl_shape ds ops ->
  forall s, In s (run (map kfl_var ds) ops) -> Forall2 kfl_inv ds s.
Proof. intros H Hops s Hs.
  apply (reachable_feasible MK.params kfl_desc kfl_var kfl_inv kfl_shape ds) with (ops := ops); try assumption.
  - intros d Hd. destruct (H d Hd) as (_ & _ & _ & _ & Hi). exact Hi.
  - intros d w Hd Hw. cbn [kfl_var v_con]. apply kfl_update_feasible. apply H; exact Hd. exact Hw. Qed.

(* the legacy (per-variable) discipline: in the layer's own variable order
   scale, bias, kernel (what model.trainable_variables, hence model.fit and
   optimizer.minimize, pass) it IS the update "assign everything, then scale constraint, then kernel
   constraint": the scale constraint neither reads nor writes the kernel *)
Lemma legacy_layer_order root c raw p :
  legacy_update root c [VScale; VBias; VKernel] raw p = MK.run root c [MK.StepS; MK.StepK] raw.
Proof. destruct raw, p. reflexivity. Qed.
(* bounded layer: the bias is not trainable, hence not in grads_and_vars *)
Lemma legacy_layer_order_fixed_bias root c raw p :
  legacy_update root c [VScale; VKernel] raw p =
  MK.run root c [MK.StepS; MK.StepK] (MK.mkPar (MK.p_kern raw) (MK.p_scale raw) (MK.p_bias p)).
Proof. destruct raw, p. reflexivity. Qed.

(* FINDING (reproduced on the implementation): with the kernel listed BEFORE the
   scale in grads_and_vars a legacy optimizer constrains the kernel against the
   OLD scale and then moves the scale; and ANY optimizer that is given only the
   scale variable never re-applies the kernel constraint.  A sign change of the
   scale then reverses the direction of the term: from a feasible state,
   lattice_sizes=2, monotonicities=[1], output_min=-1, output_max=1, one term,
   kernel [1/5, 3/10], scale 1 -> raw scale -1/2: f(0) = -1/10 > f(1) = -3/20. *)
Definition lk_cfg : MK.config := MK.mkCfg 2 (Some [true]) (Some (-(1))) (Some 1) false.
Definition lk_par : MK.params := MK.mkPar [[ [[1#5; 3#10]] ]] [[ 1 ]] [0].
Definition lk_raw : MK.params := MK.mkPar [[ [[1#5; 3#10]] ]] [[ -(1#2) ]] [0].

Lemma lk_cfg_ok : PK.cfg_ok lk_cfg 1.
Proof. apply PK.cfg_ok_one, PK.bounds_ok_two. lra. Qed.
Lemma lk_feasible : kfl_feasible lk_cfg 1 lk_par.
Proof. split.
  - cbn [lk_par MK.p_scale MK.p_kern]. constructor; [|constructor]. constructor; [|constructor].
    split; [|split].
    + split. reflexivity. constructor; [reflexivity|constructor].
    + split; [|split].
      * intros ms0 E Hc. cbn in E. injection E as <-. right. left. split. lra. split.
        -- constructor; [|constructor]. constructor; [lra|]. constructor; [lra|constructor].
        -- constructor; [|constructor]. intros _. cbn. split; [lra|exact I].
      * intros _ _. unfold PK.prodmax. vm_compute. discriminate.
      * intros Hne. cbn in Hne. congruence.
    + unfold PK.sgood. cbn. lra.
  - intros _. cbn. constructor; [|constructor]. vm_compute. reflexivity. Qed.

Lemma legacy_kernel_first_refuted : exists root c dims p raw ms xs ys,
  PK.root_ok root /\ PK.cfg_ok c dims /\ kfl_feasible c dims p /\ PK.shaped c dims raw /\
  MK.canon_monos (MK.c_monos c) = Some ms /\ PK.coords_le ms xs ys /\
  PK.in_range (MK.c_size c) xs /\ PK.in_range (MK.c_size c) ys /\
  MK.unit_out c (legacy_update root c [VKernel; VScale] raw p) 0 ys <
    MK.unit_out c (legacy_update root c [VKernel; VScale] raw p) 0 xs /\
  MK.unit_out c (legacy_update root c [VScale] raw p) 0 ys <
    MK.unit_out c (legacy_update root c [VScale] raw p) 0 xs.
Proof. exists (fun _ x => x), lk_cfg, 1%nat, lk_par, lk_raw, [true], [0], [1].
  split. exact PK.root_ok_id. split. exact lk_cfg_ok. split. exact lk_feasible.
  split. repeat constructor. split. reflexivity.
  split. cbn. split; [lra|exact I].
  split. apply PK.in_range2_one; lra.
  split. apply PK.in_range2_one; lra.
  split; vm_compute; reflexivity. Qed.

Lemma kfl_state_monotone c dims p ms u xs ys : PK.cfg_ok c dims -> kfl_feasible c dims p ->
  MK.canon_monos (MK.c_monos c) = Some ms -> PK.coords_le ms xs ys ->
  MK.c_clip c = true \/ (PK.in_range (MK.c_size c) xs /\ PK.in_range (MK.c_size c) ys) ->
  MK.unit_out c p u xs <= MK.unit_out c p u ys.
Proof. intros Hc [Hf _]. apply (PK.units_monotone c dims); [exact Hc|].
  eapply Forall2_impl2. exact Hf. intros s vs (H1 & H2 & _). auto. Qed.

Lemma has_bounds_false c : MK.has_bounds c = false -> MK.c_min c = None /\ MK.c_max c = None.
Proof. unfold MK.has_bounds. destruct (MK.c_min c), (MK.c_max c); cbn; intros H; try discriminate. auto. Qed.

Lemma kfl_state_bounded c dims p u xs : PK.cfg_ok c dims -> kfl_feasible c dims p ->
  (u < length (MK.p_scale p))%nat -> (u < length (MK.p_bias p))%nat ->
  length xs = dims -> MK.c_clip c = true \/ PK.in_range (MK.c_size c) xs ->
  (forall lo, MK.c_min c = Some lo -> lo <= MK.unit_out c p u xs) /\
  (forall hi, MK.c_max c = Some hi -> MK.unit_out c p u xs <= hi).
Proof. intros Hc [Hf Hb] _ Hub. destruct (MK.has_bounds c) eqn:B.
  - apply (PK.units_bounded c dims); [exact Hc| |].
    + eapply Forall2_impl2. exact Hf. intros s vs (H1 & (_ & H2) & H3). auto.
    + specialize (Hb eq_refl). rewrite Forall_forall in Hb. apply Hb, nth_In, Hub.
  - intros _ _. destruct (has_bounds_false c B) as [E1 E2]. split; intros b E; congruence. Qed.

(* wiring: every calibrator emits values inside [0, L-1], so the unclipped KFL
   layer is evaluated in range (where C07 speaks) *)
Lemma calibrate_in_range L dims cals x : (2 <= L)%nat -> length cals = dims -> length x = dims ->
  cals_in_range (repeat L dims) cals -> PK.in_range L (calibrate cals x).
Proof. intros HL Hc Hx Hr. unfold PK.in_range. apply Forall_forall. intros z Hz.
  destruct (In_nth _ _ 0 Hz) as [j [Hj Ej]]. rewrite calibrate_length in Hj by lia.
  rewrite nth_calibrate in Ej by lia. subst z.
  pose proof (Hr j ltac:(rewrite repeat_length; lia)) as Hrj. rewrite nth_repeat_lt in Hrj by lia.
  change (MK.qn L) with (qn L).
  assert (H0 : 0 <= 0 <= qn L - 1).
  { pose proof (qn_size_ge [L] 0 ltac:(repeat constructor; lia) ltac:(cbn; lia)) as H. cbn [nth] in H. exact H. }
  pose proof (calib_eval_range _ _ _ (nth j x 0) Hrj (or_introl H0)). tauto. Qed.

Lemma coords_le_steps : forall ms xs ys, length xs = length ms -> length ys = length ms ->
  (forall q, (q < length ms)%nat ->
     nth q ys 0 = nth q xs 0 \/ (nth q xs 0 <= nth q ys 0 /\ nth q ms false = true)) ->
  PK.coords_le ms xs ys.
Proof. induction ms as [|m ms IH]; intros [|x xs] [|y ys] Hx Hy H; cbn [length] in *; try discriminate. exact I.
  cbn [PK.coords_le]. split.
  - destruct (H 0%nat ltac:(lia)) as [E|[Hle E]]; cbn [nth] in *. rewrite E. destruct m; [lra|reflexivity].
    rewrite E. exact Hle.
  - apply IH; try lia. intros q Hq. exact (H (S q) ltac:(lia)). Qed.

Theorem cal_kfl_core c dims p ms cals oc i :
  PK.cfg_ok c dims -> kfl_feasible c dims p -> MK.canon_monos (MK.c_monos c) = Some ms -> nth i ms false = true ->
  length cals = dims -> (i < dims)%nat -> cals_in_range (repeat (MK.c_size c) dims) cals -> out_monotone oc ->
  follows (cal_kfl_eval c p cals oc) dims i (eq (nth i cals dcal)).
Proof. intros Hc Hf Em Hm Hlc Hi Hr Ho x v Hlx Hle. specialize (Hle _ eq_refl).
  unfold cal_kfl_eval. apply out_eval_mono. exact Ho.
  pose proof Hc as (HL & _ & _ & Hms). specialize (Hms ms Em).
  apply (kfl_state_monotone c dims p ms); try assumption.
  - rewrite calibrate_set_nth by lia. apply PK.coords_le_set_nth.
    + rewrite calibrate_length; lia.
    + exact Hm.
    + rewrite nth_calibrate by lia. exact Hle.
  - right. split; apply (calibrate_in_range _ dims); try assumption. rewrite set_nth_length. exact Hlx. Qed.

(* numeric feature: increasing / decreasing calibrator + monotone KFL dimension *)
Theorem compose_monotone_kfl c dims p ms cals oc x i v kps lens col miss :
  PK.cfg_ok c dims -> kfl_feasible c dims p -> MK.canon_monos (MK.c_monos c) = Some ms -> nth i ms false = true ->
  length cals = dims -> length x = dims -> (i < dims)%nat ->
  cals_in_range (repeat (MK.c_size c) dims) cals -> out_monotone oc ->
  nth i cals dcal = CPwl kps lens col miss ->
  regular_input (nth i cals dcal) (nth i x 0) -> regular_input (nth i cals dcal) v -> nth i x 0 <= v ->
  (outs_nondecr col -> cal_kfl_eval c p cals oc x <= cal_kfl_eval c p cals oc (set_nth i v x)) /\
  (outs_nonincr col -> cal_kfl_eval c p cals oc (set_nth i v x) <= cal_kfl_eval c p cals oc x).
Proof. intros Hc Hf Em Hm Hlc Hlx Hi Hr Ho E Rx Rv Hle. rewrite E in Rx, Rv.
  apply (follows_numeric _ dims i kps lens col miss); try assumption.
  - rewrite <- E. apply (cal_kfl_core c dims p ms); assumption.
  - pose proof (Hr i ltac:(rewrite repeat_length; exact Hi)) as H. rewrite E in H. destruct H as [[e Hseg] _].
    eapply segments_pos; eassumption. Qed.

(* categorical feature: pair (a, b) with value_a <= value_b + monotone KFL dimension *)
Theorem compose_monotone_kfl_categorical c dims p ms cals oc x i vals d a b :
  PK.cfg_ok c dims -> kfl_feasible c dims p -> MK.canon_monos (MK.c_monos c) = Some ms -> nth i ms false = true ->
  length cals = dims -> length x = dims -> (i < dims)%nat ->
  cals_in_range (repeat (MK.c_size c) dims) cals -> out_monotone oc ->
  nth i cals dcal = CCat vals d -> (a < length vals)%nat -> (b < length vals)%nat ->
  d <> Some (Z.of_nat a) -> d <> Some (Z.of_nat b) -> nth a vals 0 <= nth b vals 0 ->
  cal_kfl_eval c p cals oc (set_nth i (qn a) x) <= cal_kfl_eval c p cals oc (set_nth i (qn b) x).
Proof. intros Hc Hf Em Hm Hlc Hlx Hi Hr Ho E Ha Hb Da Db Hab.
  apply (follows_categorical _ dims i vals d); try assumption.
  rewrite <- E. apply (cal_kfl_core c dims p ms); assumption. Qed.

(* bounds: for ALL inputs (in range, out of range, missing, any bucket), since
   the calibrators put them into the range of the layer *)
Lemma calibrated_unit_bounded c dims p u cals z :
  PK.cfg_ok c dims -> kfl_feasible c dims p -> (u < length (MK.p_scale p))%nat -> (u < length (MK.p_bias p))%nat ->
  length cals = dims -> length z = dims -> cals_in_range (repeat (MK.c_size c) dims) cals ->
  (forall lo, MK.c_min c = Some lo -> lo <= MK.unit_out c p u (calibrate cals z)) /\
  (forall hi, MK.c_max c = Some hi -> MK.unit_out c p u (calibrate cals z) <= hi).
Proof. intros Hc Hf Hu Hub Hlc Hlz Hr. pose proof Hc as (HL & _).
  apply (kfl_state_bounded c dims); try assumption. rewrite calibrate_length; lia.
  right. apply (calibrate_in_range _ dims); assumption. Qed.

Theorem bounded_kfl c dims p cals oc lo hi x :
  PK.cfg_ok c dims -> kfl_feasible c dims p -> (0 < length (MK.p_scale p))%nat -> (0 < length (MK.p_bias p))%nat ->
  length cals = dims -> length x = dims -> cals_in_range (repeat (MK.c_size c) dims) cals ->
  (oc = None -> MK.c_min c = Some lo /\ MK.c_max c = Some hi) -> out_range oc lo hi ->
  lo <= cal_kfl_eval c p cals oc x <= hi.
Proof. intros Hc Hf Hu Hub Hlc Hlx Hr Hb Ho. unfold cal_kfl_eval. apply out_eval_range. exact Ho.
  intros E. destruct (Hb E) as [E1 E2].
  destruct (calibrated_unit_bounded c dims p 0 cals x Hc Hf Hu Hub Hlc Hlx Hr) as [B1 B2]. auto. Qed.

(* one configured bound, no output calibrator *)
Theorem bounded_kfl_one_sided c dims p cals x :
  PK.cfg_ok c dims -> kfl_feasible c dims p -> (0 < length (MK.p_scale p))%nat -> (0 < length (MK.p_bias p))%nat ->
  length cals = dims -> length x = dims -> cals_in_range (repeat (MK.c_size c) dims) cals ->
  (forall lo, MK.c_min c = Some lo -> lo <= cal_kfl_eval c p cals None x) /\
  (forall hi, MK.c_max c = Some hi -> cal_kfl_eval c p cals None x <= hi).
Proof. exact (calibrated_unit_bounded c dims p 0 cals x). Qed.

Lemma nth_reads cals idx (x : list Q) q : length cals = length idx -> (q < length idx)%nat ->
  nth q (calibrate cals (map (fun j => nth j x 0) idx)) 0 = calib_eval (nth q cals dcal) (nth (nth q idx 0%nat) x 0).
Proof. intros Hl Hq. rewrite nth_calibrate by (rewrite ?map_length; lia). f_equal.
  rewrite (nth_indep _ 0 (nth 0%nat x 0)) by (rewrite map_length; exact Hq).
  exact (map_nth (fun j => nth j x 0) idx 0%nat q). Qed.

(* every position at which the member reads feature i is a monotone dimension
   of the member, and its calibrator unit does not decrease from xi to v *)
Definition reads_monotone (idx : list nat) (cals : list calib) (monod : nat -> Prop) (i : nat) (xi v : Q) : Prop :=
  forall q, (q < length idx)%nat -> nth q idx 0%nat = i ->
    monod q /\ calib_eval (nth q cals dcal) xi <= calib_eval (nth q cals dcal) v.

(* one position of the member: its calibrated value stays, or moves up along a monotone dimension *)
Lemma reads_step idx cals monod (x : list Q) i v q : length cals = length idx -> (i < length x)%nat ->
  (q < length idx)%nat -> reads_monotone idx cals monod i (nth i x 0) v ->
  let z := calibrate cals (map (fun j => nth j x 0) idx) in
  let z' := calibrate cals (map (fun j => nth j (set_nth i v x) 0) idx) in
  nth q z' 0 = nth q z 0 \/ (nth q z 0 <= nth q z' 0 /\ monod q).
Proof. intros Hl Hi Hq Hm. cbv zeta. rewrite !nth_reads by assumption. rewrite nth_set_nth_Q by exact Hi.
  destruct (Nat.eqb_spec i (nth q idx 0%nat)) as [E|N]; [right|left; reflexivity].
  destruct (Hm q Hq (eq_sym E)) as [Hd Hle]. rewrite <- E. auto. Qed.

Lemma inr_nth sizes z q : inr sizes z -> (q < length sizes)%nat ->
  0 <= nth q z 0 /\ nth q z 0 <= qn (nth q sizes 0%nat) - 1.
Proof. intros H Hq. exact (Forall2_nth _ _ _ q 0%nat 0 H Hq). Qed.

(* a lattice moved along SEVERAL monotone coordinates: by induction on k for the
   points that differ from z in the first k coordinates only; such a point is
   one single-coordinate move away from one that differs in the first k-1 *)
Lemma lat_part_monotone_multi sc sizes K z z' : sizes_ok sizes -> wfK 1 K 0 -> inr sizes z -> inr sizes z' ->
  (forall q, (q < length sizes)%nat ->
     nth q z' 0 = nth q z 0 \/ (nth q z 0 <= nth q z' 0 /\ knondecr sizes (kern sizes K 0) q)) ->
  lat_part sc sizes K z <= lat_part sc sizes K z'.
Proof. intros Hs Hw Hz. pose proof (inr_length _ _ Hz) as Lz.
  assert (G : forall k, (k <= length sizes)%nat -> forall y, inr sizes y ->
            (forall q, (k <= q)%nat -> nth q y 0 = nth q z 0) ->
            (forall q, (q < length sizes)%nat ->
               nth q y 0 = nth q z 0 \/ (nth q z 0 <= nth q y 0 /\ knondecr sizes (kern sizes K 0) q)) ->
            lat_part sc sizes K z <= lat_part sc sizes K y).
  { induction k as [|k IH]; intros Hk y Hy Hag H; pose proof (inr_length _ _ Hy) as Ly.
    - assert (E : y = z) by (apply (nth_ext _ _ 0 0); [congruence|intros q _; apply Hag; lia]).
      rewrite E. lra.
    - destruct (inr_nth sizes z k Hz ltac:(lia)) as [A0 A1]. destruct (inr_nth sizes y k Hy ltac:(lia)) as [_ B1].
      set (y0 := set_nth k (nth k z 0) y).
      assert (Hy0 : inr sizes y0) by (apply inr_set_nth; assumption).
      assert (Ny0 : forall q, nth q y0 0 = if (k =? q)%nat then nth k z 0 else nth q y 0)
        by (intros q; apply nth_set_nth_Q; lia).
      assert (I : lat_part sc sizes K z <= lat_part sc sizes K y0).
      { apply IH; [lia|exact Hy0| |]; intros q Hq; rewrite Ny0; destruct (Nat.eqb_spec k q) as [<-|N]; auto.
        apply Hag; lia. }
      destruct (H k ltac:(lia)) as [E|[Hle HK]].
      + replace y with y0. exact I. unfold y0. rewrite <- E. apply set_nth_self.
      + pose proof (lat_part_monotone sc sizes K y k _ _ Hs Hw ltac:(lia) Hy A0 Hle B1 HK) as M.
        rewrite set_nth_self in M. unfold y0 in I. lra. }
  intros Hz' H. apply (G (length sizes) (le_n _) z' Hz'); [|exact H].
  intros q Hq. rewrite !nth_overflow by (rewrite ?(inr_length _ _ Hz'), ?Lz; exact Hq). reflexivity. Qed.

Definition kfl_mono_dim (c : MK.config) (q : nat) : Prop :=
  exists ms, MK.canon_monos (MK.c_monos c) = Some ms /\ nth q ms false = true.

(* a KFL unit moved along several coordinates, in the form of lat_part_monotone_multi *)
Lemma kfl_unit_monotone_multi c dims p u z z' : PK.cfg_ok c dims -> kfl_feasible c dims p ->
  length z = dims -> length z' = dims -> PK.in_range (MK.c_size c) z -> PK.in_range (MK.c_size c) z' ->
  (forall q, (q < dims)%nat -> nth q z' 0 = nth q z 0 \/ (nth q z 0 <= nth q z' 0 /\ kfl_mono_dim c q)) ->
  MK.unit_out c p u z <= MK.unit_out c p u z'.
Proof. intros Hc Hf Lz Lz' Rz Rz' Hstep. pose proof Hc as (_ & _ & _ & Hms).
  destruct (MK.canon_monos (MK.c_monos c)) as [ms|] eqn:Em.
  - specialize (Hms ms eq_refl). apply (kfl_state_monotone c dims p ms); auto.
    apply coords_le_steps; try lia. intros q Hq.
    destruct (Hstep q ltac:(lia)) as [E|[Hle (ms' & Em' & Hq')]]; [left; exact E|right].
    rewrite Em in Em'. injection Em' as <-. auto.
  - assert (E : z' = z).
    { apply (nth_ext _ _ 0 0). lia. intros q Hq.
      destruct (Hstep q ltac:(lia)) as [E|[_ (ms' & Em' & _)]]. exact E. rewrite Em in Em'. discriminate. }
    rewrite E. lra. Qed.

Definition member2_ok (m : member2) : Prop :=
  match m with
  | MLat m => member_ok m
  | MKfl idx cals c p u =>
      exists dims, PK.cfg_ok c dims /\ kfl_feasible c dims p /\ length idx = dims /\ length cals = dims /\
                   cals_in_range (repeat (MK.c_size c) dims) cals
  end.
(* position q of the member is a dimension along which its function is non-decreasing *)
Definition member2_mono_dim (m : member2) (q : nat) : Prop :=
  match m with
  | MLat m => knondecr (m_sizes m) (kern (m_sizes m) (m_K m) 0) q
  | MKfl _ _ c _ _ => kfl_mono_dim c q
  end.
Definition member2_monotone_in (m : member2) (i : nat) (xi v : Q) : Prop :=
  reads_monotone (member2_idx m) (member2_cals m) (member2_mono_dim m) i xi v.

Lemma member2_monotone m x i v : member2_ok m -> (i < length x)%nat -> member2_monotone_in m i (nth i x 0) v ->
  member2_eval m x <= member2_eval m (set_nth i v x).
Proof. destruct m as [m|idx cals c p u]; cbn [member2_ok member2_eval]; unfold member2_monotone_in;
    cbn [member2_idx member2_cals member2_mono_dim]; intros Hok Hi Hmono.
  - destruct Hok as (Hne & Hs & Hw & Hl & Hc & Hix & Hr).
    change (lat_part (m_sc m) (m_sizes m) (m_K m) (calibrate (m_cals m) (member_inputs m x)) <=
            lat_part (m_sc m) (m_sizes m) (m_K m) (calibrate (m_cals m) (member_inputs m (set_nth i v x)))).
    unfold member_inputs.
    apply lat_part_monotone_multi; try assumption.
    1,2: apply calibrate_inr; try assumption; rewrite map_length; exact Hix.
    intros q Hq. apply reads_step; try assumption; lia.
  - destruct Hok as (dims & Hc & Hf & Hix & Hlc & Hr). pose proof Hc as (HL & _).
    apply (kfl_unit_monotone_multi c dims); try assumption.
    1,2: rewrite calibrate_length; rewrite map_length; lia.
    1,2: apply (calibrate_in_range _ dims); try assumption; rewrite map_length; lia.
    intros q Hq. apply reads_step; try assumption; lia. Qed.

(* the one-position form of Proofs/Premade.v is an instance *)
Lemma member_monotone_in_embed m i xi v : member_monotone_in m i xi v -> member2_monotone_in (MLat m) i xi v.
Proof. unfold member2_monotone_in, reads_monotone. cbn [member2_idx member2_cals member2_mono_dim].
  intros [Hun|(p & Hp & Ep & Hq & HK & Hle)] q Hql Eq.
  - exfalso. apply Hun. rewrite <- Eq. apply nth_In. exact Hql.
  - destruct (Nat.eq_dec q p) as [->|N]. split; assumption. exfalso. exact (Hq q Hql N Eq). Qed.
Lemma ensemble2_of_ensemble ms c oc x : ensemble_eval ms c oc x = ensemble2_eval (map MLat ms) c oc x.
Proof. unfold ensemble_eval, ensemble2_eval. rewrite map_map. reflexivity. Qed.

Theorem ensemble2_monotone ms c oc x x' : comb_monotone c -> out_monotone oc ->
  (forall m, In m ms -> member2_eval m x <= member2_eval m x') ->
  ensemble2_eval ms c oc x <= ensemble2_eval ms c oc x'.
Proof. intros Hc Ho H. unfold ensemble2_eval. apply out_eval_mono. exact Ho. apply combine_mono. exact Hc.
  induction ms as [|m ms IH]; cbn [map]; constructor. apply H; left; reflexivity. apply IH. intros; apply H; right; assumption. Qed.

Theorem ensemble2_compose_monotone ms c oc x i v : comb_monotone c -> out_monotone oc -> (i < length x)%nat ->
  (forall m, In m ms -> member2_ok m /\ member2_monotone_in m i (nth i x 0) v) ->
  ensemble2_eval ms c oc x <= ensemble2_eval ms c oc (set_nth i v x).
Proof. intros Hc Ho Hi H. apply ensemble2_monotone; try assumption. intros m Hm. destruct (H m Hm) as [Hok Hmono].
  apply member2_monotone; assumption. Qed.

(* bounds of a member: kernel entries of a lattice, configured bounds of a KFL unit *)
Definition member2_in_bounds (m : member2) (lo hi : Q) : Prop :=
  match m with
  | MLat m => forall i, valid (m_sizes m) i -> lo <= kern (m_sizes m) (m_K m) 0 i <= hi
  | MKfl _ _ c p u => MK.c_min c = Some lo /\ MK.c_max c = Some hi /\
                      (u < length (MK.p_scale p))%nat /\ (u < length (MK.p_bias p))%nat
  end.

Lemma member2_bounds m x lo hi : member2_ok m -> member2_in_bounds m lo hi -> lo <= member2_eval m x <= hi.
Proof. destruct m as [m|idx cals c p u]; cbn [member2_ok member2_in_bounds member2_eval]; intros Hok Hb.
  - apply member_bounds; assumption.
  - destruct Hok as (dims & Hc & Hf & Hix & Hlc & Hr). destruct Hb as (E1 & E2 & Hu & Hub).
    destruct (calibrated_unit_bounded c dims p u cals (map (fun j => nth j x 0) idx) Hc Hf Hu Hub Hlc
                ltac:(rewrite map_length; exact Hix) Hr) as [B1 B2]. auto. Qed.

Theorem ensemble2_bounded ms c oc lo hi x :
  (oc = None -> comb_average_like c (length ms) /\
                forall m, In m ms -> member2_ok m /\ member2_in_bounds m lo hi) ->
  out_range oc lo hi -> lo <= ensemble2_eval ms c oc x <= hi.
Proof. intros H Ho. unfold ensemble2_eval. apply out_eval_range. exact Ho. intros E. destruct (H E) as [Hc Hm].
  apply Proofs.Premade.combine_range. rewrite map_length; exact Hc.
  intros v Hv. apply in_map_iff in Hv. destruct Hv as [m [<- Hin]]. destruct (Hm m Hin) as [Hok HK].
  apply member2_bounds; assumption. Qed.

(* one increasing feature, keypoints 0, 1 -> outputs 0, 1 (lattice size 2), into
   the feasible KFL unit lk_cfg / lk_par (bounds [-1, 1], scale 1, weights 1/5, 3/10) *)
Definition exk_cal : calib := CPwl [0] [1] [0; 1] None.
Example exk_in_range : cals_in_range (repeat (MK.c_size lk_cfg) 1) [exk_cal].
Proof. intros j Hj. cbn in Hj. destruct j as [|j]; [|lia]. cbn [nth repeat MK.c_size lk_cfg exk_cal calib_range].
  split. exists 1. cbn. lra. split. reflexivity. split; [|exact I].
  assert (E : qn 2 - 1 == 1) by reflexivity. unfold kp_outs. cbn [cumsum_incl In].
  intros y Hy. rewrite E. destruct Hy as [<-|[<-|[]]]; lra. Qed.
Example exk_outs_nondecr : outs_nondecr [0; 1].
Proof. intros j Hj. cbn in Hj. unfold kp_outs. destruct j as [|j]; cbn; try lra; lia. Qed.
Example exk_hypotheses :
  PK.cfg_ok lk_cfg 1 /\ kfl_feasible lk_cfg 1 lk_par /\ MK.canon_monos (MK.c_monos lk_cfg) = Some [true] /\
  nth 0 [true] false = true /\ cals_in_range (repeat (MK.c_size lk_cfg) 1) [exk_cal] /\ out_monotone None /\
  regular_input exk_cal (-(3)) /\ regular_input exk_cal (1#2) /\ outs_nondecr [0; 1] /\
  MK.c_min lk_cfg = Some (-(1)) /\ MK.c_max lk_cfg = Some 1.
Proof. split. exact lk_cfg_ok. split. exact lk_feasible. split. reflexivity. split. reflexivity.
  split. exact exk_in_range. split. exact I. split. exact I. split. exact I. split. exact exk_outs_nondecr.
  split; reflexivity. Qed.
Example exk_values :
  cal_kfl_eval lk_cfg lk_par [exk_cal] None [-(3)] == 1#5 /\
  cal_kfl_eval lk_cfg lk_par [exk_cal] None [1#2] == 1#4 /\
  cal_kfl_eval lk_cfg lk_par [exk_cal] None [7] == 3#10.
Proof. repeat split; vm_compute; reflexivity. Qed.

(* state machine: the layer driven by a hostile history (raw scale of the other
   sign, raw weights far outside), both constraint orders; the final state is
   feasible by reachable_feasible_kfl and, evaluated, still increasing *)
Definition exk_d (steps : list MK.step) : kfl_desc := mkKflD (fun _ x => x) lk_cfg 1 steps lk_par.
Definition exk_raw1 : MK.params := MK.mkPar [[ [[100; -(7)]] ]] [[ -(50) ]] [33].
Definition exk_raw2 : MK.params := MK.mkPar [[ [[-(3); 2]] ]] [[ 1#3 ]] [-(9)].
Definition exk_ops : list (op MK.params) :=
  [Update (fun _ => exk_raw1); Restore 0; Update (fun _ => exk_raw2); Init; Restore 1].
Example exk_desc_ok : kfl_desc_ok (exk_d [MK.StepS; MK.StepK]) /\ kfl_desc_ok (exk_d [MK.StepK; MK.StepS]).
Proof. split; (split; [exact PK.root_ok_id|split; [exact lk_cfg_ok|split; [reflexivity|split; [reflexivity|exact lk_feasible]]]]). Qed.
Example exk_history_shaped steps : ops_shaped MK.params kfl_desc kfl_shape [exk_d steps; exk_d steps] exk_ops.
Proof. intros delta H i d Hd.
  assert (E : d = exk_d steps) by (destruct i as [|[|[|i]]]; cbn in Hd; try discriminate; injection Hd as <-; reflexivity).
  subst d. cbn in H. destruct H as [H|[H|[H|[H|[H|[]]]]]]; try discriminate; inversion H; subst;
    repeat constructor. Qed.
Example exk_history_run :
  let s := nth 0 (final (map kfl_var [exk_d [MK.StepK; MK.StepS]]) [Update (fun _ => exk_raw1)]) lk_par in
  MK.unit_out lk_cfg s 0 [0] == -(1) /\ MK.unit_out lk_cfg s 0 [1] == 0.
Proof. split; vm_compute; reflexivity. Qed.
