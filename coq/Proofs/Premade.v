(* Premade / composed models: lemmas for Props/C03.v.
   Re-uses the single-layer theories:
     Proofs/PWLEval.v (C05), Proofs/LatticeInterp.v (C02), Proofs/LinearEval.v (C20)
   for the forward functions, and
     Proofs/LatticeFinalize.v (C01), Proofs/PWLProject.v (C04), Proofs/LinearProject.v (C06)
   for "constraint(anything) is feasible". *)
From Coq Require Import Permutation.
From TFL Require Import Model.Premade.
From TFL Require Import Proofs.PWLEval Proofs.LinearEval Proofs.LatticeInterp.
Open Scope Q_scope.

Lemma run_nonempty {val} (vs : list (var val)) ops : run vs ops <> [].
Proof. unfold run. generalize [init_state vs] (@nil_cons _ (init_state vs) []).
  induction ops as [|o ops IH]; intros h Hh; cbn [fold_left]. congruence. apply IH. destruct o; discriminate. Qed.

Lemma final_in_run {val} (vs : list (var val)) ops : In (final vs ops) (run vs ops).
Proof. unfold final. pose proof (run_nonempty vs ops). destruct (run vs ops); [congruence|left; reflexivity]. Qed.

Section MachineProofs.
  Variable val : Type.
  Variable D : Type.                    (* description of a variable (its layer configuration) *)
  Variable mk : D -> var val.           (* the variable it creates *)
  Variable Inv : D -> val -> Prop.      (* the per-variable invariant *)
  Variable Shape : D -> val -> Prop.    (* raw values an optimizer can produce for it (right shape) *)
  Variable ds : list D.
  Hypothesis Hinit : forall d, In d ds -> Inv d (v_init (mk d)).
  Hypothesis Hcon : forall d w, In d ds -> Shape d w -> Inv d (v_con (mk d) w).

  Definition vars : list (var val) := map mk ds.
  Definition state_ok (s : state val) : Prop := Forall2 Inv ds s.

  (* every Update hands every variable a raw value of its shape *)
  Definition delta_shaped (delta : nat -> val) : Prop :=
    forall i d, nth_error ds i = Some d -> Shape d (delta i).
  Definition ops_shaped (ops : list (op val)) : Prop :=
    forall delta, In (Update delta) ops -> delta_shaped delta.

  Lemma init_state_ok : state_ok (init_state vars).
  Proof. unfold state_ok, init_state, vars. revert Hinit. clear. induction ds as [|d l IH]; intros H; cbn.
    constructor. constructor. apply H; left; reflexivity. apply IH. intros; apply H; right; assumption. Qed.

  Lemma apply_update_ok delta : delta_shaped delta -> state_ok (apply_update vars delta).
  Proof. unfold state_ok, apply_update, vars, delta_shaped. revert Hcon. clear.
    intros Hcon Hs.
    assert (G : forall l i, (forall d, In d l -> In d ds) -> (forall j d, nth_error l j = Some d -> Shape d (delta (i + j)%nat)) ->
                Forall2 Inv l (apply_update_from val i (map mk l) delta)).
    { induction l as [|d l IH]; intros i Hin Hsh; cbn. constructor. constructor.
      - apply Hcon. apply Hin; left; reflexivity. specialize (Hsh 0%nat d eq_refl). rewrite Nat.add_0_r in Hsh. exact Hsh.
      - apply IH. intros; apply Hin; right; assumption. intros j d' Hj. specialize (Hsh (S j) d' Hj).
        replace (S i + j)%nat with (i + S j)%nat by lia. exact Hsh. }
    apply G. auto. intros j d Hj. cbn. apply Hs. exact Hj. Qed.

  Lemma step_ok hist o : (forall s, In s hist -> state_ok s) -> (forall delta, o = Update delta -> delta_shaped delta) ->
    forall s, In s (step vars hist o) -> state_ok s.
  Proof. intros Hh Ho s Hs. destruct o as [delta|k|]; cbn [step] in Hs; destruct Hs as [<-|Hs]; auto.
    - apply apply_update_ok. apply Ho. reflexivity.
    - (* Restore: the restored state is one of the history, or (empty history) the initial one *)
      destruct (Nat.lt_ge_cases k (length (rev hist))) as [Hk|Hk].
      + apply Hh. apply in_rev. apply nth_In. exact Hk.
      + rewrite nth_overflow by exact Hk. destruct hist as [|h hist]; cbn [hd]. apply init_state_ok. apply Hh. left; reflexivity.
    - apply init_state_ok. Qed.

  Lemma fold_ok : forall ops hist, (forall s, In s hist -> state_ok s) -> ops_shaped ops ->
    forall s, In s (fold_left (step vars) ops hist) -> state_ok s.
  Proof. induction ops as [|o ops IH]; intros hist Hh Hops s Hs; cbn [fold_left] in Hs. auto.
    apply (IH (step vars hist o)); [|intros delta Hd; apply Hops; right; exact Hd|exact Hs].
    intros s' Hs'. apply (step_ok hist o Hh); [|exact Hs']. intros delta ->. apply Hops. left; reflexivity. Qed.

  (* every state reached by any (well-shaped) op list satisfies every per-variable invariant *)
  Theorem reachable_feasible ops : ops_shaped ops -> forall s, In s (run vars ops) -> state_ok s.
  Proof. intros Hops s Hs. unfold run in Hs. apply (fold_ok ops [init_state vars]); try assumption.
    intros s' [<-|[]]. apply init_state_ok. Qed.

  Theorem final_feasible ops : ops_shaped ops -> state_ok (final vars ops).
  Proof. intros Hops. apply (reachable_feasible ops Hops). apply final_in_run. Qed.

  Lemma state_ok_nth s i d w : state_ok s -> nth_error ds i = Some d -> nth_error s i = Some w -> Inv d w.
  Proof. unfold state_ok. generalize ds. intros l H. revert i. induction H as [|d' w' l s' Hd H IH]; intros [|i] Hd' Hw; cbn in *; try discriminate.
    - injection Hd' as ->. injection Hw as ->. exact Hd.
    - eapply IH; eassumption. Qed.
End MachineProofs.

Definition dcal : calib := CCat [] None.

(* keypoint outputs (cumulative kernel sums) ordered, as C05 states it *)
Definition outs_nondecr (col : list Q) : Prop :=
  forall j, (S j < length col)%nat -> nth j (kp_outs col) 0 <= nth (S j) (kp_outs col) 0.
Definition outs_nonincr (col : list Q) : Prop :=
  forall j, (S j < length col)%nat -> nth (S j) (kp_outs col) 0 <= nth j (kp_outs col) 0.

(* a non-missing input: numeric and different from missing_input_value, or a
   real bucket index that is not default_input_value *)
Definition regular_input (c : calib) (x : Q) : Prop :=
  match c with
  | CPwl _ _ _ (Some (miv, _)) => ~ x == miv
  | CPwl _ _ _ None => True
  | CCat vals d => (0 <= cast_int x < Z.of_nat (length vals))%Z /\ d <> Some (cast_int x)
  end.
(* any input of the feature's domain: every number for a numeric feature, a
   bucket index or default_input_value for a categorical one *)
Definition domain_input (c : calib) (x : Q) : Prop :=
  match c with
  | CPwl _ _ _ _ => True
  | CCat vals d => (0 <= cast_int x < Z.of_nat (length vals))%Z \/ (d = Some (cast_int x) /\ vals <> [])
  end.

(* every value the calibrator can emit on its domain lies in [lo, hi]:
   keypoint outputs (C04_bounds) and the missing output (C04_missing_bounded),
   resp. every bucket value (C06_categorical_bounds) *)
Definition calib_range (c : calib) (lo hi : Q) : Prop :=
  match c with
  | CPwl kps lens col miss =>
      (exists e, segments kps lens e) /\ length col = S (length kps) /\
      (forall y, In y (kp_outs col) -> lo <= y <= hi) /\
      match miss with Some (_, mo) => lo <= mo <= hi | None => True end
  | CCat vals d => forall v, In v vals -> lo <= v <= hi
  end.

Lemma calib_eval_regular kps lens col miss x : regular_input (CPwl kps lens col miss) x ->
  calib_eval (CPwl kps lens col miss) x == pwl_fn kps lens col x.
Proof. destruct miss as [[miv mo]|]; cbn [regular_input calib_eval]; intros H; [|reflexivity].
  destruct (Qeq_bool x miv) eqn:E. apply Qeq_bool_iff in E. contradiction. lra. Qed.

Lemma calib_eval_missing kps lens col miv mo x : x == miv ->
  calib_eval (CPwl kps lens col (Some (miv, mo))) x == mo.
Proof. intros H. cbn [calib_eval]. destruct (Qeq_bool x miv) eqn:E. lra.
  apply Qeq_bool_neq in E. contradiction. Qed.

Lemma cat_eval_dot vals d x :
  calib_eval (CCat vals d) x =
  PWLEval.dot (one_hot (length vals) (replace_default (cat_layer_of vals d) (cast_int x))) vals.
Proof. cbn [calib_eval]. rewrite (cat_row_unit (cat_layer_of vals d) [x] 0); [|cbn; lia|cbn; lia|reflexivity].
  unfold cat_index, col_of. cbn [length Nat.eqb nth cat_layer_of c_kernel c_buckets].
  rewrite column0_singletons. reflexivity. Qed.

Lemma cat_eval_lookup vals d x : regular_input (CCat vals d) x ->
  calib_eval (CCat vals d) x == nth (Z.to_nat (cast_int x)) vals 0.
Proof. intros [Hr Hd]. rewrite cat_eval_dot. unfold replace_default. cbn [c_default cat_layer_of c_buckets].
  destruct d as [d|].
  - destruct (cast_int x =? d)%Z eqn:E; [apply Z.eqb_eq in E; subst; congruence|]. apply dot_one_hot_in. exact Hr.
  - apply dot_one_hot_in. exact Hr. Qed.

Lemma cat_eval_default vals d x : d = Some (cast_int x) -> vals <> [] ->
  calib_eval (CCat vals d) x == nth (length vals - 1) vals 0.
Proof. intros Hd Hne. rewrite cat_eval_dot. unfold replace_default. cbn [c_default cat_layer_of c_buckets]. rewrite Hd.
  rewrite Z.eqb_refl. assert (0 < length vals)%nat by (destruct vals; [congruence|cbn; lia]).
  rewrite dot_one_hot_in by lia. replace (Z.to_nat (Z.of_nat (length vals) - 1)) with (length vals - 1)%nat by lia. reflexivity. Qed.

(* whatever the input: a bucket value, or 0 (index outside the buckets) *)
Lemma cat_eval_cases vals d x :
  calib_eval (CCat vals d) x == 0 \/ exists j, (j < length vals)%nat /\ calib_eval (CCat vals d) x == nth j vals 0.
Proof. rewrite cat_eval_dot. set (i := replace_default _ _).
  destruct (Z_lt_le_dec i 0) as [H|H]; [left; apply dot_one_hot_out; lia|].
  destruct (Z_lt_le_dec i (Z.of_nat (length vals))) as [H'|H']; [|left; apply dot_one_hot_out; lia].
  right. exists (Z.to_nat i). split. lia. apply dot_one_hot_in. lia. Qed.

Lemma cat_eval_domain vals d x : domain_input (CCat vals d) x ->
  exists j, (j < length vals)%nat /\ calib_eval (CCat vals d) x == nth j vals 0.
Proof. intros [Hr|[Hd Hne]].
  - destruct d as [dv|].
    + destruct (Z.eq_dec (cast_int x) dv) as [E|E].
      * subst dv. assert (0 < length vals)%nat by lia. exists (length vals - 1)%nat. split. lia.
        apply cat_eval_default. reflexivity. destruct vals; [cbn in *; lia|discriminate].
      * exists (Z.to_nat (cast_int x)). split. lia. apply cat_eval_lookup. split. exact Hr. congruence.
    + exists (Z.to_nat (cast_int x)). split. lia. apply cat_eval_lookup. split. exact Hr. discriminate.
  - assert (0 < length vals)%nat by (destruct vals; [congruence|cbn; lia]).
    exists (length vals - 1)%nat. split. lia. apply cat_eval_default; assumption. Qed.

(* the calibrator's value is inside its configured range, for EVERY input when
   0 is in the range (lattice inputs: [0, size-1]), else for every input of
   the feature's domain; missing values included *)
Lemma calib_eval_range c lo hi x : calib_range c lo hi -> (lo <= 0 <= hi \/ domain_input c x) ->
  lo <= calib_eval c x <= hi.
Proof. destruct c as [kps lens col miss|vals d]; cbn [calib_range]; intros H Hx.
  - destruct H as [[e Hs] [Hl [Hy Hm]]].
    pose proof (pwl_bounded_function kps lens e col lo hi x Hs Hl Hy) as Hb.
    destruct miss as [[miv mo]|]; cbn [calib_eval]; [|exact Hb].
    destruct (Qeq_bool x miv); lra.
  - destruct Hx as [H0|Hd].
    + destruct (cat_eval_cases vals d x) as [E|[j [Hj E]]]; rewrite E. exact H0. apply H. apply nth_In. exact Hj.
    + destruct (cat_eval_domain vals d x Hd) as [j [Hj E]]. rewrite E. apply H. apply nth_In. exact Hj. Qed.

(* monotone calibrator: ordered keypoint outputs give an ordered function on
   every pair of non-missing inputs (C05_monotone_function) *)
Lemma calib_pwl_monotone kps lens col miss x y : Forall (fun l => 0 < l) lens ->
  regular_input (CPwl kps lens col miss) x -> regular_input (CPwl kps lens col miss) y -> x <= y ->
  (outs_nondecr col -> calib_eval (CPwl kps lens col miss) x <= calib_eval (CPwl kps lens col miss) y) /\
  (outs_nonincr col -> calib_eval (CPwl kps lens col miss) y <= calib_eval (CPwl kps lens col miss) x).
Proof. intros Hl Rx Ry Hxy. rewrite !calib_eval_regular by assumption. split; intros Hs.
  - exact (pwl_monotone_function kps lens col x y Hl Hs Hxy).
  - exact (pwl_antitone_function kps lens col x y Hl Hs Hxy). Qed.

(* categorical pair (a, b): value_a <= value_b orders the calibrator on the two buckets *)
Lemma calib_cat_pair vals d a b : (a < length vals)%nat -> (b < length vals)%nat ->
  d <> Some (Z.of_nat a) -> d <> Some (Z.of_nat b) -> nth a vals 0 <= nth b vals 0 ->
  calib_eval (CCat vals d) (qn a) <= calib_eval (CCat vals d) (qn b).
Proof. intros Ha Hb Da Db Hab. unfold qn.
  rewrite !cat_eval_lookup by (cbn [regular_input]; rewrite cast_int_Z; split; [lia|assumption]).
  rewrite !cast_int_Z, !Nat2Z.id. exact Hab. Qed.

Definition out_monotone (oc : out_calib) : Prop :=
  match oc with Some (kps, lens, col) => Forall (fun l => 0 < l) lens /\ outs_nondecr col | None => True end.
Definition out_range (oc : out_calib) (lo hi : Q) : Prop :=
  match oc with
  | Some (kps, lens, col) => (exists e, segments kps lens e) /\ length col = S (length kps) /\
                             (forall y, In y (kp_outs col) -> lo <= y <= hi)
  | None => True
  end.

Lemma out_eval_mono oc y y' : out_monotone oc -> y <= y' -> out_eval oc y <= out_eval oc y'.
Proof. destruct oc as [[[kps lens] col]|]; cbn [out_monotone out_eval]; [|auto].
  intros [Hl Hs] Hy. exact (pwl_monotone_function kps lens col y y' Hl Hs Hy). Qed.

Lemma out_eval_range oc lo hi y : out_range oc lo hi -> (oc = None -> lo <= y <= hi) -> lo <= out_eval oc y <= hi.
Proof. destruct oc as [[[kps lens] col]|]; cbn [out_range out_eval].
  - intros [[e Hs] [Hl Hy]] _. exact (pwl_bounded_function kps lens e col lo hi y Hs Hl Hy).
  - intros _ H. apply H. reflexivity. Qed.

Lemma calibrate_length cals x : length cals = length x -> length (calibrate cals x) = length x.
Proof. intros H. unfold calibrate. rewrite map2_length. lia. Qed.

Lemma nth_calibrate cals x j : (j < length cals)%nat -> (j < length x)%nat ->
  nth j (calibrate cals x) 0 = calib_eval (nth j cals dcal) (nth j x 0).
Proof. intros H1 H2. unfold calibrate. exact (nth_map2 calib_eval cals x j dcal 0 0 H1 H2). Qed.

Lemma calibrate_set_nth : forall cals x i v, length cals = length x ->
  calibrate cals (set_nth i v x) = set_nth i (calib_eval (nth i cals dcal) v) (calibrate cals x).
Proof. unfold calibrate. induction cals as [|c cals IH]; intros [|a x] i v Hl; try discriminate.
  - destruct i; reflexivity.
  - destruct i as [|i]; cbn [set_nth map2 nth]. reflexivity. f_equal. apply IH. cbn in Hl; lia. Qed.

(* A model function that follows the calibrated value of input i:
   F (on inputs of length n) does not decrease when input i moves so that none of the calibrator
   units R through which F reads it decreases.  The per-feature statements of every model kind are
   instances: an increasing calibrator; a decreasing one (put coordinate i back); an ordered bucket
   pair (move coordinate i twice). *)
Definition follows (F : list Q -> Q) (n i : nat) (R : calib -> Prop) : Prop :=
  forall x v, length x = n -> (forall c, R c -> calib_eval c (nth i x 0) <= calib_eval c v) -> F x <= F (set_nth i v x).

Lemma follows_back F n i R x v : follows F n i R -> (i < n)%nat -> length x = n ->
  (forall c, R c -> calib_eval c v <= calib_eval c (nth i x 0)) -> F (set_nth i v x) <= F x.
Proof. intros H Hi Hx Hle. pose proof (H (set_nth i v x) (nth i x 0)) as G.
  rewrite set_nth_twice, set_nth_self, set_nth_length, nth_set_nth_same in G by lia. auto. Qed.

Lemma follows_between F n i R x a b : follows F n i R -> (i < n)%nat -> length x = n ->
  (forall c, R c -> calib_eval c a <= calib_eval c b) -> F (set_nth i a x) <= F (set_nth i b x).
Proof. intros H Hi Hx Hle. pose proof (H (set_nth i a x) b) as G.
  rewrite set_nth_twice, set_nth_length, nth_set_nth_same in G by lia. auto. Qed.

Lemma follows_numeric F n i kps lens col miss x v : follows F n i (eq (CPwl kps lens col miss)) ->
  (i < n)%nat -> length x = n -> Forall (fun l => 0 < l) lens ->
  regular_input (CPwl kps lens col miss) (nth i x 0) -> regular_input (CPwl kps lens col miss) v -> nth i x 0 <= v ->
  (outs_nondecr col -> F x <= F (set_nth i v x)) /\ (outs_nonincr col -> F (set_nth i v x) <= F x).
Proof. intros H Hi Hx Hl Rx Rv Hle. destruct (calib_pwl_monotone kps lens col miss _ _ Hl Rx Rv Hle) as [Inc Dec].
  split; intros Hd.
  - apply H. exact Hx. intros c <-. exact (Inc Hd).
  - apply (follows_back F n i _ x v H Hi Hx). intros c <-. exact (Dec Hd). Qed.

Lemma follows_categorical F n i vals d a b x : follows F n i (eq (CCat vals d)) -> (i < n)%nat -> length x = n ->
  (a < length vals)%nat -> (b < length vals)%nat -> d <> Some (Z.of_nat a) -> d <> Some (Z.of_nat b) ->
  nth a vals 0 <= nth b vals 0 -> F (set_nth i (qn a) x) <= F (set_nth i (qn b) x).
Proof. intros H Hi Hx Ha Hb Da Db Hab. apply (follows_between F n i _ x _ _ H Hi Hx). intros c <-.
  apply calib_cat_pair; assumption. Qed.

(* wiring: calibrator j emits values inside the domain [0, size_j - 1] of lattice
   dimension j, so the unclipped lattice never extrapolates *)
Definition cals_in_range (sizes : list nat) (cals : list calib) : Prop :=
  forall j, (j < length sizes)%nat -> calib_range (nth j cals dcal) 0 (qn (nth j sizes 0%nat) - 1).

Lemma qn_size_ge sizes j : sizes_ok sizes -> (j < length sizes)%nat -> 0 <= 0 <= qn (nth j sizes 0%nat) - 1.
Proof. intros Hs Hj. assert (2 <= nth j sizes 0)%nat.
  { unfold sizes_ok in Hs. rewrite Forall_forall in Hs. apply Hs. apply nth_In. exact Hj. }
  unfold qn. assert (2 <= Z.of_nat (nth j sizes 0%nat))%Z by lia.
  assert (inject_Z 2 <= inject_Z (Z.of_nat (nth j sizes 0%nat))) by (rewrite <- Zle_Qle; assumption).
  assert (inject_Z 2 == 2) by reflexivity. lra. Qed.

Lemma calibrate_inr : forall sizes cals x, sizes_ok sizes -> length cals = length sizes -> length x = length sizes ->
  cals_in_range sizes cals -> inr sizes (calibrate cals x).
Proof. unfold inr, calibrate. induction sizes as [|s ss IH]; intros cals x Hs Hc Hx Hr.
  - destruct cals; [|discriminate]. constructor.
  - destruct cals as [|c cals]; [discriminate|]. destruct x as [|a x]; [discriminate|]. cbn [map2]. constructor.
    + pose proof (Hr 0%nat ltac:(cbn; lia)) as H0. cbn [nth] in H0.
      pose proof (calib_eval_range c 0 (qn s - 1) a H0 (or_introl (qn_size_ge (s :: ss) 0 Hs ltac:(cbn; lia)))). tauto.
    + apply IH. inversion Hs; assumption. cbn in Hc; lia. cbn in Hx; lia.
      intros j Hj. exact (Hr (S j) ltac:(cbn; lia)). Qed.

(* the lattice part of the model: interpolation of the calibrated point *)
Definition lat_part (sc : scheme) (sizes : list nat) (K : list (list Q)) (z : list Q) : Q :=
  LatticeInterp.unit_fn sc false false 1 sizes K 0 z.

Lemma lat_part_monotone sc sizes K z i a b : sizes_ok sizes -> wfK 1 K 0 -> (i < length sizes)%nat ->
  inr sizes z -> 0 <= a -> a <= b -> b <= qn (nth i sizes 0%nat) - 1 ->
  knondecr sizes (kern sizes K 0) i ->
  lat_part sc sizes K (set_nth i a z) <= lat_part sc sizes K (set_nth i b z).
Proof. intros Hs Hw Hi Hz Ha Hab Hb HK. unfold lat_part.
  assert (Ra : inr sizes (set_nth i a z)) by (apply inr_set_nth; try assumption; lra).
  assert (Rb : inr sizes (set_nth i b z)) by (apply inr_set_nth; try assumption; lra).
  pose proof (inr_length _ _ Hz) as Lz.
  assert (Oa : ok_input false sizes (set_nth i a z)) by (split; [rewrite set_nth_length; exact Lz|right; exact Ra]).
  assert (Ob : ok_input false sizes (set_nth i b (set_nth i a z))).
  { rewrite set_nth_twice. split; [rewrite set_nth_length; exact Lz|right; exact Rb]. }
  assert (Hle : nth i (set_nth i a z) 0 <= b) by (rewrite nth_set_nth_same by lia; exact Hab).
  rewrite <- (set_nth_twice z i a b).
  destruct sc.
  - exact (L_hyper_monotone false false 1 sizes K 0 _ i b Hs Hi Oa Ob Hle HK).
  - exact (L_simplex_monotone false false 1 sizes K 0 _ i b Hs Hw Hi Oa Ob Hle HK). Qed.

Lemma column_nonempty (K : list (list Q)) sizes u : length K = prodn sizes -> sizes_ok sizes -> column u K <> [].
Proof. intros Hl Hs. assert (0 < prodn sizes)%nat.
  { clear Hl. induction Hs as [|s ss H2 Hs IH]; cbn [prodn fold_right]. lia. fold (prodn ss). nia. }
  destruct K; [cbn in Hl; lia|discriminate]. Qed.

(* bounds from the kernel TENSOR (the form C01_bounds delivers) ... *)
Lemma lat_part_bounds sc sizes K z lo hi : sizes <> [] -> sizes_ok sizes -> wfK 1 K 0 ->
  inr sizes z -> (forall i, valid sizes i -> lo <= kern sizes K 0 i <= hi) -> lo <= lat_part sc sizes K z <= hi.
Proof. intros Hne Hs Hw Hz HK. unfold lat_part.
  assert (Ok : ok_input false sizes z) by (split; [apply inr_length; exact Hz|right; exact Hz]).
  assert (HK' : forall i, valid sizes i -> lo <= kern sizes K 0 i /\ kern sizes K 0 i <= hi) by (intros i Hi; pose proof (HK i Hi); tauto).
  destruct sc.
  - rewrite unit_fn_hyper by (try assumption; apply Ok).
    destruct (hyper_bounds false false sizes (kern sizes K 0) z lo hi Hs Ok HK'). tauto.
  - rewrite unit_fn_simplex.
    destruct (simplex_bounds false sizes _ _ z lo hi Hs (gather_gk 1 sizes K 0 Hw) Ok HK'). tauto. Qed.

(* ... or from the entries of the kernel matrix column *)
Lemma column_bounds_kern sizes (K : list (list Q)) u lo hi : length K = prodn sizes ->
  (forall v, In v (column u K) -> lo <= v <= hi) -> forall i, valid sizes i -> lo <= kern sizes K u i <= hi.
Proof. intros Hl H i Hi. apply H. apply kern_in_column; assumption. Qed.

(* the composition theorem, in its general form: whenever the calibrated
   value of feature i does not decrease, the model output does not decrease *)
Theorem cal_lattice_core sc sizes K cals oc i :
  sizes_ok sizes -> wfK 1 K 0 -> length cals = length sizes -> (i < length sizes)%nat ->
  cals_in_range sizes cals -> knondecr sizes (kern sizes K 0) i -> out_monotone oc ->
  follows (cal_lattice_eval sc sizes K cals oc) (length sizes) i (eq (nth i cals dcal)).
Proof. intros Hs Hw Hc Hi Hr HK Ho x v Hx Hle. specialize (Hle _ eq_refl).
  unfold cal_lattice_eval. apply out_eval_mono. exact Ho.
  rewrite calibrate_set_nth by lia. pose proof (calibrate_inr sizes cals x Hs Hc Hx Hr) as Hz.
  rewrite <- (set_nth_self (calibrate cals x) i) at 1.
  rewrite nth_calibrate by lia.
  pose proof (Hr i Hi) as Hri. pose proof (qn_size_ge sizes i Hs Hi) as H0.
  pose proof (calib_eval_range _ _ _ (nth i x 0) Hri (or_introl H0)).
  pose proof (calib_eval_range _ _ _ v Hri (or_introl H0)).
  apply (lat_part_monotone sc sizes K (calibrate cals x) i); try assumption; tauto. Qed.

(* numeric feature: increasing / decreasing calibrator + non-decreasing lattice dimension *)
Theorem compose_monotone_lattice sc sizes K cals oc x i v kps lens col miss :
  sizes_ok sizes -> wfK 1 K 0 -> length cals = length sizes -> length x = length sizes -> (i < length sizes)%nat ->
  cals_in_range sizes cals -> knondecr sizes (kern sizes K 0) i -> out_monotone oc ->
  nth i cals dcal = CPwl kps lens col miss ->
  regular_input (nth i cals dcal) (nth i x 0) -> regular_input (nth i cals dcal) v -> nth i x 0 <= v ->
  (outs_nondecr col -> cal_lattice_eval sc sizes K cals oc x <= cal_lattice_eval sc sizes K cals oc (set_nth i v x)) /\
  (outs_nonincr col -> cal_lattice_eval sc sizes K cals oc (set_nth i v x) <= cal_lattice_eval sc sizes K cals oc x).
Proof. intros Hs Hw Hc Hx Hi Hr HK Ho E Rx Rv Hle. rewrite E in Rx, Rv.
  apply (follows_numeric _ (length sizes) i kps lens col miss); try assumption.
  - rewrite <- E. apply cal_lattice_core; assumption.
  - pose proof (Hr i Hi) as H. rewrite E in H. destruct H as [[e Hseg] _]. eapply segments_pos; eassumption. Qed.

(* categorical feature: pair (a, b) with value_a <= value_b and a non-decreasing lattice dimension *)
Theorem compose_monotone_lattice_categorical sc sizes K cals oc x i vals d a b :
  sizes_ok sizes -> wfK 1 K 0 -> length cals = length sizes -> length x = length sizes -> (i < length sizes)%nat ->
  cals_in_range sizes cals -> knondecr sizes (kern sizes K 0) i -> out_monotone oc ->
  nth i cals dcal = CCat vals d -> (a < length vals)%nat -> (b < length vals)%nat ->
  d <> Some (Z.of_nat a) -> d <> Some (Z.of_nat b) -> nth a vals 0 <= nth b vals 0 ->
  cal_lattice_eval sc sizes K cals oc (set_nth i (qn a) x) <= cal_lattice_eval sc sizes K cals oc (set_nth i (qn b) x).
Proof. intros Hs Hw Hc Hx Hi Hr HK Ho E Ha Hb Da Db Hab.
  apply (follows_categorical _ (length sizes) i vals d); try assumption.
  rewrite <- E. apply cal_lattice_core; assumption. Qed.

(* bounds: for ALL inputs (in range, out of range, missing, any bucket) *)
Theorem bounded_lattice sc sizes K cals oc lo hi x :
  sizes <> [] -> sizes_ok sizes -> wfK 1 K 0 ->
  length cals = length sizes -> length x = length sizes -> cals_in_range sizes cals ->
  (oc = None -> forall i, valid sizes i -> lo <= kern sizes K 0 i <= hi) -> out_range oc lo hi ->
  lo <= cal_lattice_eval sc sizes K cals oc x <= hi.
Proof. intros Hne Hs Hw Hc Hx Hr HK Ho. unfold cal_lattice_eval. apply out_eval_range. exact Ho.
  intros E. apply lat_part_bounds; try assumption. apply calibrate_inr; assumption. apply HK. exact E. Qed.

Lemma nth_no_bounds k i : nth i (no_bounds k) nob = (None, None).
Proof. unfold no_bounds, nob. exact (map_nth (fun _ : Q => (@None Q, @None Q)) k 0 i). Qed.
Lemma no_bounds_length k : length (no_bounds k) = length k.
Proof. unfold no_bounds. apply map_length. Qed.

Lemma lin_nb_set k b z i v : (i < length k)%nat -> length z = length k ->
  lin_unit k b (no_bounds k) (set_nth i v z) - lin_unit k b (no_bounds k) z == nth i k 0 * (v - nth i z 0).
Proof. intros Hi Hz. unfold lin_unit.
  pose proof (lin_sum_set k (no_bounds k) z i v Hi ltac:(rewrite no_bounds_length; exact Hi) ltac:(lia)) as H.
  rewrite nth_no_bounds in H. cbn [fst snd clip_opt clip_lo clip_hi] in H. lra. Qed.

Theorem cal_linear_core k b cals oc i :
  length cals = length k -> (i < length k)%nat -> 0 <= nth i k 0 -> out_monotone oc ->
  follows (cal_linear_eval k b cals oc) (length k) i (eq (nth i cals dcal)).
Proof. intros Hc Hi Hk Ho x v Hx Hle. specialize (Hle _ eq_refl).
  unfold cal_linear_eval. apply out_eval_mono. exact Ho.
  rewrite calibrate_set_nth by lia.
  pose proof (lin_nb_set k b (calibrate cals x) i (calib_eval (nth i cals dcal) v) Hi
                ltac:(rewrite calibrate_length; lia)) as H.
  rewrite nth_calibrate in H by lia.
  pose proof (qmul_nonneg (nth i k 0) (calib_eval (nth i cals dcal) v - calib_eval (nth i cals dcal) (nth i x 0)) Hk ltac:(lra)).
  lra. Qed.

Theorem compose_monotone_linear k b cals oc x i v kps lens col miss :
  length cals = length k -> length x = length k -> (i < length k)%nat ->
  0 <= nth i k 0 -> out_monotone oc ->
  nth i cals dcal = CPwl kps lens col miss -> Forall (fun l => 0 < l) lens ->
  regular_input (nth i cals dcal) (nth i x 0) -> regular_input (nth i cals dcal) v -> nth i x 0 <= v ->
  (outs_nondecr col -> cal_linear_eval k b cals oc x <= cal_linear_eval k b cals oc (set_nth i v x)) /\
  (outs_nonincr col -> cal_linear_eval k b cals oc (set_nth i v x) <= cal_linear_eval k b cals oc x).
Proof. intros Hc Hx Hi Hk Ho E Hl Rx Rv Hle. rewrite E in Rx, Rv.
  apply (follows_numeric _ (length k) i kps lens col miss); try assumption.
  rewrite <- E. apply cal_linear_core; assumption. Qed.

Theorem compose_monotone_linear_categorical k b cals oc x i vals d a c :
  length cals = length k -> length x = length k -> (i < length k)%nat ->
  0 <= nth i k 0 -> out_monotone oc ->
  nth i cals dcal = CCat vals d -> (a < length vals)%nat -> (c < length vals)%nat ->
  d <> Some (Z.of_nat a) -> d <> Some (Z.of_nat c) -> nth a vals 0 <= nth c vals 0 ->
  cal_linear_eval k b cals oc (set_nth i (qn a) x) <= cal_linear_eval k b cals oc (set_nth i (qn c) x).
Proof. intros Hc Hx Hi Hk Ho E Ha Hb Da Db Hab.
  apply (follows_categorical _ (length k) i vals d); try assumption.
  rewrite <- E. apply cal_linear_core; assumption. Qed.

Lemma clipped_no_bounds : forall k z, length z = length k -> clipped (no_bounds k) z = z.
Proof. induction k as [|q k IH]; intros [|a z] H; try discriminate. reflexivity.
  cbn [no_bounds map clipped clip_opt clip_lo clip_hi]. f_equal. apply IH. cbn in H; lia. Qed.

(* weighted average of bounded calibrators (no bias): weights non-negative AND
   summing to one.  The second condition is NOT guaranteed after training: see
   refuted_weighted_average_zero below (known finding D32). *)
Theorem bounded_linear k cals oc lo hi x :
  length cals = length k -> length x = length k ->
  (oc = None -> (forall q, In q k -> 0 <= q) /\ qsum k == 1 /\
     forall j, (j < length k)%nat -> calib_range (nth j cals dcal) lo hi /\
                                     (lo <= 0 <= hi \/ domain_input (nth j cals dcal) (nth j x 0))) ->
  out_range oc lo hi -> lo <= cal_linear_eval k 0 cals oc x <= hi.
Proof. intros Hc Hx H Ho. unfold cal_linear_eval. apply out_eval_range. exact Ho. intros E.
  destruct (H E) as [Hk [Hs Hr]].
  pose proof (lin_weighted_average k (no_bounds k) (calibrate cals x) lo hi (no_bounds_length k)
                ltac:(rewrite calibrate_length; lia) Hk Hs) as W.
  assert (G : forall c, In c (clipped (no_bounds k) (calibrate cals x)) -> lo <= c /\ c <= hi).
  { rewrite clipped_no_bounds by (rewrite calibrate_length; lia). intros c Hin.
    destruct (In_nth _ _ 0 Hin) as [j [Hj Ej]]. rewrite calibrate_length in Hj by lia.
    rewrite nth_calibrate in Ej by lia. subst c. destruct (Hr j ltac:(lia)) as [R Dm].
    pose proof (calib_eval_range _ lo hi (nth j x 0) R Dm). tauto. }
  specialize (W G). tauto. Qed.

Lemma member_inputs_unused idx x i v : ~ In i idx ->
  map (fun j => nth j (set_nth i v x) 0) idx = map (fun j => nth j x 0) idx.
Proof. intros H. apply map_ext_in. intros j Hj. apply nth_set_nth_other. intros ->. contradiction. Qed.

Lemma member_inputs_set : forall idx p x i v, (i < length x)%nat -> (p < length idx)%nat -> nth p idx 0%nat = i ->
  (forall q, (q < length idx)%nat -> q <> p -> nth q idx 0%nat <> i) ->
  map (fun j => nth j (set_nth i v x) 0) idx = set_nth p v (map (fun j => nth j x 0) idx).
Proof. induction idx as [|j idx IH]; intros p x i v Hi Hp Ep Hq; cbn in Hp; [lia|].
  destruct p as [|p]; cbn [nth] in Ep; cbn [map set_nth].
  - subst j. rewrite nth_set_nth_same by exact Hi. f_equal. apply member_inputs_unused.
    intros Hin. destruct (In_nth _ _ 0%nat Hin) as [q [Hql Eq]]. apply (Hq (S q) ltac:(cbn; lia) ltac:(lia)). exact Eq.
  - assert (j <> i) by (apply (Hq 0%nat ltac:(cbn; lia) ltac:(lia))).
    rewrite nth_set_nth_other by congruence. f_equal. apply IH; try assumption. lia.
    intros q Hql Hne. apply (Hq (S q) ltac:(cbn; lia) ltac:(lia)). Qed.

Definition member_ok (m : member) : Prop :=
  m_sizes m <> [] /\ sizes_ok (m_sizes m) /\ wfK 1 (m_K m) 0 /\ length (m_K m) = prodn (m_sizes m) /\
  length (m_cals m) = length (m_sizes m) /\ length (m_idx m) = length (m_sizes m) /\
  cals_in_range (m_sizes m) (m_cals m).

(* feature i is not read by the member, or is read at exactly one position p
   whose lattice dimension is non-decreasing and whose calibrator unit does not
   decrease from x_i to v *)
Definition member_monotone_in (m : member) (i : nat) (xi v : Q) : Prop :=
  ~ In i (m_idx m) \/
  exists p, (p < length (m_idx m))%nat /\ nth p (m_idx m) 0%nat = i /\
            (forall q, (q < length (m_idx m))%nat -> q <> p -> nth q (m_idx m) 0%nat <> i) /\
            knondecr (m_sizes m) (kern (m_sizes m) (m_K m) 0) p /\
            calib_eval (nth p (m_cals m) dcal) xi <= calib_eval (nth p (m_cals m) dcal) v.

Lemma member_eval_as_lattice m x :
  member_eval m x = cal_lattice_eval (m_sc m) (m_sizes m) (m_K m) (m_cals m) None (member_inputs m x).
Proof. reflexivity. Qed.

Lemma member_monotone m x i v : member_ok m -> (i < length x)%nat -> member_monotone_in m i (nth i x 0) v ->
  member_eval m x <= member_eval m (set_nth i v x).
Proof. intros (Hne & Hs & Hw & Hl & Hc & Hi & Hr) Hix [Hun|(p & Hp & Ep & Hq & HK & Hle)]; rewrite !member_eval_as_lattice; unfold member_inputs.
  - rewrite member_inputs_unused by exact Hun. lra.
  - rewrite (member_inputs_set (m_idx m) p x i v Hix Hp Ep Hq).
    apply (cal_lattice_core (m_sc m) (m_sizes m) (m_K m) (m_cals m) None p); try assumption; try exact I.
    lia. rewrite map_length; exact Hi. intros c <-.
    rewrite (nth_indep _ 0 (nth 0%nat x 0)) by (rewrite map_length; exact Hp).
    rewrite (map_nth (fun j => nth j x 0) (m_idx m) 0%nat p). rewrite Ep. exact Hle. Qed.

Definition comb_monotone (c : combiner) : Prop :=
  match c with Average => True | LinComb w _ => forall q, In q w -> 0 <= q end.

Lemma lin_sum_nb_mono : forall w a b, (forall q, In q w -> 0 <= q) -> Forall2 Qle a b ->
  lin_sum w (no_bounds w) a <= lin_sum w (no_bounds w) b.
Proof. induction w as [|q w IH]; intros a b Hw H; cbn [no_bounds map lin_sum]. lra.
  destruct H as [|x y a b Hxy H]; cbn [lin_sum]. lra. cbn [clip_opt clip_lo clip_hi].
  pose proof (IH a b ltac:(intros; apply Hw; right; assumption) H).
  pose proof (qmul_le_l q x y ltac:(apply Hw; left; reflexivity) Hxy). fold (no_bounds w). lra. Qed.

Lemma combine_mono c a b : comb_monotone c -> Forall2 Qle a b -> combine_outs c a <= combine_outs c b.
Proof. destruct c as [|w bias]; cbn [comb_monotone combine_outs]; intros Hc H.
  - unfold average. assert (length a = length b) by (induction H; cbn; congruence). rewrite H0.
    unfold Qdiv. apply Qmult_le_compat_r. apply qsum_le; exact H. apply Qinv_le_0_compat. apply qofnat_nonneg.
  - unfold lin_unit. pose proof (lin_sum_nb_mono w a b Hc H). lra. Qed.

Theorem ensemble_monotone ms c oc x x' : comb_monotone c -> out_monotone oc ->
  (forall m, In m ms -> member_eval m x <= member_eval m x') ->
  ensemble_eval ms c oc x <= ensemble_eval ms c oc x'.
Proof. intros Hc Ho H. unfold ensemble_eval. apply out_eval_mono. exact Ho. apply combine_mono. exact Hc.
  induction ms as [|m ms IH]; cbn [map]; constructor. apply H; left; reflexivity. apply IH. intros; apply H; right; assumption. Qed.

(* wiring of every member + monotone combiner + monotone output calibrator *)
Theorem ensemble_compose_monotone ms c oc x i v : comb_monotone c -> out_monotone oc -> (i < length x)%nat ->
  (forall m, In m ms -> member_ok m /\ member_monotone_in m i (nth i x 0) v) ->
  ensemble_eval ms c oc x <= ensemble_eval ms c oc (set_nth i v x).
Proof. intros Hc Ho Hi H. apply ensemble_monotone; try assumption. intros m Hm. destruct (H m Hm) as [Hok Hmono].
  apply member_monotone; assumption. Qed.

Lemma member_bounds m x lo hi : member_ok m ->
  (forall i, valid (m_sizes m) i -> lo <= kern (m_sizes m) (m_K m) 0 i <= hi) ->
  lo <= member_eval m x <= hi.
Proof. intros (Hne & Hs & Hw & Hl & Hc & Hi & Hr) HK. rewrite member_eval_as_lattice.
  apply bounded_lattice; try assumption. unfold member_inputs. rewrite map_length. exact Hi. auto. exact I. Qed.

Lemma average_range outs lo hi : outs <> [] -> (forall v, In v outs -> lo <= v <= hi) -> lo <= average outs <= hi.
Proof. intros Hne H. unfold average, qn. destruct (qsum_bounds lo hi outs H) as [A B].
  assert (P : 0 < inject_Z (Z.of_nat (length outs))) by (apply qofnat_pos; destruct outs; [congruence|cbn; lia]).
  split. apply Qle_shift_div_l. exact P. lra. apply Qle_shift_div_r. exact P. lra. Qed.

Definition comb_average_like (c : combiner) (n : nat) : Prop :=
  match c with
  | Average => (0 < n)%nat
  | LinComb w b => length w = n /\ b == 0 /\ (forall q, In q w -> 0 <= q) /\ qsum w == 1
  end.

Lemma combine_range c outs lo hi : comb_average_like c (length outs) -> (forall v, In v outs -> lo <= v <= hi) ->
  lo <= combine_outs c outs <= hi.
Proof. destruct c as [|w b]; cbn [comb_average_like combine_outs]; intros Hc H.
  - apply average_range. destruct outs; [cbn in Hc; lia|discriminate]. exact H.
  - destruct Hc as (Hl & Hb & Hw & Hs).
    pose proof (lin_weighted_average w (no_bounds w) outs lo hi (no_bounds_length w) ltac:(lia) Hw Hs) as W.
    rewrite clipped_no_bounds in W by lia.
    assert (G : forall c, In c outs -> lo <= c /\ c <= hi) by (intros c Hc; pose proof (H c Hc); tauto).
    specialize (W G). unfold lin_unit in *. lra. Qed.

Theorem ensemble_bounded ms c oc lo hi x :
  (oc = None -> comb_average_like c (length ms) /\
                forall m, In m ms -> member_ok m /\
                  forall i, valid (m_sizes m) i -> lo <= kern (m_sizes m) (m_K m) 0 i <= hi) ->
  out_range oc lo hi -> lo <= ensemble_eval ms c oc x <= hi.
Proof. intros H Ho. unfold ensemble_eval. apply out_eval_range. exact Ho. intros E. destruct (H E) as [Hc Hm].
  apply combine_range. rewrite map_length; exact Hc.
  intros v Hv. apply in_map_iff in Hv. destruct Hv as [m [<- Hin]]. destruct (Hm m Hin) as [Hok HK].
  apply member_bounds; assumption. Qed.

(* The state machine instantiated for the constrained variable kinds, with the
   constraint theorems C01 / C04 / C06 *)
From TFL Require Import Proofs.LatticeSpecFacts Proofs.LatticeFinalize.
From TFL Require Import Model.PWLProject Proofs.PWLProject.
From TFL Require Import Model.LinearProject Proofs.PartialOrder Proofs.TopoSort Proofs.LinearProject.
From TFL Require Props.C01 Props.C04 Props.C06.

(* ---- Lattice kernel (strict LatticeConstraints, monotonic_at_every_step) ----
   value: the kernel tensor over l_shape = sizes ++ [units];
   constraint: LC c ran applied to the result of the Dykstra stage, the latter
   an ARBITRARY function [ld_dyk] (C01 holds for every Dykstra output). *)
Record lat_desc := mkLatD { ld_cfg : lat_cfg; ld_ran : bool; ld_dyk : tens -> tens; ld_init : tens }.
Definition lat_var (d : lat_desc) : var tens := mkVar (ld_init d) (fun w => LC (ld_cfg d) (ld_ran d) (ld_dyk d w)).
Definition lat_inv (d : lat_desc) (f : tens) : Prop :=
  monotone_kernel (ld_cfg d) f /\
  lower_ok (l_shape (ld_cfg d)) (l_min (ld_cfg d)) f /\ upper_ok (l_shape (ld_cfg d)) (l_max (ld_cfg d)) f.
(* accepted config, the Dykstra/finalize block is entered whenever a dimension is
   monotone, NOT the known-finding-D1 class, and a feasible initial kernel (C10) *)
Definition lat_desc_ok (d : lat_desc) : Prop :=
  cfg_valid (ld_cfg d) /\ block_ok (ld_cfg d) (ld_ran d) /\ ~ trap_mono_cond_with_edgeworth (ld_cfg d) /\
  lat_inv d (ld_init d).

Lemma lat_con_inv d w : lat_desc_ok d -> lat_inv d (v_con (lat_var d) w).
Proof. intros (Hv & Hb & Hg & _). split.
  - exact (C01.C01_monotone (ld_cfg d) Hv (ld_ran d) (ld_dyk d w) Hb Hg).
  - exact (C01.C01_bounds (ld_cfg d) Hv (ld_ran d) (ld_dyk d w)). Qed.

Theorem reachable_feasible_lattice ds ops : (forall d, In d ds -> lat_desc_ok d) ->
  forall s, In s (run (map lat_var ds) ops) -> Forall2 lat_inv ds s.
Proof. intros H s Hs.
  apply (reachable_feasible tens lat_desc lat_var lat_inv (fun _ _ => True) ds) with (ops := ops).
  - intros d Hd. apply (H d Hd).
  - intros d w Hd _. apply lat_con_inv. exact (H d Hd).
  - intros delta _ i d _. exact I.
  - exact Hs. Qed.

(* from the tensor invariant of C01 to the hypotheses of the composition theorems:
   Kmat represents f when its row-major entry (i, u) is f (i ++ [u]) *)
Definition represents (sizes : list nat) (units : nat) (Kmat : list (list Q)) (f : tens) : Prop :=
  forall i u, valid sizes i -> (u < units)%nat -> kern sizes Kmat u i == f (i ++ [u]).

Lemma monotone_kernel_knondecr c Kmat f u d : represents (l_sizes c) (l_units c) Kmat f -> (u < l_units c)%nat ->
  monotone_kernel c f -> In d (mono_dims (l_monos c)) -> (d < length (l_sizes c))%nat ->
  knondecr (l_sizes c) (kern (l_sizes c) Kmat u) d.
Proof. intros Hr Hu Hm Hd Hlt i Hi Hb. pose proof (valid_length _ _ Hi) as Li.
  rewrite (Hr i u Hi Hu). rewrite (Hr _ u (upd_valid _ _ _ _ Hi Hb) Hu).
  pose proof (Hm d Hd (i ++ [u]) (valid_snoc _ _ _ _ Hi Hu)) as H. unfold l_shape in H.
  rewrite !app_nth1 in H by lia. specialize (H Hb). rewrite upd_app_l in H by lia. exact H. Qed.

Lemma kernel_bounds_kern c Kmat f u lo hi : represents (l_sizes c) (l_units c) Kmat f -> (u < l_units c)%nat ->
  lower_ok (l_shape c) (Some lo) f -> upper_ok (l_shape c) (Some hi) f ->
  forall i, valid (l_sizes c) i -> lo <= kern (l_sizes c) Kmat u i <= hi.
Proof. intros Hr Hu Hlo Hhi i Hi. rewrite (Hr i u Hi Hu). pose proof (valid_snoc _ _ _ _ Hi Hu) as Hv.
  split; [apply Hlo|apply Hhi]; exact Hv. Qed.

(* ---- PWLCalibration kernel column (bias :: heights) ---- *)
Record pwl_desc := mkPwlD { pd_cfg : pwl_cfg; pd_n : nat; pd_init : list Q }.
Definition pwl_var (d : pwl_desc) : var (list Q) := mkVar (pd_init d) (pwl_project_col (pd_cfg d)).
Definition pwl_shape (d : pwl_desc) (w : list Q) : Prop := exists bias hs, w = bias :: hs /\ length hs = pd_n d.
(* signs of the heights (exact); bounds on every keypoint output unless the
   calibrator is monotone AND convex/concave (known finding D2) *)
Definition pwl_inv (d : pwl_desc) (w : list Q) : Prop :=
  let c := pd_cfg d in
  (p_mono c = 1%Z -> Forall (fun h => 0 <= h) (tl w)) /\
  (p_mono c = (-1)%Z -> Forall (fun h => h <= 0) (tl w)) /\
  (~ (p_mono c <> 0%Z /\ p_conv c <> 0%Z) ->
     (p_cmin c <> BNone -> Forall (fun s => p_min c <= s) (keypoint_outputs w)) /\
     (p_cmax c <> BNone -> Forall (fun s => s <= p_max c) (keypoint_outputs w))).
Definition pwl_desc_ok (d : pwl_desc) : Prop := pwl_valid (pd_cfg d) (pd_n d) /\ pwl_inv d (pd_init d).

Lemma pwl_con_inv d w : pwl_valid (pd_cfg d) (pd_n d) -> pwl_shape d w -> pwl_inv d (v_con (pwl_var d) w).
Proof. intros Hv (bias & hs & -> & Hl).
  destruct (C04.C04_monotone_exact (pd_cfg d) (pd_n d) bias hs Hv Hl) as [A B].
  split; [exact A|]. split; [exact B|]. exact (C04.C04_bounds (pd_cfg d) (pd_n d) bias hs Hv Hl). Qed.

Theorem reachable_feasible_pwl ds ops : (forall d, In d ds -> pwl_desc_ok d) ->
  ops_shaped (list Q) pwl_desc pwl_shape ds ops ->
  forall s, In s (run (map pwl_var ds) ops) -> Forall2 pwl_inv ds s.
Proof. intros H Hops s Hs.
  apply (reachable_feasible (list Q) pwl_desc pwl_var pwl_inv pwl_shape ds) with (ops := ops); try assumption.
  - intros d Hd. apply (H d Hd).
  - intros d w Hd Hw. apply pwl_con_inv. apply (H d Hd). exact Hw. Qed.

Lemma cumsum_from_incl : forall l acc, cumsum_from acc l = cumsum_incl acc l.
Proof. induction l as [|a l IH]; intros acc; cbn [cumsum_from cumsum_incl]. reflexivity. rewrite IH. reflexivity. Qed.
Lemma keypoint_outputs_kp_outs w : keypoint_outputs w = kp_outs w.
Proof. unfold keypoint_outputs, cumsum, kp_outs. apply cumsum_from_incl. Qed.

(* consecutive keypoint outputs differ by a height *)
Lemma heights_ordered (P : Q -> Prop) (R : Q -> Q -> Prop) : (forall a h, P h -> R a (a + h)) ->
  forall hs acc, Forall P hs -> forall j, (j < length hs)%nat ->
  R (nth j (acc :: cumsum_incl acc hs) 0) (nth (S j) (acc :: cumsum_incl acc hs) 0).
Proof. intros HR. induction hs as [|h hs IH]; intros acc H j Hj; cbn in Hj. lia. inversion H; subst.
  destruct j as [|j]. cbn. apply HR. assumption. exact (IH (acc + h) ltac:(assumption) j ltac:(lia)). Qed.

(* the C04 invariant gives the calibrator hypotheses of the composition theorems *)
Lemma pwl_inv_nondecr w : Forall (fun h => 0 <= h) (tl w) -> outs_nondecr w.
Proof. destruct w as [|b hs]; intros H j Hj; cbn in Hj. lia. unfold kp_outs. cbn [cumsum_incl tl] in *.
  apply (heights_ordered (fun h => 0 <= h) Qle). intros; lra. exact H. lia. Qed.
Lemma pwl_inv_nonincr w : Forall (fun h => h <= 0) (tl w) -> outs_nonincr w.
Proof. destruct w as [|b hs]; intros H j Hj; cbn in Hj. lia. unfold kp_outs. cbn [cumsum_incl tl] in *.
  apply (heights_ordered (fun h => h <= 0) (fun a b => b <= a)). intros; lra. exact H. lia. Qed.
Lemma pwl_inv_range w lo hi : Forall (fun s => lo <= s) (keypoint_outputs w) -> Forall (fun s => s <= hi) (keypoint_outputs w) ->
  forall y, In y (kp_outs w) -> lo <= y <= hi.
Proof. rewrite keypoint_outputs_kp_outs. intros A B y Hy. rewrite Forall_forall in A, B. split; auto. Qed.

(* ---- missing-output weight of a calibrator with a default_value: NaiveBoundsConstraints ---- *)
Record mo_desc := mkMoD { md_lo : Q; md_hi : Q; md_init : Q }.
Definition mo_var (d : mo_desc) : var Q := mkVar (md_init d) (naive_bounds (Some (md_lo d)) (Some (md_hi d))).
Definition mo_inv (d : mo_desc) (w : Q) : Prop := md_lo d <= w <= md_hi d.
Theorem reachable_feasible_missing_output ds ops : (forall d, In d ds -> md_lo d <= md_hi d /\ mo_inv d (md_init d)) ->
  forall s, In s (run (map mo_var ds) ops) -> Forall2 mo_inv ds s.
Proof. intros H s Hs.
  apply (reachable_feasible Q mo_desc mo_var mo_inv (fun _ _ => True) ds) with (ops := ops); try assumption.
  - intros d Hd. apply (H d Hd).
  - intros d w Hd _. destruct (H d Hd) as [Hle _]. cbn [mo_var v_con]. unfold mo_inv.
    pose proof (C04.C04_missing_bounded (md_lo d) (md_hi d) w Hle). tauto.
  - intros delta _ i d _. exact I. Qed.

(* ---- Linear kernel column ---- *)
Record lin_desc := mkLinD { nd_rt : Q -> Q; nd_cfg : lin_cfg; nd_n : nat; nd_init : list Q }.
Definition lin_con (rt : Q -> Q) (c : lin_cfg) (w : list Q) : list Q :=
  match lin_project_col rt c w with Some r => r | None => w end.
Definition lin_var (d : lin_desc) : var (list Q) := mkVar (nd_init d) (lin_con (nd_rt d) (nd_cfg d)).
Definition lin_inv (d : lin_desc) (r : list Q) : Prop :=
  forall i, (nth i (lc_monos (nd_cfg d)) 0%Z = 1%Z -> 0 <= nth i r 0) /\
            (nth i (lc_monos (nd_cfg d)) 0%Z = (-1)%Z -> nth i r 0 <= 0).
(* on a valid configuration and a kernel of the right length the projection is defined: lin_con is its result *)
Lemma lin_con_defined d w : lin_valid (nd_cfg d) (nd_n d) -> length w = nd_n d ->
  lin_project_col (nd_rt d) (nd_cfg d) w = Some (v_con (lin_var d) w) /\ length (v_con (lin_var d) w) = nd_n d.
Proof. intros Hv Hl. cbn [lin_var v_con]. unfold lin_con.
  destruct (C06.C06_linear_defined (nd_rt d) (nd_cfg d) (nd_n d) w Hv Hl) as [r [E Hr]]. rewrite E. auto. Qed.

Lemma lin_con_inv d w : lin_valid (nd_cfg d) (nd_n d) -> length w = nd_n d -> lin_inv d (v_con (lin_var d) w).
Proof. intros Hv Hl.
  exact (C06.C06_signs (nd_rt d) (nd_cfg d) (nd_n d) w _ Hv Hl (proj1 (lin_con_defined d w Hv Hl))). Qed.

Theorem reachable_feasible_linear ds ops :
  (forall d, In d ds -> lin_valid (nd_cfg d) (nd_n d) /\ lin_inv d (nd_init d)) ->
  ops_shaped (list Q) lin_desc (fun d w => length w = nd_n d) ds ops ->
  forall s, In s (run (map lin_var ds) ops) -> Forall2 lin_inv ds s.
Proof. intros H Hops s Hs.
  apply (reachable_feasible (list Q) lin_desc lin_var lin_inv (fun d w => length w = nd_n d) ds) with (ops := ops); try assumption.
  - intros d Hd. apply (H d Hd).
  - intros d w Hd Hl. apply lin_con_inv. apply (H d Hd). exact Hl. Qed.

(* ---- CategoricalCalibration kernel column ---- *)
Record cat_desc := mkCatD { cd_pairs : pairs; cd_lo : option Q; cd_hi : option Q; cd_n : nat; cd_init : list Q }.
Definition cat_con (ps : pairs) (lo hi : option Q) (w : list Q) : list Q :=
  match cat_project_col ps lo hi w with Some r => r | None => w end.
Definition cat_var (d : cat_desc) : var (list Q) := mkVar (cd_init d) (cat_con (cd_pairs d) (cd_lo d) (cd_hi d)).
Definition cat_inv (d : cat_desc) (r : list Q) : Prop :=
  PartialOrder.feasible (cd_pairs d) r /\
  forall x, In x r -> (forall h, cd_hi d = Some h -> x <= h) /\
                      (forall l, cd_lo d = Some l -> (forall h, cd_hi d = Some h -> l <= h) -> l <= x).
Definition cat_desc_ok (d : cat_desc) : Prop :=
  acyclic (cd_pairs d) /\ (forall i j, In (i, j) (cd_pairs d) -> (i < cd_n d)%nat /\ (j < cd_n d)%nat) /\
  cat_inv d (cd_init d).
(* acyclic pairs over existing buckets: the projection of a column with one value per bucket is
   defined (cat_con is its result), keeps the length and lands in the invariant *)
Lemma cat_con_inv d w : acyclic (cd_pairs d) ->
  (forall i j, In (i, j) (cd_pairs d) -> (i < cd_n d)%nat /\ (j < cd_n d)%nat) -> length w = cd_n d ->
  cat_inv d (v_con (cat_var d) w) /\ length (v_con (cat_var d) w) = cd_n d.
Proof. intros Hac Hr Hl. cbn [cat_var v_con]. unfold cat_con.
  assert (Hpr : pairs_in_range (cd_pairs d) w) by (intros i j Hij; rewrite Hl; apply Hr; exact Hij).
  destruct (C06.C06_categorical_defined (cd_pairs d) (cd_lo d) (cd_hi d) w Hac Hpr) as [r [E Lr]]. rewrite E.
  split; [split|lia].
  - destruct (cd_pairs d) as [|p0 ps] eqn:Eps. intros i j []. rewrite <- Eps in *.
    apply (C06.C06_categorical_pairs (cd_pairs d) (cd_lo d) (cd_hi d) w r); try assumption. rewrite Eps; discriminate.
  - exact (C06.C06_categorical_bounds (cd_pairs d) (cd_lo d) (cd_hi d) w r E). Qed.

Theorem reachable_feasible_categorical ds ops : (forall d, In d ds -> cat_desc_ok d) ->
  ops_shaped (list Q) cat_desc (fun d w => length w = cd_n d) ds ops ->
  forall s, In s (run (map cat_var ds) ops) -> Forall2 cat_inv ds s.
Proof. intros H Hops s Hs.
  apply (reachable_feasible (list Q) cat_desc cat_var cat_inv (fun d w => length w = cd_n d) ds) with (ops := ops); try assumption.
  - intros d Hd. apply (H d Hd).
  - intros d w Hd Hl. destruct (H d Hd) as (Hac & Hr & _). apply cat_con_inv; assumption. Qed.

(* every feature that premade_lib gives a monotone calibrator / ordered buckets
   gets a monotone lattice (linear) dimension, in explicit AND in RTL ensembles *)
Lemma wiring_monotone_dim f : (match f with MNum m => m <> 0%Z | MPairs ps => ps <> [] end) ->
  lattice_dim_mono f = 1%Z /\ rtl_routed_increasing f = true.
Proof. unfold rtl_routed_increasing. destruct f as [m|[|p ps]]; cbn [lattice_dim_mono]; intros H.
  - destruct (m =? 0)%Z eqn:E; [apply Z.eqb_eq in E; contradiction|]. split; reflexivity.
  - congruence.
  - split; reflexivity. Qed.

(* calibrator output range configured by _output_range for lattice inputs *)
Lemma wiring_lattice_input_range s : output_range (InputToLattice s) = (Some 0, Some (qn s - 1)).
Proof. reflexivity. Qed.

(* Known finding D32: the Linear constraint with normalization_order=1 maps a
   raw kernel whose entries are all negative to the zero vector (sign clip, then
   "norm < eps -> leave as is"), and the calibrated-linear model then outputs 0,
   outside [output_min, output_max] = [1, 2] although every calibrator is inside. *)
Definition d32_cfg : lin_cfg := mkLin [1; 1]%Z [] [] [None; None] [None; None] 1.
Definition d32_cal : calib := CPwl [0] [1] [1; 1] None.

(* without dominance constraints only the monotonicity flags have to be sound *)
Lemma lin_valid_no_dominance monos mn mx norm :
  (forall i, nth i monos 0%Z = 0%Z \/ nth i monos 0%Z = 1%Z \/ nth i monos 0%Z = (-1)%Z) ->
  lin_valid (mkLin monos [] [] mn mx norm) (length monos).
Proof. intros H. constructor; cbn [lc_monos lc_mdom lc_rdom lc_min lc_max]; try reflexivity; try (intros; congruence).
  - exact H.
  - intros d k [].
  - intros d k [].
  - intros i [x [H'|H']]; destruct H'.
  - apply (acyclic_rank _ (fun x => x)). intros a b [].
  - apply (acyclic_rank _ (fun x => x)). intros a b []. Qed.

Lemma d32_cfg_valid : lin_valid d32_cfg 2.
Proof. apply (lin_valid_no_dominance [1; 1]%Z). intros i. destruct i as [|[|[|i]]]; cbn; auto. Qed.

Lemma refuted_weighted_average_zero :
  exists rt c w r cals lo hi x,
    lin_valid c (length w) /\ lc_norm c = 1%nat /\ (forall i, (i < length w)%nat -> nth i (lc_monos c) 0%Z = 1%Z) /\
    lin_project_col rt c w = Some r /\ length cals = length r /\ length x = length r /\
    (forall j, (j < length r)%nat -> calib_range (nth j cals dcal) lo hi /\ domain_input (nth j cals dcal) (nth j x 0)) /\
    (forall q, In q r -> 0 <= q) /\ ~ qsum r == 1 /\
    cal_linear_eval r 0 cals None x < lo.
Proof. exists (fun q => q), d32_cfg, [-(5); -(7)], [0; 0], [d32_cal; d32_cal], 1, 2, [0; 1#2].
  split. exact d32_cfg_valid. split. reflexivity.
  split. { intros i Hi. cbn in Hi. destruct i as [|[|i]]; try reflexivity. lia. }
  split. vm_compute; reflexivity. split. reflexivity. split. reflexivity.
  split. { intros j Hj. cbn in Hj. assert (E : nth j [d32_cal; d32_cal] dcal = d32_cal) by (destruct j as [|[|j]]; try reflexivity; lia).
    rewrite E. split; [|exact I]. unfold d32_cal. cbn [calib_range]. split. exists 1. cbn. lra. split. reflexivity. split; [|exact I].
    unfold kp_outs. cbn [cumsum_incl In]. intros y [<-|[<-|[]]]; lra. }
  split. { intros q [<-|[<-|[]]]; lra. }
  split. { cbn. lra. }
  vm_compute. reflexivity. Qed.

(* ---- non-vacuity: a concrete 2-feature calibrated lattice ----
   feature 0: increasing numeric, keypoints 0, 1, 3 -> outputs 0, 1/2, 1 (lattice size 2),
              default_value -1 with missing output 1/4;
   feature 1: categorical, 3 buckets with values 0, 2, 1 (lattice size 3), pair (0, 2);
   lattice 2 x 3, kernel non-decreasing along both dimensions, inside [0, 6];
   output calibrator: keypoints 0, 3, 6 -> outputs -1, 0, 2. *)
Definition ex_cal0 : calib := CPwl [0; 1] [1; 2] [0; 1#2; 1#2] (Some (-(1), 1#4)).
Definition ex_cal1 : calib := CCat [0; 2; 1] (Some (-1)%Z).
Definition ex3_sizes : list nat := [2; 3]%nat.
Definition ex3_K : list (list Q) := [[0]; [1]; [3]; [1]; [2]; [6]].
Definition ex3_oc : out_calib := Some ([0; 3], [3; 3], [-(1); 1; 2]).

Example ex3_sizes_ok : sizes_ok ex3_sizes. Proof. repeat constructor. Qed.
Example ex3_wfK : wfK 1 ex3_K 0. Proof. split. lia. repeat constructor. Qed.
Example ex3_in_range : cals_in_range ex3_sizes [ex_cal0; ex_cal1].
Proof. intros j Hj. cbn in Hj. destruct j as [|[|j]]; try lia; cbn [nth ex3_sizes].
  - unfold ex_cal0. cbn [calib_range]. split. exists 3. cbn. repeat split; lra. split. reflexivity.
    assert (E : qn 2 - 1 == 1) by reflexivity. split; [|rewrite E; lra].
    unfold kp_outs. cbn [cumsum_incl In]. intros y Hy. rewrite E. destruct Hy as [<-|[<-|[<-|[]]]]; lra.
  - unfold ex_cal1. cbn [calib_range]. assert (E : qn 3 - 1 == 2) by reflexivity.
    intros v Hv. rewrite E. destruct Hv as [<-|[<-|[<-|[]]]]; lra. Qed.
Example ex3_knondecr : knondecr ex3_sizes (kern ex3_sizes ex3_K 0) 0 /\ knondecr ex3_sizes (kern ex3_sizes ex3_K 0) 1.
Proof. split; intros i Hi Hb; all_valid i Hi; cbn in Hb; try lia; apply Qle_bool_iff; vm_compute; reflexivity. Qed.
Example ex3_out_monotone : out_monotone ex3_oc.
Proof. cbn. split. repeat constructor; lra. intros j Hj. cbn in Hj. unfold kp_outs. destruct j as [|[|j]]; cbn; try lra; lia. Qed.
Example ex3_outs_nondecr : outs_nondecr [0; 1#2; 1#2].
Proof. intros j Hj. cbn in Hj. unfold kp_outs. destruct j as [|[|j]]; cbn; try lra; lia. Qed.
Example ex3_regular : regular_input ex_cal0 (1#2) /\ regular_input ex_cal0 5 /\ regular_input ex_cal1 (qn 0) /\ regular_input ex_cal1 (qn 2).
Proof. cbn. repeat split; try lia; try discriminate; intros H; vm_compute in H; discriminate. Qed.
Example ex3_kernel_bounds : forall i, valid ex3_sizes i -> 0 <= kern ex3_sizes ex3_K 0 i <= 6.
Proof. apply column_bounds_kern. reflexivity. cbn. intros v H. repeat (destruct H as [<-|H]; [lra|]). destruct H. Qed.
Example ex3_out_range : out_range ex3_oc (-(1)) 2.
Proof. cbn. split. exists 6. cbn. repeat split; lra. split. reflexivity.
  unfold kp_outs. cbn [cumsum_incl In]. intros y [<-|[<-|[<-|[]]]]; lra. Qed.
(* the model evaluated on it: increasing in feature 0 (in range, out of range),
   ordered along the categorical pair (0, 2), missing value inside the bounds *)
Example ex3_values :
  cal_lattice_eval Hypercube ex3_sizes ex3_K [ex_cal0; ex_cal1] ex3_oc [1#2; 0] == -(11#12) /\
  cal_lattice_eval Hypercube ex3_sizes ex3_K [ex_cal0; ex_cal1] ex3_oc [5; 0] == -(2#3) /\
  cal_lattice_eval Simplex ex3_sizes ex3_K [ex_cal0; ex_cal1] ex3_oc [5; 2] == -(1#3) /\
  cal_lattice_eval Simplex ex3_sizes ex3_K [ex_cal0; ex_cal1] ex3_oc [-(1); 1] == 1#2.
Proof. repeat split; vm_compute; reflexivity. Qed.

(* state machine: two PWL calibrator columns driven by a hostile history *)
Definition ex_pwl_d : pwl_desc := mkPwlD (mkPwl 1 0 0 1 BBound BBound [1; 2] 4) 2 [0; 1#2; 1#2].
Example ex_pwl_desc_ok : pwl_desc_ok ex_pwl_d.
Proof. split.
  - unfold pwl_valid; cbn. repeat split; try lia; try lra; auto; try (intros; discriminate). repeat constructor; lra.
  - unfold pwl_inv, ex_pwl_d; cbn [pd_cfg pd_init p_mono p_conv p_cmin p_cmax p_min p_max tl]. split.
    intros _. repeat constructor; lra. split. intros H; discriminate. intros _. unfold keypoint_outputs, cumsum. cbn.
    split; intros _; repeat constructor; lra. Qed.
Example ex_history_shaped :
  ops_shaped (list Q) pwl_desc pwl_shape [ex_pwl_d; ex_pwl_d]
    [Update (fun i => [-(100); 7; -(50)]); Restore 0; Update (fun i => [50; -(3); 1000]); Init; Restore 2].
Proof. intros delta H i d Hd.
  assert (E : d = ex_pwl_d) by (destruct i as [|[|[|i]]]; cbn in Hd; try discriminate; injection Hd as <-; reflexivity).
  subst d. cbn in H. destruct H as [H|[H|[H|[H|[H|[]]]]]]; try discriminate; inversion H; subst;
    eexists _, _; split; reflexivity. Qed.
Example ex_history_run :
  final (map pwl_var [ex_pwl_d; ex_pwl_d])
    [Update (fun i => [-(100); 7; -(50)]); Restore 0; Update (fun i => [50; -(3); 1000]); Init; Restore 2]
  = init_state (map pwl_var [ex_pwl_d; ex_pwl_d]).
Proof. vm_compute. reflexivity. Qed.
