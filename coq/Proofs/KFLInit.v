(* Lemmas about the KroneckerFactoredLattice initialisers (Model/KFLInit.v), for C10. *)
From TFL Require Export Model.KFLInit.
Open Scope Q_scope.

Fixpoint qsorted (l : list Q) : Prop :=
  match l with x :: ((y :: _) as r) => x <= y /\ qsorted r | _ => True end.
Lemma qinsert_in x l z : In z (qinsert x l) <-> z = x \/ In z l.
Proof. induction l as [|y l IH]; cbn [qinsert]. cbn. intuition.
  destruct (Qle_bool x y); cbn [In]. intuition. rewrite IH. tauto. Qed.
Lemma qinsert_length x l : length (qinsert x l) = S (length l).
Proof. induction l as [|y l IH]; cbn [qinsert]. reflexivity. destruct (Qle_bool x y); cbn [length]; auto. Qed.
Lemma qinsert_sorted x l : qsorted l -> qsorted (qinsert x l).
Proof. induction l as [|y l IH]; intros H; cbn [qinsert]. exact I.
  destruct (Qle_bool x y) eqn:E.
  - apply Qle_bool_iff in E. split; assumption.
  - assert (Hyx : y <= x) by (apply Qlt_le_weak, (qle_false x y); exact E).
    destruct l as [|z r]. cbn. split; [exact Hyx|exact I].
    destruct H as [Hyz Hs]. specialize (IH Hs). cbn [qinsert] in *.
    destruct (Qle_bool x z) eqn:E2; cbn [qsorted]; (split; [|exact IH]).
    exact Hyx. exact Hyz. Qed.
Lemma qsort_in l z : In z (qsort l) <-> In z l.
Proof. induction l as [|x l IH]; cbn [qsort fold_right]. tauto.
  change (fold_right qinsert [] l) with (qsort l). rewrite qinsert_in, IH. cbn. intuition. Qed.
Lemma qsort_length l : length (qsort l) = length l.
Proof. induction l as [|x l IH]; cbn [qsort fold_right]. reflexivity.
  change (fold_right qinsert [] l) with (qsort l). rewrite qinsert_length, IH. reflexivity. Qed.
Lemma qsort_sorted l : qsorted (qsort l).
Proof. induction l as [|x l IH]; cbn [qsort fold_right]. exact I. apply qinsert_sorted. exact IH. Qed.
Lemma qsorted_nth l : qsorted l -> forall i, (S i < length l)%nat -> nth i l 0 <= nth (S i) l 0.
Proof. induction l as [|x l IH]; intros H i Hi. cbn in Hi; lia.
  destruct l as [|y r]. cbn in Hi; lia. destruct H as [Hxy Hs].
  destruct i. exact Hxy. apply (IH Hs i). cbn [length] in *. lia. Qed.

Lemma qsign_cases x : (0 < x /\ qsign x = 1) \/ (x < 0 /\ qsign x = -1) \/ (x == 0 /\ qsign x = 0).
Proof. unfold qsign. destruct (qlt 0 x) eqn:E1. left. split. apply qlt_true; exact E1. reflexivity.
  apply qlt_false in E1. destruct (qlt x 0) eqn:E2. right; left. split. apply qlt_true; exact E2. reflexivity.
  apply qlt_false in E2. right; right. split; [lra|reflexivity]. Qed.
Lemma qsign_sq x : ~ x == 0 -> qsign x * qsign x == 1.
Proof. intros H. destruct (qsign_cases x) as [[_ ->]|[[_ ->]|[E _]]]; lra. Qed.

Section Col.
Variables (any_mono mono : bool) (scale : Q) (samples : list Q) (lo hi : Q).
Hypothesis Hscale : ~ scale == 0.
Hypothesis Hrange : forall s, In s samples -> lo <= s /\ s <= hi.
Let c := kfl_init_col any_mono mono scale samples.
Let dir := qsign scale.

Lemma kfl_col_length : length c = length samples.
Proof. unfold c, kfl_init_col. destruct any_mono; [|reflexivity]. destruct mono; rewrite !map_length, ?qsort_length, ?map_length; reflexivity. Qed.

(* every entry is (Qeq to) one of the samples *)
Lemma kfl_col_entries x : In x c -> exists s, In s samples /\ x == s.
Proof. unfold c, kfl_init_col. destruct any_mono; [|intros H; exists x; split; [exact H|reflexivity]].
  intros H. apply in_map_iff in H. destruct H as [y [<- Hy]].
  assert (Hy' : In y (map (fun x => qsign scale * x) samples)) by (destruct mono; [rewrite qsort_in in Hy|]; exact Hy).
  apply in_map_iff in Hy'. destruct Hy' as [s [<- Hs]]. exists s. split. exact Hs.
  rewrite Qred_correct, Qmult_assoc, (qsign_sq scale Hscale). ring. Qed.
Lemma kfl_col_in_range x : In x c -> lo <= x /\ x <= hi.
Proof. intros H. destruct (kfl_col_entries x H) as [s [Hs E]]. rewrite E. apply Hrange. exact Hs. Qed.

(* monotone dimensions: sorted in the direction of sign(scale) *)
Lemma kfl_col_sorted i : any_mono = true -> mono = true -> (S i < length c)%nat ->
  dir * nth i c 0 <= dir * nth (S i) c 0.
Proof. intros Ha Hm Hi. pose proof kfl_col_length as HL. unfold c, kfl_init_col in *. rewrite Ha, Hm in *.
  set (w := qsort (map (fun x => qsign scale * x) samples)) in *.
  assert (Hw : length w = length samples) by (unfold w; rewrite qsort_length, map_length; reflexivity).
  rewrite (nth_map_lt _ w i 0 0) by lia. rewrite (nth_map_lt _ w (S i) 0 0) by lia.
  rewrite !Qred_correct. fold dir.
  pose proof (qsign_sq scale Hscale) as Hs. fold dir in Hs.
  pose proof (qsorted_nth w (qsort_sorted _) i ltac:(lia)) as Hle.
  rewrite !Qmult_assoc, Hs. lra. Qed.
End Col.

Lemma qprod_nonneg l : (forall x, In x l -> 0 <= x) -> 0 <= qprod l.
Proof. induction l as [|x l IH]; intros H; cbn [qprod fold_right]. lra.
  apply qmul_nonneg. apply H; left; reflexivity. apply IH. intros; apply H; right; assumption. Qed.
Lemma qprod_le1 l : (forall x, In x l -> 0 <= x /\ x <= 1) -> 0 <= qprod l /\ qprod l <= 1.
Proof. induction l as [|x l IH]; intros H; cbn [qprod fold_right]. lra.
  destruct (H x (or_introl eq_refl)) as [H0 H1]. destruct (IH (fun z Hz => H z (or_intror Hz))) as [I0 I1].
  change (fold_right Qmult 1 l) with (qprod l). split. apply qmul_nonneg; assumption.
  pose proof (qmul_le_l x (qprod l) 1 H0 I1). lra. Qed.
Lemma qprod_set_nth d v : forall l, (d < length l)%nat ->
  qprod (set_nth d v l) == v * (qprod (firstn d l) * qprod (skipn (S d) l)) /\
  qprod l == nth d l 0 * (qprod (firstn d l) * qprod (skipn (S d) l)).
Proof. induction d as [|d IH]; intros [|x l] H; cbn [length] in H; try lia.
  - cbn. split; ring.
  - destruct (IH l ltac:(lia)) as [E1 E2]. change (skipn (S (S d)) (x :: l)) with (skipn (S d) l).
    cbn [set_nth firstn nth qprod fold_right]. change (fold_right Qmult 1) with qprod. rewrite E1. split. ring. rewrite E2 at 1. ring. Qed.

Lemma in_skipn' {A} n : forall (l : list A) x, In x (skipn n l) -> In x l.
Proof. induction n as [|n IH]; intros [|y l] x H; cbn in *; try tauto. right. apply IH. exact H. Qed.

(* moving one dimension's interpolated value in the direction of sign(scale)
   moves the term's contribution up *)
Lemma kfl_term_mono s vs d v' : (forall x, In x vs -> 0 <= x) -> (d < length vs)%nat ->
  qsign s * nth d vs 0 <= qsign s * v' -> s * qprod vs <= s * qprod (set_nth d v' vs).
Proof. intros Hpos Hd Hdir. destruct (qprod_set_nth d v' vs Hd) as [E1 E2]. rewrite E1, E2.
  set (o := qprod (firstn d vs) * qprod (skipn (S d) vs)).
  assert (Ho : 0 <= o).
  { apply qmul_nonneg; apply qprod_nonneg; intros x Hx; apply Hpos.
    apply (in_firstn d vs); exact Hx. apply (in_skipn' (S d) vs); exact Hx. }
  assert (Hs : 0 <= s * (v' - nth d vs 0)).
  { destruct (qsign_cases s) as [[H1 E]|[[H1 E]|[H1 E]]]; rewrite E in Hdir.
    - apply qmul_nonneg; lra.
    - pose proof (qmul_nonneg (- s) (nth d vs 0 - v') ltac:(lra) ltac:(lra)). lra.
    - rewrite H1. lra. }
  pose proof (qmul_nonneg _ _ Hs Ho). lra. Qed.

Lemma qsum_map2_le {A B} (f g : A -> B -> Q) : forall a b,
  (forall x y, In x a -> In y b -> f x y <= g x y) -> qsum (map2 f a b) <= qsum (map2 g a b).
Proof. induction a as [|x a IH]; intros [|y b] H; cbn [map2 qsum]; try lra.
  pose proof (H x y (or_introl eq_refl) (or_introl eq_refl)).
  assert (qsum (map2 f a b) <= qsum (map2 g a b)) by (apply IH; intros; apply H; right; assumption). lra. Qed.

Lemma qcount_pos {A} (l : list A) : l <> [] -> 0 < inject_Z (Z.of_nat (length l)).
Proof. intros H. apply qofnat_pos. destruct l; [congruence|cbn; lia]. Qed.

(* the unit output is monotone when every term's contribution is *)
Lemma kfl_out_mono scales bias (tv tv' : list (list Q)) :
  qsum (map2 (fun s vs => s * qprod vs) scales tv) <= qsum (map2 (fun s vs => s * qprod vs) scales tv') ->
  kfl_unit_out scales bias tv <= kfl_unit_out scales bias tv'.
Proof. intros H. unfold kfl_unit_out, Qdiv.
  assert (Hn : 0 <= / inject_Z (Z.of_nat (length scales))) by apply Qinv_le_0_compat, qofnat_nonneg.
  pose proof (Qmult_le_compat_r _ _ _ H Hn). lra. Qed.

Lemma mean_bounds (l : list Q) lo hi : l <> [] -> (forall x, In x l -> lo <= x /\ x <= hi) ->
  lo <= qsum l / inject_Z (Z.of_nat (length l)) /\ qsum l / inject_Z (Z.of_nat (length l)) <= hi.
Proof. exact (qavg_bounds lo hi l). Qed.

Lemma kfl_scale_row units terms omin omax row : In row (kfl_scale_init units terms omin omax) ->
  length row = terms /\
  forall s, In s row ->
    match omin, omax with
    | Some a, Some b => s == (b - a) * (1#2) \/ s == - ((b - a) * (1#2))
    | Some _, None => s = 1
    | None, Some _ => s = -1
    | None, None => s = 1 \/ s = -1
    end.
Proof. unfold kfl_scale_init. intros H. apply repeat_spec in H. subst row.
  destruct omin as [a|], omax as [b|]; rewrite ?map_length, ?seq_length, ?repeat_length; (split; [reflexivity|]); intros s Hs.
  - apply in_map_iff in Hs. destruct Hs as [t [<- _]]. rewrite Qred_correct. unfold kfl_term_sign. destruct (Nat.even t); [left|right]; ring.
  - apply repeat_spec in Hs. exact Hs.
  - apply repeat_spec in Hs. exact Hs.
  - apply in_map_iff in Hs. destruct Hs as [t [<- _]]. unfold kfl_term_sign. destruct (Nat.even t); auto. Qed.
Lemma kfl_bias_entry units omin omax b0 : In b0 (kfl_bias_init units omin omax) ->
  b0 == match omin, omax with
        | Some a, Some b => (a + b) * (1#2) | Some a, None => a | None, Some b => b | None, None => 0 end.
Proof. unfold kfl_bias_init. intros H. apply repeat_spec in H. subst b0.
  destruct omin, omax; rewrite ?Qred_correct; reflexivity. Qed.

(* s * p with p in [0,1] is a point between 0 and s *)
Lemma qscale_in lo hi s p : lo <= 0 <= hi -> lo <= s <= hi -> 0 <= p <= 1 -> lo <= s * p <= hi.
Proof.
  intros H0 Hs Hp. assert (E : s * p == 0 + p * (s - 0)) by ring. rewrite E. apply between_bounds; assumption.
Qed.

(* every interval around 0 that holds the scales holds the terms (the kernel
   values, hence their interpolations, lie in [0,1]) and so their mean *)
Lemma kfl_out_in lo hi scales bias (tv : list (list Q)) terms :
  (1 <= terms)%nat -> length scales = terms -> length tv = terms ->
  (forall vs x, In vs tv -> In x vs -> 0 <= x /\ x <= 1) ->
  lo <= 0 <= hi -> (forall s, In s scales -> lo <= s <= hi) ->
  lo + bias <= kfl_unit_out scales bias tv <= hi + bias.
Proof.
  intros Ht Hlen Hl Hv H0 Hs. unfold kfl_unit_out.
  set (l := map2 (fun s vs => s * qprod vs) scales tv).
  assert (Hll : length l = length scales) by (unfold l; rewrite map2_length; lia).
  rewrite <- Hll. destruct (mean_bounds l lo hi) as [M1 M2]; [| |split; lra].
  - intros E. rewrite E in Hll. cbn in Hll. lia.
  - intros z Hz. destruct (in_map2 _ _ _ _ Hz) as [s [vs [H1 [H2 ->]]]].
    apply qscale_in; [exact H0|exact (Hs s H1)|]. apply qprod_le1. intros x Hx. exact (Hv vs x H2 Hx).
Qed.

(* the function of the fresh layer stays inside the output bounds: the scales
   are +-(half width) with two bounds, 1 with a lower, -1 with an upper bound *)
Lemma kfl_out_bounded units terms omin omax scales bias (tv : list (list Q)) :
  (1 <= terms)%nat -> In scales (kfl_scale_init units terms omin omax) -> In bias (kfl_bias_init units omin omax) ->
  length tv = terms -> (forall vs x, In vs tv -> In x vs -> 0 <= x /\ x <= 1) ->
  (forall a b, omin = Some a -> omax = Some b -> a <= b) ->
  (forall a, omin = Some a -> a <= kfl_unit_out scales bias tv) /\
  (forall b, omax = Some b -> kfl_unit_out scales bias tv <= b).
Proof. intros Ht Hsc Hbi Hl Hv Hab.
  destruct (kfl_scale_row _ _ _ _ _ Hsc) as [Hlen Hrow]. pose proof (kfl_bias_entry _ _ _ _ Hbi) as Hb0.
  pose proof (fun lo hi => kfl_out_in lo hi scales bias tv terms Ht Hlen Hl Hv) as Hin.
  destruct omin as [a|], omax as [b|].
  - specialize (Hab a b eq_refl eq_refl). destruct (Hin (- ((b - a) * (1#2))) ((b - a) * (1#2))) as [M1 M2]. lra.
    { intros s Hs. destruct (Hrow s Hs) as [E|E]; rewrite E; lra. }
    split; intros x Hx; injection Hx as <-; lra.
  - destruct (Hin 0 1) as [M1 M2]. lra. { intros s Hs. rewrite (Hrow s Hs). lra. }
    split; intros x Hx; [injection Hx as <-; lra|discriminate].
  - destruct (Hin (-1) 0) as [M1 M2]. lra. { intros s Hs. rewrite (Hrow s Hs). lra. }
    split; intros x Hx; [discriminate|injection Hx as <-; lra].
  - split; intros x Hx; discriminate. Qed.

(* the hypotheses are satisfiable; concrete values *)
Example kfl_col_ex : kfl_init_col true true (-2) [1#2; 3#2; 1] = [3#2; 1; 1#2].
Proof. vm_compute. reflexivity. Qed.
Example kfl_col_free_dim_ex : kfl_init_col true false (-2) [1#2; 3#2; 1] = [1#2; 3#2; 1].
Proof. vm_compute. reflexivity. Qed.
Example kfl_scale_bias_ex :
  kfl_scale_init 2 3 (Some (-1)) (Some 3) = [[2; -2; 2]; [2; -2; 2]] /\ kfl_bias_init 2 (Some (-1)) (Some 3) = [1; 1] /\
  kfl_scale_init 1 2 None (Some 3) = [[-1; -1]] /\ kfl_scale_init 1 2 None None = [[1; -1]].
Proof. vm_compute. repeat split; reflexivity. Qed.
Example kfl_out_bounded_ex :
  let scales := [2; -2] in let tv := [[1#2; 1]; [1; 1#4]] in
  In scales (kfl_scale_init 1 2 (Some (-1)) (Some 3)) /\ In 1 (kfl_bias_init 1 (Some (-1)) (Some 3)) /\
  (forall vs x, In vs tv -> In x vs -> 0 <= x /\ x <= 1) /\ kfl_unit_out scales 1 tv == 5#4.
Proof. cbv zeta. split; [|split; [|split]].
  - vm_compute. left. reflexivity.
  - vm_compute. left. reflexivity.
  - intros vs x Hvs Hx. cbn in Hvs. destruct Hvs as [<-|[<-|[]]]; cbn in Hx; repeat (destruct Hx as [<-|Hx]; [lra|]); destruct Hx.
  - vm_compute. reflexivity. Qed.
