(* Abstract theory of Dykstra's alternating projections (DESIGN.md section 6,
   HalfSpace / Dykstra), independent of the lattice model.

   "Vectors" are functions on a finite index list [I]; everything is stated up
   to pointwise equality on [I] ([veq]).  The nearest point of a closed convex
   set is characterised variationally ([is_proj], no square roots needed).
   Main result ([asweep_fixpoint_nearest]): a fixpoint of one Dykstra sweep over
   nearest-point maps P_g onto C_g, whose increments sum up to x - x0, is the
   nearest point of the intersection of the C_g to x0.

   NOT proved here: convergence of the iterates (Boyle-Dykstra 1986).  Its
   quantitative core (boundedness, summable movement) is in
   Proofs/DykstraBound.v; the existence of the limit is an analytic statement
   and is tested numerically. *)
From TFL Require Export Base.QNum.
From TFL Require Import Base.Lists.
From Coq Require Import Permutation.
Open Scope Q_scope.

Section Vec.
Context {A : Type}.
Variable I : list A.
Notation vec := (A -> Q).

Definition veq (f g : vec) : Prop := forall i, In i I -> f i == g i.
Definition vsub (f g : vec) : vec := fun i => f i - g i.
Definition vadd (f g : vec) : vec := fun i => f i + g i.
Definition vzero : vec := fun _ => 0.
Definition vsum (l : list vec) : vec := fun i => qsum (map (fun e : vec => e i) l).
Definition ip (f g : vec) : Q := qsum (map (fun i => f i * g i) I).

Lemma veq_refl f : veq f f.
Proof. intros i _. reflexivity. Qed.
Lemma veq_sym f g : veq f g -> veq g f.
Proof. intros H i Hi. symmetry. apply H; assumption. Qed.
Lemma veq_trans f g h : veq f g -> veq g h -> veq f h.
Proof. intros H1 H2 i Hi. rewrite (H1 i Hi). apply H2; assumption. Qed.
Lemma vsub_veq f f' g g' : veq f f' -> veq g g' -> veq (vsub f g) (vsub f' g').
Proof. intros H1 H2 i Hi. unfold vsub. rewrite (H1 i Hi), (H2 i Hi). reflexivity. Qed.
Lemma vadd_veq f f' g g' : veq f f' -> veq g g' -> veq (vadd f g) (vadd f' g').
Proof. intros H1 H2 i Hi. unfold vadd. rewrite (H1 i Hi), (H2 i Hi). reflexivity. Qed.

Lemma qsum_map_nonpos {B} (f : B -> Q) (l : list B) : (forall x, In x l -> f x <= 0) -> qsum (map f l) <= 0.
Proof. induction l as [|a l IH]; intros H; cbn [map qsum]. lra.
  pose proof (H a (or_introl eq_refl)). pose proof (IH (fun x Hx => H x (or_intror Hx))). lra. Qed.

Lemma ip_ext f f' g g' : veq f f' -> veq g g' -> ip f g == ip f' g'.
Proof. intros Hf Hg. unfold ip. apply qsum_map_ext. intros i Hi. rewrite (Hf i Hi), (Hg i Hi). reflexivity. Qed.
Lemma ip_add_l f g h : ip (vadd f g) h == ip f h + ip g h.
Proof. unfold ip, vadd. rewrite <- qsum_map_plus. apply qsum_map_ext. intros; ring. Qed.
Lemma ip_sub_l f g h : ip (vsub f g) h == ip f h - ip g h.
Proof. unfold ip, vsub.
  assert (E : qsum (map (fun i => g i * h i) I) + qsum (map (fun i => (f i - g i) * h i) I) == qsum (map (fun i => f i * h i) I)).
  { rewrite <- qsum_map_plus. apply qsum_map_ext. intros; ring. }
  lra. Qed.
Lemma ip_zero_l h : ip vzero h == 0.
Proof. apply qsum_map_zero. intros i _. unfold vzero. ring. Qed.
Lemma ip_scale_l c f h : ip (fun i => c * f i) h == c * ip f h.
Proof. unfold ip. rewrite <- qsum_map_scale. apply qsum_map_ext. intros; ring. Qed.
Lemma ip_nonneg f : 0 <= ip f f.
Proof. unfold ip. apply qsum_map_nonneg. intros i _. nra. Qed.
Lemma ip_vsum l h : ip (vsum l) h == qsum (map (fun e : vec => ip e h) l).
Proof. induction l as [|e l IH]; cbn [map qsum].
  - apply ip_zero_l.
  - rewrite <- IH, <- ip_add_l. apply ip_ext; [|apply veq_refl]. intros i _. unfold vsum, vadd. cbn [map qsum]. reflexivity. Qed.

Lemma qsum_sq_zero (f : A -> Q) (l : list A) : qsum (map (fun i => f i * f i) l) <= 0 -> forall i, In i l -> f i == 0.
Proof. induction l as [|j l IH]; intros H i Hi. destruct Hi.
  cbn [map qsum] in H.
  assert (H1 : 0 <= f j * f j) by nra.
  assert (H2 : 0 <= qsum (map (fun i => f i * f i) l)) by (apply qsum_map_nonneg; intros; nra).
  destruct Hi as [<-|Hi].
  - assert (E : f j * f j == 0) by lra. nra.
  - apply IH; [lra|assumption]. Qed.
Lemma ip_vsub_self_zero f g : ip (vsub f g) (vsub f g) <= 0 -> veq f g.
Proof. intros H i Hi. pose proof (qsum_sq_zero (vsub f g) I H i Hi) as Z. unfold vsub in Z. lra. Qed.

(* P is a nearest-point map onto C: P y is in C and  <y - P y, z - P y> <= 0  for
   every z in C (for a closed convex C this characterises the Euclidean-nearest
   point of C to y). *)
Definition is_proj (C : vec -> Prop) (P : vec -> vec) : Prop :=
  forall y, C (P y) /\ forall z, C z -> ip (vsub y (P y)) (vsub z (P y)) <= 0.

(* the variational inequality at x gives the distance form of "nearest": z is
   farther from x0 than x by at least |x - z|^2 *)
Lemma vi_nearest_dist x0 x z : ip (vsub x0 x) (vsub z x) <= 0 ->
  ip (vsub x0 x) (vsub x0 x) + ip (vsub x z) (vsub x z) <= ip (vsub x0 z) (vsub x0 z).
Proof. intros H.
  assert (E : ip (vsub x0 z) (vsub x0 z) == ip (vsub x0 x) (vsub x0 x) + (ip (vsub x z) (vsub x z) + (-2) * ip (vsub x0 x) (vsub z x))).
  { unfold ip. rewrite <- qsum_map_scale, <- !qsum_map_plus. apply qsum_map_ext. intros i _. unfold vsub. ring. }
  lra. Qed.
Lemma vi_nearest x0 x z : ip (vsub x0 x) (vsub z x) <= 0 ->
  ip (vsub x0 x) (vsub x0 x) <= ip (vsub x0 z) (vsub x0 z).
Proof. intros H. pose proof (vi_nearest_dist x0 x z H). pose proof (ip_nonneg (vsub x z)). lra. Qed.
(* two points of C that both satisfy the variational inequality coincide *)
Lemma vi_unique (C : vec -> Prop) x0 x x' : C x -> C x' ->
  (forall z, C z -> ip (vsub x0 x) (vsub z x) <= 0) ->
  (forall z, C z -> ip (vsub x0 x') (vsub z x') <= 0) -> veq x x'.
Proof. intros Cx Cx' H H'. specialize (H x' Cx'). specialize (H' x Cx).
  assert (E : ip (vsub x x') (vsub x x') == ip (vsub x0 x) (vsub x' x) + ip (vsub x0 x') (vsub x x')).
  { unfold ip. rewrite <- qsum_map_plus. apply qsum_map_ext. intros i _. unfold vsub. ring. }
  apply ip_vsub_self_zero. lra. Qed.

(* a nearest-point map fixes the points of its set *)
Lemma is_proj_fixes C P y : is_proj C P -> C y -> veq (P y) y.
Proof. intros HP Cy. apply veq_sym, ip_vsub_self_zero. apply (HP y). exact Cy. Qed.

(* ... and, the nearest point being unique, respects pointwise equality *)
Lemma is_proj_proper C P y y' : is_proj C P -> veq y y' -> veq (P y) (P y').
Proof. intros HP E. destruct (HP y) as [H1 H2]. destruct (HP y') as [H1' H2'].
  apply (vi_unique C y (P y) (P y') H1 H1' H2). intros z Hz.
  rewrite (ip_ext (vsub y (P y')) (vsub y' (P y')) _ _ (vsub_veq _ _ _ _ E (veq_refl _)) (veq_refl _)).
  apply H2'; exact Hz. Qed.

(* the nearest-point map onto the half-space  <c, w> >= 0 *)
Definition hs_proj (c : vec) (w : vec) : vec := fun i => w i - c i * (qmin (ip c w) 0 / ip c c).
Lemma hs_ip c w : 0 < ip c c -> ip c (hs_proj c w) == qmax (ip c w) 0.
Proof. intros Hc. unfold hs_proj. set (t := qmin (ip c w) 0 / ip c c).
  assert (Et : t * ip c c == qmin (ip c w) 0) by (unfold t; field; lra).
  assert (E : ip c (fun i => w i - c i * t) == ip c w + (- t) * ip c c).
  { unfold ip. rewrite <- qsum_map_scale, <- qsum_map_plus. apply qsum_map_ext. intros; ring. }
  rewrite E. revert Et. qcases; lra. Qed.
Theorem halfspace_is_proj c : 0 < ip c c -> is_proj (fun w => 0 <= ip c w) (hs_proj c).
Proof. intros Hc y. split.
  - rewrite hs_ip by assumption. apply qmax_r.
  - intros z Hz. pose proof (hs_ip c y Hc) as Ep. revert Ep. unfold hs_proj.
    set (t := qmin (ip c y) 0 / ip c c). intros Ep.
    assert (Et : t * ip c c == qmin (ip c y) 0) by (unfold t; field; lra).
    (* y - P y = t c, so the inner product is  t (<c,z> - <c,P y>) *)
    assert (E : ip (vsub y (fun i => y i - c i * t)) (vsub z (fun i => y i - c i * t)) ==
                t * ip c z + (- t) * ip c (fun i => y i - c i * t)).
    { unfold ip. rewrite <- !qsum_map_scale, <- qsum_map_plus. apply qsum_map_ext. intros; unfold vsub; ring. }
    rewrite E, Ep. revert Et. qcases; nra. Qed.
Lemma hs_proj_proper c f g : veq f g -> veq (hs_proj c f) (hs_proj c g).
Proof. intros E i Hi. unfold hs_proj. rewrite (E i Hi), (ip_ext c c f g (veq_refl c) E). reflexivity. Qed.

(* s maps I into itself and is its own inverse there *)
Definition invol_on (s : A -> A) : Prop := forall i, In i I -> In (s i) I /\ s (s i) = i.

(* sums over I are invariant under involutions of I *)
Section Invol.
Hypothesis I_nodup : NoDup I.
Variable s : A -> A.
Hypothesis s_invol : invol_on s.
Lemma invol_perm : Permutation I (map s I).
Proof. apply NoDup_Permutation. assumption.
  - apply NoDup_map_inj_in; [|assumption]. intros x y Hx Hy E.
    rewrite <- (proj2 (s_invol x Hx)), <- (proj2 (s_invol y Hy)), E. reflexivity.
  - intros i. split.
    + intros Hi. apply in_map_iff. exists (s i). split; apply (s_invol i Hi).
    + intros Hi. apply in_map_iff in Hi. destruct Hi as [j [<- Hj]]. apply (s_invol j Hj). Qed.
Lemma sum_invol (T : A -> Q) : qsum (map T I) == qsum (map (fun i => T (s i)) I).
Proof. rewrite <- (map_map s T). apply qsum_perm. apply Permutation_map. apply invol_perm. Qed.
Lemma sum_sym2 (T : A -> Q) : qsum (map T I) == (1#2) * qsum (map (fun i => T i + T (s i)) I).
Proof. rewrite qsum_map_plus. rewrite <- (sum_invol T). lra. Qed.
(* if every symmetrised local term is <= 0 then so is the whole sum *)
Lemma sum_sym2_nonpos (T : A -> Q) : (forall i, In i I -> T i + T (s i) <= 0) -> qsum (map T I) <= 0.
Proof. intros Hloc. rewrite (sum_sym2 T). pose proof (qsum_map_nonpos _ I Hloc). lra. Qed.
End Invol.

(* the same over the orbits of two involutions: symmetrise under s1, then under s2 *)
Lemma sum_sym4_nonpos (s1 s2 : A -> A) (T : A -> Q) : NoDup I -> invol_on s1 -> invol_on s2 ->
  (forall i, In i I -> (T i + T (s1 i)) + (T (s2 i) + T (s1 (s2 i))) <= 0) ->
  qsum (map T I) <= 0.
Proof. intros Hnd H1 H2 Hloc. rewrite (sum_sym2 Hnd s1 H1 T).
  pose proof (sum_sym2_nonpos Hnd s2 H2 (fun i => T i + T (s1 i)) Hloc). lra. Qed.

(* one slot of the scheme: constraint set, its map, the stored increment *)
Record slot := mkSlot { s_C : vec -> Prop; s_P : vec -> vec; s_e : vec }.

(* Core: x is fixed by every roll-back/project step and the increments add up
   to x - x0; then x is in every set and satisfies the variational inequality
   of the intersection w.r.t. x0. *)
Theorem step_fixpoints_nearest (sl : list slot) (x0 x : vec) :
  (forall s, In s sl -> is_proj (s_C s) (s_P s)) ->
  (forall s, In s sl -> forall f g, veq f g -> s_C s f -> s_C s g) ->
  (forall s, In s sl -> veq (s_P s (vsub x (s_e s))) x) ->
  veq x (vadd x0 (vsum (map s_e sl))) ->
  (forall s, In s sl -> s_C s x) /\
  (forall z, (forall s, In s sl -> s_C s z) -> ip (vsub x0 x) (vsub z x) <= 0).
Proof. intros Hproj Hclosed Hfix Hsum. split.
  - intros s Hs. apply (Hclosed s Hs (s_P s (vsub x (s_e s)))). apply Hfix; assumption.
    apply (Hproj s Hs).
  - intros z Hz.
    assert (Hs : forall s, In s sl -> 0 <= ip (s_e s) (vsub z x)).
    { intros s Hin. destruct (Hproj s Hin (vsub x (s_e s))) as [_ H]. specialize (H z (Hz s Hin)).
      assert (E : ip (vsub (vsub x (s_e s)) (s_P s (vsub x (s_e s)))) (vsub z (s_P s (vsub x (s_e s)))) ==
                  - ip (s_e s) (vsub z x)).
      { rewrite (ip_ext _ (fun i => (-1) * s_e s i) _ (vsub z x)).
        - rewrite ip_scale_l. ring.
        - intros i Hi. unfold vsub. rewrite (Hfix s Hin i Hi). ring.
        - apply vsub_veq. apply veq_refl. apply Hfix; assumption. }
      lra. }
    assert (E : ip (vsub x0 x) (vsub z x) == - ip (vsum (map s_e sl)) (vsub z x)).
    { rewrite (ip_ext _ (fun i => (-1) * vsum (map s_e sl) i) _ (vsub z x)).
      - rewrite ip_scale_l. ring.
      - intros i Hi. unfold vsub. rewrite (Hsum i Hi). unfold vadd. ring.
      - apply veq_refl. }
    rewrite E, ip_vsum.
    assert (0 <= qsum (map (fun e : vec => ip e (vsub z x)) (map s_e sl))).
    { rewrite map_map. apply qsum_map_nonneg. exact Hs. }
    lra. Qed.

(* The abstract sweep: for every slot in turn, roll back its increment, apply
   its map, store the new increment. *)
Fixpoint asweep (sl : list slot) (x : vec) : vec * list slot :=
  match sl with
  | [] => (x, [])
  | s :: r =>
      let rolled := vsub x (s_e s) in
      let x' := s_P s rolled in
      let '(xf, r') := asweep r x' in
      (xf, mkSlot (s_C s) (s_P s) (vsub x' rolled) :: r')
  end.

(* increment-sum invariant of the abstract sweep *)
Lemma asweep_increment_sum sl : forall x x0,
  veq x (vadd x0 (vsum (map s_e sl))) ->
  veq (fst (asweep sl x)) (vadd x0 (vsum (map s_e (snd (asweep sl x))))).
Proof. induction sl as [|s r IH]; intros x x0 H; cbn [asweep]. exact H.
  destruct (asweep r (s_P s (vsub x (s_e s)))) as [xf r'] eqn:E. cbn [fst snd map s_e].
  specialize (IH (s_P s (vsub x (s_e s))) (vadd x0 (vsub (s_P s (vsub x (s_e s))) (vsub x (s_e s))))).
  rewrite E in IH. cbn [fst snd] in IH.
  assert (Hpre : veq (s_P s (vsub x (s_e s)))
                     (vadd (vadd x0 (vsub (s_P s (vsub x (s_e s))) (vsub x (s_e s)))) (vsum (map s_e r)))).
  { intros i Hi. specialize (H i Hi). unfold vadd, vsub, vsum in *. cbn [map qsum] in H. lra. }
  specialize (IH Hpre). intros i Hi. specialize (IH i Hi). unfold vadd, vsub, vsum in *. cbn [map qsum]. lra. Qed.

(* a sweep that leaves every stored increment unchanged leaves x unchanged and
   every single step is a fixpoint step *)
Lemma asweep_fix_steps sl : forall xc x,
  (forall s, In s sl -> forall f g, veq f g -> veq (s_P s f) (s_P s g)) ->
  veq xc x ->
  Forall2 (fun s s' => veq (s_e s') (s_e s)) sl (snd (asweep sl xc)) ->
  (forall s, In s sl -> veq (s_P s (vsub x (s_e s))) x) /\ veq (fst (asweep sl xc)) x.
Proof. induction sl as [|s r IH]; intros xc x Hprop Hx HF; cbn [asweep] in *.
  - split. intros s []. exact Hx.
  - destruct (asweep r (s_P s (vsub xc (s_e s)))) as [xf r'] eqn:E. cbn [fst snd] in *.
    inversion HF as [|a b l l' He HF']; subst. cbn [s_e] in He.
    assert (Hx' : veq (s_P s (vsub xc (s_e s))) x).
    { intros i Hi. specialize (He i Hi). specialize (Hx i Hi). unfold vsub in *. lra. }
    specialize (IH (s_P s (vsub xc (s_e s))) x (fun s0 H0 => Hprop s0 (or_intror H0)) Hx').
    rewrite E in IH. cbn [fst snd] in IH. destruct (IH HF') as [IH1 IH2]. split; [|exact IH2].
    intros s0 [<-|H0]; [|apply IH1; assumption].
    apply veq_trans with (s_P s (vsub xc (s_e s))); [|exact Hx'].
    apply (Hprop s (or_introl eq_refl)). apply vsub_veq. apply veq_sym; exact Hx. apply veq_refl. Qed.

Theorem asweep_fixpoint_nearest (sl : list slot) (x0 x : vec) :
  (forall s, In s sl -> is_proj (s_C s) (s_P s)) ->
  (forall s, In s sl -> forall f g, veq f g -> s_C s f -> s_C s g) ->
  (forall s, In s sl -> forall f g, veq f g -> veq (s_P s f) (s_P s g)) ->
  veq x (vadd x0 (vsum (map s_e sl))) ->
  Forall2 (fun s s' => veq (s_e s') (s_e s)) sl (snd (asweep sl x)) ->
  veq (fst (asweep sl x)) x /\
  (forall s, In s sl -> s_C s x) /\
  (forall z, (forall s, In s sl -> s_C s z) ->
     ip (vsub x0 x) (vsub z x) <= 0 /\ ip (vsub x0 x) (vsub x0 x) <= ip (vsub x0 z) (vsub x0 z)).
Proof. intros Hproj Hclosed Hprop Hsum HF.
  destruct (asweep_fix_steps sl x x Hprop (veq_refl x) HF) as [Hsteps Hx].
  destruct (step_fixpoints_nearest sl x0 x Hproj Hclosed Hsteps Hsum) as [HC Hvi].
  split; [exact Hx|]. split; [exact HC|]. intros z Hz. split. apply Hvi; assumption.
  apply vi_nearest. apply Hvi; assumption. Qed.

End Vec.

(* The hypotheses of asweep_fixpoint_nearest are satisfiable:
   two coordinates, one half-space  w 1 >= w 0, start x0 = (1, 0): the state
   x = (1/2, 1/2) with increment (-1/2, 1/2) is reproduced by a sweep. *)
Definition ex_I : list nat := [0%nat; 1%nat].
Definition ex_c : nat -> Q := fun i => if (i =? 0)%nat then -1 else 1.
Definition ex_x0 : nat -> Q := fun i => if (i =? 0)%nat then 1 else 0.
Definition ex_x : nat -> Q := fun _ => 1#2.
Definition ex_e : nat -> Q := fun i => if (i =? 0)%nat then -(1#2) else 1#2.
Definition ex_sl : list (slot (A:=nat)) := [mkSlot (fun w => 0 <= ip ex_I ex_c w) (hs_proj ex_I ex_c) ex_e].
Example asweep_fixpoint_hyps :
  (forall s, In s ex_sl -> is_proj ex_I (s_C s) (s_P s)) /\
  (forall s, In s ex_sl -> forall f g, veq ex_I f g -> s_C s f -> s_C s g) /\
  (forall s, In s ex_sl -> forall f g, veq ex_I f g -> veq ex_I (s_P s f) (s_P s g)) /\
  veq ex_I ex_x (vadd ex_x0 (vsum (map s_e ex_sl))) /\
  Forall2 (fun s s' => veq ex_I (s_e s') (s_e s)) ex_sl (snd (asweep ex_sl ex_x)) /\
  ~ veq ex_I ex_x ex_x0.
Proof. split; [|split; [|split; [|split; [|split]]]].
  - intros s [<-|[]]. cbn [s_C s_P]. apply halfspace_is_proj. vm_compute. reflexivity.
  - intros s [<-|[]] f g E. cbn [s_C]. rewrite (ip_ext ex_I ex_c ex_c f g (veq_refl _ _) E). auto.
  - intros s [<-|[]] f g E. cbn [s_P]. apply hs_proj_proper. exact E.
  - intros i [<-|[<-|[]]]; vm_compute; reflexivity.
  - cbn [asweep ex_sl snd s_e s_P s_C]. constructor; [|constructor]. cbn [s_e].
    intros i [<-|[<-|[]]]; vm_compute; reflexivity.
  - intros H. specialize (H 0%nat (or_introl eq_refl)). vm_compute in H. discriminate H. Qed.
