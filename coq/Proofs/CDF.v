(* Model/CDF.v: every cell of the (input, keypoint, unit) table is a [basis] value in [0, 1],
   monotone in the input when the scale is non-negative; regrouping and the reductions keep
   ranges and order.  The oracles enter through [sigmoid_mono_ok] and [explog_ok]. *)
From TFL Require Import Model.CDF Proofs.CondPWL.
Open Scope Q_scope.

Definition sigmoid_mono_ok (sg : Q -> Q) : Prop :=
  (forall z, 0 <= sg z /\ sg z <= 1) /\ (forall a b, a <= b -> sg a <= sg b).
Definition explog_ok (ex lg : Q -> Q) : Prop :=
  (forall a b, a <= b -> ex a <= ex b) /\ (forall a b, 0 < a -> a <= b -> lg a <= lg b)
  /\ (forall a, 0 < a -> ex (lg a) == a).
Definition exp_pos (ex : Q -> Q) : Prop := forall z, 0 < ex z.

Definition vle (a b : list Q) : Prop := Forall2 Qle a b.
Definition mle (a b : list (list Q)) : Prop := Forall2 vle a b.
Definition all_in (lo hi : Q) (m : list (list Q)) : Prop :=
  forall row, In row m -> forall v, In v row -> lo <= v <= hi.

Lemma vle_nth a b i : vle a b -> nth i a 0 <= nth i b 0.
Proof. intros H. revert i. induction H as [|x y a b Hxy H IH]; intros [|i]; cbn [nth]; try lra. apply IH. Qed.
Lemma mle_concat a b : mle a b -> vle (concat a) (concat b).
Proof. intros H. induction H; cbn [concat]. constructor. apply Forall2_app; assumption. Qed.
Lemma mle_nth_row a b i : mle a b -> vle (nth i a []) (nth i b []).
Proof. intros H. revert i. induction H as [|x y a b Hxy H IH]; intros [|i]; cbn [nth]. constructor. constructor. exact Hxy. apply IH. Qed.
Lemma mle_column u a b : mle a b -> vle (column u a) (column u b).
Proof. intros H. unfold column. induction H; cbn [map]. constructor. constructor. apply vle_nth; assumption. assumption. Qed.
(* matrices given entry by entry *)
Lemma all_in_table lo hi (f : nat -> nat -> Q) rows cols : (forall i u, lo <= f i u <= hi) ->
  all_in lo hi (map (fun i => map (f i) (seq 0 cols)) (seq 0 rows)).
Proof. intros H row Hr v Hv. apply in_map_iff in Hr. destruct Hr as [i [<- _]].
  apply in_map_iff in Hv. destruct Hv as [u [<- _]]. apply H. Qed.
Lemma mle_table (f g : nat -> nat -> Q) rows cols : (forall i u, f i u <= g i u) ->
  mle (map (fun i => map (f i) (seq 0 cols)) (seq 0 rows)) (map (fun i => map (g i) (seq 0 cols)) (seq 0 rows)).
Proof. intros H. apply Forall2_map_seq. intros i _. apply Forall2_map_seq. intros u _. apply H. Qed.
Lemma vle_map (f g : Q -> Q) a b : (forall x y, x <= y -> f x <= g y) -> vle a b -> vle (map f a) (map g b).
Proof. intros Hf H. induction H; cbn [map]; constructor; auto. Qed.

Lemma inv_nat_nonneg n : 0 <= / inject_Z (Z.of_nat n).
Proof. apply Qinv_le_0_compat, qofnat_nonneg. Qed.
Lemma qmean_mono a b : vle a b -> qmean a <= qmean b.
Proof. exact (qavg_le a b). Qed.
Lemma qmean_range lo hi l : l <> [] -> (forall v, In v l -> lo <= v <= hi) -> lo <= qmean l <= hi.
Proof. exact (qavg_bounds lo hi l). Qed.
(* with 0 inside the interval the empty mean (0 in the model) is covered too *)
Lemma qmean_range0 hi l : 0 <= hi -> (forall v, In v l -> 0 <= v <= hi) -> 0 <= qmean l <= hi.
Proof. intros Hhi H. destruct l as [|a l]. unfold qmean; cbn. unfold Qdiv. rewrite Qmult_0_l. lra.
  apply qmean_range. discriminate. exact H. Qed.

Lemma qmean_map_range0 hi (f : Q -> Q) l : 0 <= hi -> (forall z, 0 <= f z <= hi) -> 0 <= qmean (map f l) <= hi.
Proof. intros Hhi H. apply qmean_range0. exact Hhi. intros v Hv. apply in_map_iff in Hv. destruct Hv as [z [<- _]]. apply H. Qed.

Lemma relu6_range z : 0 <= relu6 z <= 6.
Proof. unfold relu6. qcases; lra. Qed.
Lemma relu6_mono a b : a <= b -> relu6 a <= relu6 b.
Proof. intros H. unfold relu6. qcases; lra. Qed.

Lemma all_in_nth lo hi m i u : lo <= 0 <= hi -> all_in lo hi m -> lo <= nth u (nth i m []) 0 <= hi.
Proof. intros H0 H. destruct (Nat.lt_ge_cases i (length m)) as [Hi|Hi].
  - pose proof (nth_In m [] Hi) as Hr. destruct (Nat.lt_ge_cases u (length (nth i m []))) as [Hu|Hu].
    + apply (H _ Hr). apply nth_In. exact Hu.
    + rewrite (nth_overflow _ 0 Hu). exact H0.
  - rewrite (nth_overflow m [] Hi). destruct u; exact H0. Qed.
Lemma all_in_concat_nth lo hi m k : lo <= 0 <= hi -> all_in lo hi m -> lo <= nth k (concat m) 0 <= hi.
Proof. intros H0 H. destruct (Nat.lt_ge_cases k (length (concat m))) as [Hk|Hk].
  - pose proof (nth_In (concat m) 0 Hk) as Hin. apply in_concat in Hin. destruct Hin as [row [Hr Hv]]. apply (H row Hr). exact Hv.
  - rewrite (nth_overflow _ 0 Hk). exact H0. Qed.
Lemma reshape2_all_in lo hi rows cols m : lo <= 0 <= hi -> all_in lo hi m -> all_in lo hi (reshape2 rows cols m).
Proof. intros H0 H. apply all_in_table. intros i u. apply all_in_concat_nth; assumption. Qed.
Lemma reshape2_length rows cols m : length (reshape2 rows cols m) = rows.
Proof. unfold reshape2. rewrite map_length. apply seq_length. Qed.
Lemma reshape2_mle rows cols a b : mle a b -> mle (reshape2 rows cols a) (reshape2 rows cols b).
Proof. intros H. apply mle_table. intros i u. apply vle_nth, mle_concat, H. Qed.

Lemma column_all_in lo hi u m : lo <= 0 <= hi -> all_in lo hi m -> forall v, In v (column u m) -> lo <= v <= hi.
Proof. intros H0 H v Hv. unfold column in Hv. apply in_map_iff in Hv. destruct Hv as [row [<- Hr]].
  destruct (Nat.lt_ge_cases u (length row)) as [Hu|Hu]. apply (H row Hr). apply nth_In; exact Hu.
  rewrite (nth_overflow _ 0 Hu). exact H0. Qed.

Lemma bsel_nil {A} (d : A) i : bsel d i [] = d.
Proof. destruct i; reflexivity. Qed.
Lemma bsel_In {A} (d : A) i (l : list A) : bsel d i l = d \/ In (bsel d i l) l.
Proof. unfold bsel. destruct (length l =? 1)%nat.
  - destruct (Nat.lt_ge_cases 0 (length l)). right; apply nth_In; assumption. left; apply nth_overflow; assumption.
  - destruct (Nat.lt_ge_cases i (length l)). right; apply nth_In; assumption. left; apply nth_overflow; assumption. Qed.
Lemma vle_bsel x x' i : vle x x' -> bsel 0 i x <= bsel 0 i x'.
Proof. intros H. unfold bsel. rewrite <- (Forall2_length _ x x' H). destruct (length x =? 1)%nat; apply vle_nth; exact H. Qed.

Lemma nonneg_all w : forall v, In v (nonneg w) -> 0 <= v.
Proof. intros v Hv. unfold nonneg in Hv. apply in_map_iff in Hv. destruct Hv as [a [<- _]].
  destruct (qle 0 a) eqn:E. apply qle_true in E; exact E. lra. Qed.

Section Oracles.
Variable sg ex lg : Q -> Q.
Hypothesis Hsg : sigmoid_mono_ok sg.

Lemma basis_range a zs : 0 <= basis sg a zs <= 1.
Proof. pose proof (qmean_map_range0 6 relu6 zs ltac:(lra) relu6_range). unfold basis. destruct a; try lra.
  apply qmean_map_range0. lra. apply (proj1 Hsg). Qed.
Lemma basis_mono a zs zs' : vle zs zs' -> basis sg a zs <= basis sg a zs'.
Proof. intros H. assert (qmean (map relu6 zs) <= qmean (map relu6 zs'))
    by (apply qmean_mono, vle_map; [intros; apply relu6_mono; assumption|exact H]).
  unfold basis. destruct a; try lra.
  apply qmean_mono, vle_map; [intros; apply (proj2 Hsg); assumption|exact H]. Qed.

Lemma cdf_cells_all_in a expm x loc scal uf : all_in 0 1 (cdf_cells sg ex a expm x loc scal uf).
Proof. apply all_in_table. intros i u. apply basis_range. Qed.
Lemma layer_cells_all_in a kernel scaling x uf : all_in 0 1 (layer_cells sg a kernel scaling x uf).
Proof. apply all_in_table. intros i u. apply basis_range. Qed.

(* every effective scale is non-negative *)
Definition scal_nonneg (expm : option Q) (scal : option (list (list (list Q)))) : Prop :=
  match scal, expm with
  | None, _ => True
  | Some s, None => forall m, In m s -> forall r, In r m -> forall v, In v r -> 0 <= v
  | Some _, Some _ => exp_pos ex
  end.

Lemma scale_nonneg expm s i k v : scal_nonneg expm (Some s) ->
  0 <= scale_of ex expm (bsel 0 v (bsel [] k (bsel [] i s))).
Proof. unfold scal_nonneg, scale_of. destruct expm as [m|]; intros H. apply Qlt_le_weak, H.
  destruct (bsel_In [] i s) as [E|Hm]. { rewrite E, !bsel_nil. lra. }
  destruct (bsel_In [] k (bsel [] i s)) as [E|Hr]. { rewrite E, bsel_nil. lra. }
  destruct (bsel_In 0 v (bsel [] k (bsel [] i s))) as [E|Hv]. { rewrite E. lra. }
  exact (H _ Hm _ Hr _ Hv). Qed.

Lemma cdf_cells_mle a expm x x' loc scal uf : scal_nonneg expm scal -> vle x x' ->
  mle (cdf_cells sg ex a expm x loc scal uf) (cdf_cells sg ex a expm x' loc scal uf).
Proof. intros Hs Hx. unfold cdf_cells. rewrite <- (Forall2_length _ x x' Hx). apply mle_table. intros i v.
  apply basis_mono. apply Forall2_map_seq. intros k _.
  pose proof (vle_nth x x' i Hx) as Hi. destruct scal as [s|]. 2: lra.
  pose proof (scale_nonneg expm s i k v Hs) as Hn.
  set (sc := scale_of ex expm _) in *. set (l := nth v _ 0).
  pose proof (qmul_nonneg sc (nth i x' 0 - nth i x 0) Hn ltac:(lra)). lra. Qed.

Lemma layer_cells_mle a kernel scaling x x' uf : (forall v, In v scaling -> 0 <= v) -> vle x x' ->
  mle (layer_cells sg a kernel scaling x uf) (layer_cells sg a kernel scaling x' uf).
Proof. intros Hs Hx. apply mle_table. intros i v. apply basis_mono. apply Forall2_map_seq. intros k _.
  pose proof (vle_bsel x x' i Hx) as Hi.
  assert (Hn : 0 <= bsel 0 i scaling) by (destruct (bsel_In 0 i scaling) as [-> | H]; [lra|apply Hs, H]).
  set (sc := bsel 0 i scaling) in *. set (l := nth v _ 0).
  pose proof (qmul_nonneg sc (bsel 0 i x' - bsel 0 i x) Hn ltac:(lra)). lra. Qed.

Hypothesis Hel : explog_ok ex lg.

Lemma geo_range eps col : 0 < eps -> col <> [] -> (forall v, In v col -> 0 <= v <= 1) ->
  eps <= geo ex lg eps (length col) col <= 1 + eps.
Proof. intros He Hne H. destruct Hel as [Hex [Hlg Hxl]]. unfold geo.
  assert (R : lg eps <= qmean (map (fun v => lg (v + eps)) col) <= lg (1 + eps)).
  { apply qmean_range. destruct col; [congruence|discriminate].
    intros w Hw. apply in_map_iff in Hw. destruct Hw as [v [<- Hv]]. destruct (H v Hv). split; apply Hlg; lra. }
  unfold qmean in R. rewrite map_length in R.
  pose proof (Hxl eps He) as E1. pose proof (Hxl (1 + eps) ltac:(lra)) as E2.
  pose proof (Hex _ _ (proj1 R)) as A. pose proof (Hex _ _ (proj2 R)) as B. lra. Qed.
Lemma geo_mono eps n a b : 0 < eps -> (forall v, In v a -> 0 <= v) -> vle a b ->
  geo ex lg eps n a <= geo ex lg eps n b.
Proof. intros He Ha H. destruct Hel as [Hex [Hlg Hxl]]. unfold geo. apply Hex. unfold Qdiv.
  apply Qmult_le_compat_r; [|apply inv_nat_nonneg]. apply qsum_le.
  clear -He Ha H Hlg. induction H as [|x y a b Hxy H IH]; cbn [map]; constructor.
  - apply Hlg. pose proof (Ha x (or_introl eq_refl)). lra. lra.
  - apply IH. intros v Hv. apply Ha. right. exact Hv. Qed.

Definition red_plain (r : red) : Prop := r = RMean \/ r = RNone.

Lemma reduce_range_plain r eps n units m : red_plain r -> all_in 0 1 m -> all_in 0 1 (reduce ex lg r eps n units m).
Proof. intros [-> | ->] H; cbn [reduce]; [|exact H].
  intros row [<-|[]] v Hv. apply in_map_iff in Hv. destruct Hv as [u [<- _]].
  apply qmean_range0. lra. apply column_all_in. lra. exact H. Qed.
Lemma reduce_range_geo eps n units m : 0 < eps -> (0 < n)%nat -> length m = n -> all_in 0 1 m ->
  all_in eps (1 + eps) (reduce ex lg RGeo eps n units m).
Proof. intros He Hn L H. cbn [reduce]. intros row [<-|[]] v Hv. apply in_map_iff in Hv. destruct Hv as [u [<- _]].
  rewrite <- L, <- (column_length u m). apply geo_range. exact He.
  intros E. apply (f_equal (@length Q)) in E. rewrite column_length, L in E. cbn in E. lia.
  apply column_all_in. lra. exact H. Qed.
Lemma reduce_mle r eps n units a b : 0 < eps -> all_in 0 1 a -> mle a b ->
  mle (reduce ex lg r eps n units a) (reduce ex lg r eps n units b).
Proof. intros He Ha H. destruct r; cbn [reduce]; try exact H.
  - constructor; [|constructor]. apply Forall2_map_seq. intros u _. apply qmean_mono, mle_column, H.
  - constructor; [|constructor]. apply Forall2_map_seq. intros u _. apply geo_mono. exact He.
    intros v Hv. apply (column_all_in 0 1 u a ltac:(lra) Ha v Hv). apply mle_column, H. Qed.

End Oracles.

(* the number of groups of a non-empty input that the sparsity factor divides *)
Lemma groups_pos n sf : (0 < sf)%nat -> (n mod sf = 0)%nat -> (0 < n)%nat -> (0 < n / sf)%nat.
Proof. intros Hs Hm Hn. apply Nat.div_exact in Hm; [|lia]. destruct (n / sf)%nat; lia. Qed.

(* the cell matrix as the reduction sees it: regrouped when sparsity_factor is not 1 *)
Definition grouped (sf rows units : nat) (cells : list (list Q)) : list (list Q) :=
  if (sf =? 1)%nat then cells else reshape2 rows units cells.
Lemma grouped_all_in sf rows units m : all_in 0 1 m -> all_in 0 1 (grouped sf rows units m).
Proof. intros H. unfold grouped. destruct (sf =? 1)%nat; [exact H|]. apply reshape2_all_in. lra. exact H. Qed.
Lemma grouped_mle sf rows units a b : mle a b -> mle (grouped sf rows units a) (grouped sf rows units b).
Proof. intros H. unfold grouped. destruct (sf =? 1)%nat; [exact H|]. apply reshape2_mle, H. Qed.
Lemma grouped_length sf rows units m : rows = (length m / sf)%nat -> length (grouped sf rows units m) = rows.
Proof. intros ->. unfold grouped. destruct (Nat.eqb_spec sf 1) as [->|_]; [symmetry; apply Nat.div_1_r|apply reshape2_length]. Qed.

Lemma cdf_cells_length sg ex a expm x loc scal uf : length (cdf_cells sg ex a expm x loc scal uf) = length x.
Proof. unfold cdf_cells. rewrite map_length. apply seq_length. Qed.
Lemma layer_cells_length sg a kernel scaling x uf : length (layer_cells sg a kernel scaling x uf) = length kernel.
Proof. unfold layer_cells. rewrite map_length. apply seq_length. Qed.

(* an accepted call reduces the grouped cells *)
Lemma cdf_fn_some sg ex lg a r units sf expm x loc scal out :
  cdf_fn sg ex lg a r units sf expm x loc scal = Some out ->
  let G := grouped sf (length x / sf) units (cdf_cells sg ex a expm x loc scal (units / sf)) in
  out = reduce ex lg r eps_fn (length G) units G /\ (0 < sf)%nat /\ (length x mod sf = 0)%nat.
Proof. unfold cdf_fn. destruct (verify_cdf _ _ _ _ _ _) eqn:V; cbn [negb]; [|discriminate]. intros E. injection E as <-.
  unfold verify_cdf in V. rewrite !andb_true_iff in V. destruct V as [[[[[[_ _] Hs] _] Hm] _] _].
  split; [reflexivity|]. split; [apply Nat.ltb_lt, Hs|apply Nat.eqb_eq, Hm]. Qed.
Lemma cdf_layer_some sg ex lg a r units sf kernel scaling x out :
  cdf_layer sg ex lg a r units sf kernel scaling x = Some out ->
  out = reduce ex lg r eps_layer (length x / sf) units
          (grouped sf (length x / sf) units (layer_cells sg a kernel scaling x (units / sf)))
  /\ (0 < sf)%nat /\ (length kernel mod sf = 0)%nat.
Proof. unfold cdf_layer, grouped. destruct (negb _) eqn:V; [discriminate|]. apply negb_false_iff in V.
  rewrite !andb_true_iff in V. destruct V as [[[[[_ _] Hs] Hm] _] _]. apply Nat.ltb_lt in Hs. apply Nat.eqb_eq in Hm.
  destruct (Nat.eqb_spec sf 1) as [->|_].
  - rewrite !Nat.div_1_r. intros E. injection E as <-. auto.
  - destruct (length x =? length kernel)%nat; [|discriminate]. intros E. injection E as <-. auto. Qed.

Lemma T_cdf_range : forall sg ex lg a r units sf expm x loc scal out,
  sigmoid_mono_ok sg -> red_plain r ->
  cdf_fn sg ex lg a r units sf expm x loc scal = Some out -> all_in 0 1 out.
Proof. intros sg ex lg a r units sf expm x loc scal out Hsg Hr E. apply cdf_fn_some in E. destruct E as [-> _].
  apply reduce_range_plain. exact Hr. apply grouped_all_in, cdf_cells_all_in, Hsg. Qed.

Lemma T_cdf_range_geometric : forall sg ex lg a units sf expm x loc scal out,
  sigmoid_mono_ok sg -> explog_ok ex lg -> x <> [] ->
  cdf_fn sg ex lg a RGeo units sf expm x loc scal = Some out -> all_in eps_fn (1 + eps_fn) out.
Proof. intros sg ex lg a units sf expm x loc scal out Hsg Hel Hx E.
  apply cdf_fn_some in E. destruct E as (-> & Hs & Hm).
  apply reduce_range_geo; [exact Hel|unfold eps_fn; lra| |reflexivity|apply grouped_all_in, cdf_cells_all_in, Hsg].
  rewrite grouped_length by (rewrite cdf_cells_length; reflexivity).
  apply groups_pos; [exact Hs|exact Hm|destruct x; [congruence|cbn; lia]]. Qed.

Lemma T_cdf_monotone : forall sg ex lg a r units sf expm x x' loc scal out out',
  sigmoid_mono_ok sg -> explog_ok ex lg -> scal_nonneg ex expm scal -> vle x x' ->
  cdf_fn sg ex lg a r units sf expm x loc scal = Some out ->
  cdf_fn sg ex lg a r units sf expm x' loc scal = Some out' -> mle out out'.
Proof. intros sg ex lg a r units sf expm x x' loc scal out out' Hsg Hel Hs Hx E E'.
  apply cdf_fn_some in E. destruct E as [-> _]. apply cdf_fn_some in E'. destruct E' as [-> _].
  rewrite <- (Forall2_length _ x x' Hx).
  pose proof (grouped_mle sf (length x / sf) units _ _ (cdf_cells_mle sg ex Hsg a expm x x' loc scal (units / sf) Hs Hx)) as M.
  rewrite <- (Forall2_length _ _ _ M). apply reduce_mle; [exact Hel|unfold eps_fn; lra| |exact M].
  apply grouped_all_in, cdf_cells_all_in, Hsg. Qed.

Lemma T_cdf_layer_range : forall sg ex lg a r units sf kernel scaling x out,
  sigmoid_mono_ok sg -> red_plain r ->
  cdf_layer sg ex lg a r units sf kernel scaling x = Some out -> all_in 0 1 out.
Proof. intros sg ex lg a r units sf kernel scaling x out Hsg Hr E. apply cdf_layer_some in E. destruct E as [-> _].
  apply reduce_range_plain. exact Hr. apply grouped_all_in, layer_cells_all_in, Hsg. Qed.

Lemma T_cdf_layer_range_geometric : forall sg ex lg a units sf kernel scaling x out,
  sigmoid_mono_ok sg -> explog_ok ex lg -> length x = length kernel -> x <> [] ->
  cdf_layer sg ex lg a RGeo units sf kernel scaling x = Some out -> all_in eps_layer (1 + eps_layer) out.
Proof. intros sg ex lg a units sf kernel scaling x out Hsg Hel HW Hx E.
  apply cdf_layer_some in E. destruct E as (-> & Hs & Hm). rewrite <- HW in Hm.
  apply reduce_range_geo; [exact Hel|unfold eps_layer; lra| | |apply grouped_all_in, layer_cells_all_in, Hsg].
  - apply groups_pos; [exact Hs|exact Hm|destruct x; [congruence|cbn; lia]].
  - apply grouped_length. rewrite layer_cells_length, HW. reflexivity. Qed.

Lemma T_cdf_layer_monotone : forall sg ex lg a r units sf kernel scaling x x' out out',
  sigmoid_mono_ok sg -> explog_ok ex lg -> (forall v, In v scaling -> 0 <= v) -> vle x x' ->
  cdf_layer sg ex lg a r units sf kernel scaling x = Some out ->
  cdf_layer sg ex lg a r units sf kernel scaling x' = Some out' -> mle out out'.
Proof. intros sg ex lg a r units sf kernel scaling x x' out out' Hsg Hel Hs Hx E E'.
  apply cdf_layer_some in E. destruct E as [-> _]. apply cdf_layer_some in E'. destruct E' as [-> _].
  rewrite <- (Forall2_length _ x x' Hx). apply reduce_mle; [exact Hel|unfold eps_layer; lra| |].
  - apply grouped_all_in, layer_cells_all_in, Hsg.
  - apply grouped_mle, layer_cells_mle; assumption. Qed.

Lemma T_ex_sigmoid : sigmoid_ok (fun _ => 1 # 2) /\ sigmoid_mono_ok (fun _ => 1 # 2).
Proof. unfold sigmoid_ok, sigmoid_mono_ok. split; [intros z|split; [intros z|intros a b _]]; lra. Qed.
Lemma T_ex_explog : explog_ok (fun z => z) (fun z => z) /\ exp_pos (fun _ => 1).
Proof. unfold explog_ok, exp_pos. split; [split; [|split]|]; intros; try lra; reflexivity. Qed.
(* a concrete relu6 cdf_fn call: two inputs, two keypoints, scaling 2: every cell is 1/6 *)
Lemma T_ex_cdf : cdf_fn (fun _ => 1 # 2) (fun z => z) (fun z => z) Relu6 RMean 1 1 None [1; 1 # 2]
    [[[0]; [1]]; [[0]; [0]]] (Some [[[2]]; [[2]]]) = Some [[192 # 1152]].
Proof. vm_compute. reflexivity. Qed.
