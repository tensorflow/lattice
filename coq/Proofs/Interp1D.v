(* Theory of one-dimensional linear interpolation on the integer grid
   (hat-function weights).  General and reusable: nothing here knows about
   lattices.  Main results, for a sequence a_0 .. a_(n-1) and 0 <= x <= n-1:
     hat_nonneg, hat_sum_one (partition of unity), hat_linear_precision,
     interp1_ramps      interp1 = a_0 + sum_k (a_(k+1) - a_k) * clip(x - k, 0, 1)
     interp1_at_int     value a_j at the integer j
     interp1_cell       (1-t) a_j + t a_(j+1) on the cell [j, j+1], t = x - j
     interp1_bounds     stays within any [lo, hi] containing the a_k
     interp1_monotone   non-decreasing in x when a is non-decreasing
     hat_diff_mp        the weight difference hat y - hat x (x <= y) is
                        non-negative against every non-decreasing sequence. *)
From TFL Require Export Model.Interp1D.
Open Scope Q_scope.

Lemma rsum_qsum l : rsum l == qsum l.
Proof. induction l as [|a l IH]; cbn [rsum qsum]. reflexivity. rewrite Qred_correct, IH. reflexivity. Qed.

Lemma qsum_seq_le (f g : nat -> Q) n : (forall k, (k < n)%nat -> f k <= g k) ->
  qsum (map f (seq 0 n)) <= qsum (map g (seq 0 n)).
Proof. intros H. apply qsum_map_le. intros k Hk. apply in_seq in Hk. apply H. lia. Qed.

Lemma qsum_seq_minus (f g : nat -> Q) n :
  qsum (map (fun k => f k - g k) (seq 0 n)) == qsum (map f (seq 0 n)) - qsum (map g (seq 0 n)).
Proof. induction n as [|n IH]. cbn; lra. rewrite !qsum_seq_S, IH. lra. Qed.

Lemma qsum_seq_pick (f : nat -> Q) n j : (j < n)%nat ->
  qsum (map (fun k => (if Nat.eqb j k then 1 else 0) * f k) (seq 0 n)) == f j.
Proof. induction n as [|n IH]; intros H. lia. rewrite qsum_seq_S.
  destruct (Nat.eq_dec j n) as [->|Hne].
  - rewrite Nat.eqb_refl. rewrite qsum_seq_zero. lra.
    intros k Hk. destruct (Nat.eqb_spec n k). lia. lra.
  - rewrite IH by lia. destruct (Nat.eqb_spec j n). lia. lra. Qed.

Lemma qn_0 : qn 0 == 0. Proof. reflexivity. Qed.
Lemma qn_S k : qn (S k) == qn k + 1.
Proof. exact (qofnat_S k). Qed.
Lemma qn_le j k : (j <= k)%nat -> qn j <= qn k.
Proof. exact (qofnat_le j k). Qed.
Lemma qn_lt j k : (j < k)%nat -> qn j + 1 <= qn k.
Proof. exact (qofnat_succ_le j k). Qed.
Lemma qn_nonneg k : 0 <= qn k.
Proof. exact (qofnat_nonneg k). Qed.
Lemma qn_pred n : (1 <= n)%nat -> qn n - 1 == qn (pred n).
Proof. intros H. destruct n as [|n]. lia. rewrite qn_S. cbn [pred]. ring. Qed.

Global Instance hat_proper : Proper (Qeq ==> eq ==> Qeq) hat.
Proof. intros x y H k k' <-. unfold hat. rewrite H. reflexivity. Qed.
Global Instance ramp_proper : Proper (Qeq ==> Qeq) ramp.
Proof. intros x y H. unfold ramp. rewrite H. reflexivity. Qed.

Lemma hat_max_form x k : hat x k == qmax 0 (1 - qabs (x - qn k)).
Proof. unfold hat. qcases; lra. Qed.
Lemma hat_nonneg x k : 0 <= hat x k.
Proof. unfold hat. qcases; lra. Qed.
Lemma hat_le_1 x k : hat x k <= 1.
Proof. unfold hat. qcases; lra. Qed.
Lemma hat_far x k : 1 <= qabs (x - qn k) -> hat x k == 0.
Proof. unfold hat. intros H. qcases; lra. Qed.
Lemma hat_ramp x k : hat x k == ramp (x - qn k + 1) - ramp (x - qn k).
Proof. unfold hat, ramp, qclip. qcases; lra. Qed.

Lemma ramp_mono s t : s <= t -> ramp s <= ramp t.
Proof. apply qclip_mono. Qed.
Lemma ramp_range t : 0 <= ramp t /\ ramp t <= 1.
Proof. unfold ramp. apply qclip_range. lra. Qed.
Lemma ramp_hi t : 1 <= t -> ramp t == 1.
Proof. unfold ramp, qclip. intros; qcases; lra. Qed.
Lemma ramp_lo t : t <= 0 -> ramp t == 0.
Proof. unfold ramp, qclip. intros; qcases; lra. Qed.
Lemma ramp_mid t : 0 <= t -> t <= 1 -> ramp t == t.
Proof. unfold ramp. apply qclip_id. Qed.

Lemma hat_cell x j k : qn j <= x -> x <= qn j + 1 ->
  hat x k == if Nat.eqb j k then 1 - (x - qn j) else if Nat.eqb (S j) k then x - qn j else 0.
Proof. intros H1 H2. destruct (Nat.eqb_spec j k) as [->|Hne]; [|destruct (Nat.eqb_spec (S j) k) as [<-|Hne']].
  - unfold hat. qcases; lra.
  - unfold hat. rewrite qn_S. qcases; lra.
  - apply hat_far. destruct (Nat.lt_ge_cases k j) as [H|H].
    + pose proof (qn_lt k j H). qcases; lra.
    + assert (H' : (S j < k)%nat) by lia. pose proof (qn_lt (S j) k H'). rewrite qn_S in *. qcases; lra. Qed.

Lemma hat_int j k : hat (qn j) k == if Nat.eqb j k then 1 else 0.
Proof. rewrite (hat_cell (qn j) j k) by lra. destruct (Nat.eqb j k), (Nat.eqb (S j) k); ring. Qed.

Lemma wsum_S n w a : wsum (S n) w a == wsum n w a + w n * a n.
Proof. unfold wsum. apply qsum_seq_S. Qed.
Lemma wsum_ext n w w' a a' : (forall k, (k < n)%nat -> w k == w' k) -> (forall k, (k < n)%nat -> a k == a' k) ->
  wsum n w a == wsum n w' a'.
Proof. intros Hw Ha. unfold wsum. apply qsum_seq_ext. intros k Hk. rewrite (Hw k Hk), (Ha k Hk). reflexivity. Qed.
Lemma wsum_minus_w n w w' a : wsum n (fun k => w k - w' k) a == wsum n w a - wsum n w' a.
Proof. unfold wsum. rewrite <- qsum_seq_minus. apply qsum_seq_ext. intros; ring. Qed.
Lemma wsum_minus_a n w a a' : wsum n w (fun k => a k - a' k) == wsum n w a - wsum n w a'.
Proof. unfold wsum. rewrite <- qsum_seq_minus. apply qsum_seq_ext. intros; ring. Qed.
Lemma wsum_plus_a n w a a' : wsum n w (fun k => a k + a' k) == wsum n w a + wsum n w a'.
Proof. unfold wsum. rewrite <- qsum_map_plus. apply qsum_seq_ext. intros; ring. Qed.
Lemma wsum_scale_a n w c a : wsum n w (fun k => c * a k) == c * wsum n w a.
Proof. unfold wsum. rewrite <- qsum_map_scale. apply qsum_seq_ext. intros; ring. Qed.
Lemma wsum_le_a n w a a' : (forall k, (k < n)%nat -> 0 <= w k) -> (forall k, (k < n)%nat -> a k <= a' k) ->
  wsum n w a <= wsum n w a'.
Proof. intros Hw Ha. unfold wsum. apply qsum_seq_le. intros k Hk. apply qmul_le_l; auto. Qed.
Lemma wsum_pick n j a : (j < n)%nat -> wsum n (fun k => if Nat.eqb j k then 1 else 0) a == a j.
Proof. intros H. unfold wsum. apply qsum_seq_pick; exact H. Qed.
Lemma wsum_const n w c : wsum n w (fun _ => c) == c * qsum (map w (seq 0 n)).
Proof. unfold wsum. rewrite <- qsum_map_scale. apply qsum_seq_ext. intros; ring. Qed.

Lemma wsum_convex n w a lo hi : (forall k, (k < n)%nat -> 0 <= w k) -> qsum (map w (seq 0 n)) == 1 ->
  (forall k, (k < n)%nat -> lo <= a k /\ a k <= hi) -> lo <= wsum n w a /\ wsum n w a <= hi.
Proof. intros Hw Hs Ha.
  pose proof (wsum_le_a n w (fun _ => lo) a Hw (fun k Hk => proj1 (Ha k Hk))) as L.
  pose proof (wsum_le_a n w a (fun _ => hi) Hw (fun k Hk => proj2 (Ha k Hk))) as U.
  rewrite wsum_const, Hs in L, U. lra. Qed.

(* valid for EVERY x; the first and last term describe the decay outside the grid *)
Lemma interp1_ramps_all n a x :
  interp1 (S n) a x ==
  a 0%nat * ramp (x + 1) + qsum (map (fun k => (a (S k) - a k) * ramp (x - qn k)) (seq 0 n)) - a n * ramp (x - qn n).
Proof. unfold interp1. induction n as [|n IH].
  - rewrite wsum_S. unfold wsum. cbn [seq map qsum]. rewrite hat_ramp.
    assert (E : ramp (x - qn 0 + 1) == ramp (x + 1)) by (apply ramp_proper; rewrite qn_0; ring).
    rewrite E. ring.
  - rewrite wsum_S, IH, qsum_seq_S, hat_ramp.
    assert (E : ramp (x - qn (S n) + 1) == ramp (x - qn n)) by (apply ramp_proper; rewrite qn_S; ring).
    rewrite E. ring. Qed.

Lemma interp1_ramps n a x : 0 <= x -> x <= qn n ->
  interp1 (S n) a x == a 0%nat + qsum (map (fun k => (a (S k) - a k) * ramp (x - qn k)) (seq 0 n)).
Proof. intros H0 Hn. rewrite interp1_ramps_all, (ramp_hi (x + 1)), (ramp_lo (x - qn n)) by lra. ring. Qed.

Definition nondecr (n : nat) (a : nat -> Q) : Prop := forall k, (S k < n)%nat -> a k <= a (S k).

Lemma nondecr_le n a j k : nondecr n a -> (j <= k)%nat -> (k < n)%nat -> a j <= a k.
Proof. intros H Hjk Hk. induction k as [|k IH]. replace j with 0%nat by lia. lra.
  destruct (Nat.eq_dec j (S k)) as [->|Hne]. lra.
  pose proof (H k Hk). assert (a j <= a k) by (apply IH; lia). lra. Qed.

Theorem interp1_monotone n a x y : nondecr n a -> 0 <= x -> x <= y -> y <= qn n - 1 ->
  interp1 n a x <= interp1 n a y.
Proof. intros Ha H0 Hxy Hn. destruct n as [|n]. unfold interp1, wsum; cbn; lra.
  rewrite qn_S in Hn. rewrite !interp1_ramps by lra.
  enough (qsum (map (fun k => (a (S k) - a k) * ramp (x - qn k)) (seq 0 n)) <=
          qsum (map (fun k => (a (S k) - a k) * ramp (y - qn k)) (seq 0 n))) by lra.
  apply qsum_seq_le. intros k Hk. apply qmul_le_l. pose proof (Ha k ltac:(lia)). lra. apply ramp_mono. lra. Qed.

Theorem hat_sum_one n x : 0 <= x -> x <= qn n - 1 -> qsum (map (hat x) (seq 0 n)) == 1.
Proof. intros H0 Hn. destruct n as [|n]. { rewrite qn_0 in Hn. lra. } rewrite qn_S in Hn.
  assert (E : qsum (map (hat x) (seq 0 (S n))) == interp1 (S n) (fun _ => 1) x).
  { unfold interp1, wsum. apply qsum_seq_ext. intros; ring. }
  rewrite E, interp1_ramps by lra. rewrite qsum_seq_zero. lra. intros; ring. Qed.

Lemma ramp_sum n x : 0 <= x -> qsum (map (fun k => ramp (x - qn k)) (seq 0 n)) == qmin x (qn n).
Proof. intros H0. induction n as [|n IH]. cbn [seq map qsum]. rewrite qn_0. qcases; lra.
  rewrite qsum_seq_S, IH, qn_S. unfold ramp, qclip. qcases; lra. Qed.

Theorem hat_linear_precision n x : 0 <= x -> x <= qn n - 1 -> wsum n (hat x) qn == x.
Proof. intros H0 Hn. destruct n as [|n]. { rewrite qn_0 in Hn. lra. } rewrite qn_S in Hn.
  change (interp1 (S n) qn x == x). rewrite interp1_ramps by lra.
  assert (E : qsum (map (fun k => (qn (S k) - qn k) * ramp (x - qn k)) (seq 0 n)) ==
              qsum (map (fun k => ramp (x - qn k)) (seq 0 n))).
  { apply qsum_seq_ext. intros k _. rewrite qn_S. ring. }
  rewrite E, ramp_sum, qn_0 by lra. qcases; lra. Qed.

Theorem interp1_at_int n a j : (j < n)%nat -> interp1 n a (qn j) == a j.
Proof. intros H. unfold interp1. rewrite <- (wsum_pick n j a H). apply wsum_ext; intros; [apply hat_int|reflexivity]. Qed.

Theorem interp1_cell n a j x : (S j < n)%nat -> qn j <= x -> x <= qn j + 1 ->
  interp1 n a x == (1 - (x - qn j)) * a j + (x - qn j) * a (S j).
Proof. intros H H1 H2. unfold interp1.
  rewrite (wsum_ext n (hat x) (fun k => (1 - (x - qn j)) * (if Nat.eqb j k then 1 else 0) +
                                         (x - qn j) * (if Nat.eqb (S j) k then 1 else 0)) a a).
  - unfold wsum.
    rewrite (qsum_seq_ext _ (fun k => (1 - (x - qn j)) * ((if Nat.eqb j k then 1 else 0) * a k) +
                                      (x - qn j) * ((if Nat.eqb (S j) k then 1 else 0) * a k))) by (intros; ring).
    rewrite qsum_map_plus, !qsum_map_scale, !qsum_seq_pick by lia. reflexivity.
  - intros k _. rewrite (hat_cell x j k H1 H2).
    destruct (Nat.eqb_spec j k), (Nat.eqb_spec (S j) k); try lia; ring.
  - reflexivity. Qed.

Theorem interp1_bounds n a x lo hi : 0 <= x -> x <= qn n - 1 ->
  (forall k, (k < n)%nat -> lo <= a k /\ a k <= hi) -> lo <= interp1 n a x /\ interp1 n a x <= hi.
Proof. intros H0 Hn Ha. unfold interp1. apply wsum_convex; auto. intros; apply hat_nonneg. apply hat_sum_one; auto. Qed.

(* A weight function is "monotone-positive" on n keypoints when its weighted
   sum with every non-decreasing sequence is >= 0.  The difference of the hat
   weights at two ordered points of the grid range is monotone-positive: this
   is the form in which monotonicity is used by the N-dimensional recursion. *)
Definition mpos (n : nat) (w : nat -> Q) : Prop := forall a, nondecr n a -> 0 <= wsum n w a.

Theorem hat_diff_mp n x y : 0 <= x -> x <= y -> y <= qn n - 1 -> mpos n (fun k => hat y k - hat x k).
Proof. intros H0 Hxy Hn a Ha. rewrite wsum_minus_w.
  pose proof (interp1_monotone n a x y Ha H0 Hxy Hn) as H. unfold interp1 in H. lra. Qed.

(* clipping onto the grid range first makes all of the above hold for every x *)
Lemma clip_range_in n x : (1 <= n)%nat -> 0 <= qclip 0 (qn n - 1) x /\ qclip 0 (qn n - 1) x <= qn n - 1.
Proof. intros H. apply qclip_range. rewrite qn_pred by exact H. apply qn_nonneg. Qed.
