(* C03, section H: END-TO-END theorems.  configuration -> history -> forall x.

   The composition theorems of Proofs/Premade.v assume facts about the
   calibrators and the kernel (cals_in_range, outs_nondecr, knondecr, out_range ...);
   the reachable-feasibility theorems deliver per-variable invariants (pwl_inv,
   cat_inv, lat_inv, lin_inv ...); Proofs/PremadeInit.v discharges the initial-value
   hypotheses from the validity of the configuration.  Here the chain is closed:

     model description md (what the premade_lib builders derive from a model config)
       |  cl_ok / cn_ok / ck_ok / en_ok md : configuration facts only
       v
     layer descriptors + initial values           (section G: init_feasible_xxx)
       |  ANY well-shaped history ops
       v
     every reached state satisfies every layer invariant   (section A: C03_reachable_feasible over the
                                                             per-kind "constraint lands in the invariant" lemmas)
       |  xxx_state_facts
       v
     hypotheses of the composition theorems        (sections B/C)
       v
     the model function built from the weights of the state is monotone / bounded for ALL inputs.

   One heterogeneous state machine: a state holds one value per LAYER (a PWL
   calibrator's kernel column together with its learned missing output, a
   categorical kernel column, a lattice kernel tensor, a linear kernel column);
   an Update hands every layer arbitrary raw values of the right shape and then
   applies every constraint (tf_keras Optimizer.apply_gradients: assign all
   variables, then constrain each of them); Restore k / Init as in Model/Premade.v. *)
From Coq Require Import Permutation.
From TFL Require Import Model.Premade Proofs.Premade.
From TFL Require Import Proofs.PWLEval Proofs.LinearEval Proofs.LatticeInterp.
From TFL Require Import Proofs.LatticeSpec Proofs.LatticeSpecFacts Proofs.LatticeFinalize Proofs.LatticeMono.
From TFL Require Import Model.PWLProject Proofs.PWLProject Model.PWLInit Proofs.PWLInit.
From TFL Require Import Model.LinearProject Proofs.PartialOrder Proofs.TopoSort Proofs.LinearProject.
From TFL Require Import Model.LatticeInit Proofs.LatticeInit Proofs.PremadeInit.
From TFL Require Import Model.PremadeKFL Proofs.PremadeKFL Proofs.PremadeInitKFL.
Open Scope Q_scope.

(* the learned missing output of a PWL calibrator with a default_value:
   NaiveBoundsConstraints(output_min, output_max), either bound optional *)
Record miss_desc := mkMiss { ms_lo : option Q; ms_hi : option Q; ms_init : Q }.
Definition miss_inv (m : miss_desc) (q : Q) : Prop := within (ms_lo m) (ms_hi m) q.
Definition miss_desc_ok (m : miss_desc) : Prop :=
  (forall a b, ms_lo m = Some a -> ms_hi m = Some b -> a <= b) /\ miss_inv m (ms_init m).

Inductive lval :=
| VPwl (col : list Q) (mo : option Q)     (* kernel column bias :: heights; missing output weight if any *)
| VCat (vals : list Q)                    (* categorical kernel column *)
| VLat (f : tens)                         (* lattice kernel tensor over sizes ++ [units] *)
| VLin (k : list Q) (b : Q)               (* linear kernel column and bias (0 when the layer has no bias) *)
| VKfl (p : MK.params).                   (* KroneckerFactoredLattice: kernel, scale, bias *)

Inductive ldesc :=
| LDPwl (d : pwl_desc) (m : option miss_desc)
| LDCat (d : cat_desc)
| LDLat (d : lat_desc)
| LDLin (d : lin_desc) (use_bias : bool)
| LDKfl (d : kfl_desc) (units : nat).

Definition miss_con (m : option miss_desc) (o : option Q) : option Q :=
  match m, o with Some d, Some q => Some (naive_bounds (ms_lo d) (ms_hi d) q) | _, _ => o end.

Definition lvar (d : ldesc) : var lval :=
  match d with
  | LDPwl p m => mkVar (VPwl (pd_init p) (option_map ms_init m))
                       (fun v => match v with VPwl w o => VPwl (v_con (pwl_var p) w) (miss_con m o) | _ => v end)
  | LDCat c => mkVar (VCat (cd_init c)) (fun v => match v with VCat w => VCat (v_con (cat_var c) w) | _ => v end)
  | LDLat l => mkVar (VLat (ld_init l)) (fun v => match v with VLat f => VLat (v_con (lat_var l) f) | _ => v end)
  | LDLin l ub => mkVar (VLin (nd_init l) 0)   (* bias_initializer Constant(0); the bias has no constraint *)
                        (fun v => match v with VLin k b => VLin (v_con (lin_var l) k) (if ub then b else 0) | _ => v end)
  | LDKfl d _ => mkVar (VKfl (kd_init d)) (fun v => match v with VKfl raw => VKfl (v_con (kfl_var d) raw) | _ => v end)
  end.

(* a KFL layer with [units] units: one scale row and one bias per unit *)
Definition kfl_units (units : nat) (p : MK.params) : Prop :=
  length (MK.p_scale p) = units /\ length (MK.p_bias p) = units.

(* raw values an optimizer step can leave in the variables of a layer: right kind, right shape *)
Definition lshape (d : ldesc) (v : lval) : Prop :=
  match d, v with
  | LDPwl p m, VPwl w o => pwl_shape p w /\ (m = None <-> o = None)
  | LDCat c, VCat w => length w = cd_n c
  | LDLat _, VLat _ => True
  | LDLin l _, VLin k _ => length k = nd_n l
  | LDKfl d units, VKfl raw => kfl_shape d raw /\ kfl_units units raw
  | _, _ => False
  end.

(* normalization_order = 1 (weighted average): the L1 norm is one, or the constraint found a norm below its
   epsilon and left the (sign-clipped) weights as they were (C06_norm_one_or_zero) - known finding D32 *)
Definition lin_collapsed (k : list Q) : Prop := qsum (map qabs k) < norm_eps.
Definition lin_norm_inv (l : lin_desc) (k : list Q) : Prop :=
  lc_norm (nd_cfg l) = 1%nat -> qsum (map qabs k) == 1 \/ lin_collapsed k.

(* the per-layer invariant: the invariants of sections A/B plus the lengths *)
Definition linv (d : ldesc) (v : lval) : Prop :=
  match d, v with
  | LDPwl p m, VPwl w o => pwl_inv p w /\ length w = S (pd_n p) /\
      match m, o with Some md, Some q => miss_inv md q | None, None => True | _, _ => False end
  | LDCat c, VCat w => cat_inv c w /\ length w = cd_n c
  | LDLat l, VLat f => lat_inv l f
  | LDLin l ub, VLin k b => lin_inv l k /\ length k = nd_n l /\ (ub = false -> b = 0) /\ lin_norm_inv l k
  | LDKfl d units, VKfl p => kfl_inv d p /\ kfl_units units p
  | _, _ => False
  end.

Definition ldesc_ok (d : ldesc) : Prop :=
  match d with
  | LDPwl p m => pwl_desc_ok p /\ length (pd_init p) = S (pd_n p) /\
                 match m with Some md => miss_desc_ok md | None => True end
  | LDCat c => cat_desc_ok c /\ length (cd_init c) = cd_n c
  | LDLat l => lat_desc_ok l
  | LDLin l _ => lin_valid (nd_cfg l) (nd_n l) /\ lin_inv l (nd_init l) /\ length (nd_init l) = nd_n l /\
                 lin_norm_inv l (nd_init l)
  | LDKfl d units => kfl_desc_ok d /\ kfl_units units (kd_init d)
  end.

Lemma qsum_qabs_peq : forall a b, peq a b -> qsum (map qabs a) == qsum (map qabs b).
Proof. induction a as [|x a IH]; intros [|y b] [Hl H]; try discriminate. reflexivity.
  cbn [map qsum]. rewrite (IH b). pose proof (H 0%nat) as H0. cbn in H0. rewrite H0. reflexivity.
  split. cbn in Hl; lia. intros k. exact (H (S k)). Qed.
Lemma lin_con_norm l k : lin_valid (nd_cfg l) (nd_n l) -> length k = nd_n l -> lin_norm_inv l (v_con (lin_var l) k).
Proof. intros Hv Hl N. destruct (lin_con_defined l k Hv Hl) as [E _].
  destruct (lin_norm1 (nd_rt l) (nd_cfg l) (nd_n l) k _ Hv Hl N E) as [w3 [_ [A|[A B]]]].
  left. exact A. right. unfold lin_collapsed. rewrite (qsum_qabs_peq _ w3 B). exact A. Qed.

Lemma apply_step_scale_len root c p st : length (MK.p_scale (MK.apply_step root c p st)) = length (MK.p_scale p).
Proof. destruct st; cbn [MK.apply_step MK.p_scale]; try reflexivity;
  unfold MK.scale_variable_constraint, MK.scale_constraints_call; destruct (MK.has_bounds c); rewrite ?map_length; reflexivity. Qed.
Lemma run_scale_len root c : forall steps p, length (MK.p_scale (MK.run root c steps p)) = length (MK.p_scale p).
Proof. unfold MK.run. induction steps as [|st steps IH]; intros p; cbn [fold_left]. reflexivity.
  rewrite IH. apply apply_step_scale_len. Qed.
Lemma kfl_con_units d units raw : kfl_units units (kd_init d) -> kfl_units units raw -> kfl_units units (v_con (kfl_var d) raw).
Proof. intros [_ Hi] [Hs Hb]. cbn [kfl_var v_con]. unfold kfl_update, kfl_units. rewrite run_scale_len, PK.run_bias.
  unfold kfl_fix_bias. destruct (MK.has_bounds (kd_cfg d)); cbn [MK.p_scale MK.p_bias]; auto. Qed.

Lemma miss_con_inv m q : (forall a b, ms_lo m = Some a -> ms_hi m = Some b -> a <= b) ->
  miss_inv m (naive_bounds (ms_lo m) (ms_hi m) q).
Proof. intros Hb. unfold miss_inv, within. destruct (ms_lo m) as [a|], (ms_hi m) as [b|].
  - pose proof (naive_bounds_both a b q (Hb a b eq_refl eq_refl)) as [A B].
    split; intros x E; injection E as <-; assumption.
  - pose proof (naive_bounds_one_sided a 0 q) as [A _]. split; intros x E; [injection E as <-; exact A|discriminate].
  - pose proof (naive_bounds_one_sided 0 b q) as [_ B]. split; intros x E; [discriminate|injection E as <-; exact B].
  - split; intros x E; discriminate. Qed.

(* section G: the initial value of an acceptable layer satisfies its invariant *)
Lemma linv_init d : ldesc_ok d -> linv d (v_init (lvar d)).
Proof. destruct d as [p m|c|l|l ub|kd units]; cbn [lvar v_init linv ldesc_ok].
  - intros (Hp & Hl & Hm). split. apply Hp. split. exact Hl. destruct m as [md|]; cbn [option_map]. apply Hm. exact I.
  - intros (Hc & Hl). split. apply Hc. exact Hl.
  - intros H. apply H.
  - intros (_ & Hi & Hl & Hn). split. exact Hi. split. exact Hl. split. reflexivity. exact Hn.
  - intros ((_ & _ & _ & _ & Hi) & Hu). split; assumption. Qed.

(* sections A/B: the constraints of an acceptable layer take ANY raw value of the right shape into the invariant *)
Lemma linv_con d w : ldesc_ok d -> lshape d w -> linv d (v_con (lvar d) w).
Proof. destruct d as [p m|c|l|l ub|kd units]; destruct w as [w o|w|f|k b|raw]; cbn [lshape]; try contradiction;
    cbn [lvar v_con linv ldesc_ok].
  - intros (Hp & Hl & Hm) [Hsh Ho]. split. apply pwl_con_inv. apply Hp. exact Hsh.
    split. { change (length (pwl_project_col (pd_cfg p) w) = S (pd_n p)). rewrite pwl_project_col_length.
             destruct Hsh as (b & hs & -> & Hh). cbn [length]. lia. }
    destruct m as [md|], o as [q|]; cbn [miss_con]; try exact I.
    + apply miss_con_inv. apply Hm.
    + destruct Ho as [_ Ho]. discriminate (Ho eq_refl).
    + destruct Ho as [Ho _]. discriminate (Ho eq_refl).
  - intros ((Hac & Hr & _) & _) Hw. apply cat_con_inv; assumption.
  - intros H _. apply lat_con_inv. exact H.
  - intros (Hv & _ & _ & _) Hw. split. apply lin_con_inv; assumption. split. apply lin_con_defined; assumption.
    split. intros ->. reflexivity. apply lin_con_norm; assumption.
  - intros (Hd & Hu) [Hs Hu']. split. exact (kfl_update_feasible kd raw Hd Hs). apply kfl_con_units; assumption. Qed.

(* every state reached by any well-shaped history satisfies every layer invariant *)
Theorem reachable_feasible_layers ds ops : (forall d, In d ds -> ldesc_ok d) ->
  ops_shaped lval ldesc lshape ds ops ->
  forall s, In s (run (map lvar ds) ops) -> Forall2 linv ds s.
Proof. intros H. apply (reachable_feasible lval ldesc lvar linv lshape ds).
  - intros d Hd. apply linv_init. exact (H d Hd).
  - intros d w Hd. apply linv_con. exact (H d Hd). Qed.

(* From the layer invariants to the hypotheses of the composition theorems *)
(* ---- lattice: the kernel matrix [prod sizes, 1] of a kernel tensor (units = 1) ---- *)
Definition kmat_of (sizes : list nat) (f : tens) : list (list Q) :=
  map (fun i => [f (i ++ [0%nat])]) (all_idx sizes).

Lemma kmat_wf sizes f : wfK 1 (kmat_of sizes f) 0.
Proof. split. lia. unfold kmat_of. apply Forall_forall. intros r Hr. apply in_map_iff in Hr.
  destruct Hr as [i [<- _]]. reflexivity. Qed.
Lemma kmat_length sizes f : length (kmat_of sizes f) = prodn sizes.
Proof. unfold kmat_of. rewrite map_length. apply all_idx_length. Qed.
Lemma kmat_represents sizes f : represents sizes 1 (kmat_of sizes f) f.
Proof. intros i u Hv Hu. assert (u = 0%nat) by lia. subst u. unfold kern, of_list. rewrite memo_ok by exact Hv.
  unfold column, kmat_of. rewrite map_map. cbn [nth].
  rewrite <- (to_list_nth sizes (fun i => f (i ++ [0%nat])) i Hv). reflexivity. Qed.

(* optional bounds: P holds of two numbers that are the configured bounds where there are any *)
Definition at_ends (olo ohi : option Q) (P : Q -> Q -> Prop) : Prop :=
  exists lo hi, (forall b, olo = Some b -> lo = b) /\ (forall b, ohi = Some b -> hi = b) /\ P lo hi.

(* values inside [olo, ohi] lie between such numbers, the other end being any bound m / M the values have anyway *)
Lemma within_ends {A} (P : A -> Prop) (g : A -> Q) m M olo ohi :
  (forall a, P a -> m <= g a <= M) -> (forall a, P a -> within olo ohi (g a)) ->
  at_ends olo ohi (fun lo hi => forall a, P a -> lo <= g a <= hi).
Proof. intros Hm Hw. exists (match olo with Some b => b | None => m end), (match ohi with Some b => b | None => M end).
  split. intros b ->. reflexivity. split. intros b ->. reflexivity.
  intros a Ha. destruct (Hm a Ha) as [A1 A2]. destruct (Hw a Ha) as [B1 B2].
  split. destruct olo; auto. destruct ohi; auto. Qed.
Lemma ends_both P olo ohi : at_ends olo ohi P -> forall lo hi, olo = Some lo -> ohi = Some hi -> P lo hi.
Proof. intros (lo' & hi' & El & Eh & H) lo hi Elo Ehi. rewrite <- (El lo Elo), <- (Eh hi Ehi). exact H. Qed.
Lemma ends_impl {P R : Q -> Q -> Prop} {olo ohi} : at_ends olo ohi P -> (forall lo hi, P lo hi -> R lo hi) -> at_ends olo ohi R.
Proof. intros (lo & hi & El & Eh & H) HR. exists lo, hi. auto. Qed.
Lemma ends_any (P : Q -> Q -> Prop) olo ohi : (forall lo hi, P lo hi) -> at_ends olo ohi P.
Proof. intros H. exists (match olo with Some b => b | None => 0 end), (match ohi with Some b => b | None => 0 end).
  split. intros b ->. reflexivity. split. intros b ->. reflexivity. apply H. Qed.
(* each configured bound on its own *)
Lemma ends_each {A} (P : A -> Prop) (g : A -> Q) olo ohi : at_ends olo ohi (fun lo hi => forall a, P a -> lo <= g a <= hi) ->
  (forall lo a, olo = Some lo -> P a -> lo <= g a) /\ (forall hi a, ohi = Some hi -> P a -> g a <= hi).
Proof. intros (lo' & hi' & El & Eh & H). split.
  - intros lo a E Ha. rewrite <- (El lo E). apply H. exact Ha.
  - intros hi a E Ha. rewrite <- (Eh hi E). apply H. exact Ha. Qed.
Lemma within_some lo hi y : within (Some lo) (Some hi) y -> lo <= y <= hi.
Proof. intros [A B]. split; [apply A|apply B]; reflexivity. Qed.

Lemma lat_state_facts l c f : ld_cfg l = c -> cfg_valid c -> l_units c = 1%nat -> lat_inv l f ->
  let K := kmat_of (l_sizes c) f in
  sizes_ok (l_sizes c) /\ wfK 1 K 0 /\ length K = prodn (l_sizes c) /\
  (forall d, (d < length (l_sizes c))%nat -> nth d (l_monos c) 0%Z = 1%Z ->
     knondecr (l_sizes c) (kern (l_sizes c) K 0) d) /\
  (forall i, valid (l_sizes c) i -> within (l_min c) (l_max c) (kern (l_sizes c) K 0 i)).
Proof. intros <- Hc Hu (Hm & Hlo & Hhi) K. pose proof Hc as (Hs & _ & Hlm & _). set (c := ld_cfg l) in *.
  assert (Hr : represents (l_sizes c) (l_units c) K f) by (rewrite Hu; apply kmat_represents).
  assert (H0 : (0 < l_units c)%nat) by lia.
  split. apply Forall_forall. exact Hs. split. apply kmat_wf. split. apply kmat_length. split.
  - intros d Hd Ed. apply (monotone_kernel_knondecr c K f 0 d Hr H0 Hm); [|exact Hd].
    apply mono_dims_spec. split. lia. rewrite Ed. discriminate.
  - intros i Hi. pose proof (valid_snoc _ i _ 0%nat Hi H0) as Hv.
    split; intros b E; rewrite (Hr i 0%nat Hi H0); [rewrite E in Hlo; apply Hlo|rewrite E in Hhi; apply Hhi]; exact Hv. Qed.

(* ---- PWL calibrators: tables built from fixed input_keypoints ---- *)
Lemma kp_diffs_cons : forall r a, kp_diffs (a :: r) = map2 (fun b a => b - a) r (a :: r).
Proof. induction r as [|b r IH]; intros a. reflexivity.
  change (kp_diffs (a :: b :: r)) with ((b - a) :: kp_diffs (b :: r)). rewrite IH. reflexivity. Qed.
Lemma kp_diffs_lengths ks : kp_diffs ks = kp_lengths ks.
Proof. destruct ks as [|a r]. reflexivity. unfold kp_lengths. cbn [tl]. apply kp_diffs_cons. Qed.
Lemma diffs_increasing : forall ks, (forall l, In l (kp_diffs ks) -> 0 < l) -> increasing ks.
Proof. induction ks as [|a ks IH]; intros H. exact I. destruct ks as [|b r]. exact I.
  change (kp_diffs (a :: b :: r)) with ((b - a) :: kp_diffs (b :: r)) in H. split.
  - pose proof (H (b - a) (or_introl eq_refl)). lra.
  - apply IH. intros l Hl. apply H. right. exact Hl. Qed.

Lemma convert_some v clamp a : v = Some a ->
  fst (convert_constraints v clamp) = a /\ snd (convert_constraints v clamp) <> BNone.
Proof. intros ->. cbn. split. reflexivity. destruct clamp; discriminate. Qed.

Lemma pwl_state_facts s w : pwl_spec_ok s -> pwl_inv (pwl_spec_desc s) w -> length w = S (length (ps_kps s) - 1) ->
  let kps := kp_lefts (ps_kps s) in let lens := kp_diffs (ps_kps s) in
  (exists e, segments kps lens e) /\ length w = S (length kps) /\ Forall (fun l => 0 < l) lens /\
  (ps_mono s = 1%Z -> outs_nondecr w) /\ (ps_mono s = (-1)%Z -> outs_nonincr w) /\
  (~ (ps_mono s <> 0%Z /\ ps_conv s <> 0%Z) ->
   forall y, In y (kp_outs w) -> within (fst (output_range (ps_range s))) (snd (output_range (ps_range s))) y).
Proof. intros (Hn & Hl & _) (Hinc & Hdec & Hb) Hlen kps lens.
  assert (Hpos : forall l, In l (kp_diffs (ps_kps s)) -> 0 < l) by (rewrite kp_diffs_lengths; exact Hl).
  split. { exists (last (ps_kps s) 0). apply fixed_segments. apply diffs_increasing. exact Hpos. }
  split. { unfold kps. rewrite fixed_lefts_length. lia. }
  split. { apply Forall_forall. exact Hpos. }
  cbn [pwl_spec_desc pd_cfg pwl_spec_cfg pwl_layer_cfg p_mono p_conv p_cmin p_cmax p_min p_max] in *.
  split. { intros E. apply pwl_inv_nondecr. apply Hinc. exact E. }
  split. { intros E. apply pwl_inv_nonincr. apply Hdec. exact E. }
  intros Hg y Hy. destruct (Hb Hg) as [A B]. rewrite keypoint_outputs_kp_outs in A, B. split; intros b E.
  - destruct (convert_some _ (ps_clamp_min s) b E) as [E1 N1]. specialize (A N1). rewrite E1, Forall_forall in A. exact (A y Hy).
  - destruct (convert_some _ (ps_clamp_max s) b E) as [E2 N2]. specialize (B N2). rewrite E2, Forall_forall in B. exact (B y Hy). Qed.

(* a finite list has a least and a greatest element: the other end of a one-sided bound *)
Lemma list_range (l : list Q) : forall y, In y l -> qminl l <= y <= qmaxl l.
Proof. intros y Hy. split. apply qminl_le; exact Hy. apply qmaxl_ge; exact Hy. Qed.

(* one feature's calibrator as build_multi_unit_calibration_layers creates it (units = 1):
   PWLCalibration (section G's pwl_spec, kind PKUniform) with missing_input_value =
   feature_config.default_value, impute_missing = (default_value is not None), learned missing
   output; or CategoricalCalibration (cat_spec) with default_input_value = default_value *)
Inductive cal_spec :=
| CSPwl (s : pwl_spec) (default : option Q)
| CSCat (s : cat_spec) (default : option Z).

Definition miss_of (s : pwl_spec) (default : option Q) : option miss_desc :=
  match default with
  | Some _ => let lo := fst (output_range (ps_range s)) in let hi := snd (output_range (ps_range s)) in
              Some (mkMiss lo hi (pwl_missing_init lo hi (ps_clamp_min s) (ps_clamp_max s)))
  | None => None
  end.
Definition cal_ldesc (c : cal_spec) : ldesc :=
  match c with
  | CSPwl s dv => LDPwl (pwl_spec_desc s) (miss_of s dv)
  | CSCat s _ => LDCat (cat_spec_desc s)
  end.
(* the calibrator function (Model/Premade.v calib) realised by the weights v of the layer *)
Definition cal_of (c : cal_spec) (v : lval) : calib :=
  match c, v with
  | CSPwl s dv, VPwl col mo =>
      CPwl (kp_lefts (ps_kps s)) (kp_diffs (ps_kps s)) col
           (match dv, mo with Some m, Some o => Some (m, o) | _, _ => None end)
  | CSCat s dv, VCat vals => CCat vals dv
  | _, _ => dcal
  end.
(* a regular (non-missing) input of the feature, in terms of the configuration only *)
Definition cs_regular (c : cal_spec) (x : Q) : Prop :=
  match c with
  | CSPwl _ (Some m) => ~ x == m
  | CSPwl _ None => True
  | CSCat s d => (0 <= cast_int x < Z.of_nat (cs_n s))%Z /\ d <> Some (cast_int x)
  end.

(* how premade_lib wires feature f (canonical monotonicity; pwl_calibration_always_monotonic) to its
   calibrator when the calibrator's output goes to a layer expecting range r:
   PWL monotonicity = calibrator_mono, output range / init range = _output_range(r), UniformOutputInitializer;
   categorical: monotonicities = the feature's pair list. *)
Definition cal_wired (f : fmono) (always : bool) (r : layer_range) (oi : list Q) (c : cal_spec) : Prop :=
  match c with
  | CSPwl s dv =>
      (exists m, f = MNum m /\ ps_mono s = calibrator_mono m always) /\
      ps_range s = r /\ ps_oi s = oi /\ ps_kind s = PKUniform /\ pwl_spec_ok s
  | CSCat s dv =>
      f = MPairs (cs_pairs s) /\ cs_range s = r /\ cat_spec_ok s
  end.
(* the guard of known finding D2 (C04: the output BOUNDS of a PWL calibrator that is monotone AND
   convex / concave are not re-established by the projection); needed wherever the RANGE of an input
   calibrator matters: always in front of a lattice (clip_inputs=False), for the bounds of a linear model *)
Definition cal_d2_free (c : cal_spec) : Prop :=
  match c with CSPwl s _ => ~ (ps_mono s <> 0%Z /\ ps_conv s <> 0%Z) | CSCat _ _ => True end.

Lemma length_ediff1d oi : length (ediff1d oi) = length oi.
Proof. destruct oi as [|a r]. reflexivity. cbn [ediff1d length]. rewrite map2_length. cbn [length]. lia. Qed.

Lemma pwl_spec_init_length s : pwl_spec_ok s ->
  (ps_kind s = PKOutputCalibration -> length (ps_oi s) = length (ps_kps s)) ->
  length (pwl_spec_init s) = S (length (ps_kps s) - 1).
Proof. intros (Hn & Hl & _) Ho. unfold pwl_spec_init. destruct (ps_kind s).
  - unfold premade_pwl_init. rewrite col_length. lia. exact Hn. split. reflexivity. exact Hl.
  - destruct (convert_all_constraints _ _ _ _) as [[[imin imax] k1] k2].
    rewrite col_length. lia. exact Hn. exact I.
  - rewrite length_ediff1d, Ho by reflexivity. lia. Qed.

Lemma miss_of_ok s dv : pwl_spec_ok s -> match miss_of s dv with Some md => miss_desc_ok md | None => True end.
Proof. intros (_ & _ & _ & _ & _ & Hb & _). destruct dv as [m|]; cbn [miss_of]; [|exact I].
  split; cbn [ms_lo ms_hi ms_init]. exact Hb.
  unfold miss_inv, pwl_missing_init; cbn [ms_lo ms_hi ms_init].
  pose proof (convert_range _ _ (ps_clamp_min s) (ps_clamp_max s) Hb) as Hcv.
  destruct (convert_all_constraints _ _ _ _) as [[[imin imax] k1] k2]. destruct Hcv as (Hr & Hlo & Hhi).
  split; intros a Ea. specialize (Hlo a Ea). lra. specialize (Hhi a Ea). lra. Qed.

(* section G: the descriptor of a wired calibrator is acceptable - initial values included *)
Lemma cal_ldesc_ok f always r oi c : cal_wired f always r oi c -> ldesc_ok (cal_ldesc c).
Proof. destruct c as [s dv|s dv]; cbn [cal_wired cal_ldesc ldesc_ok].
  - intros (_ & _ & _ & Ek & Hok). split. apply pwl_spec_desc_ok. exact Hok.
    split. { cbn [pwl_spec_desc pd_init pd_n]. apply pwl_spec_init_length. exact Hok. rewrite Ek. discriminate. }
    apply miss_of_ok. exact Hok.
  - intros (_ & _ & Hok). split. apply cat_spec_desc_ok. exact Hok.
    cbn [cat_spec_desc cd_init cd_n]. apply cat_spec_init_ok. exact Hok. Qed.

Lemma calibrator_mono_nonzero m always : m <> 0%Z -> calibrator_mono m always = m.
Proof. intros H. unfold calibrator_mono. destruct (Z.eqb_spec m 0). contradiction. reflexivity. Qed.

(* the calibrator hypotheses of the composition theorems, from the layer invariant: the shape of a calibrator
   of feature f, its direction resp. order as f asks, and (with both range ends configured) its range *)
Definition cs_default (c : cal_spec) : option Z := match c with CSCat _ d => d | CSPwl _ _ => None end.
Definition cal_form (f : fmono) (c : cal_spec) (cal : calib) : Prop :=
  match c with
  | CSPwl s dv => exists m col miss, f = MNum m /\ cal = CPwl (kp_lefts (ps_kps s)) (kp_diffs (ps_kps s)) col miss /\
       Forall (fun l => 0 < l) (kp_diffs (ps_kps s)) /\
       (forall x, cs_regular c x -> regular_input cal x) /\
       (m = 1%Z -> outs_nondecr col) /\ (m = (-1)%Z -> outs_nonincr col)
  | CSCat s dv => exists vals, f = MPairs (cs_pairs s) /\ cal = CCat vals dv /\ length vals = cs_n s /\
       forall a b, In (a, b) (cs_pairs s) -> (a < cs_n s)%nat /\ (b < cs_n s)%nat /\ nth a vals 0 <= nth b vals 0
  end.

Lemma cal_state_facts f always r oi c v : cal_wired f always r oi c -> linv (cal_ldesc c) v ->
  cal_form f c (cal_of c v) /\
  (cal_d2_free c -> forall lo hi, output_range r = (Some lo, Some hi) -> lo <= hi -> calib_range (cal_of c v) lo hi).
Proof. destruct c as [s dv|s dv]; cbn [cal_wired cal_ldesc cal_d2_free]; intros Hw Hi.
  - destruct Hw as ((m & Ef & Em) & Er & _ & _ & Hok).
    destruct v as [w o|w|g|k b|kp]; cbn [linv] in Hi; try contradiction. destruct Hi as (Hinv & Hlen & Hm).
    cbn [pwl_spec_desc pd_n] in Hlen.
    destruct (pwl_state_facts s w Hok Hinv Hlen) as (Hseg & Hl & Hpos & Hinc & Hdec & Hrange).
    cbn [cal_of cal_form]. split.
    + exists m. eexists _, _. split. exact Ef. split. reflexivity. split. exact Hpos.
      rewrite Em in Hinc, Hdec. split; [|split; intros ->; [apply Hinc|apply Hdec]; apply calibrator_mono_nonzero; lia].
      intros x Hx. cbn [cs_regular] in Hx. destruct dv as [miv|], o as [q|]; cbn [regular_input]; auto.
    + intros Hg lo hi Eo Hle. rewrite Er, Eo in Hrange. cbn [fst snd] in Hrange.
      cbn [calib_range]. split. exact Hseg. split. exact Hl. split. intros y Hy. exact (within_some _ _ _ (Hrange Hg y Hy)).
      destruct dv as [miv|]; [|exact I]. cbn [miss_of] in Hm. destruct o as [q|]; [|contradiction].
      unfold miss_inv in Hm; cbn [ms_lo ms_hi] in Hm. rewrite Er, Eo in Hm. exact (within_some _ _ _ Hm).
  - destruct Hw as (Ef & Er & _ & Hin & _).
    destruct v as [w o|w|g|k b|kp]; cbn [linv] in Hi; try contradiction. destruct Hi as ((Hf & Hb) & Hlen).
    cbn [cat_spec_desc cd_pairs cd_lo cd_hi cd_n] in *. cbn [cal_of cal_form]. split.
    + exists w. split. exact Ef. split. reflexivity. split. exact Hlen.
      intros a b Hab. destruct (Hin a b Hab) as [Ha Hb']. split. exact Ha. split. exact Hb'. exact (Hf a b Hab).
    + intros _ lo hi Eo Hle. rewrite Er, Eo in Hb. cbn [fst snd] in Hb. cbn [calib_range]. intros x Hx.
      destruct (Hb x Hx) as [A B]. split. apply B. reflexivity. intros h E; injection E as <-; exact Hle.
      apply A. reflexivity. Qed.

Definition dcs : cal_spec := CSCat (mkCatS [] InputToFinalCalibration 0 []) None.
Definition dval : lval := VLin [] 0.

(* what the form of a feature's calibrator says about its function: ordered the way the feature asks,
   on regular inputs resp. along every bucket pair *)
Lemma form_numeric f c cal a b : cal_form f c cal -> cs_regular c a -> cs_regular c b -> a <= b ->
  (f = MNum 1 -> calib_eval cal a <= calib_eval cal b) /\ (f = MNum (-1) -> calib_eval cal b <= calib_eval cal a).
Proof. destruct c as [s dv|s dv]; cbn [cal_form].
  - intros (m & col & miss & -> & -> & Hpos & Hreg & Hinc & Hdec) Ra Rb Hab.
    destruct (calib_pwl_monotone _ _ col miss a b Hpos (Hreg _ Ra) (Hreg _ Rb) Hab) as [Inc Dec].
    split; intros E; injection E as ->; [apply Inc, Hinc|apply Dec, Hdec]; reflexivity.
  - intros (vals & -> & _) _ _ _. split; discriminate. Qed.

Lemma form_pair f c cal ps a b : cal_form f c cal -> f = MPairs ps -> In (a, b) ps ->
  cs_default c <> Some (Z.of_nat a) -> cs_default c <> Some (Z.of_nat b) ->
  calib_eval cal (qn a) <= calib_eval cal (qn b).
Proof. destruct c as [s dv|s dv]; cbn [cal_form cs_default].
  - intros (m & col & miss & -> & _) E. discriminate.
  - intros (vals & -> & -> & Lv & Hp) E Hab Da Db. injection E as <-.
    destruct (Hp a b Hab) as (Ha & Hb & Hle). apply calib_cat_pair; try assumption; lia. Qed.

(* such a feature gets a monotone lattice / linear dimension *)
Lemma monotone_feature_dim f : f = MNum 1 \/ f = MNum (-1) \/ (exists ps p, f = MPairs ps /\ In p ps) ->
  lattice_dim_mono f = 1%Z.
Proof. intros [->|[->|(ps & p & -> & Hp)]]; try reflexivity. destruct ps; [destruct Hp|reflexivity]. Qed.

(* The per-feature clauses of the end-to-end theorems, for every model kind at once.  The model function F reads
   feature i through the calibrator units u with [rd i u], unit u realising the function [cal u]; F follows
   these units along the features with a monotone dimension; every such unit has the form of a calibrator of
   the feature. *)
Lemma readers_monotone (F : list Q -> Q) n feats cspecs (cal : nat -> calib) (rd : nat -> nat -> Prop) :
  (forall i, (i < n)%nat -> lattice_dim_mono (nth i feats (MNum 0)) = 1%Z ->
     follows F n i (fun c => exists u, rd i u /\ c = cal u)) ->
  (forall i u, (i < n)%nat -> rd i u -> cal_form (nth i feats (MNum 0)) (nth u cspecs dcs) (cal u)) ->
  (forall i x v, (i < n)%nat -> length x = n ->
     (forall u, rd i u -> cs_regular (nth u cspecs dcs) (nth i x 0) /\ cs_regular (nth u cspecs dcs) v) ->
     nth i x 0 <= v ->
     (nth i feats (MNum 0) = MNum 1 -> F x <= F (set_nth i v x)) /\
     (nth i feats (MNum 0) = MNum (-1) -> F (set_nth i v x) <= F x)) /\
  (forall i x ps a b, (i < n)%nat -> length x = n ->
     nth i feats (MNum 0) = MPairs ps -> In (a, b) ps ->
     (forall u, rd i u -> cs_default (nth u cspecs dcs) <> Some (Z.of_nat a) /\
                          cs_default (nth u cspecs dcs) <> Some (Z.of_nat b)) ->
     F (set_nth i (qn a) x) <= F (set_nth i (qn b) x)).
Proof. intros Hfol Hw. split.
  - intros i x v Hi Hx Hreg Hle.
    assert (G : forall c, (exists u, rd i u /\ c = cal u) ->
              (nth i feats (MNum 0) = MNum 1 -> calib_eval c (nth i x 0) <= calib_eval c v) /\
              (nth i feats (MNum 0) = MNum (-1) -> calib_eval c v <= calib_eval c (nth i x 0))).
    { intros c (u & Hr & ->). destruct (Hreg u Hr) as [Rx Rv]. exact (form_numeric _ _ _ _ _ (Hw i u Hi Hr) Rx Rv Hle). }
    split; intros E.
    + apply (Hfol i Hi). apply monotone_feature_dim; auto. exact Hx. intros c Hc. apply (G c Hc). exact E.
    + apply (follows_back F n i (fun c => exists u, rd i u /\ c = cal u)); auto.
      apply Hfol; auto. apply monotone_feature_dim; auto. intros c Hc. apply (G c Hc). exact E.
  - intros i x ps a b Hi Hx E Hab Hdef. apply (follows_between F n i (fun c => exists u, rd i u /\ c = cal u)); auto.
    apply Hfol; auto. apply monotone_feature_dim. right; right; eauto.
    intros c (u & Hr & ->). destruct (Hdef u Hr) as [Da Db]. exact (form_pair _ _ _ ps a b (Hw i u Hi Hr) E Hab Da Db). Qed.

(* one calibrator unit per feature, unit i reading feature i: F follows unit i along every feature i with a
   monotone dimension, and unit i has the form of a calibrator of feature i *)
Definition reads_each (F : list Q -> Q) feats cspecs cals : Prop :=
  let n := length feats in
  (forall i, (i < n)%nat -> lattice_dim_mono (nth i feats (MNum 0)) = 1%Z -> follows F n i (eq (nth i cals dcal))) /\
  (forall i, (i < n)%nat -> cal_form (nth i feats (MNum 0)) (nth i cspecs dcs) (nth i cals dcal)).

Lemma features_monotone (F : list Q -> Q) feats cspecs cals : reads_each F feats cspecs cals ->
  let n := length feats in
  (forall i x v, (i < n)%nat -> length x = n ->
     cs_regular (nth i cspecs dcs) (nth i x 0) -> cs_regular (nth i cspecs dcs) v -> nth i x 0 <= v ->
     (nth i feats (MNum 0) = MNum 1 -> F x <= F (set_nth i v x)) /\
     (nth i feats (MNum 0) = MNum (-1) -> F (set_nth i v x) <= F x)) /\
  (forall i x ps a b, (i < n)%nat -> length x = n ->
     nth i feats (MNum 0) = MPairs ps -> In (a, b) ps ->
     cs_default (nth i cspecs dcs) <> Some (Z.of_nat a) -> cs_default (nth i cspecs dcs) <> Some (Z.of_nat b) ->
     F (set_nth i (qn a) x) <= F (set_nth i (qn b) x)).
Proof. intros [Hfol Hform] n.
  destruct (readers_monotone F n feats cspecs (fun u => nth u cals dcal) (fun i u => u = i)) as [Hnum Hcat].
  - intros i Hi Ei x v Hx Hle. apply (Hfol i Hi Ei x v Hx). intros c <-. apply Hle. exists i. auto.
  - intros i u Hi ->. apply Hform. exact Hi.
  - split.
    + intros i x v Hi Hx Rx Rv Hle. apply Hnum; auto. intros u ->. auto.
    + intros i x ps a b Hi Hx E Hab Da Db. apply (Hcat i x ps a b); auto. intros u ->. auto. Qed.

(* np.linspace(0.0, 1.0, num=n) *)
Definition linspace01 (n : nat) : list Q := map (fun k => qn k / qn (n - 1)) (seq 0 n).
(* build_output_calibration_layer: keypoints linspace(0, 1, len(output_initialization)), monotonicity 1,
   no convexity, no clamps, bounds = the model's, Constant(ediff1d(output_initialization)) *)
Definition outc_wired (omin omax : option Q) (oi : list Q) (s : pwl_spec) : Prop :=
  ps_kps s = linspace01 (length oi) /\ ps_mono s = 1%Z /\ ps_conv s = 0%Z /\
  ps_clamp_min s = false /\ ps_clamp_max s = false /\
  ps_range s = ModelOutput omin omax /\ ps_oi s = oi /\ ps_kind s = PKOutputCalibration /\ pwl_spec_ok s.

Definition outc_descs (o : option pwl_spec) : list ldesc :=
  match o with Some s => [LDPwl (pwl_spec_desc s) None] | None => [] end.
Definition lat_K (sizes : list nat) (v : lval) : list (list Q) := match v with VLat f => kmat_of sizes f | _ => [] end.
Definition outc_of (s : option pwl_spec) (v : lval) : out_calib :=
  match s, v with Some s, VPwl col _ => Some (kp_lefts (ps_kps s), kp_diffs (ps_kps s), col) | _, _ => None end.

(* The state of every premade model holds its layers in the order calibrator units, middle layers (lattice,
   linear, KFL; one per ensemble member), output calibrator.  The layer invariants of a reached state, by position. *)
Lemma stack_state cals mids outc st : Forall2 linv (map cal_ldesc cals ++ mids ++ outc_descs outc) st ->
  let nc := length cals in
  (nc + length mids <= length st)%nat /\
  (forall u, (u < nc)%nat -> linv (cal_ldesc (nth u cals dcs)) (nth u st dval)) /\
  (forall j, (j < length mids)%nat -> linv (nth j mids (cal_ldesc dcs)) (nth (nc + j) st dval)) /\
  (forall s, outc = Some s -> linv (LDPwl (pwl_spec_desc s) None) (nth (nc + length mids) st dval)).
Proof. intros H. pose proof (Forall2_length _ _ _ H) as L. rewrite !app_length, map_length in L.
  pose proof (fun k => Forall2_nth linv _ _ k (cal_ldesc dcs) dval H) as G.
  rewrite !app_length, map_length in G. cbv zeta. split. lia. split; [|split].
  - intros u Hu. specialize (G u ltac:(lia)). rewrite app_nth1, map_nth in G by (rewrite map_length; lia). exact G.
  - intros j Hj. specialize (G (length cals + j)%nat ltac:(lia)).
    rewrite app_nth2, map_length in G by (rewrite map_length; lia).
    replace (length cals + j - length cals)%nat with j in G by lia. rewrite app_nth1 in G by lia. exact G.
  - intros s ->. cbn [outc_descs length] in G. specialize (G (length cals + length mids)%nat ltac:(lia)).
    rewrite app_nth2, map_length in G by (rewrite map_length; lia).
    replace (length cals + length mids - length cals)%nat with (length mids) in G by lia.
    rewrite app_nth2, Nat.sub_diag in G by lia.
    exact G. Qed.

Lemma linspace01_length n : length (linspace01 n) = n.
Proof. unfold linspace01. rewrite map_length, seq_length. reflexivity. Qed.

Lemma outc_desc_ok omin omax oi s : outc_wired omin omax oi s -> ldesc_ok (LDPwl (pwl_spec_desc s) None).
Proof. intros (Ek & _ & _ & _ & _ & _ & Eo & _ & Hok). cbn [ldesc_ok]. split. apply pwl_spec_desc_ok. exact Hok.
  split; [|exact I]. cbn [pwl_spec_desc pd_init pd_n]. apply pwl_spec_init_length. exact Hok.
  intros _. rewrite Eo, Ek, linspace01_length. reflexivity. Qed.

(* section G, then sections A/B: the layer descriptors of a wired stack are acceptable, so every state
   reached by any well-shaped history satisfies every layer invariant *)
Lemma stack_reachable cals mids omin omax oi outc ops st :
  (forall u, (u < length cals)%nat -> exists f al r oi', cal_wired f al r oi' (nth u cals dcs)) ->
  (forall d, In d mids -> ldesc_ok d) ->
  match outc with Some s => outc_wired omin omax oi s | None => True end ->
  let ds := map cal_ldesc cals ++ mids ++ outc_descs outc in
  ops_shaped lval ldesc lshape ds ops -> In st (run (map lvar ds) ops) -> Forall2 linv ds st.
Proof. intros Hc Hm Ho ds Hops. apply (reachable_feasible_layers ds ops); [|exact Hops]. intros d Hd.
  apply in_app_or in Hd. destruct Hd as [Hd|Hd]; [|apply in_app_or in Hd; destruct Hd as [Hd|Hd]].
  - revert d Hd. apply all_map. intros a Ha. destruct (In_nth cals a dcs Ha) as [u [Hu <-]].
    destruct (Hc u Hu) as (f & al & r & oi' & W). exact (cal_ldesc_ok _ _ _ _ _ W).
  - exact (Hm d Hd).
  - destruct outc as [s|]; [|destruct Hd]. destruct Hd as [<-|[]]. exact (outc_desc_ok _ _ _ s Ho). Qed.

(* the output calibrator realised by the weights v of its layer: increasing; inside the model's output bounds,
   the missing end of a one-sided bound being its least / greatest keypoint output *)
Lemma outc_facts omin omax oi outc v :
  match outc with Some s => outc_wired omin omax oi s | None => True end ->
  (forall s, outc = Some s -> linv (LDPwl (pwl_spec_desc s) None) v) ->
  let oc := outc_of outc v in
  out_monotone oc /\ (oc = None -> outc = None) /\ at_ends omin omax (out_range oc).
Proof. intros Hw Hv oc. subst oc. destruct outc as [s|].
  - specialize (Hv s eq_refl). destruct v as [w o|w|g|k b|kp]; cbn [linv] in Hv; try contradiction.
    destruct Hv as (Hinv & Hlen & _). cbn [pwl_spec_desc pd_n] in Hlen. cbn [outc_of].
    destruct Hw as (_ & Em & Ec & _ & _ & Er & _ & _ & Hok).
    destruct (pwl_state_facts s w Hok Hinv Hlen) as (Hseg & Hl & Hpos & Hinc & _ & Hrange).
    rewrite Er in Hrange. cbn [output_range fst snd] in Hrange.
    split. split. exact Hpos. apply Hinc. exact Em. split. discriminate.
    apply (ends_impl (within_ends (fun y => In y (kp_outs w)) (fun y => y) _ _ omin omax (list_range (kp_outs w))
                        (Hrange (fun G => proj2 G Ec)))).
    cbn [out_range]. auto.
  - cbn [outc_of]. split. exact I. split. reflexivity.
    apply ends_any. intros lo hi. exact I. Qed.

(* calibrators, ONE middle layer, output calibrator: what the invariants of a reached state say about the
   first and the last of them, whatever the middle layer is *)
Lemma stack1_facts cals feats always (r : nat -> layer_range) oi omin omax outc mid st :
  Forall2 linv (map cal_ldesc cals ++ mid :: outc_descs outc) st ->
  (forall i, (i < length cals)%nat -> cal_wired (nth i feats (MNum 0)) (nth i always false) (r i) oi (nth i cals dcs)) ->
  match outc with Some s => outc_wired omin omax oi s | None => True end ->
  let n := length cals in let cs := map2 cal_of cals st in let oc := outc_of outc (nth (S n) st dval) in
  linv mid (nth n st dval) /\ length cs = n /\
  (forall i, (i < n)%nat -> cal_form (nth i feats (MNum 0)) (nth i cals dcs) (nth i cs dcal) /\
     (cal_d2_free (nth i cals dcs) -> forall lo hi, output_range (r i) = (Some lo, Some hi) -> lo <= hi ->
        calib_range (nth i cs dcal) lo hi)) /\
  out_monotone oc /\ (oc = None -> outc = None) /\ at_ends omin omax (out_range oc).
Proof. intros H Hw Ho. destruct (stack_state cals [mid] outc st H) as (Lst & Hcal & Hmid & Hout).
  specialize (Hmid 0%nat ltac:(cbn; lia)). cbn [length nth] in Lst, Hmid, Hout. rewrite Nat.add_0_r in Hmid. rewrite Nat.add_1_r in Hout.
  cbv zeta. split. exact Hmid. split. rewrite map2_length; lia. split.
  - intros i Hi. rewrite (nth_map2 cal_of cals st i dcs dval dcal) by lia.
    exact (cal_state_facts _ _ _ _ _ _ (Hw i Hi) (Hcal i Hi)).
  - exact (outc_facts _ _ _ outc _ Ho Hout). Qed.

(* the calibrators of the example models below: keypoints 0, 1, 3 in the direction of a numeric feature;
   one ordered bucket pair of a categorical feature *)
Lemma ex_wired_pwl m r oi dv : (m = 1 \/ m = -1)%Z ->
  (forall a b, fst (output_range r) = Some a -> snd (output_range r) = Some b -> a <= b) -> oi_in_bounds r oi ->
  cal_wired (MNum m) false r oi (CSPwl (mkPwlS [0; 1; 3] m 0 false false 8 r oi PKUniform) dv).
Proof. intros Hm Hr Ho. split. exists m. split. reflexivity. cbn [ps_mono]. symmetry. apply calibrator_mono_nonzero. lia.
  split. reflexivity. split. reflexivity. split. reflexivity.
  apply ex_pwl_common; try assumption. cbn; lia. intros l H; cbn in H; in_cases H. unfold z3; lia. Qed.
Lemma ex_wired_cat a b n r oi raw dv al : (a < b < n)%nat -> length raw = n ->
  cal_wired (MPairs [(a, b)]) al r oi (CSCat (mkCatS [(a, b)] r n raw) dv).
Proof. intros Hab Hl. split. reflexivity. split. reflexivity. split; [|split; [|exact Hl]].
  - apply (acyclic_rank _ (fun x => x)). intros a' b' [H|[]]. inversion H; subst; lia.
  - intros i j [H|[]]. inversion H; subst; cbn; lia. Qed.

(* tfl.premade.CalibratedLattice (all_vertices).
   The model description: what premade.CalibratedLattice.__init__ hands to the builders.
     cl_feats   canonical monotonicity of every feature (MNum 1 / -1 / 0, MPairs pair list)
     cl_always  pwl_calibration_always_monotonic of every feature
     cl_cals    the calibrator layer of every feature (build_calibration_layers, INPUT_TO_LATTICE, units 1)
     cl_lat     the Lattice layer (build_lattice_layer, all_vertices; LinearInitializer with cl_unis)
     cl_scheme  model_config.interpolation
     cl_outc    the output calibrator (build_output_calibration_layer) when output_calibration is set
     cl_min / cl_max / cl_oi   output_min / output_max / output_initialization *)
Record cl_model := mkCL {
  cl_feats : list fmono; cl_always : list bool; cl_cals : list cal_spec;
  cl_lat : lat_spec; cl_unis : list Z; cl_scheme : scheme;
  cl_outc : option pwl_spec;
  cl_min : option Q; cl_max : option Q; cl_oi : list Q }.
Definition cl_sizes (md : cl_model) : list nat := l_sizes (ls_cfg (cl_lat md)).

(* validity: CONFIGURATION facts only (no statement about any weight, initial or later).
   Guards tied to known findings, all inside the component predicates:
     D1  lat_spec_ok: not (trapezoid trust with a monotone conditional feature while Edgeworth trusts exist)
     D2  cal_d2_free: no input calibrator both monotone and convex / concave
     D65 lat_spec_ok / pwl_spec_ok: output_initialization inside [output_min, output_max] (oi_in_bounds),
         sorted when it initialises the output calibrator *)
Definition cl_ok (md : cl_model) : Prop :=
  let c := ls_cfg (cl_lat md) in let n := length (cl_feats md) in
  length (cl_cals md) = n /\ length (cl_always md) = n /\ length (l_sizes c) = n /\
  (* build_calibration_layers: feature i -> calibrator i with range [0, lattice_size_i - 1] *)
  (forall i, (i < n)%nat ->
     cal_wired (nth i (cl_feats md) (MNum 0)) (nth i (cl_always md) false)
               (InputToLattice (nth i (l_sizes c) 0%nat)) (cl_oi md) (nth i (cl_cals md) dcs) /\
     cal_d2_free (nth i (cl_cals md) dcs)) /\
  (* build_lattice_layer: one unit, monotonicities = _monotonicities_from_feature_configs, bounds and
     init range = _output_range(INPUT_TO_FINAL_CALIBRATION if output_calibration else MODEL_OUTPUT) *)
  l_units c = 1%nat /\ l_monos c = map lattice_dim_mono (cl_feats md) /\
  ls_kind (cl_lat md) = LKLinear (cl_unis md) /\ ls_oi (cl_lat md) = cl_oi md /\
  ls_range (cl_lat md) = (match cl_outc md with Some _ => InputToFinalCalibration
                                           | None => ModelOutput (cl_min md) (cl_max md) end) /\
  lat_spec_ok (cl_lat md) /\
  match cl_outc md with Some s => outc_wired (cl_min md) (cl_max md) (cl_oi md) s | None => True end.

(* the layers, in state order: calibrators, lattice, output calibrator *)
Definition cl_descs (md : cl_model) : list ldesc :=
  map cal_ldesc (cl_cals md) ++ LDLat (lat_spec_desc (cl_lat md)) ::
  match cl_outc md with Some s => [LDPwl (pwl_spec_desc s) None] | None => [] end.
Definition cl_vars (md : cl_model) : list (var lval) := map lvar (cl_descs md).

(* the model function realised by the weights of a state *)
Definition cl_eval (md : cl_model) (st : list lval) (x : list Q) : Q :=
  let n := length (cl_cals md) in
  cal_lattice_eval (cl_scheme md) (cl_sizes md) (lat_K (cl_sizes md) (nth n st dval))
                   (map2 cal_of (cl_cals md) st) (outc_of (cl_outc md) (nth (S n) st dval)) x.

Lemma cl_reachable md ops st : cl_ok md -> ops_shaped lval ldesc lshape (cl_descs md) ops ->
  In st (run (cl_vars md) ops) -> Forall2 linv (cl_descs md) st.
Proof. intros (Hc & _ & _ & Hw & _ & _ & _ & _ & _ & Hl & Ho).
  apply (stack_reachable (cl_cals md) [LDLat (lat_spec_desc (cl_lat md))] (cl_min md) (cl_max md) (cl_oi md) (cl_outc md)).
  - intros u Hu. destruct (Hw u ltac:(lia)) as [W _]. eauto.
  - intros d [<-|[]]. apply lat_spec_desc_ok. exact Hl.
  - exact Ho. Qed.

(* the invariants of a reached state ARE the hypotheses of the composition theorems: its model function
   follows the calibrators along the monotone dimensions and stays between the configured bounds (where only
   one is configured the other end is the least / greatest weight of the last layer) *)
Lemma cl_state_facts md st : cl_ok md -> Forall2 linv (cl_descs md) st ->
  let F := cl_eval md st in let n := length (cl_feats md) in
  reads_each F (cl_feats md) (cl_cals md) (map2 cal_of (cl_cals md) st) /\
  at_ends (cl_min md) (cl_max md) (fun lo hi => forall x, length x = n -> lo <= F x <= hi).
Proof. intros (Hc & Ha & Hsz & Hw & Hu & Hm & Hk & Hoi & Hr & Hl & Ho) H.
  destruct (stack1_facts (cl_cals md) (cl_feats md) (cl_always md)
              (fun i => InputToLattice (nth i (l_sizes (ls_cfg (cl_lat md))) 0%nat)) (cl_oi md) _ _ (cl_outc md) _ st H
              (fun i Hi => proj1 (Hw i ltac:(lia))) Ho) as (Hmid & Lc & Hcal & Hom & Hnone & Hor).
  cbv zeta. unfold cl_eval, cl_sizes.
  destruct (nth (length (cl_cals md)) st dval) as [w o|w|f|k b|kp]; cbn [linv] in Hmid; try contradiction. cbn [lat_K].
  pose proof Hl as (Hcfg & _ & _ & Hne & Emin & Emax & _).
  destruct (lat_state_facts (lat_spec_desc (cl_lat md)) (ls_cfg (cl_lat md)) f eq_refl Hcfg Hu Hmid) as (Hso & Hwf & LK & Hmono & Hbnd).
  assert (Hrange : cals_in_range (l_sizes (ls_cfg (cl_lat md))) (map2 cal_of (cl_cals md) st)).
  { intros j Hj. apply (proj2 (Hcal j ltac:(lia)) (proj2 (Hw j ltac:(lia))) _ _ eq_refl).
    pose proof (qn_size_ge _ j Hso Hj). lra. }
  split; [split|].
  - intros i Hi Ei. rewrite <- Hsz. apply cal_lattice_core; try assumption; try lia.
    apply Hmono. lia. rewrite Hm, (nth_map_lt _ _ i _ (MNum 0)) by exact Hi. exact Ei.
  - intros i Hi. apply Hcal. lia.
  - destruct (cl_outc md) as [s|] eqn:Eo.
    + apply (ends_impl Hor). intros lo hi Hlh x Hx.
      apply (bounded_lattice (cl_scheme md)); try assumption; try lia. intros E. discriminate (Hnone E).
    + rewrite Emin, Emax, Hr in Hbnd. cbn [output_range fst snd] in Hbnd.
      apply (ends_impl (within_ends _ _ _ _ _ _ (kern_minmax _ _ 0 LK) Hbnd)). intros lo hi Hb x Hx.
      apply (bounded_lattice (cl_scheme md)); try assumption; try lia. intros _. exact Hb. Qed.

Theorem calibrated_lattice_end_to_end : forall md ops st,
  cl_ok md -> ops_shaped lval ldesc lshape (cl_descs md) ops -> In st (run (cl_vars md) ops) ->
  let F := cl_eval md st in let n := length (cl_feats md) in
  (* (i) increasing / decreasing numeric feature i, every pair of regular inputs, in or out of range *)
  (forall i x v, (i < n)%nat -> length x = n ->
     cs_regular (nth i (cl_cals md) dcs) (nth i x 0) -> cs_regular (nth i (cl_cals md) dcs) v -> nth i x 0 <= v ->
     (nth i (cl_feats md) (MNum 0) = MNum 1 -> F x <= F (set_nth i v x)) /\
     (nth i (cl_feats md) (MNum 0) = MNum (-1) -> F (set_nth i v x) <= F x)) /\
  (* categorical feature i, ordering pair (a, b), neither bucket being the default (missing) one *)
  (forall i x ps a b, (i < n)%nat -> length x = n ->
     nth i (cl_feats md) (MNum 0) = MPairs ps -> In (a, b) ps ->
     cs_default (nth i (cl_cals md) dcs) <> Some (Z.of_nat a) -> cs_default (nth i (cl_cals md) dcs) <> Some (Z.of_nat b) ->
     F (set_nth i (qn a) x) <= F (set_nth i (qn b) x)) /\
  (* (ii) bounds, for every input vector (missing values, unknown buckets, out-of-range numbers included);
     each configured bound on its own *)
  (forall lo x, cl_min md = Some lo -> length x = n -> lo <= F x) /\
  (forall hi x, cl_max md = Some hi -> length x = n -> F x <= hi).
Proof. intros md ops st Hok Hops Hs F n.
  destruct (cl_state_facts md st Hok (cl_reachable md ops st Hok Hops Hs)) as (Hcal & Hb).
  destruct (features_monotone F (cl_feats md) (cl_cals md) _ Hcal) as [Hnum Hcat].
  destruct (ends_each (fun x => length x = n) F _ _ Hb) as [Hlo Hhi].
  split. exact Hnum. split. exact Hcat. split.
  - intros lo x Elo Hx. exact (Hlo lo x Elo Hx).
  - intros hi x Ehi Hx. exact (Hhi hi x Ehi Hx). Qed.

(* ---- the hypotheses are satisfiable: a concrete model and a hostile history ----
   feature 0: numeric, increasing, keypoints 0, 1, 3, default_value -1 (learned missing output), lattice_size 2;
   feature 1: categorical, 3 buckets, ordering pair (0, 2), default_value -1, lattice_size 3
              (RandomUniform draw 7/8, -1/4, 1/8: out of order and out of range, repaired by build());
   output_min -2, output_max 2, output_initialization [-2, 2], no output calibration, hypercube interpolation. *)
Definition ex_cl_pwl : pwl_spec := mkPwlS [0; 1; 3] 1 0 false false 8 (InputToLattice 2) [-(2); 2] PKUniform.
Definition ex_cl_cat : cat_spec := mkCatS [(0, 2)]%nat (InputToLattice 3) 3 [7#8; -(1#4); 1#8].
Definition ex_cl_lat : lat_spec :=
  mkLatS (mkLat [2; 3]%nat 1 [1; 1]%Z [] [] (Some (-(2))) (Some 2)) true (fun K => K)
         (ModelOutput (Some (-(2))) (Some 2)) [-(2); 2] (LKLinear [0; 0]%Z).
Definition ex_cl : cl_model :=
  mkCL [MNum 1; MPairs [(0, 2)]%nat] [false; false] [CSPwl ex_cl_pwl (Some (-(1))); CSCat ex_cl_cat (Some (-1)%Z)]
       ex_cl_lat [0; 0]%Z Hypercube None (Some (-(2))) (Some 2) [-(2); 2].

Example ex_cl_ok : cl_ok ex_cl.
Proof. unfold cl_ok, ex_cl; cbn [cl_feats cl_always cl_cals cl_lat cl_unis cl_outc cl_min cl_max cl_oi length].
  split. reflexivity. split. reflexivity. split. reflexivity. split.
  { intros i Hi. destruct i as [|[|i]]; [| |lia]; cbn [nth].
    - split; [|intros [_ E]; apply E; reflexivity]. apply ex_wired_pwl. lia.
      intros a b Ha Hb; inversion Ha; inversion Hb; subst. vm_compute; discriminate. exact I.
    - split; [|exact I]. apply ex_wired_cat. lia. reflexivity. }
  split. reflexivity. split. reflexivity. split. reflexivity. split. reflexivity. split. reflexivity.
  split; [|exact I].
  apply ex_lat_output_ok.
  - intros s H; in_cases H.
  - reflexivity.
  - lra.
  - discriminate.
  - intros x H; in_cases H. Qed.

(* a hostile 2-step history: a step that throws every weight far outside its feasible set
   (decreasing calibrator, reversed buckets, decreasing kernel far outside the bounds), then another one *)
Definition ex_cl_raw1 (i : nat) : lval :=
  match i with
  | 0%nat => VPwl [-(100); 7; -(50)] (Some 9)
  | 1%nat => VCat [5; -(3); 0]
  | _ => VLat (fun i => 10 - 7 * qn (nth 0 i 0%nat) - 4 * qn (nth 1 i 0%nat))
  end.
Definition ex_cl_raw2 (i : nat) : lval :=
  match i with
  | 0%nat => VPwl [1#4; 1#2; 5] (Some (-(3)))
  | 1%nat => VCat [0; 3; 3#2]
  | _ => VLat (fun i => qn (nth 0 i 0%nat) * (1#2) + qn (nth 1 i 0%nat) * (3#2) - qn (nth 1 i 0%nat * nth 1 i 0%nat))
  end.
Definition ex_cl_ops : list (op lval) := [Update ex_cl_raw1; Update ex_cl_raw2].

Example ex_cl_ops_shaped : ops_shaped lval ldesc lshape (cl_descs ex_cl) ex_cl_ops.
Proof. intros delta H i d Hd. cbn in H.
  destruct H as [H|[H|[]]]; injection H as <-;
    (destruct i as [|[|[|i]]]; cbn in Hd; [| | |destruct i; discriminate]; injection Hd as <-; cbn [lshape];
     [split; [eexists _, _; split; reflexivity|split; discriminate]|reflexivity|exact I]). Qed.

(* the model after the history, evaluated: increasing in feature 0 (in range, beyond the last keypoint),
   ordered along the pair (0, 2), missing value and unknown bucket inside the bounds *)
Example ex_cl_values :
  let F := cl_eval ex_cl (final (cl_vars ex_cl) ex_cl_ops) in
  Qle_bool (F [0; 0]) (F [1#2; 0]) && Qle_bool (F [1#2; 0]) (F [2; 0]) && Qle_bool (F [2; 0]) (F [100; 0]) &&
  Qle_bool (F [1; 0]) (F [1; 2]) &&
  Qle_bool (-(2)) (F [-(1); -(1)]) && Qle_bool (F [-(1); -(1)]) 2 && Qle_bool (-(2)) (F [7; 5]) && Qle_bool (F [7; 5]) 2 &&
  negb (Qle_bool (F [100; 0]) (F [0; 0])) = true.
Proof. vm_compute. reflexivity. Qed.

(* tfl.premade.CalibratedLinear.
   The model description: what premade.CalibratedLinear.__init__ hands to the builders.
     cn_lin       the Linear layer (build_linear_layer): square-root oracle, constraint configuration, inputs
     cn_use_bias  model_config.use_bias
   weighted_average = output_min is not None or output_max is not None or output_calibration:
     monotonicities [1] * n, normalization_order 1, no bias; otherwise monotonicities from the features
     (_monotonicities_from_feature_configs), no normalization, bias iff use_bias.
   Calibrators: range MODEL_OUTPUT, or INPUT_TO_FINAL_CALIBRATION under an output calibrator. *)
Record cn_model := mkCN {
  cn_feats : list fmono; cn_always : list bool; cn_cals : list cal_spec;
  cn_lin : lin_spec; cn_use_bias : bool;
  cn_outc : option pwl_spec;
  cn_min : option Q; cn_max : option Q; cn_oi : list Q }.
Definition is_some {A} (o : option A) : bool := match o with Some _ => true | None => false end.
Definition cn_weighted (md : cn_model) : bool := is_some (cn_min md) || is_some (cn_max md) || is_some (cn_outc md).
Definition cn_range (md : cn_model) : layer_range :=
  match cn_outc md with Some _ => InputToFinalCalibration | None => ModelOutput (cn_min md) (cn_max md) end.
Definition cn_bias (md : cn_model) : bool := if cn_weighted md then false else cn_use_bias md.

(* validity: configuration facts only.  D65 guard: pwl_spec_ok of every input calibrator contains oi_in_bounds *)
Definition cn_ok (md : cn_model) : Prop :=
  let n := length (cn_feats md) in
  (1 <= n)%nat /\ length (cn_cals md) = n /\ length (cn_always md) = n /\ ns_n (cn_lin md) = n /\
  (forall i, (i < n)%nat ->
     cal_wired (nth i (cn_feats md) (MNum 0)) (nth i (cn_always md) false) (cn_range md) (cn_oi md) (nth i (cn_cals md) dcs)) /\
  lc_monos (ns_cfg (cn_lin md)) = premade_linear_monos (cn_feats md) (cn_weighted md) /\
  lc_norm (ns_cfg (cn_lin md)) = (if cn_weighted md then 1 else 0)%nat /\
  lin_valid (ns_cfg (cn_lin md)) n /\
  (forall a b, cn_min md = Some a -> cn_max md = Some b -> a <= b) /\
  match cn_outc md with Some s => outc_wired (cn_min md) (cn_max md) (cn_oi md) s | None => True end.

Definition cn_descs (md : cn_model) : list ldesc :=
  map cal_ldesc (cn_cals md) ++ LDLin (lin_spec_desc (cn_lin md)) (cn_bias md) :: outc_descs (cn_outc md).
Definition cn_vars (md : cn_model) : list (var lval) := map lvar (cn_descs md).

Definition lin_k (v : lval) : list Q := match v with VLin k _ => k | _ => [] end.
Definition lin_b (v : lval) : Q := match v with VLin _ b => b | _ => 0 end.
Definition cn_kernel (md : cn_model) (st : list lval) : list Q := lin_k (nth (length (cn_cals md)) st dval).
Definition cn_eval (md : cn_model) (st : list lval) (x : list Q) : Q :=
  let n := length (cn_cals md) in
  cal_linear_eval (cn_kernel md st) (lin_b (nth n st dval)) (map2 cal_of (cn_cals md) st)
                  (outc_of (cn_outc md) (nth (S n) st dval)) x.

(* any input of the feature's domain: every number; a bucket index or default_value *)
Definition cs_domain (c : cal_spec) (x : Q) : Prop :=
  match c with
  | CSPwl _ _ => True
  | CSCat s d => (0 <= cast_int x < Z.of_nat (cs_n s))%Z \/ (d = Some (cast_int x) /\ (0 < cs_n s)%nat)
  end.
Lemma cs_domain_input f c cal x : cal_form f c cal -> cs_domain c x -> domain_input cal x.
Proof. destruct c as [s dv|s dv]; cbn [cal_form cs_domain].
  - intros (m & col & miss & _ & -> & _) _. exact I.
  - intros (vals & _ & -> & Lv & _) H. cbn [domain_input]. rewrite Lv. destruct H as [H|[H Hn]]. left; exact H.
    right. split. exact H. destruct vals; [cbn in Lv; lia|discriminate]. Qed.

Lemma premade_linear_init_norm l : lin_norm_inv (lin_spec_desc l) (premade_linear_init (ns_n l)) \/ ns_n l = 0%nat.
Proof. destruct (ns_n l) as [|n] eqn:E. right; reflexivity. left. intros _. left.
  destruct (premade_linear_init_average (S n) ltac:(lia)) as (_ & Hp & Hs). rewrite qsum_abs_nonneg; assumption. Qed.

Lemma cn_lin_desc_ok md : cn_ok md -> ldesc_ok (LDLin (lin_spec_desc (cn_lin md)) (cn_bias md)).
Proof. intros (Hn & _ & _ & En & _ & Em & _ & Hv & _). cbn [ldesc_ok lin_spec_desc nd_cfg nd_n nd_init].
  rewrite En. split. exact Hv. split.
  { rewrite <- En. apply (init_feasible_linear (cn_lin md)). split. rewrite En. exact Hv.
    rewrite Em. apply premade_linear_monos_not_decreasing. }
  split. unfold premade_linear_init. apply repeat_length.
  rewrite <- En. destruct (premade_linear_init_norm (cn_lin md)) as [H|H]. exact H. lia. Qed.

Lemma cn_reachable md ops st : cn_ok md -> ops_shaped lval ldesc lshape (cn_descs md) ops ->
  In st (run (cn_vars md) ops) -> Forall2 linv (cn_descs md) st.
Proof. intros Hok. pose proof Hok as (_ & Hc & _ & _ & Hw & _ & _ & _ & _ & Ho).
  apply (stack_reachable (cn_cals md) [LDLin (lin_spec_desc (cn_lin md)) (cn_bias md)] (cn_min md) (cn_max md) (cn_oi md) (cn_outc md)).
  - intros u Hu. pose proof (Hw u ltac:(lia)). eauto.
  - intros d [<-|[]]. apply cn_lin_desc_ok. exact Hok.
  - exact Ho. Qed.

Lemma cn_state_facts md st : cn_ok md -> Forall2 linv (cn_descs md) st ->
  let F := cn_eval md st in let n := length (cn_feats md) in
  reads_each F (cn_feats md) (cn_cals md) (map2 cal_of (cn_cals md) st) /\
  (forall lo hi x, cn_min md = Some lo -> cn_max md = Some hi -> length x = n ->
     (cn_outc md = None ->
        (forall i, (i < n)%nat -> cal_d2_free (nth i (cn_cals md) dcs)) /\ ~ lin_collapsed (cn_kernel md st) /\
        (lo <= 0 <= hi \/ forall i, (i < n)%nat -> cs_domain (nth i (cn_cals md) dcs) (nth i x 0))) ->
     lo <= F x <= hi).
Proof. intros (Hn & Hc & Ha & En & Hw & Em & Enorm & Hv & Hle & Ho) H.
  destruct (stack1_facts (cn_cals md) (cn_feats md) (cn_always md) (fun _ => cn_range md) (cn_oi md) _ _ (cn_outc md) _ st H
              (fun i Hi => Hw i ltac:(lia)) Ho) as (Hmid & Lc & Hcal & Hom & Hnone & Hor).
  cbv zeta. unfold cn_eval, cn_kernel.
  destruct (nth (length (cn_cals md)) st dval) as [w o|w|g|k b|kp]; cbn [linv] in Hmid; try contradiction.
  destruct Hmid as (Hinv & Lk & Hb & Hnorm). cbn [lin_k lin_b].
  cbn [lin_spec_desc nd_n nd_cfg] in Lk, Hnorm. unfold lin_norm_inv in Hnorm. cbn [lin_spec_desc nd_cfg] in Hnorm.
  assert (Hsign : forall i, nth i (lc_monos (ns_cfg (cn_lin md))) 0%Z = 1%Z -> 0 <= nth i k 0).
  { intros i E. destruct (Hinv i) as [A _]. apply A. exact E. }
  split; [split|].
  - intros i Hi Ei. replace (length (cn_feats md)) with (length k) by lia. apply cal_linear_core; try assumption; try lia.
    apply Hsign. rewrite Em. apply premade_linear_monos_one. exact Hi. right. exact Ei.
  - intros i Hi. apply Hcal. lia.
  - (* under an output calibrator its range; else a weighted average (weights >= 0, sum 1, no bias) of calibrators in range *)
    intros lo hi x Elo Ehi Hx Hg.
    assert (Ew : cn_weighted md = true) by (unfold cn_weighted; rewrite Elo; reflexivity).
    rewrite Ew in Enorm, Em. unfold cn_bias in Hb. rewrite Ew in Hb. rewrite (Hb eq_refl).
    apply bounded_linear; try lia; [|exact (ends_both _ _ _ Hor lo hi Elo Ehi)].
    intros Eoc. pose proof (Hnone Eoc) as Eo. destruct (Hg Eo) as (Hd2 & Hnc & Hdom).
    assert (Hpos : forall q, In q k -> 0 <= q).
    { intros q Hq. destruct (In_nth _ _ 0 Hq) as [j [Hj <-]]. apply Hsign. rewrite Em.
      apply premade_linear_monos_one. lia. left. reflexivity. }
    split. exact Hpos. split.
    { destruct (Hnorm Enorm) as [A|A]; [|contradiction]. rewrite <- (qsum_abs_nonneg k Hpos). exact A. }
    intros j Hj. split.
    + apply (proj2 (Hcal j ltac:(lia)) (Hd2 j ltac:(lia))). unfold cn_range. rewrite Eo, Elo, Ehi. reflexivity.
      exact (Hle lo hi Elo Ehi).
    + destruct Hdom as [H0|Hdom]. left; exact H0. right. apply (cs_domain_input (nth j (cn_feats md) (MNum 0)) (nth j (cn_cals md) dcs)).
      apply Hcal. lia. apply Hdom. lia. Qed.

(* The state of C03_bounded_refuted_weighted_average_zero (all weights clipped to zero, normalization
   skipped) is a collapsed one; the initial weights are not. *)
Lemma d32_state_collapsed : lin_collapsed [0; 0] /\ forall n, (1 <= n)%nat -> ~ lin_collapsed (premade_linear_init n).
Proof. split. vm_compute. reflexivity. intros n Hn. unfold lin_collapsed.
  destruct (premade_linear_init_average n Hn) as (_ & Hp & Hs). rewrite qsum_abs_nonneg by exact Hp. rewrite Hs.
  unfold norm_eps. intros H. vm_compute in H. discriminate. Qed.

Theorem calibrated_linear_end_to_end : forall md ops st,
  cn_ok md -> ops_shaped lval ldesc lshape (cn_descs md) ops -> In st (run (cn_vars md) ops) ->
  let F := cn_eval md st in let n := length (cn_feats md) in
  (forall i x v, (i < n)%nat -> length x = n ->
     cs_regular (nth i (cn_cals md) dcs) (nth i x 0) -> cs_regular (nth i (cn_cals md) dcs) v -> nth i x 0 <= v ->
     (nth i (cn_feats md) (MNum 0) = MNum 1 -> F x <= F (set_nth i v x)) /\
     (nth i (cn_feats md) (MNum 0) = MNum (-1) -> F (set_nth i v x) <= F x)) /\
  (forall i x ps a b, (i < n)%nat -> length x = n ->
     nth i (cn_feats md) (MNum 0) = MPairs ps -> In (a, b) ps ->
     cs_default (nth i (cn_cals md) dcs) <> Some (Z.of_nat a) -> cs_default (nth i (cn_cals md) dcs) <> Some (Z.of_nat b) ->
     F (set_nth i (qn a) x) <= F (set_nth i (qn b) x)) /\
  (* bounds.  Under an output calibrator: unconditionally.  Without one (weighted average of the calibrators):
     outside known findings D2 (calibrator bounds) and D32 (the combiner weights all clipped to zero and the
     normalization skipped: lin_collapsed), for every input of the features' domains *)
  (forall lo hi x, cn_min md = Some lo -> cn_max md = Some hi -> length x = n ->
     (cn_outc md = None ->
        (forall i, (i < n)%nat -> cal_d2_free (nth i (cn_cals md) dcs)) /\ ~ lin_collapsed (cn_kernel md st) /\
        (lo <= 0 <= hi \/ forall i, (i < n)%nat -> cs_domain (nth i (cn_cals md) dcs) (nth i x 0))) ->
     lo <= F x <= hi).
Proof. intros md ops st Hok Hops Hs F n.
  destruct (cn_state_facts md st Hok (cn_reachable md ops st Hok Hops Hs)) as (Hcal & Hbnd).
  destruct (features_monotone F (cn_feats md) (cn_cals md) _ Hcal) as [Hnum Hcat].
  split. exact Hnum. split. exact Hcat. exact Hbnd. Qed.

(* ---- the hypotheses are satisfiable; the D32 guard is necessary ----
   feature 0: numeric, increasing, keypoints 0, 1, 3; feature 1: categorical, 2 buckets, pair (0, 1);
   output_min 1, output_max 2, output_initialization [1, 2], no output calibration: a weighted average *)
Definition ex_cn_pwl : pwl_spec := mkPwlS [0; 1; 3] 1 0 false false 8 (ModelOutput (Some 1) (Some 2)) [1; 2] PKUniform.
Definition ex_cn_cat : cat_spec := mkCatS [(0, 1)]%nat (ModelOutput (Some 1) (Some 2)) 2 [2; 1].
Definition ex_cn : cn_model :=
  mkCN [MNum 1; MPairs [(0, 1)]%nat] [false; false] [CSPwl ex_cn_pwl None; CSCat ex_cn_cat None]
       (mkLinS (fun q => q) d32_cfg 2) true None (Some 1) (Some 2) [1; 2].

Example ex_cn_ok : cn_ok ex_cn.
Proof. unfold cn_ok, ex_cn; cbn [cn_feats cn_always cn_cals cn_lin cn_use_bias cn_outc cn_min cn_max cn_oi length ns_n ns_cfg].
  split. lia. split. reflexivity. split. reflexivity. split. reflexivity. split.
  { intros i Hi. destruct i as [|[|i]]; [| |lia]; cbn [nth].
    - apply ex_wired_pwl. lia. intros a b Ha Hb; inversion Ha; inversion Hb; subst. lra.
      split. discriminate. intros x H. split; intros b Hb; inversion Hb; subst; cbn in H; in_cases H.
    - apply ex_wired_cat. lia. reflexivity. }
  split. reflexivity. split. reflexivity. split. exact d32_cfg_valid.
  split. intros a b Ha Hb. inversion Ha; inversion Hb; subst. lra. exact I. Qed.

(* a gentle step, then the hostile step of known finding D32 (every combiner weight driven negative) *)
Definition ex_cn_raw1 (i : nat) : lval :=
  match i with
  | 0%nat => VPwl [1#2; 1; -(1)] None
  | 1%nat => VCat [3; 0]
  | _ => VLin [3; 1] 5
  end.
Definition ex_cn_raw2 (i : nat) : lval :=
  match i with
  | 0%nat => VPwl [1; 1#2; 1#2] None
  | 1%nat => VCat [1; 2]
  | _ => VLin [-(5); -(7)] 0
  end.
Example ex_cn_ops_shaped : ops_shaped lval ldesc lshape (cn_descs ex_cn) [Update ex_cn_raw1; Update ex_cn_raw2].
Proof. intros delta H i d Hd. cbn in H.
  destruct H as [H|[H|[]]]; injection H as <-;
    (destruct i as [|[|[|i]]]; cbn in Hd; [| | |destruct i; discriminate]; injection Hd as <-; cbn [lshape];
     [split; [eexists _, _; split; reflexivity|split; reflexivity]|reflexivity|reflexivity]). Qed.

Example ex_cn_values :
  let s1 := final (cn_vars ex_cn) [Update ex_cn_raw1] in
  let s2 := final (cn_vars ex_cn) [Update ex_cn_raw1; Update ex_cn_raw2] in
  (* after the first step: a weighted average (3/4, 1/4), not collapsed, inside [1, 2], increasing *)
  (cn_kernel ex_cn s1 = [3#4; 1#4] /\ ~ lin_collapsed (cn_kernel ex_cn s1) /\
   Qle_bool 1 (cn_eval ex_cn s1 [0; 0]) && Qle_bool (cn_eval ex_cn s1 [0; 0]) (cn_eval ex_cn s1 [2; 0]) &&
   Qle_bool (cn_eval ex_cn s1 [2; 0]) (cn_eval ex_cn s1 [2; 1]) && Qle_bool (cn_eval ex_cn s1 [2; 1]) 2 = true) /\
  (* after the second: collapsed, and the model outputs 0 < output_min although every calibrator is inside [1, 2] *)
  (cn_kernel ex_cn s2 = [0; 0] /\ lin_collapsed (cn_kernel ex_cn s2) /\ cn_eval ex_cn s2 [2; 1] < 1).
Proof. cbv zeta. split; split; [vm_compute; reflexivity| |vm_compute; reflexivity|].
  - split. intros H. vm_compute in H. discriminate. vm_compute. reflexivity.
  - split; vm_compute; reflexivity. Qed.

(* tfl.premade.CalibratedLattice, parameterization = 'kronecker_factored'.
   ck_kfl: the KroneckerFactoredLattice layer as build_lattice_layer creates it (section G's kfl_spec):
   lattice_sizes = the common lattice size, one unit, num_terms terms, monotonicities =
   _monotonicities_from_feature_configs, clip_inputs=False, bounds = _output_range, the constraint
   applications of one optimizer update (ks_steps), the tf.random.uniform oracle (ks_samples).
   kfl_spec_ok contains the guard of known finding D57: every update applies BOTH constraints
   (tf_keras Optimizer.apply_gradients; legacy optimizers given the variables in layer order:
   C03_kfl_legacy_layer_order_is_update). *)
Record ck_model := mkCK {
  ck_feats : list fmono; ck_always : list bool; ck_cals : list cal_spec;
  ck_kfl : kfl_spec;
  ck_outc : option pwl_spec;
  ck_min : option Q; ck_max : option Q; ck_oi : list Q }.
Definition kfl_monos_of (feats : list fmono) : list bool := map (fun f => negb (lattice_dim_mono f =? 0)%Z) feats.

Definition ck_ok (md : ck_model) : Prop :=
  let s := ck_kfl md in let c := ks_cfg s in let n := length (ck_feats md) in
  length (ck_cals md) = n /\ length (ck_always md) = n /\ ks_dims s = n /\ ks_units s = 1%nat /\
  (forall i, (i < n)%nat ->
     cal_wired (nth i (ck_feats md) (MNum 0)) (nth i (ck_always md) false)
               (InputToLattice (MK.c_size c)) (ck_oi md) (nth i (ck_cals md) dcs) /\
     cal_d2_free (nth i (ck_cals md) dcs)) /\
  MK.c_monos c = Some (kfl_monos_of (ck_feats md)) /\ MK.c_clip c = false /\
  ks_range s = (match ck_outc md with Some _ => InputToFinalCalibration
                                    | None => ModelOutput (ck_min md) (ck_max md) end) /\
  kfl_spec_ok s /\
  match ck_outc md with Some o => outc_wired (ck_min md) (ck_max md) (ck_oi md) o | None => True end.

Definition ck_descs (md : ck_model) : list ldesc :=
  map cal_ldesc (ck_cals md) ++ LDKfl (kfl_spec_desc (ck_kfl md)) 1 :: outc_descs (ck_outc md).
Definition ck_vars (md : ck_model) : list (var lval) := map lvar (ck_descs md).
Definition kfl_p (v : lval) : MK.params := match v with VKfl p => p | _ => MK.mkPar [] [] [] end.
Definition ck_eval (md : ck_model) (st : list lval) (x : list Q) : Q :=
  let n := length (ck_cals md) in
  cal_kfl_eval (ks_cfg (ck_kfl md)) (kfl_p (nth n st dval)) (map2 cal_of (ck_cals md) st)
               (outc_of (ck_outc md) (nth (S n) st dval)) x.

Lemma ck_reachable md ops st : ck_ok md -> ops_shaped lval ldesc lshape (ck_descs md) ops ->
  In st (run (ck_vars md) ops) -> Forall2 linv (ck_descs md) st.
Proof. intros (Hc & _ & _ & Eu & Hw & _ & _ & _ & Hk & Ho).
  apply (stack_reachable (ck_cals md) [LDKfl (kfl_spec_desc (ck_kfl md)) 1] (ck_min md) (ck_max md) (ck_oi md) (ck_outc md)).
  - intros u Hu. destruct (Hw u ltac:(lia)) as [W _]. eauto.
  - intros d [<-|[]]. split. apply kfl_spec_desc_ok. exact Hk.
    cbn [kfl_spec_desc kd_init]. unfold kfl_units, kfl_spec_init, premade_kfl_init; cbn [MK.p_scale MK.p_bias].
    unfold MK.scale_init, MK.bias_init. rewrite !repeat_length. auto.
  - exact Ho. Qed.

Lemma nth_kfl_monos feats i : (i < length feats)%nat -> lattice_dim_mono (nth i feats (MNum 0)) = 1%Z ->
  nth i (kfl_monos_of feats) false = true.
Proof. intros Hi E. unfold kfl_monos_of.
  rewrite (nth_map_lt _ _ i _ (MNum 0)) by exact Hi. rewrite E. reflexivity. Qed.

Lemma ck_state_facts md st : ck_ok md -> Forall2 linv (ck_descs md) st ->
  let F := ck_eval md st in let n := length (ck_feats md) in
  reads_each F (ck_feats md) (ck_cals md) (map2 cal_of (ck_cals md) st) /\
  (forall lo hi x, ck_min md = Some lo -> ck_max md = Some hi -> length x = n -> lo <= F x <= hi).
Proof. intros (Hc & Ha & Ed & Eu & Hw & Em & Ecl & Er & Hk & Ho) H.
  destruct (stack1_facts (ck_cals md) (ck_feats md) (ck_always md) (fun _ => InputToLattice (MK.c_size (ks_cfg (ck_kfl md))))
              (ck_oi md) _ _ (ck_outc md) _ st H (fun i Hi => proj1 (Hw i ltac:(lia))) Ho)
    as (Hmid & Lc & Hcal & Hom & Hnone & Hor).
  cbv zeta. unfold ck_eval.
  destruct (nth (length (ck_cals md)) st dval) as [w o|w|g|k b|p]; cbn [linv] in Hmid; try contradiction.
  destruct Hmid as (Hinv & Hsc & Hbi).
  cbn [kfl_p]. unfold kfl_inv in Hinv. cbn [kfl_spec_desc kd_cfg kd_dims] in Hinv. rewrite Ed in Hinv.
  pose proof Hk as (_ & Hcfg & _ & _ & _ & Emin & Emax & _). rewrite Ed in Hcfg.
  set (c := ks_cfg (ck_kfl md)) in *. pose proof Hcfg as (HL & Hd1 & _).
  assert (Ecan : MK.canon_monos (MK.c_monos c) = Some (kfl_monos_of (ck_feats md))).
  { rewrite Em. unfold kfl_monos_of. destruct (ck_feats md) as [|f fs]; [cbn in Hd1; lia|reflexivity]. }
  assert (Hrange : cals_in_range (repeat (MK.c_size c) (length (ck_feats md))) (map2 cal_of (ck_cals md) st)).
  { intros j Hj. rewrite repeat_length in Hj. rewrite nth_repeat_lt by exact Hj.
    apply (proj2 (Hcal j ltac:(lia)) (proj2 (Hw j Hj)) _ _ eq_refl).
    pose proof (qn_size_ge [MK.c_size c] 0 ltac:(repeat constructor; exact HL) ltac:(cbn; lia)) as G0. cbn [nth] in G0. lra. }
  split; [split|].
  - intros i Hi Ei. apply (cal_kfl_core c (length (ck_feats md)) p (kfl_monos_of (ck_feats md))); try assumption; try lia.
    apply nth_kfl_monos; assumption.
  - intros i Hi. apply Hcal. lia.
  - intros lo hi x Elo Ehi Hx. apply (bounded_kfl c (length (ck_feats md))); try assumption; try lia.
    + intros Eoc. rewrite Emin, Emax, Er, (Hnone Eoc). cbn [output_range fst snd]. auto.
    + exact (ends_both _ _ _ Hor lo hi Elo Ehi). Qed.

Theorem calibrated_kfl_end_to_end : forall md ops st,
  ck_ok md -> ops_shaped lval ldesc lshape (ck_descs md) ops -> In st (run (ck_vars md) ops) ->
  let F := ck_eval md st in let n := length (ck_feats md) in
  (forall i x v, (i < n)%nat -> length x = n ->
     cs_regular (nth i (ck_cals md) dcs) (nth i x 0) -> cs_regular (nth i (ck_cals md) dcs) v -> nth i x 0 <= v ->
     (nth i (ck_feats md) (MNum 0) = MNum 1 -> F x <= F (set_nth i v x)) /\
     (nth i (ck_feats md) (MNum 0) = MNum (-1) -> F (set_nth i v x) <= F x)) /\
  (forall i x ps a b, (i < n)%nat -> length x = n ->
     nth i (ck_feats md) (MNum 0) = MPairs ps -> In (a, b) ps ->
     cs_default (nth i (ck_cals md) dcs) <> Some (Z.of_nat a) -> cs_default (nth i (ck_cals md) dcs) <> Some (Z.of_nat b) ->
     F (set_nth i (qn a) x) <= F (set_nth i (qn b) x)) /\
  (forall lo hi x, ck_min md = Some lo -> ck_max md = Some hi -> length x = n -> lo <= F x <= hi).
Proof. intros md ops st Hok Hops Hs F n.
  destruct (ck_state_facts md st Hok (ck_reachable md ops st Hok Hops Hs)) as (Hcal & Hbnd).
  destruct (features_monotone F (ck_feats md) (ck_cals md) _ Hcal) as [Hnum Hcat].
  split. exact Hnum. split. exact Hcat. exact Hbnd. Qed.

(* the hypotheses are satisfiable: one increasing feature into a two-term KFL layer bounded by [-1, 1],
   both constraint orders of an update; a hostile history (scale sign flipped, kernel reversed) *)
Definition ex_ck (steps : list MK.step) : ck_model :=
  mkCK [MNum 1] [false] [CSPwl (mkPwlS [0; 1; 3] 1 0 false false 8 (InputToLattice 2) [-(1); 1] PKUniform) None]
       (ex_kfl steps) None (Some (-(1))) (Some 1) [-(1); 1].
Lemma ex_ck_steps_ok steps : kfl_spec_ok (ex_kfl steps) -> ck_ok (ex_ck steps).
Proof. intros Hk. unfold ck_ok, ex_ck; cbn [ck_feats ck_always ck_cals ck_kfl ck_outc ck_min ck_max ck_oi length].
  split. reflexivity. split. reflexivity. split. reflexivity. split. reflexivity. split.
  { intros i Hi. destruct i as [|i]; [|lia]. cbn [nth]. split; [|intros [_ E]; apply E; reflexivity].
    apply ex_wired_pwl. lia. intros a b Ha Hb; inversion Ha; inversion Hb; subst. vm_compute; discriminate. exact I. }
  split. reflexivity. split. reflexivity. split. reflexivity. split. exact Hk. exact I. Qed.
Example ex_ck_ok : ck_ok (ex_ck [MK.StepS; MK.StepK]) /\ ck_ok (ex_ck [MK.StepK; MK.StepS]).
Proof. split; apply ex_ck_steps_ok; apply ex_kfl_ok. Qed.
Definition ex_ck_raw (i : nat) : lval :=
  match i with
  | 0%nat => VPwl [5; -(1); -(2)] None
  | _ => VKfl (MK.mkPar [[ [[100; -(7)]]; [[-(3); 2]] ]] [[ -(50); 1#3 ]] [33])
  end.
Example ex_ck_history : forall steps,
  ops_shaped lval ldesc lshape (ck_descs (ex_ck steps)) [Update ex_ck_raw; Restore 0; Update ex_ck_raw].
Proof. intros steps delta H i d Hd. cbn in H.
  destruct H as [H|[H|[H|[]]]]; try discriminate; injection H as <-;
    (destruct i as [|[|i]]; cbn in Hd; [| |destruct i; discriminate]; injection Hd as <-; cbn [lshape];
     [split; [eexists _, _; split; reflexivity|split; reflexivity]|]);
    (split; [|split; reflexivity]); unfold kfl_shape, PK.shaped; cbn;
    repeat constructor. Qed.
Example ex_ck_values : forall steps, steps = [MK.StepS; MK.StepK] \/ steps = [MK.StepK; MK.StepS] ->
  let F := ck_eval (ex_ck steps) (final (ck_vars (ex_ck steps)) [Update ex_ck_raw; Restore 0; Update ex_ck_raw]) in
  Qle_bool (F [0]) (F [1#2]) && Qle_bool (F [1#2]) (F [2]) && Qle_bool (F [2]) (F [50]) &&
  Qle_bool (-(1)) (F [-(9)]) && Qle_bool (F [50]) 1 = true.
Proof. intros steps [->| ->]; vm_compute; reflexivity. Qed.

(* tfl.premade.CalibratedLatticeEnsemble: explicit lattices (all_vertices), averaged outputs.
   Model description (lattices = a list of feature lists; also what set_random_lattice_ensemble and
   set_crystals_lattice_ensemble leave in the config; use_linear_combination = False):
     en_cals     every calibrator UNIT (build_calibration_layers: one unit per feature with shared calibration,
                 one per (lattice, position) with separate_calibrators), each projected independently (C04_per_unit)
     en_members  per lattice: the features it reads (indices into en_feats, in dimension order), the calibrator
                 unit in front of every dimension, its Lattice layer (build_lattice_layer inside an ensemble)
   A lattice may read a feature at several positions. *)
Record en_member := mkEM { em_idx : list nat; em_cal : list nat; em_lat : lat_spec; em_unis : list Z }.
Record en_model := mkEN {
  en_feats : list fmono; en_always : list bool; en_cals : list cal_spec; en_members : list en_member;
  en_scheme : scheme; en_outc : option pwl_spec;
  en_min : option Q; en_max : option Q; en_oi : list Q }.

Definition em_ok (md : en_model) (m : en_member) : Prop :=
  let c := ls_cfg (em_lat m) in let k := length (l_sizes c) in
  length (em_idx m) = k /\ length (em_cal m) = k /\
  (* every dimension p: feature, calibrator unit with range [0, lattice_size - 1] (D2 guard) *)
  (forall p, (p < k)%nat ->
     let f := nth p (em_idx m) 0%nat in let u := nth p (em_cal m) 0%nat in
     (f < length (en_feats md))%nat /\ (u < length (en_cals md))%nat /\
     cal_wired (nth f (en_feats md) (MNum 0)) (nth f (en_always md) false)
               (InputToLattice (nth p (l_sizes c) 0%nat)) (en_oi md) (nth u (en_cals md) dcs) /\
     cal_d2_free (nth u (en_cals md) dcs)) /\
  (* build_lattice_layer *)
  l_units c = 1%nat /\ l_monos c = map (fun f => lattice_dim_mono (nth f (en_feats md) (MNum 0))) (em_idx m) /\
  ls_kind (em_lat m) = LKLinear (em_unis m) /\ ls_oi (em_lat m) = en_oi md /\
  ls_range (em_lat m) = (match en_outc md with Some _ => InputToFinalCalibration
                                              | None => ModelOutput (en_min md) (en_max md) end) /\
  lat_spec_ok (em_lat m).

Definition en_ok (md : en_model) : Prop :=
  length (en_always md) = length (en_feats md) /\ (1 <= length (en_members md))%nat /\
  (forall m, In m (en_members md) -> em_ok md m) /\
  (* every calibrator unit calibrates some feature for some lattice size *)
  (forall u, (u < length (en_cals md))%nat -> exists f always size,
     cal_wired f always (InputToLattice size) (en_oi md) (nth u (en_cals md) dcs)) /\
  match en_outc md with Some s => outc_wired (en_min md) (en_max md) (en_oi md) s | None => True end.

Definition en_lat_descs (md : en_model) : list ldesc := map (fun m => LDLat (lat_spec_desc (em_lat m))) (en_members md).
Definition en_descs (md : en_model) : list ldesc :=
  map cal_ldesc (en_cals md) ++ en_lat_descs md ++ outc_descs (en_outc md).
Definition en_vars (md : en_model) : list (var lval) := map lvar (en_descs md).

Definition en_member_of (md : en_model) (st : list lval) (j : nat) (m : en_member) : member :=
  let sizes := l_sizes (ls_cfg (em_lat m)) in
  mkMember (em_idx m) (map (fun u => cal_of (nth u (en_cals md) dcs) (nth u st dval)) (em_cal m)) (en_scheme md) sizes
           (lat_K sizes (nth (length (en_cals md) + j) st dval)).
Definition en_members_of (md : en_model) (st : list lval) : list member :=
  map2 (en_member_of md st) (seq 0 (length (en_members md))) (en_members md).
Definition en_eval (md : en_model) (st : list lval) (x : list Q) : Q :=
  ensemble_eval (en_members_of md st) Average
                (outc_of (en_outc md) (nth (length (en_cals md) + length (en_members md)) st dval)) x.
(* calibrator unit u stands in front of a dimension that reads feature i *)
Definition en_reader (md : en_model) (i u : nat) : Prop :=
  exists m p, In m (en_members md) /\ (p < length (em_idx m))%nat /\ nth p (em_idx m) 0%nat = i /\ nth p (em_cal m) 0%nat = u.

Lemma en_reachable md ops st : en_ok md -> ops_shaped lval ldesc lshape (en_descs md) ops ->
  In st (run (en_vars md) ops) -> Forall2 linv (en_descs md) st.
Proof. intros (_ & _ & Hm & Hu & Ho).
  apply (stack_reachable (en_cals md) (en_lat_descs md) (en_min md) (en_max md) (en_oi md) (en_outc md)).
  - intros u Hlt. destruct (Hu u Hlt) as (f & al & size & W). eauto.
  - intros d Hd. apply in_map_iff in Hd. destruct Hd as [m [<- Hin]]. apply lat_spec_desc_ok. apply (Hm m Hin).
  - exact Ho. Qed.

Lemma ensemble_average_monotone ms oc x i v : out_monotone oc -> (i < length x)%nat ->
  (forall m, In m ms -> member_ok m /\
     reads_monotone (m_idx m) (m_cals m) (fun q => knondecr (m_sizes m) (kern (m_sizes m) (m_K m) 0) q) i (nth i x 0) v) ->
  ensemble_eval ms Average oc x <= ensemble_eval ms Average oc (set_nth i v x).
Proof. intros Ho Hi H. rewrite !ensemble2_of_ensemble. apply ensemble2_compose_monotone. exact I. exact Ho. exact Hi.
  intros m2 Hin. apply in_map_iff in Hin. destruct Hin as [m [<- Hm]]. destruct (H m Hm) as [A B]. split. exact A. exact B. Qed.

(* member j, realised by the calibrator units and the kernel of its lattice layer in a state satisfying their invariants *)
Lemma en_member_facts md st j m : em_ok md m ->
  (forall u, (u < length (en_cals md))%nat -> linv (cal_ldesc (nth u (en_cals md) dcs)) (nth u st dval)) ->
  linv (LDLat (lat_spec_desc (em_lat m))) (nth (length (en_cals md) + j) st dval) ->
  let M := en_member_of md st j m in
  member_ok M /\
  (forall q, (q < length (em_idx m))%nat ->
     lattice_dim_mono (nth (nth q (em_idx m) 0%nat) (en_feats md) (MNum 0)) = 1%Z ->
     knondecr (m_sizes M) (kern (m_sizes M) (m_K M) 0) q) /\
  (forall lo hi, en_min md = Some lo -> en_max md = Some hi -> en_outc md = None ->
     forall i, valid (m_sizes M) i -> lo <= kern (m_sizes M) (m_K M) 0 i <= hi).
Proof. intros (Li & Lcal & Hdim & Eu & Emon & _ & _ & Er & Hl) Hunit Hmid. cbv zeta. unfold en_member_of.
  destruct (nth (length (en_cals md) + j) st dval) as [w o|w|f|k b|kp]; cbn [linv] in Hmid; try contradiction.
  cbn [lat_K m_sizes m_K m_cals m_idx].
  pose proof Hl as (Hcfg & _ & _ & Hne & Emin & Emax & _).
  destruct (lat_state_facts (lat_spec_desc (em_lat m)) (ls_cfg (em_lat m)) f eq_refl Hcfg Eu Hmid) as (Hso & Hwf & LK & Hmono & Hbnd).
  split; [|split].
  - split. exact Hne. split. exact Hso. split. exact Hwf. split. exact LK.
    split. cbn [m_cals]. rewrite map_length. exact Lcal. split. exact Li.
    intros q Hq. cbn [m_cals m_sizes] in *. rewrite (nth_map_lt _ _ q _ 0%nat) by lia. destruct (Hdim q Hq) as (_ & Hlt & Hw & Hg).
    apply (proj2 (cal_state_facts _ _ _ _ _ _ Hw (Hunit _ Hlt)) Hg _ _ eq_refl). pose proof (qn_size_ge _ q Hso Hq). lra.
  - intros q Hq Eq. apply Hmono. lia. rewrite Emon, (nth_map_lt _ _ q _ 0%nat) by lia. exact Eq.
  - intros lo hi Elo Ehi Enone i Hi. rewrite Emin, Emax, Er, Enone in Hbnd. cbn [output_range fst snd] in Hbnd.
    rewrite Elo, Ehi in Hbnd. exact (within_some _ _ _ (Hbnd i Hi)). Qed.

Definition dem : en_member := mkEM [] [] (mkLatS (mkLat [] 0 [] [] [] None None) false (fun K => K) InputToFinalCalibration [] (LKLinear [])) [].
Definition dmem : member := mkMember [] [] Hypercube [] [].

(* the ensemble function of a reached state follows the calibrator units reading a feature (all of them
   calibrators of that feature), and is the average of members inside the bounds *)
Lemma en_state_facts md st : en_ok md -> Forall2 linv (en_descs md) st ->
  let F := en_eval md st in let n := length (en_feats md) in
  let cal := fun u => cal_of (nth u (en_cals md) dcs) (nth u st dval) in
  (forall i, (i < n)%nat -> lattice_dim_mono (nth i (en_feats md) (MNum 0)) = 1%Z ->
     follows F n i (fun c => exists u, en_reader md i u /\ c = cal u)) /\
  (forall i u, (i < n)%nat -> en_reader md i u -> cal_form (nth i (en_feats md) (MNum 0)) (nth u (en_cals md) dcs) (cal u)) /\
  (forall lo hi x, en_min md = Some lo -> en_max md = Some hi -> lo <= F x <= hi).
Proof. intros (Hal & Hnm & Hm & Hu & Ho) H.
  destruct (stack_state (en_cals md) (en_lat_descs md) (en_outc md) st H) as (Lst & Hunit & Hmid & Hout).
  unfold en_lat_descs in Lst, Hmid, Hout. rewrite map_length in Lst, Hmid, Hout.
  destruct (outc_facts _ _ _ (en_outc md) _ Ho Hout) as (Hom & Hnone & Hor).
  assert (Hmem : forall M, In M (en_members_of md st) -> exists j m, In m (en_members md) /\ M = en_member_of md st j m /\
            linv (LDLat (lat_spec_desc (em_lat m))) (nth (length (en_cals md) + j) st dval)).
  { intros M HM. unfold en_members_of in HM. destruct (In_nth _ _ dmem HM) as [j [Hj Ej]].
    rewrite map2_length, seq_length, Nat.min_id in Hj.
    rewrite (nth_map2 (en_member_of md st) _ _ j 0%nat dem dmem) in Ej by (rewrite ?seq_length; lia).
    rewrite seq_nth in Ej by lia. cbn [Nat.add] in Ej.
    exists j, (nth j (en_members md) dem). split. apply nth_In; lia. split. symmetry; exact Ej.
    specialize (Hmid j Hj). rewrite (nth_map_lt _ _ j _ dem) in Hmid by exact Hj. exact Hmid. }
  cbv zeta. split; [|split].
  - intros i Hi Emono x v Hx Hcal. unfold en_eval. apply ensemble_average_monotone. exact Hom. lia.
    intros M HM. destruct (Hmem M HM) as (j & m & Hin & -> & Hl).
    destruct (en_member_facts md st j m (Hm m Hin) Hunit Hl) as (Hmok & Hk & _). split. exact Hmok.
    intros q Hq Eq. cbn [en_member_of m_idx m_cals] in *. split.
    + apply Hk. exact Hq. rewrite Eq. exact Emono.
    + destruct (Hm m Hin) as (Li & Lcal & _). rewrite (nth_map_lt _ _ q _ 0%nat) by lia.
      apply Hcal. exists (nth q (em_cal m) 0%nat). split; [|reflexivity]. exists m, q. auto.
  - intros i u Hi (m & p & Hin & Hp & Ei & Eu). destruct (Hm m Hin) as (Li & _ & Hdim & _).
    destruct (Hdim p ltac:(lia)) as (_ & Hlt & Hw & _). cbv zeta in Hw. rewrite Ei, Eu in *.
    apply (cal_state_facts _ _ _ _ _ _ Hw (Hunit u Hlt)).
  - intros lo hi x Elo Ehi. unfold en_eval. apply ensemble_bounded; [|exact (ends_both _ _ _ Hor lo hi Elo Ehi)].
    intros Eoc. apply Hnone in Eoc. split.
    + cbn [comb_average_like]. unfold en_members_of. rewrite map2_length, seq_length, Nat.min_id. lia.
    + intros M HM. destruct (Hmem M HM) as (j & m & Hin & -> & Hl).
      destruct (en_member_facts md st j m (Hm m Hin) Hunit Hl) as (Hmok & _ & Hb). split. exact Hmok.
      apply Hb; assumption. Qed.

Theorem ensemble_end_to_end : forall md ops st,
  en_ok md -> ops_shaped lval ldesc lshape (en_descs md) ops -> In st (run (en_vars md) ops) ->
  let F := en_eval md st in let n := length (en_feats md) in
  (forall i x v, (i < n)%nat -> length x = n ->
     (forall u, en_reader md i u -> cs_regular (nth u (en_cals md) dcs) (nth i x 0) /\ cs_regular (nth u (en_cals md) dcs) v) ->
     nth i x 0 <= v ->
     (nth i (en_feats md) (MNum 0) = MNum 1 -> F x <= F (set_nth i v x)) /\
     (nth i (en_feats md) (MNum 0) = MNum (-1) -> F (set_nth i v x) <= F x)) /\
  (forall i x ps a b, (i < n)%nat -> length x = n ->
     nth i (en_feats md) (MNum 0) = MPairs ps -> In (a, b) ps ->
     (forall u, en_reader md i u -> cs_default (nth u (en_cals md) dcs) <> Some (Z.of_nat a) /\
                                    cs_default (nth u (en_cals md) dcs) <> Some (Z.of_nat b)) ->
     F (set_nth i (qn a) x) <= F (set_nth i (qn b) x)) /\
  (forall lo hi x, en_min md = Some lo -> en_max md = Some hi -> lo <= F x <= hi).
Proof. intros md ops st Hok Hops Hs F n.
  destruct (en_state_facts md st Hok (en_reachable md ops st Hok Hops Hs)) as (Hfol & Hw & Hbnd).
  destruct (readers_monotone F n (en_feats md) (en_cals md) _ (en_reader md) Hfol Hw) as [Hnum Hcat].
  split. exact Hnum. split. exact Hcat. exact Hbnd. Qed.

(* the hypotheses are satisfiable: three features (increasing, decreasing with a default value, categorical with a
   pair), shared calibrators, two 2x2 lattices reading features (0, 1) and (0, 2), outputs averaged, bounds [0, 1] *)
Definition ex_en_pwl (mono : Z) : pwl_spec := mkPwlS [0; 1; 3] mono 0 false false 8 (InputToLattice 2) [0; 1] PKUniform.
Definition ex_en_cat : cat_spec := mkCatS [(0, 1)]%nat (InputToLattice 2) 2 [3; -(1)].
Definition ex_en_lat : lat_spec :=
  mkLatS (mkLat [2; 2]%nat 1 [1; 1]%Z [] [] (Some 0) (Some 1)) true (fun K => K)
         (ModelOutput (Some 0) (Some 1)) [0; 1] (LKLinear [0; 0]%Z).
Definition ex_en : en_model :=
  mkEN [MNum 1; MNum (-1); MPairs [(0, 1)]%nat] [false; false; false]
       [CSPwl (ex_en_pwl 1) None; CSPwl (ex_en_pwl (-1)) (Some (-(1))); CSCat ex_en_cat None]
       [mkEM [0; 1]%nat [0; 1]%nat ex_en_lat [0; 0]%Z; mkEM [0; 2]%nat [0; 2]%nat ex_en_lat [0; 0]%Z]
       Hypercube None (Some 0) (Some 1) [0; 1].

Lemma ex_en_lat_ok : lat_spec_ok ex_en_lat.
Proof. apply ex_lat_output_ok.
  - intros s H; in_cases H.
  - reflexivity.
  - lra.
  - discriminate.
  - intros x H; in_cases H. Qed.

Example ex_en_ok : en_ok ex_en.
Proof. assert (W : forall m dv, (m = 1 \/ m = -1)%Z -> cal_wired (MNum m) false (InputToLattice 2) [0; 1] (CSPwl (ex_en_pwl m) dv)).
  { intros m dv Hm. apply ex_wired_pwl. exact Hm.
    intros a b Ha Hb; inversion Ha; inversion Hb; subst. vm_compute; discriminate. exact I. }
  pose proof (W 1%Z None ltac:(lia)) as W0. pose proof (W (-1)%Z (Some (-(1))) ltac:(lia)) as W1.
  assert (W2 : cal_wired (MPairs [(0, 1)]%nat) false (InputToLattice 2) [0; 1] (CSCat ex_en_cat None)).
  { apply ex_wired_cat. lia. reflexivity. }
  assert (G : forall mono dv, cal_d2_free (CSPwl (ex_en_pwl mono) dv)) by (intros mono dv [_ E]; apply E; reflexivity).
  unfold en_ok, ex_en; cbn [en_feats en_always en_cals en_members en_outc en_min en_max en_oi length].
  split. reflexivity. split. lia. split; [|split; [|exact I]].
  - intros m [<-|[<-|[]]]; unfold em_ok; cbn [em_idx em_cal em_lat em_unis ex_en_lat ls_cfg l_sizes length en_feats en_always en_cals en_outc en_min en_max en_oi];
      (split; [reflexivity|split; [reflexivity|split]]).
    1, 3: intros p Hp; destruct p as [|[|p]]; [| |lia]; cbn [nth]; (split; [lia|split; [lia|split; [assumption|auto]]]); exact I.
    all: split; [reflexivity|split; [reflexivity|split; [reflexivity|split; [reflexivity|split; [reflexivity|exact ex_en_lat_ok]]]]].
  - intros u Hu. destruct u as [|[|[|u]]]; [| | |lia]; cbn [nth]; eauto. Qed.

Definition ex_en_raw (i : nat) : lval :=
  match i with
  | 0%nat => VPwl [9; -(4); 2] None
  | 1%nat => VPwl [-(3); 5; 5] (Some 40)
  | 2%nat => VCat [1; 0]
  | 3%nat => VLat (fun i => 3 - 2 * qn (nth 0 i 0%nat) + qn (nth 1 i 0%nat))
  | _ => VLat (fun i => qn (nth 0 i 0%nat) * (1#2) - qn (nth 1 i 0%nat) * (1#4))
  end.
Example ex_en_history : ops_shaped lval ldesc lshape (en_descs ex_en) [Update ex_en_raw; Init; Restore 1].
Proof. intros delta H i d Hd. cbn in H. destruct H as [H|[H|[H|[]]]]; try discriminate. injection H as <-.
  destruct i as [|[|[|[|[|i]]]]]; cbn in Hd; try (destruct i; discriminate); injection Hd as <-; cbn [lshape];
    try exact I; try reflexivity; (split; [eexists _, _; split; reflexivity|split; try reflexivity; discriminate]). Qed.
Example ex_en_values :
  let F := en_eval ex_en (final (en_vars ex_en) [Update ex_en_raw; Init; Restore 1]) in
  Qle_bool (F [0; 0; 0]) (F [2; 0; 0]) && Qle_bool (F [2; 0; 0]) (F [9; 0; 0]) &&
  Qle_bool (F [1; 5; 0]) (F [1; 1#2; 0]) && Qle_bool (F [1; 1; 0]) (F [1; 1; 1]) &&
  Qle_bool 0 (F [1; -(1); 7]) && Qle_bool (F [1; -(1); 7]) 1 = true.
Proof. vm_compute. reflexivity. Qed.
