(* Link between the two halves of property C16: the canonical-range hypotheses
   of the acceptance bridges of Proofs/VerifyFacts.v hold for every typed
   configuration that the correspondence glue of Harness/H_C16.v (num_z / to_zs /
   conv_zs / conv_trusts / conv_scalar) builds from an output of the GENERATED
   canonicalisers.  Separate from VerifyFacts.v, which does not depend on the
   regenerated Gen/GenCanon.v. *)
From Coq Require Import ZArith QArith List Bool Lia.
From TFL Require Proofs.LatticeSpec.
From TFL Require Import Harness.H_C16 Proofs.Canon Proofs.VerifyFacts.
Import ListNotations.
Open Scope Z_scope.

Lemma qeq_inject z k : Qeq_bool (inject_Z z) (inject_Z k) = true -> z = k.
Proof. intros H. apply Qeq_bool_iff in H. unfold Qeq in H. cbn in H. lia. Qed.

Lemma num_z_eq y z k : num_z y = Some z -> py_eq y (VInt k) = true -> z = k.
Proof.
  destruct y; cbn; try discriminate.
  - intros E H. injection E as <-. destruct b; apply (qeq_inject _ k) in H; exact H.
  - intros E H. injection E as <-. apply qeq_inject, H.
Qed.

Lemma num_z_in3 y z : num_z y = Some z -> in3 y = true -> z = -1 \/ z = 0 \/ z = 1.
Proof.
  intros E H. unfold in3, py_in in H. cbn [existsb] in H. rewrite !orb_true_iff in H.
  destruct H as [H|[H|[H|H]]]; [| | |discriminate]; apply (num_z_eq y z _ E) in H; auto.
Qed.
Lemma num_z_in2 y z : num_z y = Some z -> in2 y = true -> z = 1 \/ z = -1.
Proof.
  intros E H. unfold in2, py_in in H. cbn [existsb] in H. rewrite !orb_true_iff in H.
  destruct H as [H|[H|H]]; [| |discriminate]; apply (num_z_eq y z _ E) in H; auto.
Qed.
Lemma num_z_not_minus1 y z : num_z y = Some z -> py_eq y (VInt (-1)) = false -> z <> -1.
Proof.
  destruct y; cbn; try discriminate.
  - intros E _. injection E as <-. destruct b; lia.
  - intros E H. injection E as <-. intros ->. cbn in H. discriminate.
Qed.

Lemma to_zs_Forall (P : value -> Prop) (R : Z -> Prop) :
  (forall y z, P y -> num_z y = Some z -> R z) ->
  forall ys ms, to_zs ys = Some ms -> Forall P ys -> forall m, In m ms -> R m.
Proof.
  intros HPR. induction ys as [|y ys IH]; intros ms E HF m Hm.
  - injection E as <-. contradiction.
  - cbn in E. destruct (num_z y) as [z|] eqn:Ez; [|discriminate].
    destruct (to_zs ys) as [zs|] eqn:Ezs; [|discriminate]. injection E as <-.
    inversion HF as [|? ? Hy Hys]; subst. destruct Hm as [<-|Hm].
    + apply (HPR y z Hy Ez).
    + apply (IH zs eq_refl Hys m Hm).
Qed.

(* what gen_monotonicities_range says of one canonical entry *)
Definition mono_entry (ad y : value) : Prop :=
  (y = VNone \/ in3 y = true) /\ (py_truthy ad = false -> py_eq y (VInt (-1)) = false).

(* monotonicities, either value of allow_decreasing: entries in {-1,0,1};
   allow_decreasing = False (Lattice, KFL): entries in {0,1}.  Stated for ANY value in the
   canonical range, so that it serves every reading of the canonicaliser's output. *)
Lemma conv_zs_range ad ys ms : Forall (mono_entry ad) ys -> conv_zs (Ok (VList ys)) = CVal (Some ms) ->
  (forall m, In m ms -> m = 0 \/ m = 1 \/ m = -1) /\
  (py_truthy ad = false -> forall m, In m ms -> m = 0 \/ m = 1).
Proof.
  intros HF H. cbn in H. destruct (to_zs ys) as [zs|] eqn:Ez; [|discriminate]. injection H as <-. split.
  - refine (to_zs_Forall _ (fun m => m = 0 \/ m = 1 \/ m = -1) _ ys zs Ez HF).
    intros y z [[->|H3] _] E; [discriminate|].
    destruct (num_z_in3 y z E H3) as [?|[?|?]]; auto.
  - intros Had. refine (to_zs_Forall _ (fun m => m = 0 \/ m = 1) _ ys zs Ez HF).
    intros y z [[->|H3] Hn] E; [discriminate|].
    pose proof (num_z_not_minus1 y z E (Hn Had)). destruct (num_z_in3 y z E H3) as [?|[?|?]]; auto. contradiction.
Qed.

Lemma link_monotonicities v ad ms :
  conv_zs (canonicalize_monotonicities v ad) = CVal (Some ms) ->
  (forall m, In m ms -> m = 0 \/ m = 1 \/ m = -1) /\
  (py_truthy ad = false -> forall m, In m ms -> m = 0 \/ m = 1).
Proof.
  intros H. destruct (canonicalize_monotonicities v ad) as [w| |e] eqn:Ec; cbn in H; try discriminate.
  destruct (gen_monotonicities_range v ad w Ec) as [->|(ys & -> & _ & HF)]; [discriminate|].
  exact (conv_zs_range ad ys ms HF H).
Qed.

Lemma to_trusts_dirs : forall ys ts, to_trusts ys = Some ts -> Forall canonical_trust_entry ys ->
  forall a b d, In (a, b, d) ts -> d = 1 \/ d = -1.
Proof.
  induction ys as [|y ys IH]; intros ts E HF a b d Hin.
  - injection E as <-. contradiction.
  - cbn in E. destruct (to_trust y) as [t|] eqn:Et; [|discriminate].
    destruct (to_trusts ys) as [ts'|] eqn:Ets; [|discriminate]. injection E as <-.
    inversion HF as [|? ? Hy Hys]; subst. destruct Hin as [->|Hin].
    + destruct Hy as (va & vb & vd & -> & H2). cbn in Et.
      destruct (num_z va) as [x1|]; [|discriminate]. destruct (num_z vb) as [x2|]; [|discriminate].
      destruct (num_z vd) as [z|] eqn:Ed; [|discriminate].
      injection Et as _ _ <-. apply (num_z_in2 vd z Ed H2).
    + apply (IH ts' eq_refl Hys a b d Hin).
Qed.

Lemma conv_trusts_range ys ts : Forall canonical_trust_entry ys -> conv_trusts (Ok (VList ys)) = CVal ts ->
  forall a b d, In (a, b, d) ts -> d = 1 \/ d = -1.
Proof.
  intros HF H. cbn in H. destruct (to_trusts ys) as [ts'|] eqn:Et; [|discriminate]. injection H as <-.
  exact (to_trusts_dirs ys ts' Et HF).
Qed.

Lemma link_trusts v ts : conv_trusts (canonicalize_trust v) = CVal ts ->
  forall a b d, In (a, b, d) ts -> d = 1 \/ d = -1.
Proof.
  intros H. destruct (canonicalize_trust v) as [w| |e] eqn:Ec; cbn in H; try discriminate.
  destruct (gen_trust_range v w Ec) as [->|(ys & -> & _ & HF)]; [injection H as <-; intros a b d []|].
  exact (conv_trusts_range ys ts HF H).
Qed.

Lemma link_scalar_range w o : (w = VNone \/ in3 w = true) -> conv_scalar (Ok w) = CVal o ->
  oz o = -1 \/ oz o = 0 \/ oz o = 1.
Proof.
  intros Hr H. destruct Hr as [->|H3].
  - cbn in H. injection H as <-. cbn. auto.
  - assert (X : exists z, num_z w = Some z /\ o = Some z).
    { destruct w; cbn in H; try discriminate; injection H as <-; eexists; split; reflexivity. }
    destruct X as (z & Ez & ->). cbn. apply (num_z_in3 w z Ez H3).
Qed.
Lemma link_monotonicity v ad o : conv_scalar (canonicalize_monotonicity v ad) = CVal o ->
  oz o = -1 \/ oz o = 0 \/ oz o = 1.
Proof.
  intros H. destruct (canonicalize_monotonicity v ad) as [w| |e] eqn:Ec; cbn in H; try discriminate.
  apply (link_scalar_range w o); [apply (gen_monotonicity_range v ad w Ec)|exact H].
Qed.
Lemma link_convexity v o : conv_scalar (canonicalize_convexity v) = CVal o ->
  oz o = -1 \/ oz o = 0 \/ oz o = 1.
Proof.
  intros H. destruct (canonicalize_convexity v) as [w| |e] eqn:Ec; cbn in H; try discriminate.
  apply (link_scalar_range w o); [apply (gen_convexity_range v w Ec)|exact H].
Qed.

(* the Lattice bridge with its canonical-range hypotheses discharged *)
Lemma canonical_accepted_lattice_cfg_valid vm ve vt c units :
  conv_zs (canonicalize_monotonicities vm (VBool false)) = CVal (l_monos c) ->
  conv_trusts (canonicalize_trust ve) = CVal (l_edge c) ->
  conv_trusts (canonicalize_trust vt) = CVal (l_trap c) ->
  accepts_lattice c = true -> (1 <= units)%nat ->
  LatticeSpec.cfg_valid (conv_lattice c units).
Proof.
  intros Hm He Ht Hacc Hu. apply accepted_lattice_cfg_valid; try assumption.
  - intros ms m E Hin. rewrite E in Hm. destruct (link_monotonicities _ _ _ Hm) as [_ X].
    apply (X eq_refl m Hin).
  - intros a b d Hin. apply in_app_or in Hin. destruct Hin as [Hin|Hin].
    + apply (link_trusts ve _ He a b d Hin).
    + apply (link_trusts vt _ Ht a b d Hin).
Qed.
