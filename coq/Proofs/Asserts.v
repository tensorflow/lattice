(* The assert_constraints models of Model/Asserts.v (property C12) accept exactly
   the weights that meet the covered inequalities up to eps.

   For the lattice the covered inequalities are a type of instances [lat_ineq]
   with a membership predicate [covered], quantifying over ALL valid index
   vectors / units / pairs (independent of how the assert slices the kernel),
   and a [slack] (>= 0 means satisfied; the violation is  - slack):
     sound:     covered q -> slack q < - eps -> assert = false
     complete:  (forall q, covered q -> - eps <= slack q) -> assert = true.
   For the other layers they are a predicate [pwl_feasible], [lin_feasible],
   [cat_feasible], [kfl_feasible] over the weights and eps.

   Every checker is a conjunction ([&&], [forallb]) of reductions ([rmin_ge],
   [rmax_le]) over an enumerated index set; the lemmas before [pos_shape] turn
   each of these into the quantified statement once, and an exactness theorem is
   then proved conjunct by conjunct. *)
From TFL Require Export Model.Asserts Proofs.LatticeSpecFacts.
From TFL Require Import Proofs.LatticeMono.
Open Scope Q_scope.

Lemma and_iff {A A' B B' : Prop} : (A <-> A') -> (B <-> B') -> (A /\ B <-> A' /\ B').
Proof. tauto. Qed.

Lemma all_seq (P : nat -> Prop) n : (forall i, In i (seq 0 n) -> P i) <-> forall i, (i < n)%nat -> P i.
Proof. split; intros H i Hi; apply H; [apply in_seq; lia|apply in_seq in Hi; lia]. Qed.
(* the two-level index sets of the per-unit reductions *)
Lemma all_flat_seq {A B} (f : A -> nat -> B) l n (P : B -> Prop) :
  (forall x, In x (flat_map (fun i => map (f i) (seq 0 n)) l) -> P x) <->
  forall i u, In i l -> (u < n)%nat -> P (f i u).
Proof. split.
  - intros H i u Hi Hu. apply H, in_flat_map. exists i. split; [exact Hi|]. apply in_map, in_seq. lia.
  - intros H x Hx. apply in_flat_map in Hx. destruct Hx as [i [Hi Hx]]. revert x Hx. apply all_map, all_seq. intros u Hu. exact (H i u Hi Hu). Qed.

Lemma all_seq_seq {B} (f : nat -> nat -> B) m n (P : B -> Prop) :
  (forall x, In x (flat_map (fun i => map (f i) (seq 0 n)) (seq 0 m)) -> P x) <->
  forall i u, (i < m)%nat -> (u < n)%nat -> P (f i u).
Proof. rewrite all_flat_seq. split; intros H i u Hi; apply H; [apply in_seq; lia|apply in_seq in Hi; lia]. Qed.

Lemma forallb_seq_iff (f : nat -> bool) (P : nat -> Prop) n :
  (forall i, (i < n)%nat -> (f i = true <-> P i)) -> (forallb f (seq 0 n) = true <-> forall i, (i < n)%nat -> P i).
Proof. intros H. rewrite <- all_seq. apply forallb_iff. intros i Hi. apply H. apply in_seq in Hi. lia. Qed.

Lemma forallb_map_seq_iff {A} (f : A -> bool) (g : nat -> A) (P : nat -> Prop) n :
  (forall u, (u < n)%nat -> (f (g u) = true <-> P u)) ->
  (forallb f (map g (seq 0 n)) = true <-> forall u, (u < n)%nat -> P u).
Proof. intros H. rewrite forallb_forall, all_map, all_seq. split; intros G u Hu; apply (H u Hu), G, Hu. Qed.

(* an empty reduction is 0 *)
Lemma rmin_ge_iff l lo : (l = [] -> lo <= 0) -> (rmin_ge l lo = true <-> forall x, In x l -> lo <= x).
Proof. intros Hn. unfold rmin_ge. rewrite qle_true. split.
  - intros H x Hx. pose proof (qminl_le l x Hx). lra.
  - intros H. destruct l as [|y l]; [exact (Hn eq_refl)|]. apply qminl_glb; [discriminate|exact H]. Qed.
Lemma rmax_le_iff l hi : (l = [] -> 0 <= hi) -> (rmax_le l hi = true <-> forall x, In x l -> x <= hi).
Proof. intros Hn. unfold rmax_le. rewrite qle_true. split.
  - intros H x Hx. pose proof (qmaxl_ge l x Hx). lra.
  - intros H. destruct l as [|y l]; [exact (Hn eq_refl)|]. apply qmaxl_lub; [discriminate|exact H]. Qed.

Lemma rmin_ge_units (g : nat -> Q) n lo : lo <= 0 ->
  (rmin_ge (map g (seq 0 n)) lo = true <-> forall u, (u < n)%nat -> lo <= g u).
Proof. intros Hlo. rewrite rmin_ge_iff, all_map, all_seq by (intros _; exact Hlo). reflexivity. Qed.

Lemma pairs_all_iff a b f : pairs_all a b f = true <-> forall i j, (i < a)%nat -> (j < b)%nat -> f i j = true.
Proof. unfold pairs_all.
  rewrite (forallb_seq_iff _ (fun i => forall j, (j < b)%nat -> f i j = true)) by (intros i _; apply forallb_seq_iff; reflexivity).
  split; intros H i; [intros j Hi Hj|intros Hi j Hj]; apply H; assumption. Qed.

(* a check that is only made when an option of the configuration is set *)
Lemma match_some_units {A} (o : option A) (f : A -> bool) n (P : A -> nat -> Prop) :
  (forall v, f v = true <-> forall u, (u < n)%nat -> P v u) ->
  (match o with None => true | Some v => f v end = true <-> forall v u, o = Some v -> (u < n)%nat -> P v u).
Proof. intros H. destruct o as [v|].
  - rewrite H. split; [intros G v' u E; injection E as <-; apply G|intros G u; apply G; reflexivity].
  - split; [intros _ v u E; discriminate|reflexivity]. Qed.

(* a check made for every configured pair, each a reduction over the units *)
Lemma forallb_pairs_units {A B} (f : A * B -> bool) l n (P : A -> B -> nat -> Prop) :
  (forall a b, f (a, b) = true <-> forall u, (u < n)%nat -> P a b u) ->
  (forallb f l = true <-> forall a b u, In (a, b) l -> (u < n)%nat -> P a b u).
Proof. intros H. rewrite forallb_forall. split.
  - intros G a b u Hin. apply H, G, Hin.
  - intros G [a b] Hin. apply H. intros u. apply G, Hin. Qed.

Definition pos_shape (sh : list nat) : Prop := forall s, In s sh -> (1 <= s)%nat.
Lemma pos_shape_nth sh d : pos_shape sh -> (d < length sh)%nat -> (1 <= nth d sh 0)%nat.
Proof. intros H Hd. apply H. apply nth_In. exact Hd. Qed.
Lemma pos_shape_valid sh : pos_shape sh -> exists x, valid sh x.
Proof. induction sh as [|s sh IH]; intros Hp. exists []. constructor.
  destruct IH as [x Hx]. intros s' Hs'. apply Hp. right; assumption.
  exists (0%nat :: x). constructor; [|assumption]. specialize (Hp s (or_introl eq_refl)). lia. Qed.
Lemma all_idx_nonempty sh : pos_shape sh -> all_idx sh <> [].
Proof. intros Hp E. destruct (pos_shape_valid sh Hp) as [x Hx]. apply all_idx_valid in Hx. rewrite E in Hx. destruct Hx. Qed.

(* for every eps: under [pos_shape] there is at least one slice entry *)
Lemma slices_ge_iff sh keep eps g : pos_shape sh ->
  (forall b, g (zero_at keep b) == g b) ->
  (slices_ge sh keep eps g = true <-> forall b, valid sh b -> - eps <= g b).
Proof. intros Hp Hg. unfold slices_ge. rewrite rmin_ge_iff, all_map.
  - split.
    + intros H b Hv. rewrite <- Hg. apply H, behind_proj, Hv.
    + intros H b Hb. apply H. apply (behind_valid sh keep); [|exact Hb]. intros d _ Hd. apply pos_shape_nth; assumption.
  - intros E. destruct (pos_shape_valid sh Hp) as [x Hx]. apply (behind_proj sh keep), (in_map g) in Hx.
    rewrite E in Hx. destruct Hx. Qed.

Lemma slices_ge2_iff sh keep eps g h : pos_shape sh ->
  (forall b, g (zero_at keep b) == g b) -> (forall b, h (zero_at keep b) == h b) ->
  (slices_ge sh keep eps g && slices_ge sh keep eps h = true <-> forall b, valid sh b -> - eps <= g b /\ - eps <= h b).
Proof. intros Hp Hg Hh. rewrite andb_true_iff, !slices_ge_iff by assumption. split.
  - intros [H1 H2] b Hv. split; [apply H1|apply H2]; exact Hv.
  - intros H. split; intros b Hv; apply (H b Hv). Qed.

Lemma upd_zero_at1 b d k : upd (zero_at [d] b) d k = upd b d k.
Proof. cbn. apply upd_upd. Qed.
Lemma at2_zero_at2 b p q i j : p <> q -> at2 (zero_at [p; q] b) p q i j = at2 b p q i j.
Proof. intros Hne. cbn. unfold at2.
  rewrite (upd_comm (upd b p 0%nat) q p 0%nat i) by auto. rewrite upd_upd. rewrite upd_upd. reflexivity. Qed.
(* the slice expressions over [p; q] read the kernel at [at2 _ p q] only *)
Ltac at2_slice := intros; rewrite !at2_zero_at2 by assumption; reflexivity.

Inductive lat_ineq :=
| IMono (d : nat) (x : idx)                       (* x -> x + e_d along a monotone dimension *)
| IEdge (t : trust) (b : idx) (i j : nat)         (* Edgeworth square (i, j) at position b *)
| ITrapL (t : trust) (b : idx) (j : nat)          (* trapezoid, lowest main index *)
| ITrapR (t : trust) (b : idx) (j : nat)          (* trapezoid, highest main index *)
| IMdomD (pq : nat * nat) (b : idx) (i j : nat)   (* monotonic dominance, dominant edge vs midpoint *)
| IMdomW (pq : nat * nat) (b : idx) (i j : nat)   (* monotonic dominance, midpoint vs weak edge *)
| IRdom (pq : nat * nat) (b : idx) (i j : nat)    (* range dominance: weak range at i vs dominant range at j *)
| IJmonoL (pq : nat * nat) (b : idx) (i j : nat)  (* joint monotonicity, lower triangle *)
| IJmonoU (pq : nat * nat) (b : idx) (i j : nat)  (* joint monotonicity, upper triangle *)
| ILower (x : idx)
| IUpper (x : idx).

(* the sign convention of Proofs/LatticeSpec.v: direction > 0 keeps x, else - x *)
Definition tsign (dir : Z) (x : Q) : Q := if (0 <? dir)%Z then x else - x.

Definition slack (c : la_cfg) (W : tens) (q : lat_ineq) : Q :=
  let sh := a_shape c in
  match q with
  | IMono d x => W (upd x d (S (nth d x 0%nat))) - W x
  | IEdge (m, cd, dir) b i j => tsign dir (- esq W m cd i j b)
  | ITrapL (m, cd, dir) b j => tsign dir (W (at2 b m cd 0%nat j) - W (at2 b m cd 0%nat (S j)))
  | ITrapR (m, cd, dir) b j =>
      let mx := (nth m sh 0%nat - 1)%nat in tsign dir (W (at2 b m cd mx (S j)) - W (at2 b m cd mx j))
  | IMdomD (p, q) b i j => W (at2 b p q (S i) j) - (W (at2 b p q (S i) (S j)) + W (at2 b p q i j)) * (1#2)
  | IMdomW (p, q) b i j => (W (at2 b p q (S i) (S j)) + W (at2 b p q i j)) * (1#2) - W (at2 b p q i (S j))
  | IRdom (p, q) b i j =>
      let dmax := (nth p sh 0%nat - 1)%nat in let wmax := (nth q sh 0%nat - 1)%nat in
      (W (at2 b p q dmax j) - W (at2 b p q 0%nat j)) - (W (at2 b p q i wmax) - W (at2 b p q i 0%nat))
  | IJmonoL (p, q) b i j => W (at2 b p q (S i) (S j)) - (W (at2 b p q (S i) j) + W (at2 b p q i (S j))) * (1#2)
  | IJmonoU (p, q) b i j => (W (at2 b p q (S i) j) + W (at2 b p q i (S j))) * (1#2) - W (at2 b p q i j)
  | ILower x => match a_min c with Some lo => W x - lo | None => 0 end
  | IUpper x => match a_max c with Some hi => hi - W x | None => 0 end
  end.

Definition covered (c : la_cfg) (q : lat_ineq) : Prop :=
  let sh := a_shape c in
  match q with
  | IMono d x => (d < length (a_monos c))%nat /\ nth d (a_monos c) 0%Z = 1%Z /\ valid sh x /\
                 (S (nth d x 0) < nth d sh 0)%nat
  | IEdge t b i j => In t (a_edge c) /\ valid sh b /\
                     (S i < nth (fst (fst t)) sh 0)%nat /\ (S j < nth (snd (fst t)) sh 0)%nat
  | ITrapL t b j | ITrapR t b j => In t (a_trap c) /\ valid sh b /\ (S j < nth (snd (fst t)) sh 0)%nat
  | IMdomD pq b i j | IMdomW pq b i j =>
      In pq (a_mdom c) /\ valid sh b /\ (S i < nth (fst pq) sh 0)%nat /\ (S j < nth (snd pq) sh 0)%nat
  | IRdom pq b i j => In pq (a_rdom c) /\ valid sh b /\ (i < nth (fst pq) sh 0)%nat /\ (j < nth (snd pq) sh 0)%nat
  | IJmonoL pq b i j | IJmonoU pq b i j =>
      In pq (a_jmono c) /\ valid sh b /\ (S i < nth (fst pq) sh 0)%nat /\ (S j < nth (snd pq) sh 0)%nat
  | ILower x => a_min c <> None /\ valid sh x
  | IUpper x => a_max c <> None /\ valid sh x
  end.

(* what verify_hyperparameters guarantees (the part the asserts rely on) *)
Definition la_ok (c : la_cfg) : Prop :=
  pos_shape (a_shape c) /\
  (length (a_monos c) <= length (a_sizes c))%nat /\
  (forall m cd dir, In (m, cd, dir) (a_edge c ++ a_trap c) -> m <> cd /\ (dir = 1 \/ dir = -1)%Z) /\
  (forall p q, In (p, q) (a_mdom c ++ a_rdom c ++ a_jmono c) -> p <> q).

Lemma la_ok_trust c m cd dir : la_ok c -> In (m, cd, dir) (a_edge c) \/ In (m, cd, dir) (a_trap c) ->
  m <> cd /\ (dir = 1 \/ dir = -1)%Z.
Proof. intros (_ & _ & H & _) Hin. apply (H m cd dir), in_or_app, Hin. Qed.
Lemma la_ok_pair c p q : la_ok c -> In (p, q) (a_mdom c) \/ In (p, q) (a_rdom c) \/ In (p, q) (a_jmono c) -> p <> q.
Proof. intros (_ & _ & _ & H) Hin. apply (H p q). rewrite !in_app_iff. exact Hin. Qed.

Lemma dir_mul dir x : (dir = 1 \/ dir = -1)%Z -> inject_Z dir * x == tsign dir x.
Proof. intros [-> | ->]; unfold tsign.
  - change (0 <? 1)%Z with true. change (inject_Z 1) with 1. cbv iota. lra.
  - change (0 <? -1)%Z with false. change (inject_Z (-1)) with (-1#1). cbv iota. lra. Qed.

Definition slack_within (c : la_cfg) (W : tens) (eps : Q) (q : lat_ineq) : Prop := covered c q -> - eps <= slack c W q.

(* one statement per asserted family: its check passes iff its instances are [slack_within] *)
Section LatticeFamilies.
Variables (c : la_cfg) (W : tens) (eps : Q).
Hypothesis Hok : la_ok c.
Let sh := a_shape c.

Lemma assert_mono_iff : assert_mono sh (a_monos c) eps W = true <-> forall d x, slack_within c W eps (IMono d x).
Proof. destruct Hok as (Hp & _). unfold assert_mono.
  rewrite (forallb_seq_iff _ (fun d => forall x, slack_within c W eps (IMono d x))).
  { split; intros H d; [intros x Hq; exact (H d (proj1 Hq) x Hq)|intros _; apply H]. }
  intros d Hd. unfold slack_within. cbn [covered slack]. fold sh.
  destruct (Z.eqb_spec (nth d (a_monos c) 0%Z) 1) as [E|E]; [|split; [intros _ x (_ & E' & _); contradiction|reflexivity]].
  rewrite (forallb_seq_iff _ (fun j => forall b, valid sh b -> - eps <= W (upd b d (S j)) - W (upd b d j)))
    by (intros j _; apply slices_ge_iff; [exact Hp|intros b; rewrite !upd_zero_at1; reflexivity]).
  split.
  - intros H x (_ & _ & Hv & Hs). specialize (H (nth d x 0%nat) ltac:(lia) x Hv). rewrite upd_self in H. exact H.
  - intros H j Hj b Hv.
    assert (Hdl : (d < length sh)%nat) by (apply (nth_pos_lt sh d j); lia).
    specialize (H (upd b d j)). rewrite nth_upd_same, upd_upd in H by (rewrite (valid_length sh b Hv); exact Hdl).
    apply H. split; [exact Hd|]. split; [exact E|]. split; [apply upd_valid; [exact Hv|]|]; lia. Qed.

Lemma assert_edge_iff t : In t (a_edge c) ->
  (assert_edge_one sh eps W t = true <-> forall b i j, slack_within c W eps (IEdge t b i j)).
Proof. destruct t as [[m cd] dir]. intros Hin. pose proof Hok as (Hp & _).
  destruct (la_ok_trust c m cd dir Hok (or_introl Hin)) as [Hne Hdir].
  unfold assert_edge_one, slack_within. cbn [covered slack fst snd]. fold sh. rewrite pairs_all_iff. split.
  - intros H b i j (_ & Hv & Hi & Hj). specialize (H i j ltac:(lia) ltac:(lia)).
    rewrite slices_ge_iff in H by (assumption || at2_slice). specialize (H b Hv).
    rewrite dir_mul in H by assumption. unfold tsign, esq in *. destruct (0 <? dir)%Z; lra.
  - intros H i j Hi Hj. apply slices_ge_iff; [assumption|at2_slice|]. intros b Hv.
    assert (Hij : (S i < nth m sh 0)%nat /\ (S j < nth cd sh 0)%nat) by lia.
    specialize (H b i j (conj Hin (conj Hv Hij))). rewrite dir_mul by assumption. unfold tsign, esq in *. destruct (0 <? dir)%Z; lra. Qed.

Lemma assert_trap_iff t : In t (a_trap c) ->
  (assert_trap_one sh eps W t = true <-> forall b j, slack_within c W eps (ITrapL t b j) /\ slack_within c W eps (ITrapR t b j)).
Proof. destruct t as [[m cd] dir]. intros Hin. pose proof Hok as (Hp & _).
  destruct (la_ok_trust c m cd dir Hok (or_intror Hin)) as [Hne Hdir].
  unfold assert_trap_one, slack_within. cbn [covered slack fst snd]. fold sh. cbv zeta.
  rewrite (forallb_seq_iff _ (fun j => forall b, valid sh b ->
    - eps <= tsign dir (W (at2 b m cd 0%nat j) - W (at2 b m cd 0%nat (S j))) /\
    - eps <= tsign dir (W (at2 b m cd (nth m sh 0%nat - 1)%nat (S j)) - W (at2 b m cd (nth m sh 0%nat - 1)%nat j)))).
  - split.
    + intros H b j. split; intros (_ & Hv & Hj); apply (H j ltac:(lia) b Hv).
    + intros H j Hj b Hv. split; apply (H b j); (split; [exact Hin|split; [exact Hv|lia]]).
  - intros j _. rewrite slices_ge2_iff by (assumption || at2_slice).
    split; intros H b Hv; specialize (H b Hv); rewrite !dir_mul in * by assumption; exact H. Qed.

Lemma assert_mdom_iff pq : In pq (a_mdom c) ->
  (assert_mdom_one sh eps W pq = true <-> forall b i j, slack_within c W eps (IMdomD pq b i j) /\ slack_within c W eps (IMdomW pq b i j)).
Proof. destruct pq as [p q]. intros Hin. pose proof Hok as (Hp & _).
  pose proof (la_ok_pair c p q Hok (or_introl Hin)) as Hne.
  unfold assert_mdom_one, slack_within. cbn [covered slack fst snd]. fold sh. rewrite pairs_all_iff. split.
  - intros H b i j. specialize (H i j). rewrite slices_ge2_iff in H by (assumption || at2_slice).
    split; intros (_ & Hv & Hi & Hj); apply (H ltac:(lia) ltac:(lia) b Hv).
  - intros H i j Hi Hj. apply slices_ge2_iff; [assumption|at2_slice|at2_slice|]. intros b Hv.
    split; apply (H b i j); (split; [exact Hin|split; [exact Hv|lia]]). Qed.

Lemma assert_rdom_iff pq : In pq (a_rdom c) ->
  (assert_rdom_one sh eps W pq = true <-> forall b i j, slack_within c W eps (IRdom pq b i j)).
Proof. destruct pq as [p q]. intros Hin. pose proof Hok as (Hp & _).
  pose proof (la_ok_pair c p q Hok (or_intror (or_introl Hin))) as Hne.
  unfold assert_rdom_one, slack_within. cbn [covered slack fst snd]. fold sh. cbv zeta. rewrite pairs_all_iff. split.
  - intros H b i j (_ & Hv & Hi & Hj). specialize (H i j Hi Hj). rewrite slices_ge_iff in H by (assumption || at2_slice).
    exact (H b Hv).
  - intros H i j Hi Hj. apply slices_ge_iff; [assumption|at2_slice|]. intros b Hv.
    exact (H b i j (conj Hin (conj Hv (conj Hi Hj)))). Qed.

Lemma assert_jmono_iff pq : In pq (a_jmono c) ->
  (assert_jmono_one sh eps W pq = true <-> forall b i j, slack_within c W eps (IJmonoL pq b i j) /\ slack_within c W eps (IJmonoU pq b i j)).
Proof. destruct pq as [p q]. intros Hin. pose proof Hok as (Hp & _).
  pose proof (la_ok_pair c p q Hok (or_intror (or_intror Hin))) as Hne.
  unfold assert_jmono_one, slack_within. cbn [covered slack fst snd]. fold sh. rewrite pairs_all_iff. split.
  - intros H b i j. specialize (H i j). rewrite slices_ge2_iff in H by (assumption || at2_slice).
    split; intros (_ & Hv & Hi & Hj); apply (H ltac:(lia) ltac:(lia) b Hv).
  - intros H i j Hi Hj. apply slices_ge2_iff; [assumption|at2_slice|at2_slice|]. intros b Hv.
    split; apply (H b i j); (split; [exact Hin|split; [exact Hv|lia]]). Qed.

Lemma assert_lower_iff : assert_lower sh eps (a_min c) W = true <-> forall x, slack_within c W eps (ILower x).
Proof. destruct Hok as (Hp & _). unfold assert_lower, slack_within. cbn [covered slack]. fold sh.
  destruct (a_min c) as [lo|]; [|split; [intros _ x [Hn _]; congruence|reflexivity]].
  rewrite rmin_ge_iff, all_map by (intros E; apply map_eq_nil in E; destruct (all_idx_nonempty sh Hp E)). split.
  - intros H x [_ Hv]. apply all_idx_valid in Hv. specialize (H x Hv). lra.
  - intros H x Hx. apply all_idx_valid in Hx. assert (Hn : Some lo <> None) by discriminate.
    specialize (H x (conj Hn Hx)). lra. Qed.
Lemma assert_upper_iff : assert_upper sh eps (a_max c) W = true <-> forall x, slack_within c W eps (IUpper x).
Proof. destruct Hok as (Hp & _). unfold assert_upper, slack_within. cbn [covered slack]. fold sh.
  destruct (a_max c) as [hi|]; [|split; [intros _ x [Hn _]; congruence|reflexivity]].
  rewrite rmax_le_iff, all_map by (intros E; apply map_eq_nil in E; destruct (all_idx_nonempty sh Hp E)). split.
  - intros H x [_ Hv]. apply all_idx_valid in Hv. specialize (H x Hv). lra.
  - intros H x Hx. apply all_idx_valid in Hx. assert (Hn : Some hi <> None) by discriminate.
    specialize (H x (conj Hn Hx)). lra. Qed.
End LatticeFamilies.

(* holds for every eps: no check of the lattice assert reduces an empty list *)
Theorem lattice_passes_iff c W eps : la_ok c ->
  (assert_lattice c W eps = true <-> forall q, covered c q -> - eps <= slack c W q).
Proof. intros Hok. unfold assert_lattice. cbv zeta. rewrite !andb_true_iff.
  rewrite (assert_mono_iff c W eps Hok), (forallb_iff _ _ _ (assert_edge_iff c W eps Hok)),
    (forallb_iff _ _ _ (assert_trap_iff c W eps Hok)), (forallb_iff _ _ _ (assert_mdom_iff c W eps Hok)),
    (forallb_iff _ _ _ (assert_rdom_iff c W eps Hok)), (forallb_iff _ _ _ (assert_jmono_iff c W eps Hok)),
    (assert_lower_iff c W eps Hok), (assert_upper_iff c W eps Hok).
  unfold slack_within. split.
  - intros [[[[[[[Hmo Hed] Htp] Hmd] Hrd] Hjm] Hlo] Hup] q Hq.
    destruct q as [d x|t b i j|t b j|t b j|pq b i j|pq b i j|pq b i j|pq b i j|pq b i j|x|x].
    + exact (Hmo d x Hq).
    + exact (Hed t (proj1 Hq) b i j Hq).
    + exact (proj1 (Htp t (proj1 Hq) b j) Hq).
    + exact (proj2 (Htp t (proj1 Hq) b j) Hq).
    + exact (proj1 (Hmd pq (proj1 Hq) b i j) Hq).
    + exact (proj2 (Hmd pq (proj1 Hq) b i j) Hq).
    + exact (Hrd pq (proj1 Hq) b i j Hq).
    + exact (proj1 (Hjm pq (proj1 Hq) b i j) Hq).
    + exact (proj2 (Hjm pq (proj1 Hq) b i j) Hq).
    + exact (Hlo x Hq).
    + exact (Hup x Hq).
  - (* every conjunct is H at the instances of one family *)
    intros H. repeat apply conj.
    + intros d x. apply H.
    + intros t _ b i j. apply H.
    + intros t _ b j. split; apply H.
    + intros pq _ b i j. split; apply H.
    + intros pq _ b i j. apply H.
    + intros pq _ b i j. split; apply H.
    + intros x. apply H.
    + intros x. apply H. Qed.

Theorem lattice_sound c W eps q : la_ok c -> covered c q -> slack c W q < - eps -> assert_lattice c W eps = false.
Proof. intros Hok Hq Hs. apply not_true_is_false. intros H. pose proof (proj1 (lattice_passes_iff c W eps Hok) H q Hq). lra. Qed.
Theorem lattice_complete c W eps : la_ok c -> 0 <= eps ->
  (forall q, covered c q -> - eps <= slack c W q) -> assert_lattice c W eps = true.
Proof. intros Hok _. apply lattice_passes_iff, Hok. Qed.
Theorem lattice_exact c W eps : la_ok c -> 0 <= eps ->
  (assert_lattice c W eps = true <-> forall q, covered c q -> - eps <= slack c W q).
Proof. intros Hok _. apply lattice_passes_iff, Hok. Qed.

Lemma assert_lattice_relax c W e e' : la_ok c -> e <= e' -> assert_lattice c W e = true -> assert_lattice c W e' = true.
Proof. intros Hok He. rewrite !(lattice_passes_iff c W _ Hok). intros H q Hq. specialize (H q Hq). lra. Qed.

(* the flat (row-major) kernel the layer stores: same statements about of_list *)
Theorem lattice_flat_sound c w eps q : la_ok c -> covered c q ->
  slack c (of_list (a_shape c) w) q < - eps -> assert_lattice_flat c w eps = false.
Proof. apply lattice_sound. Qed.
Theorem lattice_flat_complete c w eps : la_ok c -> 0 <= eps ->
  (forall q, covered c q -> - eps <= slack c (of_list (a_shape c) w) q) -> assert_lattice_flat c w eps = true.
Proof. apply lattice_complete. Qed.

Lemma assert_rtl_iff layers eps :
  assert_rtl layers eps = true <-> forall c w, In (c, w) layers -> assert_lattice_flat c w eps = true.
Proof. unfold assert_rtl. rewrite forallb_forall. split.
  - intros H c w Hin. apply (H (c, w) Hin).
  - intros H [c w] Hin. apply H; assumption. Qed.
Theorem rtl_sound layers eps c w q : In (c, w) layers -> la_ok c -> covered c q ->
  slack c (of_list (a_shape c) w) q < - eps -> assert_rtl layers eps = false.
Proof. intros Hin Hok Hq Hs. apply not_true_is_false. intros H. rewrite assert_rtl_iff in H.
  pose proof (H c w Hin) as G. rewrite (lattice_flat_sound c w eps q Hok Hq Hs) in G. discriminate. Qed.
Theorem rtl_complete layers eps : 0 <= eps ->
  (forall c w, In (c, w) layers -> la_ok c /\ forall q, covered c q -> - eps <= slack c (of_list (a_shape c) w) q) ->
  assert_rtl layers eps = true.
Proof. intros He H. apply assert_rtl_iff. intros c w Hin. destruct (H c w Hin) as [Hok Hq].
  apply lattice_flat_complete; assumption. Qed.

(* Link with the C01 vocabulary: at eps = 0 the check of a family is the predicate
   of Proofs/LatticeSpec.v, so the assert accepts exactly the [feasible_kernel]s. *)
Section LatticeSpecLink.
Variables (c : la_cfg) (W : tens).
Hypothesis Hok : la_ok c.

Lemma assert_mono0 : assert_mono (a_shape c) (a_monos c) 0 W = true <->
  forall d, (d < length (a_monos c))%nat -> nth d (a_monos c) 0%Z = 1%Z -> mono_along (a_shape c) d W.
Proof. rewrite (assert_mono_iff c W 0 Hok). unfold slack_within, mono_along. cbn [covered slack]. split.
  - intros H d Hd E x Hv Hs. specialize (H d x (conj Hd (conj E (conj Hv Hs)))). lra.
  - intros H d x (Hd & E & Hv & Hs). specialize (H d Hd E x Hv Hs). lra. Qed.

Lemma assert_edge0 t : In t (a_edge c) -> (assert_edge_one (a_shape c) 0 W t = true <-> edgeworth_holds (a_shape c) t W).
Proof. intros Hin. rewrite (assert_edge_iff c W 0 Hok t Hin). destruct t as [[m cd] dir].
  unfold slack_within, edgeworth_holds. cbn [covered slack fst snd]. unfold tsign. split.
  - intros H b i j Hv Hi Hj. specialize (H b i j (conj Hin (conj Hv (conj Hi Hj)))). destruct (0 <? dir)%Z; lra.
  - intros H b i j (_ & Hv & Hi & Hj). specialize (H b i j Hv Hi Hj). destruct (0 <? dir)%Z; lra. Qed.

Lemma assert_trap0 t : In t (a_trap c) -> (assert_trap_one (a_shape c) 0 W t = true <-> trapezoid_holds (a_shape c) t W).
Proof. intros Hin. rewrite (assert_trap_iff c W 0 Hok t Hin). destruct t as [[m cd] dir].
  unfold slack_within, trapezoid_holds. cbn [covered slack fst snd]. unfold tsign. cbv zeta. split.
  - intros H b j Hv Hj. destruct (H b j) as [H1 H2]. specialize (H1 (conj Hin (conj Hv Hj))). specialize (H2 (conj Hin (conj Hv Hj))).
    destruct (0 <? dir)%Z; split; lra.
  - intros H b j. split; intros (_ & Hv & Hj); specialize (H b j Hv Hj); destruct (0 <? dir)%Z; lra. Qed.

Lemma assert_lower0 : assert_lower (a_shape c) 0 (a_min c) W = true <-> lower_ok (a_shape c) (a_min c) W.
Proof. rewrite (assert_lower_iff c W 0 Hok). unfold slack_within, lower_ok. cbn [covered slack].
  destruct (a_min c) as [lo|]; [|split; [intros; exact I|intros _ x [Hn _]; congruence]]. split.
  - intros H x Hv. assert (Hn : Some lo <> None) by discriminate. specialize (H x (conj Hn Hv)). lra.
  - intros H x [_ Hv]. specialize (H x Hv). lra. Qed.
Lemma assert_upper0 : assert_upper (a_shape c) 0 (a_max c) W = true <-> upper_ok (a_shape c) (a_max c) W.
Proof. rewrite (assert_upper_iff c W 0 Hok). unfold slack_within, upper_ok. cbn [covered slack].
  destruct (a_max c) as [hi|]; [|split; [intros; exact I|intros _ x [Hn _]; congruence]]. split.
  - intros H x Hv. assert (Hn : Some hi <> None) by discriminate. specialize (H x (conj Hn Hv)). lra.
  - intros H x [_ Hv]. specialize (H x Hv). lra. Qed.
End LatticeSpecLink.

Definition la_of (c : lat_cfg) : la_cfg :=
  mkLA (l_sizes c) (l_units c) (l_monos c) (l_edge c) (l_trap c) [] [] [] (l_min c) (l_max c).

Lemma la_of_ok c : cfg_valid c -> la_ok (la_of c).
Proof. intros Hc. pose proof Hc as (Hs & Hu & Hl & Hm & Hok & Hmc & _). unfold la_ok. cbn [la_of a_shape a_sizes a_units a_monos a_edge a_trap a_mdom a_rdom a_jmono].
  split; [|split; [|split]].
  - intros s Hin. apply in_app_iff in Hin. destruct Hin as [Hin|[<-|[]]]. specialize (Hs s Hin). lia. exact Hu.
  - lia.
  - intros m cd dir Hin. destruct (cfg_trust_dims c m cd dir Hc Hin) as (_ & _ & Hne & Hdir). split; assumption.
  - intros p q []. Qed.

Theorem assert_zero_iff_feasible c f : cfg_valid c ->
  (assert_lattice (la_of c) f 0 = true <-> feasible_kernel c f).
Proof. intros Hc. pose proof (la_of_ok c Hc) as Hok. destruct Hc as (_ & _ & _ & Hm & _).
  unfold assert_lattice, feasible_kernel, monotone_kernel. cbv zeta. rewrite !andb_true_iff.
  rewrite (assert_mono0 _ _ Hok), (forallb_iff _ _ _ (assert_edge0 _ _ Hok)), (forallb_iff _ _ _ (assert_trap0 _ _ Hok)),
    (assert_lower0 _ _ Hok), (assert_upper0 _ _ Hok).
  cbn [la_of a_monos a_edge a_trap a_min a_max]. change (a_shape (la_of c)) with (l_shape c).
  (* the dominance lists of [la_of c] are empty; a canonical monotonicity is 0 or 1 *)
  split.
  - intros [[[[[[[Hmo Hed] Htp] _] _] _] Hlo] Hup]. repeat split; try assumption.
    intros d Hd. apply mono_dims_spec in Hd. destruct Hd as [Hdl Hne]. apply Hmo; [exact Hdl|].
    destruct (Hm _ (nth_In (l_monos c) 0%Z Hdl)) as [E|E]; [congruence|exact E].
  - intros (Hmo & Hed & Htp & Hlo & Hup). repeat split; try assumption.
    intros d Hd E. apply Hmo, mono_dims_spec. split; [exact Hd|]. rewrite E. discriminate. Qed.

(* ... and therefore every C01-feasible kernel passes the assert *)
Theorem assert_accepts_feasible c f eps : cfg_valid c -> feasible_kernel c f -> 0 <= eps ->
  assert_lattice (la_of c) f eps = true.
Proof. intros Hc Hf He. apply (assert_lattice_relax _ _ 0 eps (la_of_ok c Hc) He), assert_zero_iff_feasible; assumption. Qed.

Lemma fold_select {A} (f : A -> A -> A) : (forall a y, f a y = a \/ f a y = y) ->
  forall l a, In (fold_left f l a) (a :: l).
Proof. intros Hf. induction l as [|y l IH]; intros a; cbn [fold_left]. left; reflexivity.
  destruct (IH (f a y)) as [E|Hin]; [|right; right; exact Hin].
  rewrite <- E. destruct (Hf a y) as [-> | ->]; [left|right; left]; reflexivity. Qed.
Lemma qminl_in l : l <> [] -> In (qminl l) l.
Proof. destruct l as [|y l]; [congruence|]. intros _. apply fold_select, qmin_either. Qed.
Lemma qmaxl_in l : l <> [] -> In (qmaxl l) l.
Proof. destruct l as [|y l]; [congruence|]. intros _. apply fold_select, qmax_either. Qed.

Definition out_at (outs : list (list Q)) (k u : nat) : Q := nth u (nth k outs []) 0.
Section Column.
Variables (u : nat) (outs : list (list Q)).
Hypothesis Hne : outs <> [].

Lemma in_column x : In x (column u outs) <-> exists k, (k < length outs)%nat /\ x = out_at outs k u.
Proof. unfold column, out_at. rewrite in_map_iff. split.
  - intros [r [<- Hr]]. apply (In_nth _ _ []) in Hr. destruct Hr as [k [Hk <-]]. exists k; auto.
  - intros [k [Hk ->]]. exists (nth k outs []). split; [reflexivity|apply nth_In; exact Hk]. Qed.
Lemma out_at_in_column k : (k < length outs)%nat -> In (out_at outs k u) (column u outs).
Proof. intros Hk. apply in_column. exists k. auto. Qed.
Lemma column_nonempty : column u outs <> [].
Proof. generalize Hne. destruct outs; [congruence|intros _; discriminate]. Qed.

(* min / max of a column against a threshold, without mentioning the reduction *)
Lemma col_min_ge t : t <= qminl (column u outs) <-> forall k, (k < length outs)%nat -> t <= out_at outs k u.
Proof. split.
  - intros H k Hk. pose proof (qminl_le _ _ (out_at_in_column k Hk)). lra.
  - intros H. apply qminl_glb. exact column_nonempty.
    intros x Hx. apply in_column in Hx. destruct Hx as [k [Hk ->]]. apply H; assumption. Qed.
Lemma col_min_le t : qminl (column u outs) <= t <-> exists k, (k < length outs)%nat /\ out_at outs k u <= t.
Proof. split.
  - intros H. pose proof (qminl_in (column u outs) column_nonempty) as Hin.
    apply in_column in Hin. destruct Hin as [k [Hk E]]. exists k. split; [assumption|]. rewrite <- E. exact H.
  - intros [k [Hk H]]. pose proof (qminl_le _ _ (out_at_in_column k Hk)). lra. Qed.
Lemma col_max_le t : qmaxl (column u outs) <= t <-> forall k, (k < length outs)%nat -> out_at outs k u <= t.
Proof. split.
  - intros H k Hk. pose proof (qmaxl_ge _ _ (out_at_in_column k Hk)). lra.
  - intros H. apply qmaxl_lub. exact column_nonempty.
    intros x Hx. apply in_column in Hx. destruct Hx as [k [Hk ->]]. apply H; assumption. Qed.
Lemma col_max_ge t : t <= qmaxl (column u outs) <-> exists k, (k < length outs)%nat /\ t <= out_at outs k u.
Proof. split.
  - intros H. pose proof (qmaxl_in (column u outs) column_nonempty) as Hin.
    apply in_column in Hin. destruct Hin as [k [Hk E]]. exists k. split; [assumption|]. rewrite <- E. exact H.
  - intros [k [Hk H]]. pose proof (qmaxl_ge _ _ (out_at_in_column k Hk)). lra. Qed.
End Column.

(* every covered constraint of the output matrix holds up to eps: bounds at
   every keypoint of every unit; with a clamp, additionally some keypoint of
   EVERY unit reaches the bound up to eps; monotonicity between every two
   consecutive keypoints of every unit *)
Definition pwl_feasible (c : pwl_acfg) (outs : list (list Q)) (eps : Q) : Prop :=
  (forall lo u, pa_min c = Some lo -> (u < pa_units c)%nat ->
     (forall k, (k < length outs)%nat -> lo - eps <= out_at outs k u) /\
     (pa_clamp_min c = true -> exists k, (k < length outs)%nat /\ out_at outs k u <= lo + eps)) /\
  (forall hi u, pa_max c = Some hi -> (u < pa_units c)%nat ->
     (forall k, (k < length outs)%nat -> out_at outs k u <= hi + eps) /\
     (pa_clamp_max c = true -> exists k, (k < length outs)%nat /\ hi - eps <= out_at outs k u)) /\
  (pa_mono c <> 0%Z -> forall k u, (S k < length outs)%nat -> (u < pa_units c)%nat ->
     - eps <= (out_at outs (S k) u - out_at outs k u) * inject_Z (pa_mono c)).

Lemma in_row_diffs units outs x : In x (row_diffs units outs) <->
  exists k u, (S k < length outs)%nat /\ (u < units)%nat /\ x = out_at outs (S k) u - out_at outs k u.
Proof. induction outs as [|r0 rest IH].
  { cbn. split; [intros []|intros (k & u & H & _); cbn in H; lia]. }
  destruct rest as [|r1 rest'].
  { cbn. split; [intros []|intros (k & u & H & _); cbn in H; lia]. }
  cbn [row_diffs]. rewrite in_app_iff, in_map_iff, IH. split.
  - intros [[u [<- Hu]]|(k & u & Hk & Hu & ->)].
    + apply in_seq in Hu. exists 0%nat, u. split; [cbn; lia|]. split; [lia|reflexivity].
    + exists (S k), u. split; [cbn in *; lia|]. split; [assumption|reflexivity].
  - intros (k & u & Hk & Hu & ->). destruct k as [|k].
    + left. exists u. split; [reflexivity|apply in_seq; lia].
    + right. exists k, u. split; [cbn in *; lia|]. split; [assumption|reflexivity]. Qed.

Theorem pwl_exact c outs eps : outs <> [] -> 0 <= eps ->
  (assert_pwl_outputs c outs eps = true <-> pwl_feasible c outs eps).
Proof. intros Hne He. unfold assert_pwl_outputs, pwl_feasible, col_mins, col_maxs. cbv zeta.
  rewrite !andb_true_iff, and_assoc. apply and_iff; [|apply and_iff].
  - apply match_some_units. intros lo. destruct (pa_clamp_min c); apply forallb_map_seq_iff; intros u _;
      rewrite qle_true, ?qabs_le_iff, <- (col_min_ge u outs Hne), <- ?(col_min_le u outs Hne).
    + split; [intros [H1 H2]; split; [|intros _]|intros [H1 H2]; specialize (H2 eq_refl)]; lra.
    + split; [intros H; split; [exact H|discriminate]|intros [H _]; exact H].
  - apply match_some_units. intros hi. destruct (pa_clamp_max c); apply forallb_map_seq_iff; intros u _;
      rewrite qle_true, ?qabs_le_iff, <- (col_max_le u outs Hne), <- ?(col_max_ge u outs Hne).
    + split; [intros [H1 H2]; split; [|intros _]|intros [H1 H2]; specialize (H2 eq_refl)]; lra.
    + split; [intros H; split; [exact H|discriminate]|intros [H _]; exact H].
  - destruct (Z.eqb_spec (pa_mono c) 0) as [E|E]; [split; [intros _ Hc; congruence|reflexivity]|].
    rewrite rmin_ge_iff, all_map by (intros _; lra). split.
    + intros H _ k u Hk Hu. apply H, in_row_diffs. exists k, u. auto.
    + intros H d Hd. apply in_row_diffs in Hd. destruct Hd as (k & u & Hk & Hu & ->). apply H; assumption. Qed.

Theorem pwl_sound c outs eps : outs <> [] -> 0 <= eps -> ~ pwl_feasible c outs eps -> assert_pwl_outputs c outs eps = false.
Proof. intros Hne He Hn. apply not_true_is_false. intros H. apply Hn. apply pwl_exact; assumption. Qed.
Theorem pwl_complete c outs eps : outs <> [] -> 0 <= eps -> pwl_feasible c outs eps -> assert_pwl_outputs c outs eps = true.
Proof. intros Hne He H. apply pwl_exact; assumption. Qed.

(* concrete single violations (whichever keypoint / unit) make the assert fail *)
Corollary pwl_sound_mono c outs eps k u : outs <> [] -> 0 <= eps -> pa_mono c <> 0%Z ->
  (S k < length outs)%nat -> (u < pa_units c)%nat ->
  (out_at outs (S k) u - out_at outs k u) * inject_Z (pa_mono c) < - eps -> assert_pwl_outputs c outs eps = false.
Proof. intros Hne He Hm Hk Hu Hv. apply pwl_sound; [assumption|assumption|]. intros (_ & _ & H).
  specialize (H Hm k u Hk Hu). lra. Qed.
Corollary pwl_sound_lower c outs eps lo k u : outs <> [] -> 0 <= eps -> pa_min c = Some lo ->
  (k < length outs)%nat -> (u < pa_units c)%nat -> out_at outs k u < lo - eps -> assert_pwl_outputs c outs eps = false.
Proof. intros Hne He Hm Hk Hu Hv. apply pwl_sound; [assumption|assumption|]. intros (H & _ & _).
  destruct (H lo u Hm Hu) as [H1 _]. specialize (H1 k Hk). lra. Qed.
Corollary pwl_sound_upper c outs eps hi k u : outs <> [] -> 0 <= eps -> pa_max c = Some hi ->
  (k < length outs)%nat -> (u < pa_units c)%nat -> hi + eps < out_at outs k u -> assert_pwl_outputs c outs eps = false.
Proof. intros Hne He Hm Hk Hu Hv. apply pwl_sound; [assumption|assumption|]. intros (_ & H & _).
  destruct (H hi u Hm Hu) as [H1 _]. specialize (H1 k Hk). lra. Qed.
Corollary pwl_sound_clamp_min c outs eps lo u : outs <> [] -> 0 <= eps -> pa_min c = Some lo -> pa_clamp_min c = true ->
  (u < pa_units c)%nat -> (forall k, (k < length outs)%nat -> lo + eps < out_at outs k u) ->
  assert_pwl_outputs c outs eps = false.
Proof. intros Hne He Hm Hc Hu Hv. apply pwl_sound; [assumption|assumption|]. intros (H & _ & _).
  destruct (H lo u Hm Hu) as [_ H2]. destruct (H2 Hc) as [k [Hk Hle]]. specialize (Hv k Hk). lra. Qed.
Corollary pwl_sound_clamp_max c outs eps hi u : outs <> [] -> 0 <= eps -> pa_max c = Some hi -> pa_clamp_max c = true ->
  (u < pa_units c)%nat -> (forall k, (k < length outs)%nat -> out_at outs k u < hi - eps) ->
  assert_pwl_outputs c outs eps = false.
Proof. intros Hne He Hm Hc Hu Hv. apply pwl_sound; [assumption|assumption|]. intros (_ & H & _).
  destruct (H hi u Hm Hu) as [_ H2]. destruct (H2 Hc) as [k [Hk Hle]]. specialize (Hv k Hk). lra. Qed.

(* the PWLCalibration layer: outputs at the keypoints are prefix sums of the kernel *)
Lemma run_sums_at units rows : forall acc k u, (k < length rows)%nat -> (u < units)%nat ->
  out_at (run_sums acc units rows) k u == nth u acc 0 + qsum (firstn (S k) (column u rows)).
Proof. induction rows as [|r rest IH]; intros acc k u Hk Hu; cbn [length] in Hk. lia.
  cbn [run_sums]. destruct k as [|k].
  - unfold out_at. cbn [nth]. rewrite nth_map_seq by assumption. cbn. lra.
  - change (out_at (?s :: ?t) (S k) u) with (out_at t k u). rewrite IH by (assumption || lia).
    rewrite nth_map_seq by assumption. cbn [column map firstn qsum]. fold (column u rest). lra. Qed.
Lemma run_sums_length units rows : forall acc, length (run_sums acc units rows) = length rows.
Proof. induction rows as [|r rest IH]; intros acc; cbn; [reflexivity|rewrite IH; reflexivity]. Qed.

Lemma keypoint_outputs_at units cyclic kernel k u : (k < length kernel)%nat -> (u < units)%nat ->
  out_at (pwl_keypoint_outputs units cyclic kernel) k u == qsum (firstn (S k) (column u kernel)).
Proof. intros Hk Hu. unfold pwl_keypoint_outputs. cbv zeta.
  assert (E : out_at (run_sums (map (fun _ => 0) (seq 0 units)) units kernel) k u ==
              qsum (firstn (S k) (column u kernel))).
  { rewrite run_sums_at by assumption. rewrite nth_map_seq by assumption. lra. }
  destruct cyclic; [|exact E]. unfold out_at in *. rewrite app_nth1 by (rewrite run_sums_length; exact Hk). exact E. Qed.
Lemma keypoint_outputs_cyclic_last units kernel u : kernel <> [] -> (u < units)%nat ->
  out_at (pwl_keypoint_outputs units true kernel) (length kernel) u == nth u (nth 0 kernel []) 0.
Proof. intros Hne Hu. unfold pwl_keypoint_outputs. cbv zeta. unfold out_at.
  rewrite app_nth2 by (rewrite run_sums_length; lia). rewrite run_sums_length, Nat.sub_diag.
  destruct kernel as [|r rest]; [congruence|]. cbn [run_sums firstn nth]. rewrite nth_map_seq by assumption.
  rewrite nth_map_seq by assumption. lra. Qed.
Lemma keypoint_outputs_nonempty units cyclic kernel : kernel <> [] -> pwl_keypoint_outputs units cyclic kernel <> [].
Proof. intros Hne. unfold pwl_keypoint_outputs. cbv zeta. destruct kernel as [|r rest]; [congruence|].
  cbn [run_sums]. destruct cyclic; discriminate. Qed.

Lemma keypoint_outputs_length units cyclic kernel : kernel <> [] ->
  length (pwl_keypoint_outputs units cyclic kernel) = (length kernel + if cyclic then 1 else 0)%nat.
Proof. intros Hne. unfold pwl_keypoint_outputs. cbv zeta. destruct cyclic.
  - rewrite app_length, run_sums_length. destruct kernel as [|r rest]; [congruence|]. cbn [run_sums firstn length]. lia.
  - rewrite run_sums_length. lia. Qed.

Definition missing_feasible (c : pwl_layer_acfg) (eps : Q) : Prop :=
  forall mo u, pl_missing c = Some mo -> (u < pa_units (pl_cfg c))%nat ->
    (forall lo, pa_min (pl_cfg c) = Some lo -> lo - eps <= nth u mo 0) /\
    (forall hi, pa_max (pl_cfg c) = Some hi -> nth u mo 0 <= hi + eps).

Theorem pwl_layer_exact c kernel eps : kernel <> [] -> 0 <= eps ->
  (assert_pwl_layer c kernel eps = true <->
   pwl_feasible (pl_cfg c) (pwl_keypoint_outputs (pa_units (pl_cfg c)) (pl_cyclic c) kernel) eps /\
   missing_feasible c eps).
Proof. intros Hne He. unfold assert_pwl_layer, missing_feasible. cbv zeta. rewrite andb_true_iff.
  apply and_iff; [apply pwl_exact; [apply keypoint_outputs_nonempty, Hne|exact He]|].
  destruct (pl_missing c) as [mo|]; [|split; [intros _ mo u E; discriminate|reflexivity]].
  (* the missing output is asserted as a one-row output matrix without monotonicity or clamps *)
  rewrite (pwl_exact _ [mo] eps ltac:(discriminate) He). unfold pwl_feasible.
  cbn [pa_units pa_min pa_max pa_clamp_min pa_clamp_max pa_mono length]. split.
  - intros (H1 & H2 & _) mo' u E Hu. injection E as <-. split.
    + intros lo El. exact (proj1 (H1 lo u El Hu) 0%nat Nat.lt_0_1).
    + intros hi Eh. exact (proj1 (H2 hi u Eh Hu) 0%nat Nat.lt_0_1).
  - intros Hm. split; [|split].
    + intros lo u El Hu. split; [|discriminate]. intros k Hk. replace k with 0%nat by lia.
      exact (proj1 (Hm mo u eq_refl Hu) lo El).
    + intros hi u Eh Hu. split; [|discriminate]. intros k Hk. replace k with 0%nat by lia.
      exact (proj2 (Hm mo u eq_refl Hu) hi Eh).
    + intros Hc. exfalso. apply Hc. reflexivity. Qed.

Definition norm_spec (ord : nat) (col : list Q) (eps : Q) : Prop :=
  match ord with
  | 1%nat => qabs (qsum (map qabs col) - 1) < eps \/ qabs (qsum (map qabs col)) < norm_eps
  | _ => let s := qsum (map (fun x => x * x) col) in
         (s < (1 + eps) * (1 + eps) /\ (1 - eps < 0 \/ (1 - eps) * (1 - eps) < s)) \/ s < norm_eps * norm_eps
  end.
Lemma norm_ok_spec ord col eps : norm_ok ord col eps = true <-> norm_spec ord col eps.
Proof. unfold norm_ok, norm_spec. destruct ord as [|[|ord]]; cbv zeta;
  rewrite ?orb_true_iff, ?andb_true_iff, ?orb_true_iff, ?qlt_true; tauto. Qed.

(* the comparison of squares is the comparison of the Euclidean norm: for ANY
   r >= 0 with r * r == s (the square root tf.norm computes) *)
Lemma l2_check_meaning r s eps : 0 <= r -> r * r == s -> 0 <= eps ->
  (qabs (r - 1) < eps <-> s < (1 + eps) * (1 + eps) /\ (1 - eps < 0 \/ (1 - eps) * (1 - eps) < s)).
Proof. intros Hr Hs He. rewrite qabs_lt. split.
  - intros [H1 H2]. split.
    + nra.
    + destruct (Qlt_le_dec (1 - eps) 0) as [Hn|Hn]; [left; exact Hn|right; nra].
  - intros [H1 H2]. split.
    + destruct H2 as [H2|H2]; [lra|]. destruct (Qlt_le_dec (- eps) (r - 1)) as [G|G]; [exact G|]. exfalso. nra.
    + destruct (Qlt_le_dec (r - 1) eps) as [G|G]; [exact G|]. exfalso. nra. Qed.
Lemma l2_zero_meaning r s ne : 0 <= r -> r * r == s -> 0 < ne -> (qabs r < ne <-> s < ne * ne).
Proof. intros Hr Hs Hn. rewrite qabs_lt. split.
  - intros [H1 H2]. nra.
  - intros H. split; [lra|]. destruct (Qlt_le_dec r ne) as [G|G]; [exact G|]. exfalso. nra. Qed.

Definition lin_feasible (c : lin_acfg) (K : list (list Q)) (eps : Q) : Prop :=
  (forall i u, (i < length K)%nat -> (u < li_units c)%nat ->
     - eps <= kat K i u * inject_Z (nth i (li_monos c) 0%Z)) /\
  (forall d w u, In (d, w) (li_mdom c) -> (u < li_units c)%nat -> - eps <= kat K d u - kat K w u) /\
  (forall d w u, In (d, w) (li_rdom c) -> (u < li_units c)%nat ->
     - eps <= lin_scaling c d * kat K d u - lin_scaling c w * kat K w u) /\
  (forall ord u, li_norm c = Some ord -> (u < li_units c)%nat -> norm_spec ord (unit_col K u) eps).

Lemma nth_column_kat u (K : list (list Q)) i : nth i (column u K) 0 = kat K i u.
Proof. apply nth_column. Qed.

Lemma any_nonzero_false ms i : any_nonzero ms = false -> nth i ms 0%Z = 0%Z.
Proof. unfold any_nonzero. intros H. destruct (Nat.ltb_spec i (length ms)) as [Hi|Hi]; [|apply nth_overflow, Hi].
  destruct (Z.eqb_spec (nth i ms 0%Z) 0) as [E|E]; [exact E|]. exfalso. apply not_true_iff_false in H. apply H, existsb_exists.
  exists (nth i ms 0%Z). split; [apply nth_In, Hi|]. apply negb_true_iff, Z.eqb_neq, E. Qed.

Lemma match_nil_forallb {A} (f : A -> bool) l : match l with [] => true | _ => forallb f l end = forallb f l.
Proof. destruct l; reflexivity. Qed.

Theorem lin_exact c K eps : 0 <= eps -> (assert_linear c K eps = true <-> lin_feasible c K eps).
Proof. intros He. assert (He' : - eps <= 0) by lra.
  unfold assert_linear, lin_feasible. rewrite match_nil_forallb, !andb_true_iff, !and_assoc.
  apply and_iff; [|apply and_iff; [|apply and_iff]].
  - unfold assert_lin_mono. destruct (any_nonzero (li_monos c)) eqn:E.
    + rewrite rmin_ge_iff, all_seq_seq by (intros _; exact He'). reflexivity.
    + split; [|reflexivity]. intros _ i u _ _. rewrite (any_nonzero_false _ i E). change (inject_Z 0) with 0. lra.
  - apply forallb_pairs_units. intros d w. apply rmin_ge_units, He'.
  - apply forallb_pairs_units. intros d w. apply rmin_ge_units, He'.
  - apply match_some_units. intros ord. apply forallb_seq_iff. intros u _. apply norm_ok_spec. Qed.

Theorem lin_sound c K eps : 0 <= eps -> ~ lin_feasible c K eps -> assert_linear c K eps = false.
Proof. intros He Hn. apply not_true_is_false. intros H. apply Hn. apply lin_exact; assumption. Qed.
Theorem lin_complete c K eps : 0 <= eps -> lin_feasible c K eps -> assert_linear c K eps = true.
Proof. intros He H. apply lin_exact; assumption. Qed.

Definition cat_feasible (c : cat_acfg) (K : list (list Q)) (eps : Q) : Prop :=
  (forall lo b u, ca_min c = Some lo -> (b < length K)%nat -> (u < ca_units c)%nat -> lo - eps <= kat K b u) /\
  (forall hi b u, ca_max c = Some hi -> (b < length K)%nat -> (u < ca_units c)%nat -> kat K b u <= hi + eps) /\
  (forall i j u, In (i, j) (ca_pairs c) -> (u < ca_units c)%nat -> kat K i u - kat K j u <= eps).

Lemma all_entries_iff units K (P : Q -> Prop) :
  (forall x, In x (all_entries units K) -> P x) <-> forall b u, (b < length K)%nat -> (u < units)%nat -> P (kat K b u).
Proof. unfold all_entries, kat, krow. rewrite all_flat_seq. split.
  - intros H b u Hb. apply H, nth_In, Hb.
  - intros H r u Hr. apply (In_nth _ _ []) in Hr. destruct Hr as [b [Hb <-]]. apply H, Hb. Qed.
Lemma all_entries_nonempty units K : K <> [] -> (1 <= units)%nat -> all_entries units K <> [].
Proof. intros HK Hu E. apply (proj1 (all_entries_iff units K (fun _ => False))) with (b := 0%nat) (u := 0%nat).
  - rewrite E. intros x [].
  - destruct K; [congruence|cbn; lia].
  - exact Hu. Qed.

Theorem cat_exact c K eps : K <> [] -> (1 <= ca_units c)%nat -> 0 <= eps ->
  (assert_categorical c K eps = true <-> cat_feasible c K eps).
Proof. intros HK Hu1 He. pose proof (all_entries_nonempty _ _ HK Hu1) as Hne.
  unfold assert_categorical, cat_feasible. rewrite !andb_true_iff, and_assoc. apply and_iff; [|apply and_iff].
  - destruct (ca_min c) as [lo|]; [|split; [intros _ lo b u E; discriminate|reflexivity]].
    rewrite rmin_ge_iff, all_entries_iff by (intros E; destruct (Hne E)).
    split; [intros H lo' b u E; injection E as <-; apply H|intros H b u; apply H; reflexivity].
  - destruct (ca_max c) as [hi|]; [|split; [intros _ hi b u E; discriminate|reflexivity]].
    rewrite rmax_le_iff, all_entries_iff by (intros E; destruct (Hne E)).
    split; [intros H hi' b u E; injection E as <-; apply H|intros H b u; apply H; reflexivity].
  - destruct (ca_pairs c) as [|p ps]; [split; [intros _ i j u []|reflexivity]|].
    rewrite rmax_le_iff, all_flat_seq by (intros _; exact He).
    split; [intros H i j u; apply (H (i, j))|intros H [i j] u; apply H]. Qed.
Theorem cat_sound c K eps : K <> [] -> (1 <= ca_units c)%nat -> 0 <= eps ->
  ~ cat_feasible c K eps -> assert_categorical c K eps = false.
Proof. intros HK Hu He Hn. apply not_true_is_false. intros H. apply Hn. apply cat_exact; assumption. Qed.
Theorem cat_complete c K eps : K <> [] -> (1 <= ca_units c)%nat -> 0 <= eps ->
  cat_feasible c K eps -> assert_categorical c K eps = true.
Proof. intros HK Hu He H. apply cat_exact; assumption. Qed.
(* one violated ordering pair is enough, whichever pair and unit (defect D9, fixed) *)
Corollary cat_sound_pair c K eps i j u : K <> [] -> (1 <= ca_units c)%nat -> 0 <= eps ->
  In (i, j) (ca_pairs c) -> (u < ca_units c)%nat -> eps < kat K i u - kat K j u -> assert_categorical c K eps = false.
Proof. intros HK Hu1 He Hin Hu Hv. apply cat_sound; try assumption. intros (_ & _ & H). specialize (H i j u Hin Hu). lra. Qed.

Lemma qprod_nonneg {A} (g : A -> Q) ds : (forall d, In d ds -> 0 <= g d) -> 0 <= qprod (map g ds).
Proof. induction ds as [|d ds IH]; intros H; cbn [map qprod]. lra.
  apply qmul_nonneg. apply H; left; reflexivity. apply IH. intros; apply H; right; assumption. Qed.
Lemma qprod_le {A} (g h : A -> Q) ds : (forall d, In d ds -> 0 <= g d /\ g d <= h d) ->
  qprod (map g ds) <= qprod (map h ds).
Proof. induction ds as [|d ds IH]; intros H; cbn [map qprod]. lra.
  destruct (H d (or_introl eq_refl)) as [H0 H1].
  assert (IH' : qprod (map g ds) <= qprod (map h ds)) by (apply IH; intros; apply H; right; assumption).
  assert (P0 : 0 <= qprod (map g ds)) by (apply qprod_nonneg; intros d' Hd'; apply (H d'); right; assumption).
  pose proof (qmul_le_l (g d) _ _ H0 IH').
  pose proof (qmul_nonneg (h d - g d) (qprod (map h ds)) ltac:(lra) ltac:(lra)). lra. Qed.

(* finite choice of one maximising keypoint per dimension *)
Lemma choose_keypoints (f : nat -> nat -> Q) L : (1 <= L)%nat -> forall n,
  exists v : nat -> nat, forall d, (d < n)%nat -> (v d < L)%nat /\ qmaxl (map (f d) (seq 0 L)) = f d (v d).
Proof. intros HL. induction n as [|n [v Hv]]. exists (fun _ => 0%nat). intros d Hd; lia.
  assert (Hin : In (qmaxl (map (f n) (seq 0 L))) (map (f n) (seq 0 L))).
  { apply qmaxl_in. destruct L; [lia|discriminate]. }
  apply in_map_iff in Hin. destruct Hin as [k [Ek Hk]]. apply in_seq in Hk.
  exists (fun d => if (d =? n)%nat then k else v d). intros d Hd.
  destruct (Nat.eqb_spec d n) as [->|Hne]. split; [lia|symmetry; exact Ek]. apply Hv. lia. Qed.

Definition kfl_feasible (c : kfl_acfg) (Sc : list (list Q)) (K : tens) (eps : Q) : Prop :=
  (* sign-aware monotonicity between consecutive keypoints, every unit and term *)
  (forall d j u t, (d < Nat.min (length (k_monos c)) (k_dims c))%nat -> nth d (k_monos c) 0%Z <> 0%Z ->
     (S j < k_L c)%nat -> (u < k_units c)%nat -> (t < k_terms c)%nat ->
     - eps <= qsign (sc_at Sc u t) * K [S j; u; d; t] - qsign (sc_at Sc u t) * K [j; u; d; t]) /\
  match k_min c, k_max c with
  | None, None => True
  | Some lo, Some hi =>
    (* every term of every unit is at most 1 + eps in absolute value at EVERY lattice vertex v *)
    (forall u t (v : nat -> nat), (u < k_units c)%nat -> (t < k_terms c)%nat ->
       (forall d, (d < k_dims c)%nat -> (v d < k_L c)%nat) ->
       qprod (map (fun d => qabs (K [v d; u; d; t])) (seq 0 (k_dims c))) <= 1 + eps) /\
    (forall u t, (u < k_units c)%nat -> (t < k_terms c)%nat ->
       - ((hi - lo) * (1#2)) <= sc_at Sc u t /\ sc_at Sc u t <= (hi - lo) * (1#2))
  | Some _, None =>
    (forall i, valid (k_shape c) i -> 0 <= K i) /\
    (forall u t, (u < k_units c)%nat -> (t < k_terms c)%nat -> 0 <= sc_at Sc u t)
  | None, Some _ =>
    (forall i, valid (k_shape c) i -> 0 <= K i) /\
    (forall u t, (u < k_units c)%nat -> (t < k_terms c)%nat -> sc_at Sc u t <= 0)
  end.

Lemma kfl_max_product_spec c K u t eps : (1 <= k_L c)%nat ->
  (kfl_max_product c K u t <= 1 + eps <->
   forall v : nat -> nat, (forall d, (d < k_dims c)%nat -> (v d < k_L c)%nat) ->
     qprod (map (fun d => qabs (K [v d; u; d; t])) (seq 0 (k_dims c))) <= 1 + eps).
Proof. intros HL. unfold kfl_max_product. split.
  - intros H v Hv. eapply Qle_trans; [|exact H]. apply qprod_le. intros d Hd. apply in_seq in Hd. split.
    apply qabs_nonneg. apply qmaxl_ge. apply (in_map (fun k => qabs (K [k; u; d; t]))). apply in_seq. specialize (Hv d ltac:(lia)). lia.
  - intros H. destruct (choose_keypoints (fun d k => qabs (K [k; u; d; t])) (k_L c) HL (k_dims c)) as [v Hv].
    specialize (H v (fun d Hd => proj1 (Hv d Hd))).
    assert (E : map (fun d => qmaxl (map (fun k => qabs (K [k; u; d; t])) (seq 0 (k_L c)))) (seq 0 (k_dims c)) =
                map (fun d => qabs (K [v d; u; d; t])) (seq 0 (k_dims c))).
    { apply map_ext_in. intros d Hd. apply in_seq in Hd. exact (proj2 (Hv d ltac:(lia))). }
    rewrite E. exact H. Qed.

Lemma qsign_pos x : 0 < x -> qsign x = 1.
Proof. intros H. unfold qsign. apply qlt_true in H. rewrite H. reflexivity. Qed.
Lemma qsign_neg x : x < 0 -> qsign x = - (1).
Proof. intros H. unfold qsign. assert (E : qlt 0 x = false) by (apply qlt_false; lra). apply qlt_true in H. rewrite E, H. reflexivity. Qed.

Lemma kfl_mono_iff c Sc K eps : 0 <= eps ->
  (assert_kfl_mono c Sc eps K = true <->
   forall d j u t, (d < Nat.min (length (k_monos c)) (k_dims c))%nat -> nth d (k_monos c) 0%Z <> 0%Z ->
     (S j < k_L c)%nat -> (u < k_units c)%nat -> (t < k_terms c)%nat ->
     - eps <= qsign (sc_at Sc u t) * K [S j; u; d; t] - qsign (sc_at Sc u t) * K [j; u; d; t]).
Proof. intros He. unfold assert_kfl_mono.
  destruct (k_monos c) as [|m ms] eqn:Em; [split; [intros _ d j u t Hd; cbn in Hd; lia|reflexivity]|].
  cbv iota. rewrite <- Em, forallb_forall. split.
  - intros H d j u t Hd Hm Hj Hu Ht. specialize (H d ltac:(apply in_seq; lia)).
    destruct (Z.eqb_spec (nth d (k_monos c) 0%Z) 0) as [E|E]; [congruence|].
    rewrite forallb_forall in H. specialize (H j ltac:(apply in_seq; lia)).
    rewrite rmin_ge_iff, all_seq_seq in H by (intros _; lra). exact (H u t Hu Ht).
  - intros H d Hd. apply in_seq in Hd. destruct (Z.eqb_spec (nth d (k_monos c) 0%Z) 0) as [E|E]; [reflexivity|].
    apply forallb_forall. intros j Hj. apply in_seq in Hj. rewrite rmin_ge_iff, all_seq_seq by (intros _; lra).
    intros u t Hu Ht. apply H; (assumption || lia). Qed.

Lemma kfl_entries_nonneg c K :
  forallb (fun w => negb (qlt w 0)) (kfl_all_entries c K) = true <-> forall i, valid (k_shape c) i -> 0 <= K i.
Proof. unfold kfl_all_entries. rewrite forallb_forall, all_map.
  split; intros H i Hi; apply nqlt_true, H, all_idx_valid, Hi. Qed.

Lemma kfl_scales_iff c Sc (f : Q -> bool) (P : nat -> nat -> Prop) : (forall u t, f (sc_at Sc u t) = true <-> P u t) ->
  (forallb f (kfl_all_scales c Sc) = true <-> forall u t, (u < k_units c)%nat -> (t < k_terms c)%nat -> P u t).
Proof. intros H. unfold kfl_all_scales. rewrite forallb_forall, all_seq_seq.
  split; intros G u t Hu Ht; apply H, G; assumption. Qed.

Lemma kfl_products_iff c K eps : (1 <= k_L c)%nat ->
  (forallb (fun t => forallb (fun u => qle (- eps) (1 - kfl_max_product c K u t)) (seq 0 (k_units c)))
           (seq 0 (k_terms c)) = true <->
   forall u t (v : nat -> nat), (u < k_units c)%nat -> (t < k_terms c)%nat ->
     (forall d, (d < k_dims c)%nat -> (v d < k_L c)%nat) ->
     qprod (map (fun d => qabs (K [v d; u; d; t])) (seq 0 (k_dims c))) <= 1 + eps).
Proof. intros HL.
  rewrite (forallb_seq_iff _ (fun t => forall u, (u < k_units c)%nat -> kfl_max_product c K u t <= 1 + eps)).
  - split.
    + intros H u t v Hu Ht. apply (kfl_max_product_spec c K u t eps HL), H; assumption.
    + intros H t Ht u Hu. apply (kfl_max_product_spec c K u t eps HL). intros v. apply H; assumption.
  - intros t _. apply forallb_seq_iff. intros u _. rewrite qle_true. split; lra. Qed.

Theorem kfl_exact c Sc K eps : (1 <= k_L c)%nat -> 0 <= eps ->
  (assert_kfl c Sc K eps = true <-> kfl_feasible c Sc K eps).
Proof. intros HL He. unfold assert_kfl, kfl_feasible, assert_kfl_bounds. rewrite andb_true_iff.
  apply and_iff; [apply kfl_mono_iff, He|]. destruct (k_min c) as [lo|], (k_max c) as [hi|].
  - rewrite andb_true_iff. apply and_iff; [apply kfl_products_iff, HL|]. apply kfl_scales_iff. intros u t.
    rewrite andb_true_iff, !nqlt_true. reflexivity.
  - rewrite andb_true_iff. apply and_iff; [apply kfl_entries_nonneg|]. apply kfl_scales_iff. intros u t. apply nqlt_true.
  - rewrite andb_true_iff. apply and_iff; [apply kfl_entries_nonneg|]. apply kfl_scales_iff. intros u t. apply nqlt_true.
  - split; [intros _; exact I|reflexivity]. Qed.

Theorem kfl_sound c Sc K eps : (1 <= k_L c)%nat -> 0 <= eps -> ~ kfl_feasible c Sc K eps -> assert_kfl c Sc K eps = false.
Proof. intros HL He Hn. apply not_true_is_false. intros H. apply Hn. apply kfl_exact; assumption. Qed.
Theorem kfl_complete c Sc K eps : (1 <= k_L c)%nat -> 0 <= eps -> kfl_feasible c Sc K eps -> assert_kfl c Sc K eps = true.
Proof. intros HL He H. apply kfl_exact; assumption. Qed.

(* Examples: the hypotheses of every implication are satisfiable *)
(* 2x2 lattice, 2 units, dim 0 monotone, Edgeworth (0,1,+), trapezoid (0,1,+), monotonic dominance is impossible
   with one monotone dim, joint monotonicity (0,1), bounds [0,4] *)
Definition ex_la : la_cfg := mkLA [2%nat; 2%nat] 2 [1%Z; 0%Z] [(0%nat, 1%nat, 1%Z)] [(0%nat, 1%nat, 1%Z)] [] [] [(0%nat, 1%nat)] (Some 0) (Some 4).
Definition ex_la2 : la_cfg := mkLA [2%nat; 3%nat] 1 [1%Z; 1%Z] [] [] [(0%nat, 1%nat)] [(0%nat, 1%nat)] [] None None.
(* flat kernels [vertex][unit], row-major: vertices (0,0),(0,1),(1,0),(1,1) *)
Definition ex_w_ok : list Q := [1; 1;  1; 1;  2; 2;  3; 3].
Definition ex_w_bad : list Q := [1; 1;  1; 1;  2; 2;  3; 1].   (* unit 1: Edgeworth square violated by 1 *)
Example ex_la_ok : la_ok ex_la.
Proof. split; [|split; [|split]].
  - intros s Hs; cbn in Hs; destruct Hs as [<-|[<-|[<-|[]]]]; lia.
  - cbn. lia.
  - intros m cd dir Hin; cbn in Hin; destruct Hin as [E|[E|[]]]; injection E as <- <- <-; (split; [discriminate|left; reflexivity]).
  - intros p q Hin; cbn in Hin; destruct Hin as [E|[]]. injection E as <- <-. discriminate. Qed.
Example ex_la2_ok : la_ok ex_la2.
Proof. split; [|split; [|split]].
  - intros s Hs; cbn in Hs; destruct Hs as [<-|[<-|[<-|[]]]]; lia.
  - cbn. lia.
  - intros m cd dir Hin; cbn in Hin; destruct Hin.
  - intros p q Hin; cbn in Hin; destruct Hin as [E|[E|[]]]; injection E as <- <-; discriminate. Qed.
Example ex_lattice_complete_hyps :
  la_ok ex_la /\ 0 <= (1#100) /\ forall q, covered ex_la q -> - (1#100) <= slack ex_la (of_list (a_shape ex_la) ex_w_ok) q.
Proof. split; [exact ex_la_ok|]. split; [lra|]. apply (lattice_passes_iff _ _ _ ex_la_ok). vm_compute. reflexivity. Qed.
Example ex_lattice_sound_hyps :
  la_ok ex_la /\ covered ex_la (IEdge (0%nat, 1%nat, 1%Z) [0%nat; 0%nat; 1%nat] 0 0) /\
  slack ex_la (of_list (a_shape ex_la) ex_w_bad) (IEdge (0%nat, 1%nat, 1%Z) [0%nat; 0%nat; 1%nat] 0 0) < - (1#100) /\
  assert_lattice_flat ex_la ex_w_bad (1#100) = false /\ assert_lattice_flat ex_la ex_w_ok (1#100) = true.
Proof. split; [exact ex_la_ok|]. split.
  - cbn. split; [left; reflexivity|]. split; [repeat constructor|]. split; lia.
  - split; [vm_compute; reflexivity|]. split; vm_compute; reflexivity. Qed.
Example ex_lattice_dominance :
  assert_lattice_flat ex_la2 [0; 0; 1; 2; 3; 3] 0 = true /\      (* dominant dim 0 steeper and wider than dim 1 *)
  assert_lattice_flat ex_la2 [0; 2; 4; 1; 3; 5] 0 = false.       (* weak dim steeper *)
Proof. split; vm_compute; reflexivity. Qed.

Definition ex_lat_cfg : lat_cfg := mkLat [2%nat; 2%nat] 1 [1%Z; 0%Z] [(0%nat, 1%nat, 1%Z)] [] (Some 0) None.
Example ex_lat_cfg_valid : cfg_valid ex_lat_cfg.
Proof. apply cfg_validb_ok. reflexivity. Qed.
Example ex_feasible_kernel : feasible_kernel ex_lat_cfg (of_list (l_shape ex_lat_cfg) [1; 1; 2; 3]).
Proof. apply (assert_zero_iff_feasible ex_lat_cfg _ ex_lat_cfg_valid). vm_compute. reflexivity. Qed.

(* PWL: 3 keypoints, 2 units, increasing, bounds [0, 2] clamped below *)
Definition ex_pa : pwl_acfg := mkPA 2 1 (Some 0) (Some 2) true false.
Example ex_pwl_complete_hyps : [[0; 0]; [1; (1#2)]; [2; 1]] <> [] /\ 0 <= (1#100) /\ pwl_feasible ex_pa [[0; 0]; [1; (1#2)]; [2; 1]] (1#100).
Proof. split; [discriminate|]. split; [lra|]. apply pwl_exact; [discriminate|lra|]. vm_compute. reflexivity. Qed.
Example ex_pwl_sound_hyps : (* unit 1 does not reach output_min although unit 0 does *)
  pa_min ex_pa = Some 0 /\ pa_clamp_min ex_pa = true /\ (1 < pa_units ex_pa)%nat /\
  (forall k, (k < 3)%nat -> 0 + (1#100) < out_at [[0; (1#2)]; [1; 1]; [2; 2]] k 1) /\
  assert_pwl_outputs ex_pa [[0; (1#2)]; [1; 1]; [2; 2]] (1#100) = false.
Proof. split; [reflexivity|]. split; [reflexivity|]. split; [cbn; lia|]. split.
  - intros k Hk. destruct k as [|[|[|k]]]; try lia; vm_compute; reflexivity.
  - vm_compute. reflexivity. Qed.
Example ex_pwl_layer : (* kernel = bias row + heights; the outputs are the prefix sums *)
  assert_pwl_layer (mkPL ex_pa false (Some [1; (5#2)])) [[0; 0]; [1; (1#2)]; [1; (1#2)]] (1#100) = false /\  (* missing output 5/2 > 2 *)
  assert_pwl_layer (mkPL ex_pa false (Some [1; 2])) [[0; 0]; [1; (1#2)]; [1; (1#2)]] (1#100) = true.
Proof. split; vm_compute; reflexivity. Qed.

(* Linear: 3 inputs, 2 units; monotone +, +, 0; input 0 dominates input 1 (monotonic and range); L1 norm *)
Definition ex_lin : lin_acfg := mkLinA 2 [1%Z; 1%Z; 0%Z] [(0%nat, 1%nat)] [(0%nat, 1%nat)] [Some 0; Some 0; None] [Some 2; Some 1; None] (Some 1%nat).
Example ex_lin_complete_hyps : 0 <= (1#1000) /\ lin_feasible ex_lin [[(1#2); (1#2)]; [(1#4); (1#2)]; [(1#4); 0]] (1#1000).
Proof. split; [lra|]. apply lin_exact; [lra|]. vm_compute. reflexivity. Qed.
Example ex_lin_sound : (* unit 1 has L1 norm 3/2 *)
  assert_linear ex_lin [[(1#2); (1#2)]; [(1#4); (1#2)]; [(1#4); (1#2)]] (1#1000) = false /\
  ~ lin_feasible ex_lin [[(1#2); (1#2)]; [(1#4); (1#2)]; [(1#4); (1#2)]] (1#1000).
Proof. assert (E : assert_linear ex_lin [[(1#2); (1#2)]; [(1#4); (1#2)]; [(1#4); (1#2)]] (1#1000) = false) by (vm_compute; reflexivity).
  split; [exact E|]. intros H. apply (lin_exact ex_lin _ (1#1000) ltac:(lra)) in H. congruence. Qed.
Example ex_l2_meaning : 0 <= (3#5) + (2#5) /\ ((3#5) + (2#5)) * ((3#5) + (2#5)) == 1 /\ 0 <= (1#10).
Proof. split; [lra|]. split; [reflexivity|lra]. Qed.

(* Categorical: defect D9's witness: pair (0,1) in order, pair (1,2) violated *)
Definition ex_cat : cat_acfg := mkCatA 1 None None [(0%nat, 1%nat); (1%nat, 2%nat)].
Example ex_cat_sound_hyps : [[0]; [2]; [1]] <> [] /\ (1 <= ca_units ex_cat)%nat /\ 0 <= (1#1000000) /\
  In (1%nat, 2%nat) (ca_pairs ex_cat) /\ (0 < ca_units ex_cat)%nat /\ (1#1000000) < kat [[0]; [2]; [1]] 1 0 - kat [[0]; [2]; [1]] 2 0.
Proof. split; [discriminate|]. split; [cbn; lia|]. split; [lra|]. split; [right; left; reflexivity|]. split; [cbn; lia|].
  vm_compute. reflexivity. Qed.
Example ex_cat_complete_hyps : cat_feasible ex_cat [[0]; [1]; [2]] (1#1000000).
Proof. apply cat_exact; [discriminate|cbn; lia|lra|]. vm_compute. reflexivity. Qed.

(* KFL: L = 2, 1 unit, 2 dims, 2 terms (scales +1, -1), both dims monotone, bounds [0, 2] *)
Definition ex_kfl : kfl_acfg := mkKA 2 1 2 2 [1%Z; 1%Z] (Some 0) (Some 2).
(* flat kernel [k][d][t] *)
Example ex_kfl_complete_hyps : (1 <= k_L ex_kfl)%nat /\ 0 <= (1#100) /\
  kfl_feasible ex_kfl [[1; - (1)]] (of_list (k_shape ex_kfl) [0; 1;  (1#2); 1;   1; 0;  1; (1#2)]) (1#100).
Proof. split; [cbn; lia|]. split; [lra|]. apply kfl_exact; [cbn; lia|lra|]. vm_compute. reflexivity. Qed.
Example ex_kfl_sound : (* term 1 has a negative scale, so its weights must DEcrease: increasing ones fail *)
  assert_kfl_flat ex_kfl [[1; - (1)]] [0; 0;  (1#2); (1#2);   1; 1;  1; 1] (1#100) = false /\
  (* product of the per-dimension maxima 2 * 1 > 1 *)
  assert_kfl_flat ex_kfl [[1; - (1)]] [0; 1;  (1#2); 1;   2; 0;  1; (1#2)] (1#100) = false /\
  (* scale outside +-(max - min)/2 = +-1, no eps *)
  assert_kfl_flat ex_kfl [[1; - (201#200)]] [0; 1;  (1#2); 1;   1; 0;  1; (1#2)] (1#100) = false.
Proof. repeat split; vm_compute; reflexivity. Qed.
