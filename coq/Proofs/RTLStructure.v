(* Lemmas about Model/RTLStructure.v.  The multiset of a list is handled as
   its counts [countp p l] for every predicate p: shuffles, tiling, cutting
   into lattices and the swap loop keep them ([same_shape]), and the usage of
   an input index is one such count ([usage_split]). *)
From Coq Require Import Permutation.
From TFL Require Import Base.Lists Model.RTLStructure.
Open Scope nat_scope.

Definition countp {A} (p : A -> bool) (l : list A) : nat := length (filter p l).
Definition b2n (b : bool) : nat := if b then 1 else 0.
Arguments countp : simpl never.

Lemma countp_cons {A} (p : A -> bool) x l : countp p (x :: l) = b2n (p x) + countp p l.
Proof. unfold countp; cbn. destruct (p x); reflexivity. Qed.
Lemma countp_app {A} (p : A -> bool) a b : countp p (a ++ b) = countp p a + countp p b.
Proof. unfold countp. rewrite filter_app, app_length. reflexivity. Qed.
Lemma countp_perm {A} (p : A -> bool) {a b} : Permutation a b -> countp p a = countp p b.
Proof. induction 1; rewrite ?countp_cons; lia. Qed.
Lemma countp_concat {A} (p : A -> bool) ls : countp p (concat ls) = list_sum (map (countp p) ls).
Proof. induction ls as [|l ls IH]; cbn; [reflexivity|]. rewrite countp_app, IH. reflexivity. Qed.
Lemma countp_firstn_le {A} (p : A -> bool) k l : countp p (firstn k l) <= countp p l.
Proof. revert k; induction l as [|x l IH]; intros [|k]; cbn [firstn]; try apply Nat.le_0_l.
  rewrite !countp_cons. specialize (IH k). lia. Qed.
Lemma countp_pos_in {A} (p : A -> bool) l : 0 < countp p l -> exists x, In x l /\ p x = true.
Proof. induction l as [|x l IH]; [unfold countp; cbn; lia|]. rewrite countp_cons. destruct (p x) eqn:E.
  - intros _. exists x. split; [left; reflexivity|exact E].
  - intros H. destruct (IH H) as [y [Hy Py]]. exists y. split; [right; exact Hy|exact Py]. Qed.
Lemma countp_in_pos {A} (p : A -> bool) l x : In x l -> p x = true -> 0 < countp p l.
Proof. induction l as [|y l IH]; cbn; [tauto|]. rewrite countp_cons. intros [->|H] Px.
  - rewrite Px. apply Nat.lt_0_succ.
  - specialize (IH H Px). lia. Qed.
Lemma countp_map {A B} (f : A -> B) (p : B -> bool) l : countp p (map f l) = countp (fun x => p (f x)) l.
Proof. induction l as [|x l IH]; [reflexivity|]. cbn [map]. rewrite !countp_cons, IH. reflexivity. Qed.
Lemma countp_count_occ l i : countp (Nat.eqb i) l = count_occ Nat.eq_dec l i.
Proof. induction l as [|x l IH]; [reflexivity|]. rewrite countp_cons. cbn.
  destruct (Nat.eq_dec x i) as [->|N]. rewrite Nat.eqb_refl, IH; reflexivity.
  destruct (Nat.eqb_spec i x); [congruence|]. cbn. exact IH. Qed.
Lemma countp_ext {A} (p q : A -> bool) l : (forall x, p x = q x) -> countp p l = countp q l.
Proof. intros E. induction l as [|x l IH]; [reflexivity|]. rewrite !countp_cons, E, IH. reflexivity. Qed.

Lemma countp_seq i s n : countp (Nat.eqb i) (seq s n) = b2n ((s <=? i) && (i <? s + n)).
Proof. rewrite countp_count_occ.
  destruct (Nat.leb_spec s i), (Nat.ltb_spec i (s + n)); cbn [andb b2n].
  (* outside [s, s+n) i does not occur; inside it occurs once, seq having no repeats *)
  2-4: apply count_occ_not_In; rewrite in_seq; lia.
  apply NoDup_count_occ'; [apply seq_NoDup|apply in_seq; lia]. Qed.

Lemma set_at_length {A} i (v : A) l : length (set_at i v l) = length l.
Proof. revert i; induction l as [|x l IH]; intros [|i]; cbn; auto. Qed.
Lemma nth_set_at_same {A} i (v d : A) l : i < length l -> nth i (set_at i v l) d = v.
Proof. revert i; induction l as [|x l IH]; intros [|i] H; cbn in *; try lia; auto. apply IH; lia. Qed.
Lemma nth_set_at_other {A} i j (v d : A) l : i <> j -> nth j (set_at i v l) d = nth j l d.
Proof. revert i j; induction l as [|x l IH]; intros [|i] [|j] H; cbn; auto; try lia. Qed.
Lemma countp_set_at {A} (p : A -> bool) i v d l : i < length l ->
  countp p (set_at i v l) + b2n (p (nth i l d)) = countp p l + b2n (p v).
Proof. revert i; induction l as [|x l IH]; intros [|i] H; cbn in *; try lia; rewrite !countp_cons.
  lia. specialize (IH i ltac:(lia)). lia. Qed.
Lemma map_length_set_at {A} i (v : list A) st : length v = length (nth i st []) ->
  map (@length A) (set_at i v st) = map (@length A) st.
Proof. revert i; induction st as [|x st IH]; intros [|i] H; cbn in *; auto; congruence || (f_equal; auto). Qed.
(* updating one row of a list of rows *)
Lemma csum_set_at {A} (p : A -> bool) a v (st : list (list A)) : a < length st ->
  countp p (concat (set_at a v st)) + countp p (nth a st []) = countp p (concat st) + countp p v.
Proof. revert a; induction st as [|x st IH]; intros [|a] H; cbn in *; try lia; rewrite !countp_app.
  lia. specialize (IH a ltac:(lia)). lia. Qed.
Lemma in_set_at {A} i (v : A) l x : In x (set_at i v l) -> x = v \/ In x l.
Proof. revert i; induction l as [|y l IH]; intros [|i]; cbn; try tauto.
  intros [H|H]; auto. intros [H|H]; auto. destruct (IH _ H); auto. Qed.

Lemma tile_length {A} (l : list A) k : length (tile l k) = k * length l.
Proof. induction k; cbn; [reflexivity|]. rewrite app_length, IHk. reflexivity. Qed.
Lemma countp_tile {A} (p : A -> bool) l k : countp p (tile l k) = k * countp p l.
Proof. induction k; cbn; [reflexivity|]. rewrite countp_app, IHk. reflexivity. Qed.
Lemma in_tile {A} (l : list A) k x : In x (tile l k) -> In x l.
Proof. induction k; cbn; [tauto|]. rewrite in_app_iff. tauto. Qed.
Lemma firstn_tile {A} (l : list A) q k r :
  firstn (q * length l + r) (tile l (q + k)) = tile l q ++ firstn r (tile l k).
Proof. induction q as [|q IH]; cbn [tile Nat.add Nat.mul]; [reflexivity|].
  replace (length l + q * length l + r) with (length l + (q * length l + r)) by lia.
  rewrite firstn_app_2, IH, app_assoc. reflexivity. Qed.

Lemma chunks_concat {A} rank num (l : list A) : length l = num * rank -> concat (chunks rank num l) = l.
Proof. revert l; induction num as [|n IH]; intros l H; cbn in *.
  destruct l; [reflexivity|discriminate].
  rewrite IH. apply firstn_skipn. rewrite skipn_length. lia. Qed.
Lemma chunks_lengths {A} rank num (l : list A) : length l = num * rank ->
  length (chunks rank num l) = num /\ Forall (fun c => length c = rank) (chunks rank num l).
Proof. revert l; induction num as [|n IH]; intros l H; cbn in *. split; constructor.
  destruct (IH (skipn rank l)) as [H1 H2]. rewrite skipn_length; lia.
  split. lia. constructor; [|exact H2]. rewrite firstn_length. lia. Qed.

Lemma flat_groups_idx mono sizes g i : map r_idx (flat_groups mono sizes g i) = seq i (list_sum sizes).
Proof. revert g i; induction sizes as [|s r IH]; intros g i; cbn; [reflexivity|].
  rewrite map_app, map_map, IH. cbn. rewrite map_add_seq, Nat.add_0_r, seq_app. reflexivity. Qed.
Lemma flat_groups_mono mono sizes g i r : In r (flat_groups mono sizes g i) -> r_mono r = mono.
Proof. revert g i; induction sizes as [|s rs IH]; intros g i; cbn; [tauto|].
  rewrite in_app_iff, in_map_iff. intros [[k [<- _]]|H]; [reflexivity|eauto]. Qed.
Lemma flat_groups_range mono sizes g i r : In r (flat_groups mono sizes g i) -> i <= r_idx r < i + list_sum sizes.
Proof. intros H. apply in_seq. rewrite <- (flat_groups_idx mono sizes g i). apply in_map. exact H. Qed.

Definition n_inc (x : rtl_input) : nat := list_sum (sizes_of (in_inc x)).
Definition n_inputs (x : rtl_input) : nat := list_sum (sizes_of (in_inc x)) + list_sum (sizes_of (in_unc x)).

Lemma flatten_idx x : map r_idx (flatten x) = seq 0 (n_inputs x).
Proof. unfold flatten, n_inputs. rewrite map_app, !flat_groups_idx, seq_app. reflexivity. Qed.
Lemma flatten_length x : length (flatten x) = n_inputs x.
Proof. rewrite <- (map_length r_idx), flatten_idx, seq_length. reflexivity. Qed.
Lemma flatten_mono x r : In r (flatten x) -> r_mono r = if r_idx r <? n_inc x then 1 else 0.
Proof. unfold flatten, n_inc. rewrite in_app_iff.
  intros [H|H]; rewrite (flat_groups_mono _ _ _ _ _ H); apply flat_groups_range in H.
  - destruct (Nat.ltb_spec (r_idx r) (list_sum (sizes_of (in_inc x)))); [reflexivity|lia].
  - destruct (Nat.ltb_spec (r_idx r) (list_sum (sizes_of (in_inc x)))); [lia|reflexivity]. Qed.
Lemma flatten_nth_idx x i : i < n_inputs x -> r_idx (nth i (flatten x) rin0) = i.
Proof. intros H. rewrite <- (map_nth r_idx), flatten_idx. cbn [r_idx rin0]. rewrite seq_nth by exact H. reflexivity. Qed.
(* the monotonicity under which index i was supplied: increasing inputs are
   the first n_inc flattened indices *)
Lemma input_mono_spec x i : i < n_inputs x -> input_mono x i = if i <? n_inc x then 1 else 0.
Proof. intros H. unfold input_mono.
  assert (Hin : In (nth i (flatten x) rin0) (flatten x)) by (apply nth_In; rewrite flatten_length; exact H).
  rewrite (flatten_mono _ _ Hin), flatten_nth_idx by exact H. reflexivity. Qed.
Lemma flatten_mono_input x r : In r (flatten x) -> r_mono r = input_mono x (r_idx r).
Proof. intros H.
  assert (Hi : In (r_idx r) (seq 0 (n_inputs x))) by (rewrite <- flatten_idx; apply in_map; exact H).
  apply in_seq in Hi. rewrite input_mono_spec by lia. apply flatten_mono; exact H. Qed.
Lemma flatten_count x i : countp (fun r => Nat.eqb i (r_idx r)) (flatten x) = b2n (i <? n_inputs x).
Proof. rewrite <- (countp_map r_idx (Nat.eqb i)), flatten_idx, countp_seq. reflexivity. Qed.

(* swap loops preserve row lengths and the multiset of all elements *)
Definition same_shape {A} (st0 st : list (list A)) : Prop :=
  map (@length A) st = map (@length A) st0 /\ forall p, countp p (concat st) = countp p (concat st0).

Lemma same_shape_refl {A} (st : list (list A)) : same_shape st st.
Proof. split; auto. Qed.
Lemma same_shape_trans {A} (a b c : list (list A)) : same_shape a b -> same_shape b c -> same_shape a c.
Proof. intros [H1 H2] [H3 H4]. split. congruence. intros p. rewrite H4, H2. reflexivity. Qed.
Lemma same_shape_length {A} {st0 st : list (list A)} : same_shape st0 st -> length st = length st0.
Proof. intros [H _]. rewrite <- (map_length (@length A) st), H, map_length. reflexivity. Qed.
Lemma same_shape_nth_length {A} {st0 st : list (list A)} a : same_shape st0 st -> length (nth a st []) = length (nth a st0 []).
Proof. intros [H _]. rewrite <- (map_nth (@length A)), H, map_nth. reflexivity. Qed.
Lemma same_shape_rows {A} {st0 st : list (list A)} {n} : same_shape st0 st ->
  Forall (fun l => length l = n) st0 -> forall l, In l st -> length l = n.
Proof. intros [Hm _] HF l Hl. apply (in_map (@length A)) in Hl. rewrite Hm in Hl. apply in_map_iff in Hl.
  destruct Hl as [l' [<- Hl']]. rewrite Forall_forall in HF. apply HF; exact Hl'. Qed.

(* only rows that exist have positions *)
Lemma row_pos_lt {A} (st : list (list A)) a i : i < length (nth a st []) -> a < length st.
Proof. intros H. destruct (Nat.lt_ge_cases a (length st)) as [Ha|Ha]; [exact Ha|]. rewrite nth_overflow in H by exact Ha. inversion H. Qed.

(* exchanging element i0 of row a with element i1 of row b *)
Lemma swap_rows_shape {A} (d : A) (st : list (list A)) a b i0 i1 :
  a <> b -> i0 < length (nth a st []) -> i1 < length (nth b st []) ->
  same_shape st (set_at a (set_at i0 (nth i1 (nth b st []) d) (nth a st []))
                        (set_at b (set_at i1 (nth i0 (nth a st []) d) (nth b st [])) st)).
Proof.
  intros Hab H0 H1. pose proof (row_pos_lt st a i0 H0) as Ha. pose proof (row_pos_lt st b i1 H1) as Hb.
  set (la := nth a st []) in *. set (lb := nth b st []) in *.
  set (f0 := nth i0 la d). set (f1 := nth i1 lb d).
  set (st1 := set_at b (set_at i1 f0 lb) st).
  assert (Hl1 : length st1 = length st) by apply set_at_length.
  assert (Hna : nth a st1 [] = la) by (unfold st1; rewrite nth_set_at_other by congruence; reflexivity).
  split.
  - rewrite map_length_set_at by (rewrite Hna, set_at_length; reflexivity).
    unfold st1. rewrite map_length_set_at by (rewrite set_at_length; reflexivity). reflexivity.
  - intros p.
    pose proof (csum_set_at p a (set_at i0 f1 la) st1 ltac:(lia)) as E1. rewrite Hna in E1.
    pose proof (csum_set_at p b (set_at i1 f0 lb) st Hb) as E2. fold lb st1 in E2.
    pose proof (countp_set_at p i0 f1 d la H0) as E3. fold f0 in E3.
    pose proof (countp_set_at p i1 f0 d lb H1) as E4. fold f1 in E4.
    lia.
Qed.

(* the scan over all positions (i0, i1) of rows a and b of a state whose rows
   are [rows s]: the shape is kept if every step keeps it *)
Lemma prod_scan_shape {A S} (rows : S -> list (list A)) (step : S -> nat * nat -> S) st0 a b acc :
  (forall s i0 i1, i0 < length (nth a (rows s) []) -> i1 < length (nth b (rows s) []) ->
     same_shape (rows s) (rows (step s (i0, i1)))) ->
  same_shape st0 (rows acc) ->
  same_shape st0 (rows (fold_left step (list_prod (seq 0 (length (nth a (rows acc) [])))
                                                   (seq 0 (length (nth b (rows acc) [])))) acc)).
Proof.
  intros Hstep Hacc. apply fold_left_inv with (P := fun s => same_shape st0 (rows s)); [exact Hacc|].
  intros s [i0 i1] Hq Hs. apply in_prod_iff in Hq. destruct Hq as [Hi0 Hi1]. apply in_seq in Hi0, Hi1.
  rewrite (same_shape_nth_length a Hacc), <- (same_shape_nth_length a Hs) in Hi0.
  rewrite (same_shape_nth_length b Hacc), <- (same_shape_nth_length b Hs) in Hi1.
  eapply same_shape_trans; [exact Hs|]. apply Hstep; lia.
Qed.

Lemma in_pairs a b n : In (a, b) (pairs n) -> a < b /\ b < n.
Proof. unfold pairs. rewrite in_flat_map. intros [a' [Ha' H]]. apply in_map_iff in H.
  destruct H as [b' [E Hb']]. inversion E; subst. apply in_seq in Ha', Hb'. lia. Qed.

Lemma try_swap_shape st a b i0 i1 :
  a <> b -> i0 < length (nth a st []) -> i1 < length (nth b st []) ->
  same_shape st (fst (try_swap st a b i0 i1)).
Proof.
  intros Hab H0 H1. unfold try_swap.
  destruct (_ =? _). apply same_shape_refl.
  destruct (_ && _ && _); [|apply same_shape_refl]. apply swap_rows_shape; assumption.
Qed.

Lemma pass_pair_shape st0 acc a b : In (a, b) (pairs (length st0)) ->
  same_shape st0 (fst acc) -> same_shape st0 (fst (pass_pair acc (a, b))).
Proof.
  intros Hab Hacc. apply in_pairs in Hab. apply (prod_scan_shape fst); [|exact Hacc].
  intros s i0 i1 H0 H1. unfold swap_step. cbn [fst snd].
  pose proof (try_swap_shape (fst s) a b i0 i1) as T.
  destruct (try_swap (fst s) a b i0 i1) as [st' c]. apply T; lia || assumption.
Qed.

Lemma swap_pass_shape st : same_shape st (fst (swap_pass st)).
Proof. unfold swap_pass.
  apply fold_left_inv with (P := fun acc => same_shape st (fst acc)). apply same_shape_refl.
  intros acc [a b] Hab Hs. apply pass_pair_shape; assumption. Qed.

Lemma swap_loop_shape fuel st : same_shape st (swap_loop fuel st).
Proof. revert st; induction fuel as [|f IH]; intros st; cbn. apply same_shape_refl.
  pose proof (swap_pass_shape st) as H. destruct (swap_pass st) as [st' ch]. cbn in H.
  destruct ch; [|exact H]. eapply same_shape_trans; [exact H|apply IH]. Qed.

(* membership follows from counting (decidable equality on rin) *)
Definition rin_eqb (x y : rin) : bool :=
  (r_mono x =? r_mono y) && (r_group x =? r_group y) && (r_idx x =? r_idx y).
Lemma rin_eqb_eq x y : rin_eqb x y = true <-> x = y.
Proof. unfold rin_eqb. rewrite !andb_true_iff, !Nat.eqb_eq. destruct x, y; cbn. split.
  intros [[-> ->] ->]; reflexivity. intros E; inversion E; auto. Qed.
Lemma countp_eq_in (l l' : list rin) : (forall p, countp p l' = countp p l) -> forall r, In r l' -> In r l.
Proof. intros H r Hr.
  assert (Hp : 0 < countp (rin_eqb r) l') by (eapply countp_in_pos; [exact Hr|apply rin_eqb_eq; reflexivity]).
  rewrite H in Hp. destruct (countp_pos_in _ _ Hp) as [y [Hy E]]. apply rin_eqb_eq in E. subst; exact Hy. Qed.

Lemma ins_mono_perm x l : Permutation (ins_mono x l) (x :: l).
Proof. induction l as [|y l IH]; cbn. reflexivity. destruct (_ <=? _). reflexivity.
  rewrite IH. apply perm_swap. Qed.
Lemma sort_mono_perm l : Permutation (sort_mono l) l.
Proof. induction l as [|x l IH]; cbn. reflexivity. rewrite ins_mono_perm, IH. reflexivity. Qed.
Lemma ins_item_perm e d : Permutation (ins_item e d) (e :: d).
Proof. induction d as [|y l IH]; cbn. reflexivity. destruct (lex_leb _ _). reflexivity.
  rewrite IH. apply perm_swap. Qed.
Lemma sort_items_perm d : Permutation (sort_items d) d.
Proof. induction d as [|x l IH]; cbn. reflexivity. rewrite ins_item_perm, IH. reflexivity. Qed.

Lemma Permutation_concat {A} (a b : list (list A)) : Permutation a b -> Permutation (concat a) (concat b).
Proof. induction 1; cbn. reflexivity. apply Permutation_app_head; assumption.
  rewrite !app_assoc. apply Permutation_app_tail, Permutation_app_comm. etransitivity; eassumption. Qed.

Lemma all_lattices_flat_map s : all_lattices s = flat_map snd s.
Proof. unfold all_lattices. rewrite flat_map_concat_map. reflexivity. Qed.

Lemma dict_append_lattices k v d : Permutation (all_lattices (dict_append k v d)) (all_lattices d ++ [v]).
Proof. induction d as [|[k' vs] d IH]; cbn. reflexivity.
  destruct (list_eqb k k'); unfold all_lattices in *; cbn.
  - rewrite <- !app_assoc. apply Permutation_app_head. apply Permutation_app_comm.
  - rewrite <- app_assoc. apply Permutation_app_head. exact IH. Qed.

(* every entry of the dict built from the lattices [ls]: its key is the
   monotonicity tuple of, and each value the index list of, one sorted lattice *)
Definition entry_ok (ls : list (list rin)) (e : list nat * list (list nat)) : Prop :=
  (exists l, In l ls /\ fst e = map r_mono (sort_mono l)) /\
  forall v, In v (snd e) -> exists l, In l ls /\ fst e = map r_mono (sort_mono l) /\ v = map r_idx (sort_mono l).

Lemma list_eqb_eq a b : list_eqb a b = true -> a = b.
Proof. revert b; induction a as [|x a IH]; intros [|y b]; cbn; try discriminate; auto.
  rewrite andb_true_iff, Nat.eqb_eq. intros [-> H]. f_equal; auto. Qed.

Lemma dict_append_ok ls l d : In l ls -> Forall (entry_ok ls) d ->
  Forall (entry_ok ls) (dict_append (map r_mono (sort_mono l)) (map r_idx (sort_mono l)) d).
Proof. intros Hl. induction d as [|[k' vs] d IH]; intros Hd; cbn.
  - constructor; [|constructor]. split; cbn. eauto. intros v [<-|[]]. eauto.
  - inversion Hd as [|? ? He Hd']; subst.
    destruct (list_eqb _ k') eqn:E.
    + apply list_eqb_eq in E. constructor; [|exact Hd']. destruct He as [He1 He2]. split; [exact He1|].
      cbn in *. intros v Hv. apply in_app_iff in Hv. destruct Hv as [Hv|[<-|[]]]. auto.
      exists l. subst k'. auto.
    + constructor; auto. Qed.

Lemma group_fold ls0 ls d0 : incl ls ls0 -> Forall (entry_ok ls0) d0 ->
  Forall (entry_ok ls0) (fold_left group_step ls d0) /\
  Permutation (all_lattices (fold_left group_step ls d0))
              (all_lattices d0 ++ map (fun l => map r_idx (sort_mono l)) ls).
Proof. revert d0; induction ls as [|l ls IH]; intros d0 Hi Hd; cbn [fold_left map].
  - split. exact Hd. rewrite app_nil_r. reflexivity.
  - assert (Hl : In l ls0) by (apply Hi; left; reflexivity).
    destruct (IH (group_step d0 l)) as [H1 H2]. intros y Hy; apply Hi; right; exact Hy.
    apply dict_append_ok; assumption.
    split. exact H1. rewrite H2. unfold group_step at 1. rewrite dict_append_lattices.
    rewrite <- app_assoc. reflexivity. Qed.

Lemma grouped ls : let s := sort_items (fold_left group_step ls []) in
  Forall (entry_ok ls) s /\ Permutation (all_lattices s) (map (fun l => map r_idx (sort_mono l)) ls).
Proof. cbn. destruct (group_fold ls ls [] (incl_refl _) (Forall_nil _)) as [H1 H2]. split.
  - eapply Permutation_Forall; [symmetry; apply sort_items_perm|exact H1].
  - rewrite all_lattices_flat_map. rewrite (Permutation_flat_map snd (sort_items_perm _)).
    rewrite <- all_lattices_flat_map. exact H2. Qed.

Section Pipeline.
Variables sh1 sh2 : list rin -> list rin.
Hypothesis sh1_perm : forall l, Permutation l (sh1 l).
Hypothesis sh2_perm : forall l, Permutation l (sh2 l).
Variable cfg : rtl_cfg.
Variable s : structure.
Hypothesis Hs : rtl_structure cfg sh1 sh2 = Some s.

Let x := c_input cfg.
Let n := n_inputs x.
Let total := c_num cfg * c_rank cfg.

Lemma accepted : n <= total /\ 0 < n.
Proof. unfold rtl_structure in Hs. rewrite flatten_length in Hs. fold x n total in Hs.
  destruct (Nat.ltb_spec total n); [discriminate|]. destruct (Nat.eqb_spec n 0); [discriminate|]. lia. Qed.

Lemma s_eq : s = sort_items (fold_left group_step (rtl_lattices cfg sh1 sh2) []).
Proof. unfold rtl_structure in Hs. destruct (_ <? _); [discriminate|]. destruct (_ =? _); [discriminate|].
  inversion Hs; reflexivity. Qed.

Let slots := rtl_slots cfg sh1 sh2.
Let q := total / n.

Lemma slots_length : length slots = total.
Proof. destruct accepted as [H1 H2]. unfold slots, rtl_slots. fold x. rewrite flatten_length. fold n total.
  rewrite <- (Permutation_length (sh2_perm _)). rewrite firstn_length, tile_length.
  rewrite <- (Permutation_length (sh1_perm _)), flatten_length. fold n.
  pose proof (Nat.div_mod total n ltac:(lia)). pose proof (Nat.mod_upper_bound total n ltac:(lia)).
  fold q in H |- *. nia. Qed.

Lemma slots_count p : countp p slots = q * countp p (flatten x) + countp p (firstn (total mod n) (sh1 (flatten x))).
Proof. destruct accepted as [H1 H2]. unfold slots, rtl_slots. fold x. rewrite flatten_length. fold n total q.
  rewrite <- (countp_perm p (sh2_perm _)).
  assert (E : total = q * length (sh1 (flatten x)) + total mod n).
  { rewrite <- (Permutation_length (sh1_perm _)), flatten_length. fold n.
    pose proof (Nat.div_mod total n ltac:(lia)). fold q in H. lia. }
  rewrite E at 1. replace (1 + q) with (q + 1) by lia. rewrite firstn_tile, countp_app, countp_tile.
  cbn [tile]. rewrite app_nil_r. rewrite <- (countp_perm p (sh1_perm _)). reflexivity. Qed.

Lemma slots_in r : In r slots -> In r (flatten x).
Proof. unfold slots, rtl_slots. fold x. intros H.
  apply (Permutation_in _ (Permutation_sym (sh2_perm _))) in H.
  apply in_firstn, in_tile in H. apply (Permutation_in _ (Permutation_sym (sh1_perm _))) in H. exact H. Qed.

Let lats := rtl_lattices cfg sh1 sh2.

Lemma lats_shape : same_shape (chunks (c_rank cfg) (c_num cfg) slots) lats.
Proof. unfold lats, rtl_lattices. fold slots. destruct (c_avoid cfg). apply swap_loop_shape. apply same_shape_refl. Qed.

Lemma lats_length : length lats = c_num cfg.
Proof. rewrite (same_shape_length lats_shape). apply chunks_lengths. rewrite slots_length; reflexivity. Qed.
Lemma lats_rank l : In l lats -> length l = c_rank cfg.
Proof. apply (same_shape_rows lats_shape). apply chunks_lengths. rewrite slots_length; reflexivity. Qed.
Lemma lats_count p : countp p (concat lats) = countp p slots.
Proof. destruct lats_shape as [_ H]. rewrite H, chunks_concat. reflexivity. rewrite slots_length; reflexivity. Qed.
Lemma lats_in l r : In l lats -> In r l -> In r (flatten x).
Proof. intros Hl Hr. apply slots_in. apply (countp_eq_in slots (concat lats)). intros p; apply lats_count.
  apply in_concat. eauto. Qed.
Lemma sorted_rank l : In l lats -> length (sort_mono l) = c_rank cfg.
Proof. intros Hl. rewrite (Permutation_length (sort_mono_perm l)). apply lats_rank; exact Hl. Qed.

Lemma s_entries e : In e s -> entry_ok lats e.
Proof. revert e. apply Forall_forall. rewrite s_eq. apply (grouped lats). Qed.
Lemma s_lattices : Permutation (all_lattices s) (map (fun l => map r_idx (sort_mono l)) lats).
Proof. rewrite s_eq. apply (grouped lats). Qed.

Lemma rtl_accepted_closed : 0 < n_inputs x <= c_num cfg * c_rank cfg.
Proof. destruct accepted. unfold n, total in *. lia. Qed.

Lemma rtl_rank_closed :
  length (all_lattices s) = c_num cfg /\
  forall m ls, In (m, ls) s -> length m = c_rank cfg /\ forall lat, In lat ls -> length lat = c_rank cfg.
Proof. split; [rewrite (Permutation_length s_lattices), map_length; apply lats_length|].
  intros m ls H. destruct (s_entries _ H) as [[l [Hl E]] Hv]. cbn [fst snd] in *.
  split; [rewrite E, map_length; apply sorted_rank; exact Hl|].
  intros lat Hlat. destruct (Hv lat Hlat) as [l' [Hl' [_ ->]]]. rewrite map_length. apply sorted_rank; exact Hl'. Qed.

Lemma usage_eq i : usage s i = countp (fun r => Nat.eqb i (r_idx r)) slots.
Proof. unfold usage. rewrite <- countp_count_occ.
  rewrite (countp_perm _ (Permutation_concat _ _ s_lattices)). rewrite <- lats_count.
  clear. induction lats as [|l ls IH]; cbn [map concat]. reflexivity.
  rewrite !countp_app, IH, countp_map. f_equal. apply countp_perm, sort_mono_perm. Qed.

(* q full rounds over the inputs, then part of one more round *)
Lemma usage_split i : exists r, usage s i = q * b2n (i <? n) + r /\ r <= b2n (i <? n).
Proof. exists (countp (fun r => Nat.eqb i (r_idx r)) (firstn (total mod n) (sh1 (flatten x)))). split.
  - rewrite usage_eq, slots_count, flatten_count. reflexivity.
  - etransitivity; [apply countp_firstn_le|]. rewrite <- (countp_perm _ (sh1_perm _)), flatten_count. apply le_n. Qed.

Lemma q_pos : 1 <= q.
Proof. destruct accepted. unfold q. apply Nat.div_le_lower_bound; lia. Qed.

Lemma rtl_usage_bounds i : i < n -> q <= usage s i <= q + 1.
Proof. intros Hi. destruct (usage_split i) as [r [-> Hr]]. apply Nat.ltb_lt in Hi. rewrite Hi in *. cbn [b2n] in *. lia. Qed.

Lemma rtl_usage_outside i : n <= i -> usage s i = 0.
Proof. intros Hi. destruct (usage_split i) as [r [-> Hr]]. apply Nat.ltb_ge in Hi. rewrite Hi in *. cbn [b2n] in *. lia. Qed.

Lemma used_iff i : (exists lat, In lat (all_lattices s) /\ In i lat) <-> 0 < usage s i.
Proof. unfold usage. rewrite <- in_concat, (count_occ_In Nat.eq_dec). reflexivity. Qed.

Lemma rtl_coverage_closed :
  (forall i, i < length (flatten (c_input cfg)) -> exists lat, In lat (all_lattices s) /\ In i lat) /\
  (forall lat i, In lat (all_lattices s) -> In i lat -> i < length (flatten (c_input cfg))).
Proof. rewrite flatten_length. fold x n. split.
  - intros i Hi. apply used_iff. pose proof (rtl_usage_bounds i Hi). pose proof q_pos. lia.
  - intros lat i Hl Hi. destruct (Nat.lt_ge_cases i n) as [H|H]; [exact H|exfalso].
    assert (U : 0 < usage s i) by (apply used_iff; eauto). rewrite (rtl_usage_outside i H) in U. lia. Qed.

Lemma rtl_balanced_closed :
  let n := length (flatten (c_input cfg)) in
  let q := (c_num cfg * c_rank cfg) / n in
  1 <= q /\
  (forall i, i < n -> q <= usage s i <= q + 1) /\
  (forall i j, i < n -> j < n -> usage s i <= usage s j + 1).
Proof. cbv zeta. rewrite flatten_length. fold x n total q. split; [exact q_pos|]. split; [exact rtl_usage_bounds|].
  intros i j Hi Hj. pose proof (rtl_usage_bounds i Hi). pose proof (rtl_usage_bounds j Hj). lia. Qed.

(* the key of an entry is the monotonicity vector of each of its lattices *)
Lemma rtl_entry_key m ls lat : In (m, ls) s -> In lat ls -> m = map (input_mono x) lat.
Proof. intros Hm Hl. destruct (s_entries _ Hm) as [_ H]. destruct (H lat Hl) as [l [Hin [Em ->]]]. cbn [fst] in Em. subst m.
  rewrite map_map. apply map_ext_in. intros r Hr. apply flatten_mono_input, (lats_in l); [exact Hin|].
  exact (Permutation_in _ (sort_mono_perm l) Hr). Qed.

Lemma rtl_key_01 m ls : In (m, ls) s -> forall v, In v m -> v = 0 \/ v = 1.
Proof. intros H v Hv.
  destruct (s_entries _ H) as [[l [Hl E]] _]. cbn in E. subst m. apply in_map_iff in Hv. destruct Hv as [r [<- Hr]].
  apply (Permutation_in _ (sort_mono_perm l)) in Hr.
  rewrite (flatten_mono _ _ (lats_in l r Hl Hr)). destruct (_ <? _); auto. Qed.

Lemma list_max_01 m : (forall v, In v m -> v = 0 \/ v = 1) ->
  (list_max m = 0 \/ list_max m = 1) /\ (list_max m = 1 <-> In 1 m).
Proof. intros H.
  assert (U : list_max m <= 1) by (apply list_max_le, Forall_forall; intros v Hv; destruct (H v Hv); lia).
  destruct (in_dec Nat.eq_dec 1 m) as [I|I].
  - pose proof (proj1 (list_max_le m (list_max m)) (le_n _)) as F. rewrite Forall_forall in F. specialize (F 1 I).
    split; [lia|]. split; [intros _; exact I|lia].
  - assert (list_max m <= 0).
    { apply list_max_le, Forall_forall. intros v Hv. destruct (H v Hv) as [->| ->]; [apply le_n|contradiction]. }
    split; [lia|]. split; [lia|contradiction]. Qed.

Lemma rtl_label_closed m ls lat : In (m, ls) s -> In lat ls ->
  (out_label m = 0 \/ out_label m = 1) /\
  (out_label m = 1 <-> exists i, In i lat /\ input_mono x i = 1).
Proof. intros Hm Hl. destruct (list_max_01 m (rtl_key_01 m ls Hm)) as [H01 H1]. split; [exact H01|].
  unfold out_label. rewrite H1. rewrite (rtl_entry_key m ls lat Hm Hl), in_map_iff.
  split; intros [i [A B]]; exists i; auto. Qed.

Lemma rtl_wiring_closed m ls lat : In (m, ls) s -> In lat ls ->
  (forall p, p < c_rank cfg -> nth p m 0 = input_mono (c_input cfg) (nth p lat 0)) /\
  (out_label m = 0 \/ out_label m = 1) /\
  (out_label m = 1 <-> exists i, In i lat /\ input_mono (c_input cfg) i = 1).
Proof. intros Hm Hl. split; [|exact (rtl_label_closed m ls lat Hm Hl)].
  intros p Hp. destruct rtl_rank_closed as [_ HR]. destruct (HR m ls Hm) as [_ Ll].
  rewrite (rtl_entry_key m ls lat Hm Hl). apply nth_map_lt. rewrite (Ll lat Hl). exact Hp. Qed.

Lemma filter_partition {A} (f : A -> nat) (l : list A) : (forall e, In e l -> f e = 0 \/ f e = 1) ->
  Permutation (filter (fun e => f e =? 0) l ++ filter (fun e => f e =? 1) l) l.
Proof. induction l as [|e l IH]; intros H; cbn. reflexivity.
  assert (IH' := IH (fun e' He' => H e' (or_intror He'))). clear IH.
  destruct (H e (or_introl eq_refl)) as [E|E]; rewrite E; cbn.
  - apply perm_skip; exact IH'.
  - rewrite <- Permutation_middle. apply perm_skip; exact IH'. Qed.

(* a lattice routed to the output with label v belongs to an entry with that label *)
Lemma in_output v lat : In lat (concat (map snd (filter (fun e => out_label (fst e) =? v) s))) ->
  exists m ls, In (m, ls) s /\ In lat ls /\ out_label m = v.
Proof. intros H. apply in_concat in H. destruct H as [ls [H1 H2]]. apply in_map_iff in H1.
  destruct H1 as [[m ls'] [E H1]]. cbn in E; subst ls'. apply filter_In in H1. destruct H1 as [H1 H3].
  apply Nat.eqb_eq in H3. eauto. Qed.

Lemma rtl_outputs_closed :
  (forall lat, In lat (snd (rtl_outputs s)) -> exists i, In i lat /\ input_mono x i = 1) /\
  (forall lat, In lat (fst (rtl_outputs s)) -> forall i, In i lat -> input_mono x i <> 1) /\
  Permutation (fst (rtl_outputs s) ++ snd (rtl_outputs s)) (all_lattices s).
Proof. unfold rtl_outputs; cbn [fst snd]. split; [|split].
  - intros lat H. destruct (in_output 1 lat H) as [m [ls [H1 [H2 H3]]]]. apply (rtl_label_closed m ls lat H1 H2). exact H3.
  - intros lat H i Hi Ei. destruct (in_output 0 lat H) as [m [ls [H1 [H2 H3]]]].
    destruct (rtl_label_closed m ls lat H1 H2) as [_ [_ Hx]]. rewrite (Hx (ex_intro _ i (conj Hi Ei))) in H3. discriminate.
  - rewrite <- concat_app, <- map_app. apply Permutation_concat, Permutation_map.
    apply (filter_partition (fun e => out_label (fst e))). intros [m ls] He. cbn.
    exact (proj1 (list_max_01 m (rtl_key_01 m ls He))). Qed.

End Pipeline.

Definition perm_oracle (sh : list rin -> list rin) : Prop := forall l, Permutation l (sh l).

Lemma rtl_input_layout_closed cfg i : i < length (flatten (c_input cfg)) ->
  (input_mono (c_input cfg) i = 1 <-> i < list_sum (sizes_of (in_inc (c_input cfg)))) /\
  (input_mono (c_input cfg) i = 0 <-> list_sum (sizes_of (in_inc (c_input cfg))) <= i).
Proof. rewrite flatten_length. intros H. rewrite (input_mono_spec _ _ H). unfold n_inc.
  destruct (Nat.ltb_spec i (list_sum (sizes_of (in_inc (c_input cfg))))); split; split; intros; try lia; discriminate. Qed.

(* the structure depends on the oracles only through the two permutations
   they return for this configuration *)
Lemma rtl_deterministic_closed cfg sh1 sh2 sh1' sh2' :
  let inputs := flatten (c_input cfg) in
  let total := c_num cfg * c_rank cfg in
  sh1 inputs = sh1' inputs ->
  sh2 (firstn total (tile (sh1 inputs) (1 + total / length inputs))) =
  sh2' (firstn total (tile (sh1 inputs) (1 + total / length inputs))) ->
  rtl_structure cfg sh1 sh2 = rtl_structure cfg sh1' sh2'.
Proof. cbv zeta. intros E1 E2. cbv beta zeta delta [rtl_structure rtl_lattices rtl_slots]. rewrite <- E1, E2. reflexivity. Qed.

(* the hypothesis is satisfiable *)
Lemma perm_oracle_id : perm_oracle (fun l => l).
Proof. intros l; reflexivity. Qed.
