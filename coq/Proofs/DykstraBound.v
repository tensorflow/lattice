(* The quantitative core of the Boyle-Dykstra convergence argument (Boyle &
   Dykstra 1986, Lemma 1; Bauschke & Combettes, proof of Thm 30.7), in the
   abstract setting of Proofs/DykstraTheory.v.  Pure algebra and induction over
   the steps; no limits.

   Sign convention of the code: a slot stores the CHANGE  e = P z - z  made by
   its last projection (z = the rolled-back point), i.e. minus the "increment"
   of the literature.  For a slot we also track (ghost state, not stored by the
   algorithm) the point  p = P z  produced by its last projection.

   For a point y of every set C_i the potential is
       phi(x, slots) = |x - y|^2 + 2 * sum_i <e_i, y - p_i>
   where every term <e_i, y - p_i> is >= 0 (variational inequality of P_i at
   z_i, y in C_i; trivially when e_i = 0).

   One step at slot i,  x' = P_i (x - e_i),  e_i' = x' - (x - e_i):
       phi(x, slots) = phi(x', slots') + |x' - x|^2 + 2 * <e_i, x' - p_i>   ([bd_step])
   with the last term >= 0 as well (x' in C_i).  Summed over the steps:

     [tloop_identity]    |x_0 - y|^2 = |x_n - y|^2 + (sum of |x_k - x_(k-1)|^2 over
                         all steps) + 2 (sum of the step slacks) + 2 sum_i <e_i, y - p_i>
     [aloop_never_farther]  |x_n - y|^2 <= |x_0 - y|^2                    (Fejer-type bound)
     [aloop_moves_summable] |x_n - y|^2 + sum of squared movements of the first n sweeps <= |x_0 - y|^2
     [aloop_stalls]         n >= 1: some sweep k < n has squared movement * n <= |x_0 - y|^2
     [amoves_zero_fixpoint] a sweep with zero movement reproduces every stored
                         change (the hypothesis of asweep_fixpoint_nearest).

   NOT proved: existence of the limit of x_n (needs completeness of the reals;
   the iterates here are rational) and that the limit is the nearest point. *)
From TFL Require Export Proofs.DykstraTheory.
Open Scope Q_scope.

Definition qnat (n : nat) : Q := inject_Z (Z.of_nat n).

(* the smallest element is at most the average *)
Lemma qsum_min_avg (l : list Q) : l <> [] -> exists m, In m l /\ m * qnat (length l) <= qsum l.
Proof. induction l as [|a r IH]. congruence. intros _. destruct r as [|b r'].
  - exists a. split. left; reflexivity. cbn [length qsum]. change (qnat 1) with 1. lra.
  - destruct IH as [m [Hm Hle]]. discriminate.
    remember (b :: r') as r eqn:Er. clear Er.
    pose proof (qofnat_nonneg (length r) : 0 <= qnat (length r)) as Hn.
    pose proof (qofnat_S (length r) : qnat (S (length r)) == qnat (length r) + 1) as En.
    destruct (Qlt_le_dec m a) as [Hlt|Hge].
    + exists m. split. right; exact Hm. cbn [length qsum]. rewrite En. lra.
    + exists a. split. left; reflexivity. cbn [length qsum]. rewrite En.
      assert (qnat (length r) * a <= qnat (length r) * m) by (apply qmul_le_l; assumption). lra. Qed.
Lemma qsum_pigeonhole (l : list Q) (D : Q) : l <> [] -> qsum l <= D ->
  exists k, (k < length l)%nat /\ nth k l 0 * qnat (length l) <= D.
Proof. intros Hne HD. destruct (qsum_min_avg l Hne) as [m [Hin Hle]].
  destruct (In_nth l m 0 Hin) as [k [Hk E]]. exists k. split. exact Hk. rewrite E. lra. Qed.

Section Bound.
Context {A : Type}.
Variable I : list A.
Notation vec := (A -> Q).

(* squared Euclidean distance over I *)
Definition d2 (f g : vec) : Q := ip I (vsub f g) (vsub f g).
Lemma d2_nonneg f g : 0 <= d2 f g.
Proof. apply ip_nonneg. Qed.
Lemma d2_ext f f' g g' : veq I f f' -> veq I g g' -> d2 f g == d2 f' g'.
Proof. intros Hf Hg. unfold d2. apply ip_ext; apply vsub_veq; assumption. Qed.
Lemma d2_zero f g : d2 f g <= 0 -> veq I f g.
Proof. apply ip_vsub_self_zero. Qed.

Lemma ip_veq_zero_l e h : veq I e vzero -> ip I e h == 0.
Proof. intros H. rewrite (ip_ext I e vzero h h H (veq_refl I h)). apply ip_zero_l. Qed.
Lemma ip_neg_l f g h : ip I (vsub f g) h == - ip I (vsub g f) h.
Proof. rewrite !ip_sub_l. ring. Qed.

(* The algebraic identity behind one step.  x: current point, e: stored change of the slot, p: any point, x': new point,
   e' = x' - (x - e) the new stored change.  No hypothesis on x'. *)
Lemma bd_step_identity (y x e p x' e' : vec) :
  veq I e' (vsub x' (vsub x e)) ->
  d2 x y + 2 * ip I e (vsub y p) ==
  d2 x' y + 2 * ip I e' (vsub y x') + d2 x' x + 2 * ip I e (vsub x' p).
Proof. intros He.
  rewrite (ip_ext I e' (vsub x' (vsub x e)) (vsub y x') (vsub y x') He (veq_refl I _)).
  unfold d2, ip. rewrite <- !qsum_map_scale, <- !qsum_map_plus. apply qsum_map_ext.
  intros i _. unfold vsub. ring. Qed.

(* One step with a nearest-point map.  z: the rolled-back point (== x - e), the new point is P z, e' == P z - z.
   Invariant of a slot w.r.t. its last point p:  <e, c - p> >= 0 for c in C. *)
Lemma bd_step (C : vec -> Prop) (P : vec -> vec) (y x e p z e' : vec) :
  is_proj I C P -> C y ->
  (forall c, C c -> 0 <= ip I e (vsub c p)) ->
  veq I z (vsub x e) -> veq I e' (vsub (P z) z) ->
  (forall c, C c -> 0 <= ip I e' (vsub c (P z))) /\
  0 <= ip I e (vsub (P z) p) /\
  d2 x y + 2 * ip I e (vsub y p) ==
  d2 (P z) y + 2 * ip I e' (vsub y (P z)) + d2 (P z) x + 2 * ip I e (vsub (P z) p).
Proof. intros HP Hy Hinv Hz He'. destruct (HP z) as [HPz Hvi]. split; [|split].
  - intros c Hc. specialize (Hvi c Hc).
    rewrite (ip_ext I e' (vsub (P z) z) (vsub c (P z)) (vsub c (P z)) He' (veq_refl I _)).
    rewrite ip_neg_l. lra.
  - apply Hinv. exact HPz.
  - apply bd_step_identity. intros i Hi. rewrite (He' i Hi). unfold vsub. rewrite (Hz i Hi). unfold vsub. ring. Qed.

(* the tracked sweep: asweep with the last point of every slot *)
Notation tslot := (slot (A:=A) * vec)%type.

Fixpoint tsweep (tl : list tslot) (x : vec) : vec * list tslot :=
  match tl with
  | [] => (x, [])
  | t :: r =>
      let s := fst t in
      let rolled := vsub x (s_e s) in
      let x' := s_P s rolled in
      let '(xf, r') := tsweep r x' in
      (xf, (mkSlot (s_C s) (s_P s) (vsub x' rolled), x') :: r')
  end.

Lemma tsweep_asweep tl : forall x,
  fst (tsweep tl x) = fst (asweep (map fst tl) x) /\ map fst (snd (tsweep tl x)) = snd (asweep (map fst tl) x).
Proof. induction tl as [|t r IH]; intros x; cbn [tsweep asweep map]. split; reflexivity.
  specialize (IH (s_P (fst t) (vsub x (s_e (fst t))))).
  destruct (tsweep r (s_P (fst t) (vsub x (s_e (fst t))))) as [xf r'].
  destruct (asweep (map fst r) (s_P (fst t) (vsub x (s_e (fst t))))) as [xf2 r2].
  cbn [fst snd map] in *. destruct IH as [-> ->]. split; reflexivity. Qed.

(* total squared movement of one sweep:  sum over its steps of |x_k - x_(k-1)|^2 *)
Fixpoint amoves (sl : list (slot (A:=A))) (x : vec) : Q :=
  match sl with
  | [] => 0
  | s :: r => let x' := s_P s (vsub x (s_e s)) in d2 x' x + amoves r x'
  end.
(* total slack of one sweep:  sum over its steps of <e_old, x_k - p_old> *)
Fixpoint tslack (tl : list tslot) (x : vec) : Q :=
  match tl with
  | [] => 0
  | t :: r => let x' := s_P (fst t) (vsub x (s_e (fst t))) in ip I (s_e (fst t)) (vsub x' (snd t)) + tslack r x'
  end.
Lemma amoves_nonneg sl : forall x, 0 <= amoves sl x.
Proof. induction sl as [|s r IH]; intros x; cbn [amoves]. lra.
  pose proof (d2_nonneg (s_P s (vsub x (s_e s))) x). specialize (IH (s_P s (vsub x (s_e s)))). lra. Qed.

(* the dual part of the potential *)
Definition tsum (y : vec) (tl : list tslot) : Q :=
  qsum (map (fun t : tslot => ip I (s_e (fst t)) (vsub y (snd t))) tl).
Definition phi (y x : vec) (tl : list tslot) : Q := d2 x y + 2 * tsum y tl.

(* every map is a nearest-point map onto its set, which contains y *)
Definition sgood (y : vec) (s : slot (A:=A)) : Prop := is_proj I (s_C s) (s_P s) /\ s_C s y.
(* the stored change of every slot satisfies the variational inequality at its last point *)
Definition tinv (tl : list tslot) : Prop :=
  forall t, In t tl -> forall c, s_C (fst t) c -> 0 <= ip I (s_e (fst t)) (vsub c (snd t)).

Lemma tsweep_step y tl : forall x,
  (forall t, In t tl -> sgood y (fst t)) -> tinv tl ->
  (forall t, In t (snd (tsweep tl x)) -> sgood y (fst t)) /\ tinv (snd (tsweep tl x)) /\
  0 <= tslack tl x /\
  phi y x tl == phi y (fst (tsweep tl x)) (snd (tsweep tl x)) + amoves (map fst tl) x + 2 * tslack tl x.
Proof. induction tl as [|t r IH]; intros x Hg Hi.
  - cbn [tsweep tslack amoves map fst snd]. split; [|split; [|split]]. intros t []. intros t []. lra. unfold phi, tsum. cbn [map qsum]. lra.
  - cbn [tsweep tslack amoves map].
    set (s := fst t). set (z := vsub x (s_e s)). set (x' := s_P s z).
    destruct (Hg t (or_introl eq_refl)) as [HP Hy]. fold s in HP, Hy.
    destruct (bd_step (s_C s) (s_P s) y x (s_e s) (snd t) z (vsub x' z) HP Hy (Hi t (or_introl eq_refl))
                (veq_refl I _) (veq_refl I _)) as (Hnew & Hsl & Hid). fold x' in Hnew, Hsl, Hid.
    specialize (IH x' (fun t0 H0 => Hg t0 (or_intror H0)) (fun t0 H0 => Hi t0 (or_intror H0))).
    destruct (tsweep r x') as [xf r'] eqn:E. cbn [fst snd] in *.
    destruct IH as (IHg & IHi & IHs & IHid). split; [|split; [|split]].
    + intros t0 [<-|H0]; [|apply IHg; exact H0]. cbn [fst]. split; cbn [s_C s_P]; assumption.
    + intros t0 [<-|H0]; [|apply IHi; exact H0]. cbn [fst snd s_C s_e]. exact Hnew.
    + lra.
    + unfold phi, tsum in *. cbn [map qsum fst snd s_e]. fold s. lra. Qed.

Fixpoint aloop (n : nat) (st : vec * list (slot (A:=A))) : vec * list (slot (A:=A)) :=
  match n with O => st | S n' => aloop n' (asweep (snd st) (fst st)) end.
Fixpoint tloop (n : nat) (st : vec * list tslot) : vec * list tslot :=
  match n with O => st | S n' => tloop n' (tsweep (snd st) (fst st)) end.
(* squared movement of each of the first n sweeps *)
Fixpoint aloop_moves (n : nat) (st : vec * list (slot (A:=A))) : list Q :=
  match n with O => [] | S n' => amoves (snd st) (fst st) :: aloop_moves n' (asweep (snd st) (fst st)) end.
Fixpoint tloop_slacks (n : nat) (st : vec * list tslot) : list Q :=
  match n with O => [] | S n' => tslack (snd st) (fst st) :: tloop_slacks n' (tsweep (snd st) (fst st)) end.

Definition untrack (st : vec * list tslot) : vec * list (slot (A:=A)) := (fst st, map fst (snd st)).
Lemma tsweep_untrack st : untrack (tsweep (snd st) (fst st)) = asweep (snd (untrack st)) (fst (untrack st)).
Proof. unfold untrack. cbn [fst snd]. destruct (tsweep_asweep (snd st) (fst st)) as [E1 E2].
  rewrite E1, E2. destruct (asweep (map fst (snd st)) (fst st)); reflexivity. Qed.
Lemma tloop_aloop n : forall st, untrack (tloop n st) = aloop n (untrack st).
Proof. induction n as [|n IH]; intros st; cbn [tloop aloop]. reflexivity. rewrite IH, tsweep_untrack. reflexivity. Qed.

Lemma aloop_moves_length n : forall st, length (aloop_moves n st) = n.
Proof. induction n as [|n IH]; intros st; cbn [aloop_moves length]. reflexivity. rewrite IH. reflexivity. Qed.
Lemma aloop_moves_nth n : forall st k, (k < n)%nat ->
  nth k (aloop_moves n st) 0 = amoves (snd (aloop k st)) (fst (aloop k st)).
Proof. induction n as [|n IH]; intros st k Hk. lia. destruct k as [|k]; cbn [aloop_moves nth aloop]. reflexivity.
  apply IH. lia. Qed.
Lemma aloop_moves_nonneg n : forall st m, In m (aloop_moves n st) -> 0 <= m.
Proof. induction n as [|n IH]; intros st m; cbn [aloop_moves]. intros []. intros [<-|H]. apply amoves_nonneg. exact (IH _ _ H). Qed.

(* The Boyle-Dykstra identity over n sweeps. *)
Theorem tloop_identity (y : vec) (n : nat) : forall st,
  (forall t, In t (snd st) -> sgood y (fst t)) -> tinv (snd st) ->
  let st' := tloop n st in
  (forall t, In t (snd st') -> sgood y (fst t)) /\ tinv (snd st') /\
  (forall m, In m (tloop_slacks n st) -> 0 <= m) /\
  phi y (fst st) (snd st) ==
    d2 (fst st') y + qsum (aloop_moves n (untrack st)) + 2 * qsum (tloop_slacks n st) + 2 * tsum y (snd st').
Proof. induction n as [|n IH]; intros st Hg Hi; cbv zeta.
  - cbn [tloop aloop_moves tloop_slacks qsum]. split; [exact Hg|]. split; [exact Hi|]. split. intros m [].
    unfold phi. lra.
  - cbn [tloop aloop_moves tloop_slacks qsum]. destruct (tsweep_step y (snd st) (fst st) Hg Hi) as (Hg' & Hi' & Hs & Hid).
    destruct (IH (tsweep (snd st) (fst st)) Hg' Hi') as (IHg & IHi & IHs & IHid).
    split; [exact IHg|]. split; [exact IHi|]. split.
    + intros m [<-|Hm]. exact Hs. apply IHs. exact Hm.
    + rewrite <- tsweep_untrack. change (snd (untrack st)) with (map fst (snd st)). change (fst (untrack st)) with (fst st).
      lra. Qed.

(* statements about asweep / aloop only: start with zero stored changes *)
Section FromZero.
Variables (y x0 : vec) (sl : list (slot (A:=A))).
Hypothesis Hgood : forall s, In s sl -> sgood y s.
Hypothesis Hzero : forall s, In s sl -> veq I (s_e s) vzero.

Definition track0 : vec * list tslot := (x0, map (fun s => (s, x0)) sl).
Lemma track0_untrack : untrack track0 = (x0, sl).
Proof. unfold untrack, track0. cbn [fst snd]. rewrite map_map. cbn [fst]. rewrite map_id. reflexivity. Qed.
Lemma track0_good : forall t, In t (snd track0) -> sgood y (fst t).
Proof. intros t Ht. cbn [track0 snd] in Ht. apply in_map_iff in Ht. destruct Ht as [s [<- Hs]]. apply Hgood. exact Hs. Qed.
Lemma track0_inv : tinv (snd track0).
Proof. intros t Ht c _. cbn [track0 snd] in Ht. apply in_map_iff in Ht. destruct Ht as [s [<- Hs]]. cbn [fst snd].
  rewrite ip_veq_zero_l by (apply Hzero; exact Hs). lra. Qed.
Lemma track0_phi : phi y x0 (snd track0) == d2 x0 y.
Proof. unfold phi, tsum. cbn [track0 snd]. rewrite map_map. cbn [fst snd].
  assert (Z : qsum (map (fun s : slot => ip I (s_e s) (vsub y x0)) sl) == 0).
  { apply qsum_map_zero. intros s Hs. apply ip_veq_zero_l, Hzero, Hs. }
  rewrite Z. lra. Qed.

(* the identity from zero stored changes; every slack and every dual term is >= 0 *)
Theorem dykstra_identity (n : nat) :
  let st := tloop n track0 in
  untrack st = aloop n (x0, sl) /\
  (forall m, In m (tloop_slacks n track0) -> 0 <= m) /\
  (forall t, In t (snd st) -> 0 <= ip I (s_e (fst t)) (vsub y (snd t))) /\
  d2 x0 y == d2 (fst st) y + qsum (aloop_moves n (x0, sl)) + 2 * qsum (tloop_slacks n track0) + 2 * tsum y (snd st).
Proof. cbv zeta. destruct (tloop_identity y n track0 track0_good track0_inv) as (Hg & Hi & Hs & Hid).
  split. rewrite tloop_aloop, track0_untrack. reflexivity. split. exact Hs. split.
  - intros t Ht. apply (Hi t Ht). apply (Hg t Ht).
  - rewrite <- track0_untrack, <- track0_phi. exact Hid. Qed.

Theorem aloop_moves_summable (n : nat) :
  d2 (fst (aloop n (x0, sl))) y + qsum (aloop_moves n (x0, sl)) <= d2 x0 y.
Proof. destruct (dykstra_identity n) as (Eu & Hs & Hd & Hid). rewrite <- Eu. cbn [untrack fst].
  pose proof (qsum_nonneg _ Hs).
  assert (0 <= tsum y (snd (tloop n track0))) by (apply qsum_map_nonneg; exact Hd). lra. Qed.

(* the iterate is never farther from a common point of the sets than the start *)
Theorem aloop_never_farther (n : nat) : d2 (fst (aloop n (x0, sl))) y <= d2 x0 y.
Proof. pose proof (aloop_moves_summable n). pose proof (qsum_nonneg _ (aloop_moves_nonneg n (x0, sl))). lra. Qed.

(* among the first n sweeps one moves by at most |x0 - y|^2 / n (squared) *)
Theorem aloop_stalls (n : nat) : (1 <= n)%nat ->
  exists k, (k < n)%nat /\
    amoves (snd (aloop k (x0, sl))) (fst (aloop k (x0, sl))) * qnat n <= d2 x0 y.
Proof. intros Hn.
  destruct (qsum_pigeonhole (aloop_moves n (x0, sl)) (d2 x0 y)) as [k [Hk Hle]].
  - intros E. apply (f_equal (@length Q)) in E. rewrite aloop_moves_length in E. cbn in E. lia.
  - pose proof (aloop_moves_summable n). pose proof (d2_nonneg (fst (aloop n (x0, sl))) y). lra.
  - rewrite aloop_moves_length in Hk, Hle. exists k. split. exact Hk.
    rewrite <- (aloop_moves_nth n (x0, sl) k Hk). exact Hle. Qed.
End FromZero.

(* a sweep that does not move reproduces every stored change *)
Lemma amoves_zero_fixpoint sl : forall x, amoves sl x <= 0 ->
  veq I (fst (asweep sl x)) x /\ Forall2 (fun s s' => veq I (s_e s') (s_e s)) sl (snd (asweep sl x)).
Proof. induction sl as [|s r IH]; intros x H; cbn [asweep amoves] in *.
  - split. apply veq_refl. constructor.
  - set (x' := s_P s (vsub x (s_e s))) in *.
    pose proof (d2_nonneg x' x). pose proof (amoves_nonneg r x').
    assert (Hx : veq I x' x) by (apply d2_zero; lra).
    destruct (IH x' ltac:(lra)) as [IH1 IH2].
    destruct (asweep r x') as [xf r'] eqn:E. cbn [fst snd] in *. split.
    + eapply veq_trans. exact IH1. exact Hx.
    + constructor; [|exact IH2]. cbn [s_e]. intros i Hi. unfold vsub. rewrite (Hx i Hi). ring. Qed.

End Bound.

(* The hypotheses are satisfiable; the bound can be strict and can be tight.
   Q^2, two half-spaces  C1 = { w | w 1 >= w 0 },  C2 = { w | w 1 <= 0 }.
   (i)  x0 = (2, 1), y = (-1, -1), two sweeps: x2 = (3/4, 0), the squared
        movements are 11/4 and 27/16, and 65/16 + 71/16 < 13 (strict).
   (ii) x0 = (1, -1), y = (0, 0) (the nearest common point), two sweeps:
        x2 = y, the squared movements are 2 and 0, and 0 + 2 = 2 (tight). *)
Definition bd_I : list nat := [0%nat; 1%nat].
Definition bd_v (a b : Q) : nat -> Q := fun i => if (i =? 0)%nat then a else b.
Definition bd_c1 := bd_v (-1) 1.
Definition bd_c2 := bd_v 0 (-1).
Definition bd_sl : list (slot (A:=nat)) :=
  [mkSlot (fun w => 0 <= ip bd_I bd_c1 w) (hs_proj bd_I bd_c1) vzero;
   mkSlot (fun w => 0 <= ip bd_I bd_c2 w) (hs_proj bd_I bd_c2) vzero].
Example dykstra_bound_hyps :
  let x0 := bd_v 2 1 in let y := bd_v (-1) (-1) in
  let x0' := bd_v 1 (-1) in let y' := bd_v 0 0 in
  (forall s, In s bd_sl -> sgood bd_I y s) /\ (forall s, In s bd_sl -> sgood bd_I y' s) /\
  (forall s, In s bd_sl -> veq bd_I (s_e s) vzero) /\
  d2 bd_I (fst (aloop 2 (x0, bd_sl))) y + qsum (aloop_moves bd_I 2 (x0, bd_sl)) < d2 bd_I x0 y /\
  0 < nth 1 (aloop_moves bd_I 2 (x0, bd_sl)) 0 /\
  d2 bd_I (fst (aloop 2 (x0', bd_sl))) y' + qsum (aloop_moves bd_I 2 (x0', bd_sl)) == d2 bd_I x0' y'.
Proof. cbv zeta.
  assert (G : forall y, 0 <= ip bd_I bd_c1 y -> 0 <= ip bd_I bd_c2 y -> forall s, In s bd_sl -> sgood bd_I y s).
  { intros y H1 H2 s [<-|[<-|[]]]; (split; [cbn [s_C s_P]; apply halfspace_is_proj; vm_compute; reflexivity|cbn [s_C]; assumption]). }
  split; [|split; [|split; [|split; [|split]]]].
  - apply G; apply Qle_bool_iff; vm_compute; reflexivity.
  - apply G; apply Qle_bool_iff; vm_compute; reflexivity.
  - intros s [<-|[<-|[]]]; apply veq_refl.
  - vm_compute. reflexivity.
  - vm_compute. reflexivity.
  - apply Qeq_bool_eq. vm_compute. reflexivity. Qed.
