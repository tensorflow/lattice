(* Lemmas about the model of pwl_calibration_lib.project_all_constraints
   (Model/PWLProject.v).  Property theorems are restated in Props/C04.v. *)
From TFL Require Import Model.PWLProject.
Open Scope Q_scope.

Lemma qn_nonneg n : 0 <= qn n.
Proof. apply qofnat_nonneg. Qed.
Lemma qn_pos n : (1 <= n)%nat -> 0 < qn n.
Proof. apply qofnat_pos. Qed.
Lemma qn_S n : qn (S n) == qn n + 1.
Proof. apply qofnat_S. Qed.

Lemma qleq_last a b : qleq a b -> last a 0 == last b 0.
Proof. induction 1; cbn. reflexivity. destruct H0; [assumption|]. exact IHForall2. Qed.
Lemma qleq_map_id (f : Q -> Q) l : (forall x, In x l -> f x == x) -> qleq (map f l) l.
Proof. intros H. rewrite <- (map_id l) at 2. apply qleq_map. exact H. Qed.
Lemma Forall_ge_qleq k a b : qleq a b -> Forall (fun x => k <= x) a -> Forall (fun x => k <= x) b.
Proof. apply qleq_Forall. intros x y E Hx. rewrite <- E. exact Hx. Qed.
Lemma Forall_le_qleq k a b : qleq a b -> Forall (fun x => x <= k) a -> Forall (fun x => x <= k) b.
Proof. apply qleq_Forall. intros x y E Hx. rewrite <- E. exact Hx. Qed.
Lemma qleq_tl a b : qleq a b -> qleq (tl a) (tl b).
Proof. destruct 1; cbn. constructor. assumption. Qed.

Lemma qsum_le_pointwise a b : length a = length b ->
  (forall i, (i < length a)%nat -> nth i a 0 <= nth i b 0) -> qsum a <= qsum b.
Proof. intros HL H. apply qsum_le, (Forall2_nth_intro Qle 0 0); assumption. Qed.
Lemma qsum_eq_pointwise a b : length a = length b ->
  (forall i, (i < length a)%nat -> nth i a 0 == nth i b 0) -> qsum a == qsum b.
Proof. intros HL H. apply qleq_qsum, (Forall2_nth_intro Qeq 0 0); assumption. Qed.

Lemma qsum_map_shift (hd : Q) l : qsum (map (fun h => Qred (h + hd)) l) == qsum l + qn (length l) * hd.
Proof. induction l as [|x l IH]. cbn [map qsum length]. change (qn 0) with (0#1). lra.
  cbn [map qsum length]. rewrite IH, Qred_correct, qn_S. lra. Qed.

(* what verify_hyperparameters, canonicalize_* and convert_all_constraints guarantee
   of a configuration; the last conjunct excludes the configurations on which
   _approximately_project_bounds_only raises ValueError instead of returning *)
Definition pwl_valid (c : pwl_cfg) (n : nat) : Prop :=
  (1 <= n)%nat /\ length (p_lengths c) = n /\ Forall (fun l => 0 < l) (p_lengths c) /\
  (p_mono c = (-1)%Z \/ p_mono c = 0%Z \/ p_mono c = 1%Z) /\
  (p_conv c = (-1)%Z \/ p_conv c = 0%Z \/ p_conv c = 1%Z) /\
  (p_cmin c <> BNone -> p_cmax c <> BNone -> p_min c <= p_max c) /\
  (p_cmin c = BClamped \/ p_cmax c = BClamped -> p_mono c <> 0%Z).

(* pwl_valid of a concrete configuration, by evaluation *)
Definition pwl_validb (c : pwl_cfg) (n : nat) : bool :=
  (1 <=? n)%nat && (length (p_lengths c) =? n)%nat && forallb (qlt 0) (p_lengths c) &&
  existsb (Z.eqb (p_mono c)) [-1; 0; 1]%Z && existsb (Z.eqb (p_conv c)) [-1; 0; 1]%Z &&
  (bct_eqb (p_cmin c) BNone || bct_eqb (p_cmax c) BNone || qle (p_min c) (p_max c)) &&
  (negb (bct_eqb (p_cmin c) BClamped || bct_eqb (p_cmax c) BClamped) || negb (p_mono c =? 0)%Z).

Lemma pwl_validb_ok c n : pwl_validb c n = true -> pwl_valid c n.
Proof. unfold pwl_validb, pwl_valid. rewrite !andb_true_iff. intros [[[[[[H1 H2] H3] H4] H5] H6] H7].
  assert (T : forall m, existsb (Z.eqb m) [-1; 0; 1]%Z = true -> m = (-1)%Z \/ m = 0%Z \/ m = 1%Z).
  { intros m. cbn [existsb]. rewrite !orb_true_iff, !Z.eqb_eq. intuition discriminate. }
  split; [apply Nat.leb_le, H1|]. split; [apply Nat.eqb_eq, H2|]. split.
  { apply Forall_forall. intros l Hl. apply qlt_true. rewrite forallb_forall in H3. apply H3, Hl. }
  split; [apply T, H4|]. split; [apply T, H5|]. split.
  - intros A B. destruct (p_cmin c), (p_cmax c); try congruence; cbn in H6; apply qle_true, H6.
  - intros A Hm. rewrite Hm in H7. destruct (p_cmin c), (p_cmax c), A as [A|A]; try discriminate A; discriminate H7. Qed.

Example pwl_valid_example :
  pwl_valid (mkPwl 1 0 (-1) 2 BClamped BBound [1; 1#2; 3] 8) 3.
Proof. apply pwl_validb_ok. reflexivity. Qed.

Lemma valid_len_pos c n i : pwl_valid c n -> (i < n)%nat -> 0 < nth i (p_lengths c) 0.
Proof. intros (_ & HL & HP & _) Hi. rewrite Forall_nth0 in HP. apply HP. lia. Qed.

Lemma cumsum_from_length acc l : length (cumsum_from acc l) = length l.
Proof. revert acc; induction l; intros; cbn; auto. Qed.
Lemma diffs_from_length p l : length (diffs_from p l) = length l.
Proof. revert p; induction l; intros; cbn; auto. Qed.
Lemma lsub_length a b : length b = length a -> length (lsub a b) = length a.
Proof. intros H. unfold lsub. rewrite map2_length. lia. Qed.
Lemma nth_lsub a b i : length b = length a -> (i < length a)%nat ->
  nth i (lsub a b) 0 = Qred (nth i a 0 - nth i b 0).
Proof. intros HL Hi. unfold lsub. rewrite (nth_map2 _ a b i 0 0) by lia. reflexivity. Qed.
Lemma qneg_list_length l : length (qneg_list l) = length l.
Proof. apply map_length. Qed.

(* closed form of _approximately_project_bounds_only *)
Definition clipf (omin omax : Q) (cmin cmax : bct) (s : Q) : Q :=
  let s := match cmin with BBound => qmax s omin | _ => s end in
  match cmax with BBound => qmin s omax | _ => s end.

Lemma bounds_only_eq b h omin omax cmin cmax : (cmin <> BNone \/ cmax <> BNone) ->
  bounds_only b h omin omax cmin cmax =
  (clipf omin omax cmin cmax (0 + b),
   diffs_from (clipf omin omax cmin cmax (0 + b)) (map (clipf omin omax cmin cmax) (cumsum_from (0 + b) h))).
Proof. intros H. unfold bounds_only, cumsum, clipf.
  destruct cmin, cmax; try (exfalso; destruct H as [H|H]; apply H; reflexivity); cbn [cumsum_from map]; rewrite ?map_map, ?map_id; reflexivity. Qed.

Lemma bounds_only_cases b h omin omax cmin cmax :
  bounds_only b h omin omax cmin cmax = (b, h) \/
  bounds_only b h omin omax cmin cmax =
  (clipf omin omax cmin cmax (0 + b),
   diffs_from (clipf omin omax cmin cmax (0 + b)) (map (clipf omin omax cmin cmax) (cumsum_from (0 + b) h))).
Proof. destruct cmin, cmax; try (left; reflexivity); right; apply bounds_only_eq; ((left; discriminate) || (right; discriminate)). Qed.

Lemma bounds_only_length b h omin omax cmin cmax : length (snd (bounds_only b h omin omax cmin cmax)) = length h.
Proof. destruct (bounds_only_cases b h omin omax cmin cmax) as [->| ->]; cbn [snd]; [reflexivity|].
  rewrite diffs_from_length, map_length, cumsum_from_length. reflexivity. Qed.

Lemma bounds_mono_inc_length b h omin omax cmin cmax : length (snd (bounds_mono_inc b h omin omax cmin cmax)) = length h.
Proof. unfold bounds_mono_inc. destruct cmax, cmin; cbn [snd bct_eqb]; rewrite ?map_length; reflexivity. Qed.
Lemma bounds_mono_length m b h omin omax cmin cmax : length (snd (bounds_mono m b h omin omax cmin cmax)) = length h.
Proof. unfold bounds_mono. destruct (m =? -1)%Z.
  - pose proof (bounds_mono_inc_length (- b) (qneg_list h) (- omax) (- omin) cmax cmin) as H.
    destruct (bounds_mono_inc _ _ _ _ _ _) as [b' h']. cbn [snd] in *. rewrite qneg_list_length, H. apply qneg_list_length.
  - apply bounds_mono_inc_length. Qed.
Lemma project_monotonicity_length m h : length (project_monotonicity m h) = length h.
Proof. unfold project_monotonicity. destruct (m =? 0)%Z; [reflexivity|]. destruct (m =? 1)%Z; apply map_length. Qed.
Lemma convex_pairs_length conv : forall k hs ls, (length hs <= k)%nat -> length (convex_pairs conv hs ls) = length hs.
Proof. induction k as [|k IH]; intros hs ls H.
  - destruct hs; [|cbn in H; lia]. reflexivity.
  - destruct hs as [|h0 [|h1 hr]]; try reflexivity. destruct ls as [|l0 [|l1 lr]]; try reflexivity.
    cbn [convex_pairs length]. rewrite IH. reflexivity. cbn in H. lia. Qed.
Lemma project_convexity_length conv g hs ls : length (project_convexity conv g hs ls) = length hs.
Proof. unfold project_convexity. destruct (conv =? 0)%Z; [reflexivity|].
  destruct hs as [|h [|h' hr]]; [destruct g; reflexivity|reflexivity|].
  cbn [length]. destruct g.
  - rewrite (convex_pairs_length conv (S (S (length hr)))); cbn; lia.
  - destruct ls; [reflexivity|]. cbn [length]. rewrite (convex_pairs_length conv (S (length hr))); cbn; lia. Qed.
Lemma approx_convexity_from_length conv : forall hs ls hp lp, length (approx_convexity_from conv hp lp hs ls) = length hs.
Proof. induction hs as [|h hs IH]; intros [|l ls] hp lp; cbn; auto. Qed.
Lemma approx_convexity_length conv hs ls : length (approx_convexity conv hs ls) = length hs.
Proof. unfold approx_convexity. destruct (conv =? 0)%Z; [reflexivity|]. destruct hs, ls; cbn; auto using approx_convexity_from_length. Qed.

Lemma squeeze_d_pos sf : 0 < qmax sf 1.
Proof. pose proof (qmax_r sf 1). lra. Qed.
Definition squeeze_d (b : Q) (h : list Q) (omax : Q) : Q :=
  qmax (if qlt (1 # 1000) (omax - b) then qsum h / (omax - b) else 1) 1.
Lemma squeeze_inc_cases b h omax cmax :
  (cmax = BNone /\ squeeze_inc b h omax cmax = (b, h)) \/
  (cmax <> BNone /\ squeeze_inc b h omax cmax = (b, map (fun x => Qred (x / squeeze_d b h omax)) h)).
Proof. unfold squeeze_inc. destruct cmax; [left|right|right]; split; reflexivity || discriminate. Qed.

(* _squeeze_by_scaling multiplies every height by the same factor k >= 0 *)
Definition scales (f : Q -> Q) : Prop := exists k, 0 <= k /\ forall x, f x == x * k.
Lemma scales_id : scales (fun x => x).
Proof. exists 1. split; [lra|intros; lra]. Qed.

Lemma squeeze_inc_eq b h omax cmax : exists f, scales f /\ snd (squeeze_inc b h omax cmax) = map f h.
Proof. destruct (squeeze_inc_cases b h omax cmax) as [[_ ->]|[_ ->]]; cbn [snd].
  - exists (fun x => x). split; [apply scales_id|symmetry; apply map_id].
  - exists (fun x => Qred (x / squeeze_d b h omax)). split; [|reflexivity].
    exists (/ squeeze_d b h omax). split; [apply Qinv_le_0_compat, Qlt_le_weak, squeeze_d_pos|].
    intros x. rewrite Qred_correct. reflexivity. Qed.
(* the decreasing case: nothing without a minimum, otherwise the increasing squeeze in negated coordinates *)
Lemma squeeze_dec_cases b h omin omax cmin cmax :
  (cmin = BNone /\ squeeze (-1) b h omin omax cmin cmax = (b, h)) \/
  (cmin <> BNone /\ squeeze (-1) b h omin omax cmin cmax =
     (- fst (squeeze_inc (- b) (qneg_list h) (- omin) cmin), qneg_list (snd (squeeze_inc (- b) (qneg_list h) (- omin) cmin)))).
Proof. unfold squeeze. cbn [Z.eqb Z.opp Pos.eqb].
  destruct cmin; [left; split; reflexivity| |]; right; (split; [discriminate|]); destruct (squeeze_inc _ _ _ _); reflexivity. Qed.

Lemma squeeze_eq m b h omin omax cmin cmax : exists f, scales f /\ snd (squeeze m b h omin omax cmin cmax) = map f h.
Proof. destruct (m =? -1)%Z eqn:E; [apply Z.eqb_eq in E; subst m|unfold squeeze; rewrite E; apply squeeze_inc_eq].
  destruct (squeeze_dec_cases b h omin omax cmin cmax) as [[_ ->]|[_ ->]]; cbn [snd].
  - exists (fun x => x). split; [apply scales_id|symmetry; apply map_id].
  - destruct (squeeze_inc_eq (- b) (qneg_list h) (- omin) cmin) as (f & (k & Hk & Hf) & ->).
    exists (fun x => - f (- x)). split; [exists k; split; [exact Hk|intros x; rewrite Hf; lra]|].
    unfold qneg_list. rewrite !map_map. reflexivity. Qed.
Lemma squeeze_length m b h omin omax cmin cmax : length (snd (squeeze m b h omin omax cmin cmax)) = length h.
Proof. destruct (squeeze_eq m b h omin omax cmin cmax) as (f & _ & ->). apply map_length. Qed.

Definition down (b : bct) : bct := match b with BClamped => BBound | x => x end.

(* _finalize_constraints: the heights after its monotonicity clip and after its convexity repair *)
Definition fin_h1 c (h : list Q) := if (p_mono c =? 0)%Z then h else project_monotonicity (p_mono c) h.
Definition fin_h2 c (h : list Q) := if (p_conv c =? 0)%Z then fin_h1 c h else approx_convexity (p_conv c) (fin_h1 c h) (p_lengths c).
Lemma pwl_finalize_eq c b h : pwl_finalize c b h =
  if has_bounds c then
    if (negb (p_mono c =? 0)%Z && negb (p_conv c =? 0)%Z)%bool
    then squeeze (p_mono c) b (fin_h2 c h) (p_min c) (p_max c) (p_cmin c) (p_cmax c)
    else bounds_only b (fin_h2 c h) (p_min c) (p_max c) (down (p_cmin c)) (down (p_cmax c))
  else (b, fin_h2 c h).
Proof. reflexivity. Qed.

Lemma fin_h2_length c h : length (fin_h2 c h) = length h.
Proof. unfold fin_h2, fin_h1. destruct (p_conv c =? 0)%Z, (p_mono c =? 0)%Z;
  rewrite ?approx_convexity_length, ?project_monotonicity_length; reflexivity. Qed.
Lemma pwl_finalize_length c b h : length (snd (pwl_finalize c b h)) = length h.
Proof. rewrite pwl_finalize_eq. destruct (has_bounds c); [|apply fin_h2_length].
  destruct (negb (p_mono c =? 0)%Z && negb (p_conv c =? 0)%Z)%bool;
  rewrite ?squeeze_length, ?bounds_only_length; apply fin_h2_length. Qed.

Definition bnd_rb (st : dyk) : Q := Qred (d_bias st - d_lb_bounds st).
Definition bnd_rh (st : dyk) : list Q := lsub (d_h st) (d_lh_bounds st).
Definition bnd_res (c : pwl_cfg) (st : dyk) : Q * list Q :=
  if (p_mono c =? 0)%Z
  then bounds_only (bnd_rb st) (bnd_rh st) (p_min c) (p_max c) (p_cmin c) (p_cmax c)
  else bounds_mono (p_mono c) (bnd_rb st) (bnd_rh st) (p_min c) (p_max c) (p_cmin c) (p_cmax c).
Definition s1_bias c st : Q := if has_bounds c then fst (bnd_res c st) else d_bias st.
Definition s1_h c st : list Q := if has_bounds c then snd (bnd_res c st) else d_h st.
Definition s1_lbb c st : Q := if has_bounds c then Qred (fst (bnd_res c st) - bnd_rb st) else d_lb_bounds st.
Definition s1_lhb c st : list Q := if has_bounds c then lsub (snd (bnd_res c st)) (bnd_rh st) else d_lh_bounds st.
Definition mono_rh c st : list Q := lsub (s1_h c st) (d_lh_mono st).
Definition s2_h c st : list Q :=
  if (p_mono c =? 0)%Z then s1_h c st else project_monotonicity (p_mono c) (mono_rh c st).

(* What body() does with the heights for monotonicity and for each convexity
   group: take back the change this constraint made last time, project, and
   store the new change.  Returns the new heights and the new stored change. *)
Definition roll (on : bool) (f : list Q -> list Q) (h lh : list Q) : list Q * list Q :=
  if on then (f (lsub h lh), lsub (f (lsub h lh)) (lsub h lh)) else (h, lh).

Definition conv_on (c : pwl_cfg) (k : nat) (h : list Q) : bool := negb (p_conv c =? 0)%Z && (k <=? length h)%nat.
Definition pconv (c : pwl_cfg) (g : nat) (x : list Q) : list Q := project_convexity (p_conv c) g x (p_lengths c).
Definition st_m c st := roll (negb (p_mono c =? 0)%Z) (project_monotonicity (p_mono c)) (s1_h c st) (d_lh_mono st).
Definition st_c0 c st := roll (conv_on c 2 (s2_h c st)) (pconv c 0) (s2_h c st) (d_lh_c0 st).
Definition s3_h c st : list Q := fst (st_c0 c st).
Definition st_c1 c st := roll (conv_on c 3 (s3_h c st)) (pconv c 1) (s3_h c st) (d_lh_c1 st).
Definition s4_h c st : list Q := fst (st_c1 c st).
(* num_projections *)
Definition s4_np c st : nat :=
  Nat.b2n (has_bounds c) + Nat.b2n (negb (p_mono c =? 0)%Z) +
  Nat.b2n (conv_on c 2 (s2_h c st)) + Nat.b2n (conv_on c 3 (s3_h c st)).

Lemma st_m_fst c st : fst (st_m c st) = s2_h c st.
Proof. unfold st_m, s2_h, roll. destruct (p_mono c =? 0)%Z; reflexivity. Qed.

Lemma dyk_body_eq c st :
  dyk_body c st = (mkDyk (s1_bias c st) (s4_h c st) (s1_lbb c st) (s1_lhb c st)
                         (snd (st_m c st)) (snd (st_c0 c st)) (snd (st_c1 c st)),
                   s4_np c st).
Proof.
  unfold s4_np, s4_h, st_c1, s3_h, st_c0, st_m, s2_h, mono_rh, s1_lhb, s1_lbb, s1_h, s1_bias, dyk_body.
  fold (bnd_rb st). fold (bnd_rh st). fold (bnd_res c st). unfold roll, conv_on, pconv.
  destruct (bnd_res c st) as [b' h'].
  destruct (has_bounds c), (p_mono c =? 0)%Z; cbn [fst snd negb Nat.b2n].
  (* the same in all four cases: convexity off, or else the two length tests decide *)
  all: destruct (negb (p_conv c =? 0)%Z); cbn [andb]; [|reflexivity].
  all: destruct (2 <=? length _)%nat; cbn [fst]; destruct (3 <=? length _)%nat; reflexivity.
Qed.

Lemma body_state c st : fst (dyk_body c st) =
  mkDyk (s1_bias c st) (s4_h c st) (s1_lbb c st) (s1_lhb c st) (snd (st_m c st)) (snd (st_c0 c st)) (snd (st_c1 c st)).
Proof. rewrite dyk_body_eq. reflexivity. Qed.

Lemma dyk_iter_S_last c n : forall st, dyk_iter c (S n) st = fst (dyk_body c (dyk_iter c n st)).
Proof. induction n as [|n IH]; intros st. reflexivity.
  change (dyk_iter c (S (S n)) st) with (dyk_iter c (S n) (fst (dyk_body c st))). rewrite IH. reflexivity. Qed.

Lemma dyk_iter_inv (P : dyk -> Prop) c : (forall st, P st -> P (fst (dyk_body c st))) ->
  forall n st, P st -> P (dyk_iter c n st).
Proof. intros HP. induction n as [|n IH]; intros st H; cbn [dyk_iter]. exact H. apply IH, HP, H. Qed.

(* all lists of the state have the length of the heights *)
Definition dyk_wf (n : nat) (st : dyk) : Prop :=
  length (d_h st) = n /\ length (d_lh_bounds st) = n /\ length (d_lh_mono st) = n /\
  length (d_lh_c0 st) = n /\ length (d_lh_c1 st) = n.

Lemma dyk_init_wf b h : dyk_wf (length h) (dyk_init b h).
Proof. unfold dyk_wf, dyk_init; cbn. rewrite map_length. auto. Qed.

Lemma roll_length n on f h lh : (forall x, length (f x) = length x) -> length h = n -> length lh = n ->
  length (fst (roll on f h lh)) = n /\ length (snd (roll on f h lh)) = n.
Proof. intros Hf Hh Hl. unfold roll. destruct on; cbn [fst snd]; [|auto].
  assert (Hr : length (lsub h lh) = n) by (rewrite lsub_length; congruence).
  rewrite lsub_length; rewrite Hf; auto. Qed.

Section Stages.
  Variables (c : pwl_cfg) (n : nat) (st : dyk).
  Hypothesis WF : dyk_wf n st.
  Lemma bnd_rh_length : length (bnd_rh st) = n.
  Proof. destruct WF as (H1 & H2 & _). unfold bnd_rh. rewrite lsub_length; congruence. Qed.
  Lemma bnd_res_length : length (snd (bnd_res c st)) = n.
  Proof. unfold bnd_res. destruct (p_mono c =? 0)%Z; rewrite ?bounds_only_length, ?bounds_mono_length; apply bnd_rh_length. Qed.
  Lemma s1_h_length : length (s1_h c st) = n.
  Proof. unfold s1_h. destruct (has_bounds c). apply bnd_res_length. apply WF. Qed.
  Lemma s1_lhb_length : length (s1_lhb c st) = n.
  Proof. unfold s1_lhb. destruct (has_bounds c). rewrite lsub_length; rewrite ?bnd_rh_length, bnd_res_length; reflexivity. apply WF. Qed.
  Lemma st_m_length : length (s2_h c st) = n /\ length (snd (st_m c st)) = n.
  Proof. rewrite <- st_m_fst. apply roll_length; [apply project_monotonicity_length|apply s1_h_length|apply WF]. Qed.
  Lemma st_c0_length : length (s3_h c st) = n /\ length (snd (st_c0 c st)) = n.
  Proof. apply roll_length; [intros; apply project_convexity_length|apply st_m_length|apply WF]. Qed.
  Lemma st_c1_length : length (s4_h c st) = n /\ length (snd (st_c1 c st)) = n.
  Proof. apply roll_length; [intros; apply project_convexity_length|apply st_c0_length|apply WF]. Qed.
  Lemma dyk_body_wf : dyk_wf n (fst (dyk_body c st)).
  Proof. rewrite body_state. unfold dyk_wf; cbn [d_h d_lh_bounds d_lh_mono d_lh_c0 d_lh_c1].
    split; [apply st_c1_length|]. split; [apply s1_lhb_length|]. split; [apply st_m_length|].
    split; [apply st_c0_length|apply st_c1_length]. Qed.
End Stages.

Lemma dyk_iter_wf c n k st : dyk_wf n st -> dyk_wf n (dyk_iter c k st).
Proof. apply dyk_iter_inv. intros; apply dyk_body_wf; assumption. Qed.

(* the two exits of project_all_constraints *)
Lemma pwl_project_col_cases c b h :
  let st1 := fst (dyk_body c (dyk_init b h)) in
  let stN := dyk_iter c (p_iters c) (dyk_init b h) in
  ((s4_np c (dyk_init b h) <= 1)%nat /\ pwl_project_col c (b :: h) = d_bias st1 :: d_h st1) \/
  ((2 <= s4_np c (dyk_init b h))%nat /\
   pwl_project_col c (b :: h) = fst (pwl_finalize c (d_bias stN) (d_h stN)) :: snd (pwl_finalize c (d_bias stN) (d_h stN))).
Proof. cbn zeta. unfold pwl_project_col. rewrite dyk_body_eq. cbn [fst].
  destruct (s4_np c (dyk_init b h) <=? 1)%nat eqn:E.
  - left. apply Nat.leb_le in E. split; [exact E|reflexivity].
  - right. apply Nat.leb_gt in E. split; [lia|]. destruct (pwl_finalize _ _ _); reflexivity. Qed.

Lemma pwl_project_col_length c w : length (pwl_project_col c w) = length w.
Proof. destruct w as [|b h]; [reflexivity|].
  destruct (pwl_project_col_cases c b h) as [[_ ->]|[_ ->]]; cbn [length]; f_equal.
  - apply (dyk_body_wf c (length h)), dyk_init_wf.
  - rewrite pwl_finalize_length. apply (dyk_iter_wf c (length h)), dyk_init_wf. Qed.

Lemma pwl_project_per_unit c units W u : (u < units)%nat ->
  column u (pwl_project c units W) = pwl_project_col c (column u W).
Proof. intros Hu. unfold pwl_project.
  rewrite column_transpose by (rewrite map_length, seq_length; exact Hu).
  rewrite (nth_map_seq (fun u => pwl_project_col c (column u W)) units u [] Hu).
  rewrite <- (column_length u W), <- (pwl_project_col_length c (column u W)). apply map_nth_seq. Qed.

Lemma naive_bounds_lo lo hi w : (match hi with Some h => lo <= h | None => True end) -> lo <= naive_bounds (Some lo) hi w.
Proof. intros. unfold naive_bounds, clip_hi, clip_lo. destruct hi; qcases; lra. Qed.
Lemma naive_bounds_hi lo hi w : naive_bounds lo (Some hi) w <= hi.
Proof. unfold naive_bounds, clip_hi, clip_lo. destruct lo; qcases; lra. Qed.
Lemma naive_bounds_both lo hi w : lo <= hi -> lo <= naive_bounds (Some lo) (Some hi) w /\ naive_bounds (Some lo) (Some hi) w <= hi.
Proof. intros H. split. apply (naive_bounds_lo lo (Some hi)), H. apply naive_bounds_hi. Qed.
Lemma naive_bounds_one_sided lo hi w :
  lo <= naive_bounds (Some lo) None w /\ naive_bounds None (Some hi) w <= hi.
Proof. split. apply naive_bounds_lo; exact I. apply naive_bounds_hi. Qed.
Lemma naive_bounds_none w : naive_bounds None None w = w.
Proof. reflexivity. Qed.

(* the sign that monotonicity m = +1 / -1 asks of every height *)
Definition signed (m : Z) (x : Q) : Prop := if (m =? 1)%Z then 0 <= x else x <= 0.

Lemma signed_scale m k x y : 0 <= k -> y == x * k -> signed m x -> signed m y.
Proof. unfold signed. intros Hk E. destruct (m =? 1)%Z; intros H; rewrite E; nra. Qed.
Lemma scaled_signed m f l : scales f -> Forall (signed m) l -> Forall (signed m) (map f l).
Proof. intros (k & Hk & Hf) H. apply Forall_map. eapply Forall_impl; [|exact H].
  intros x Hx. exact (signed_scale m k x (f x) Hk (Hf x) Hx). Qed.

Lemma qsum_signed m l : Forall (signed m) l -> signed m (qsum l).
Proof. unfold signed. destruct (m =? 1)%Z; induction 1; cbn [qsum]; lra. Qed.
(* partial sums of signed increments lie between the first and the last *)
Lemma cumsum_from_signed m : forall l acc, Forall (signed m) l ->
  Forall (fun s => signed m (s - acc) /\ signed m (acc + qsum l - s)) (acc :: cumsum_from acc l).
Proof. induction l as [|x r IH]; intros acc H; cbn [cumsum_from qsum].
  - constructor; [|constructor]. unfold signed; destruct (m =? 1)%Z; split; lra.
  - inversion H as [|? ? Hx Hr]; subst. pose proof (qsum_signed m r Hr) as Hs. specialize (IH (acc + x) Hr).
    constructor.
    + unfold signed in *. destruct (m =? 1)%Z; split; lra.
    + eapply Forall_impl; [|exact IH]. cbv beta. unfold signed in *. destruct (m =? 1)%Z; intros s [A B]; split; lra. Qed.

Lemma eqb0_false {m} : m <> 0%Z -> (m =? 0)%Z = false.
Proof. intros H. apply Z.eqb_neq. exact H. Qed.

Lemma project_monotonicity_signed m h : m <> 0%Z -> Forall (signed m) (project_monotonicity m h).
Proof. intros Hm. unfold project_monotonicity, signed. rewrite (eqb0_false Hm).
  destruct (m =? 1)%Z; apply Forall_map, Forall_forall; intros x _; [apply qmax_r|apply qmin_r]. Qed.

Lemma acf_signed m conv : forall hs ls hp lp, signed m hp -> 0 < lp -> Forall (fun l => 0 < l) ls ->
  Forall (signed m) hs -> Forall (signed m) (approx_convexity_from conv hp lp hs ls).
Proof. induction hs as [|h hs IH]; intros [|l ls] hp lp Hp Hl HL HH; cbn [approx_convexity_from]; auto.
  inversion HL; subst. inversion HH; subst.
  assert (Ht : signed m (hp * (l / lp))).
  { apply (signed_scale m (l / lp) hp); [apply qdiv_nonneg; lra|reflexivity|exact Hp]. }
  assert (H' : signed m (if (conv =? 1)%Z then Qred (qmax h (hp * (l / lp))) else Qred (qmin h (hp * (l / lp))))).
  { unfold signed in *. destruct (m =? 1)%Z, (conv =? 1)%Z; rewrite Qred_correct; qcases; lra. }
  constructor. exact H'. apply IH; assumption. Qed.
Lemma approx_convexity_signed m conv hs ls : Forall (fun l => 0 < l) ls ->
  Forall (signed m) hs -> Forall (signed m) (approx_convexity conv hs ls).
Proof. intros HL HH. unfold approx_convexity. destruct (conv =? 0)%Z; [assumption|].
  destruct hs as [|h hs], ls as [|l ls]; auto. inversion HL; inversion HH; subst. constructor; [assumption|].
  apply acf_signed; assumption. Qed.

Lemma squeeze_signed m m' b h omin omax cmin cmax :
  Forall (signed m) h -> Forall (signed m) (snd (squeeze m' b h omin omax cmin cmax)).
Proof. destruct (squeeze_eq m' b h omin omax cmin cmax) as (f & Hf & ->). apply scaled_signed; assumption. Qed.

Lemma clipf_mono omin omax cmin cmax x y : x <= y -> clipf omin omax cmin cmax x <= clipf omin omax cmin cmax y.
Proof. intros. unfold clipf. destruct cmin, cmax; qcases; lra. Qed.
Lemma clipf_proper {omin omax cmin cmax x y} : x == y -> clipf omin omax cmin cmax x == clipf omin omax cmin cmax y.
Proof. intros E. pose proof (clipf_mono omin omax cmin cmax x y ltac:(lra)).
  pose proof (clipf_mono omin omax cmin cmax y x ltac:(lra)). lra. Qed.

Lemma clipf_id omin omax cmin cmax x : (cmin = BBound -> omin <= x) -> (cmax = BBound -> x <= omax) ->
  clipf omin omax cmin cmax x == x.
Proof. intros A B. unfold clipf. destruct cmin, cmax; try reflexivity;
  try specialize (A eq_refl); try specialize (B eq_refl); qcases; lra. Qed.
Lemma clipf_top omin omax cmin x : (cmin = BBound -> omin <= omax) -> omax <= x -> clipf omin omax cmin BBound x == omax.
Proof. intros A B. unfold clipf. destruct cmin; try specialize (A eq_refl); qcases; lra. Qed.
Lemma clipf_bot omin omax cmax x : (cmax = BBound -> omin <= omax) -> x <= omin -> clipf omin omax BBound cmax x == omin.
Proof. intros A B. unfold clipf. destruct cmax; try specialize (A eq_refl); qcases; lra. Qed.

(* differences of monotonically clipped cumulative sums keep the sign of the increments *)
Lemma diffs_clip_signed m (F : Q -> Q) : (forall x y, x <= y -> F x <= F y) ->
  forall h acc, Forall (signed m) h -> Forall (signed m) (diffs_from (F acc) (map F (cumsum_from acc h))).
Proof. intros HF. induction h as [|x h IH]; intros acc H; cbn [cumsum_from map diffs_from]; constructor; inversion H; subst.
  - unfold signed in *. destruct (m =? 1)%Z; rewrite Qred_correct.
    + pose proof (HF acc (acc + x) ltac:(lra)). lra.
    + pose proof (HF (acc + x) acc ltac:(lra)). lra.
  - apply IH; assumption. Qed.
Lemma bounds_only_signed m b h omin omax cmin cmax : Forall (signed m) h ->
  Forall (signed m) (snd (bounds_only b h omin omax cmin cmax)).
Proof. intros H. destruct (bounds_only_cases b h omin omax cmin cmax) as [->| ->]; cbn [snd]; [exact H|].
  apply diffs_clip_signed; [apply clipf_mono|exact H]. Qed.

Lemma fin_h2_signed c n h : pwl_valid c n -> p_mono c <> 0%Z -> Forall (signed (p_mono c)) (fin_h2 c h).
Proof. intros (_ & _ & HL & _) Hm. unfold fin_h2, fin_h1. rewrite (eqb0_false Hm).
  pose proof (project_monotonicity_signed (p_mono c) h Hm).
  destruct (p_conv c =? 0)%Z; [assumption|]. apply approx_convexity_signed; assumption. Qed.
Lemma finalize_signed c n b h : pwl_valid c n -> p_mono c <> 0%Z ->
  Forall (signed (p_mono c)) (snd (pwl_finalize c b h)).
Proof. intros V Hm. pose proof (fin_h2_signed c n h V Hm) as H2. rewrite pwl_finalize_eq.
  destruct (has_bounds c); [|exact H2].
  destruct (negb (p_mono c =? 0)%Z && negb (p_conv c =? 0)%Z)%bool.
  apply squeeze_signed; assumption. apply bounds_only_signed; assumption. Qed.

(* without a convexity step the heights are those of the monotonicity stage *)
Lemma s4_h_noconv c st : conv_on c 2 (s2_h c st) = false -> conv_on c 3 (s3_h c st) = false -> s4_h c st = s2_h c st.
Proof. intros H0 H1. unfold s4_h, st_c1. rewrite H1. unfold s3_h, st_c0. rewrite H0. reflexivity. Qed.
(* the single-step exit is taken when at most one projection is configured: if that one
   is monotonicity or bounds, no convexity step runs *)
Lemma shortcut_mono c st : p_mono c <> 0%Z -> (s4_np c st <= 1)%nat -> s4_h c st = s2_h c st.
Proof. intros Hm. unfold s4_np. rewrite (eqb0_false Hm).
  destruct (has_bounds c), (conv_on c 2 (s2_h c st)) eqn:E0, (conv_on c 3 (s3_h c st)) eqn:E1; cbn; intros; try lia.
  apply s4_h_noconv; assumption. Qed.
Lemma shortcut_bounds c st : has_bounds c = true -> (s4_np c st <= 1)%nat -> p_mono c = 0%Z /\ s4_h c st = s2_h c st.
Proof. intros Hb. unfold s4_np. rewrite Hb.
  destruct (p_mono c =? 0)%Z eqn:E, (conv_on c 2 (s2_h c st)) eqn:E0, (conv_on c 3 (s3_h c st)) eqn:E1; cbn; intros; try lia.
  split; [apply Z.eqb_eq, E|apply s4_h_noconv; assumption]. Qed.
Lemma body_mono_noconv c st : p_conv c = 0%Z -> s4_h c st = s2_h c st.
Proof. intros Hc. apply s4_h_noconv; unfold conv_on; rewrite Hc; reflexivity. Qed.

Lemma pwl_monotone_exact c n bias hs : pwl_valid c n -> length hs = n ->
  (p_mono c = 1%Z -> Forall (fun h => 0 <= h) (tl (pwl_project_col c (bias :: hs)))) /\
  (p_mono c = (-1)%Z -> Forall (fun h => h <= 0) (tl (pwl_project_col c (bias :: hs)))).
Proof. intros V HL.
  assert (H : p_mono c <> 0%Z -> Forall (signed (p_mono c)) (tl (pwl_project_col c (bias :: hs)))).
  { intros Hm. destruct (pwl_project_col_cases c bias hs) as [[Hnp ->]|[_ ->]]; cbn [tl].
    - rewrite body_state; cbn [d_h]. rewrite (shortcut_mono c _ Hm Hnp). unfold s2_h. rewrite (eqb0_false Hm).
      apply project_monotonicity_signed; exact Hm.
    - eapply finalize_signed; eassumption. }
  split; intros Hm; rewrite Hm in H; apply H; discriminate. Qed.

Lemma cumsum_diffs : forall rest acc prev, acc == prev -> qleq (cumsum_from acc (diffs_from prev rest)) rest.
Proof. induction rest as [|x r IH]; intros acc prev H; cbn [diffs_from cumsum_from]; constructor.
  - rewrite Qred_correct, H. lra.
  - apply IH. rewrite Qred_correct, H. lra. Qed.

Lemma bounds_only_cumsum b h omin omax cmin cmax : (cmin <> BNone \/ cmax <> BNone) ->
  qleq (cumsum (fst (bounds_only b h omin omax cmin cmax) :: snd (bounds_only b h omin omax cmin cmax)))
       (map (clipf omin omax cmin cmax) (cumsum (b :: h))).
Proof. intros H. rewrite bounds_only_eq by exact H. cbn [fst snd]. unfold cumsum. cbn [cumsum_from map].
  constructor. lra. apply cumsum_diffs. lra. Qed.

Lemma bounds_only_in_bounds b h omin omax cmin cmax :
  cmin <> BClamped -> cmax <> BClamped -> (cmin <> BNone -> cmax <> BNone -> omin <= omax) ->
  let r := bounds_only b h omin omax cmin cmax in
  (cmin <> BNone -> Forall (fun s => omin <= s) (cumsum (fst r :: snd r))) /\
  (cmax <> BNone -> Forall (fun s => s <= omax) (cumsum (fst r :: snd r))).
Proof. intros Hc1 Hc2 Hle r.
  assert (Hin : cmin <> BNone \/ cmax <> BNone ->
    Forall (fun s => (cmin <> BNone -> omin <= s) /\ (cmax <> BNone -> s <= omax)) (cumsum (fst r :: snd r))).
  { intros Hc. eapply qleq_Forall; [|apply qleq_sym, bounds_only_cumsum; exact Hc|].
    { intros x y E Hx. rewrite <- E. exact Hx. }
    apply Forall_map, Forall_forall. intros y _. unfold clipf.
    destruct cmin, cmax; try congruence; (split; intros G; try congruence); try (qcases; lra).
    assert (omin <= omax) by (apply Hle; discriminate). qcases; lra. }
  split; intros Hc; (eapply Forall_impl; [|apply Hin; auto]); cbv beta; intros s [A B]; auto. Qed.

Lemma has_bounds_true c : (p_cmin c <> BNone \/ p_cmax c <> BNone) -> has_bounds c = true.
Proof. unfold has_bounds. destruct (p_cmin c), (p_cmax c); intros [H|H]; try congruence; reflexivity. Qed.
Lemma has_bounds_false c : has_bounds c = false -> p_cmin c = BNone /\ p_cmax c = BNone.
Proof. unfold has_bounds. destruct (p_cmin c), (p_cmax c); cbn; intros; try discriminate; auto. Qed.
Lemma down_not_clamped b : down b <> BClamped. Proof. destruct b; discriminate. Qed.
Lemma down_none b : down b <> BNone <-> b <> BNone. Proof. destruct b; cbn; split; congruence. Qed.

Lemma pwl_bounds c n bias hs : pwl_valid c n -> length hs = n ->
  ~ (p_mono c <> 0%Z /\ p_conv c <> 0%Z) ->
  (p_cmin c <> BNone -> Forall (fun s => p_min c <= s) (keypoint_outputs (pwl_project_col c (bias :: hs)))) /\
  (p_cmax c <> BNone -> Forall (fun s => s <= p_max c) (keypoint_outputs (pwl_project_col c (bias :: hs)))).
Proof. intros V HL Hnot. unfold keypoint_outputs.
  assert (Hgoal : has_bounds c = true ->
    (p_cmin c <> BNone -> Forall (fun s => p_min c <= s) (cumsum (pwl_project_col c (bias :: hs)))) /\
    (p_cmax c <> BNone -> Forall (fun s => s <= p_max c) (cumsum (pwl_project_col c (bias :: hs))))).
  2:{ split; intros H; apply Hgoal; auto using has_bounds_true. }
  intros Hb. destruct V as (_ & _ & _ & _ & _ & Hle & Hcl).
  destruct (pwl_project_col_cases c bias hs) as [[Hnp ->]|[_ ->]].
  - destruct (shortcut_bounds c _ Hb Hnp) as (Hm & E4).
    rewrite body_state; cbn [d_h d_bias]. rewrite E4.
    unfold s2_h, s1_h, s1_bias, bnd_res. rewrite Hm, Hb. cbn [Z.eqb].
    apply bounds_only_in_bounds; auto.
    + intros E. apply Hcl; auto.
    + intros E. apply Hcl; auto.
  - rewrite pwl_finalize_eq, Hb.
    replace (negb (p_mono c =? 0)%Z && negb (p_conv c =? 0)%Z)%bool with false.
    2:{ destruct (p_mono c =? 0)%Z eqn:E1; [reflexivity|]. destruct (p_conv c =? 0)%Z eqn:E2; [reflexivity|].
        exfalso. apply Hnot. split; intros E; rewrite E in *; discriminate. }
    pose proof (bounds_only_in_bounds (d_bias (dyk_iter c (p_iters c) (dyk_init bias hs))) (fin_h2 c (d_h (dyk_iter c (p_iters c) (dyk_init bias hs))))
      (p_min c) (p_max c) (down (p_cmin c)) (down (p_cmax c)) (down_not_clamped _) (down_not_clamped _)) as H.
    cbn zeta in H. rewrite !down_none in H. apply H. exact Hle. Qed.

(* known finding D2: monotone + convex + bounds is not repaired by _squeeze_by_scaling *)
Lemma pwl_bounds_refuted_monotone_convex :
  exists c w, pwl_valid c (length w - 1) /\ p_mono c <> 0%Z /\ p_conv c <> 0%Z /\ p_cmin c <> BNone /\
    exists s, In s (keypoint_outputs (pwl_project_col c w)) /\ s < p_min c.
Proof. exists (mkPwl (-1) 1 (-3) (-3) BBound BNone [1; 1] 1), [-129#4; -10; 55#4].
  split. { apply pwl_validb_ok. reflexivity. }
  split. discriminate. split. discriminate. split. discriminate.
  exists (-95#4). split. vm_compute. left; reflexivity. reflexivity. Qed.

(* slope h0/l0 versus slope h1/l1, division-free (lengths are positive) *)
Definition slope_le (conv : Z) (h0 l0 h1 l1 : Q) : Prop :=
  if (conv =? 1)%Z then h0 * l1 <= h1 * l0 else h1 * l0 <= h0 * l1.
Fixpoint chain_from (conv : Z) (hp lp : Q) (hs ls : list Q) : Prop :=
  match hs, ls with
  | h :: hr, l :: lr => slope_le conv hp lp h l /\ chain_from conv h l hr lr
  | _, _ => True
  end.
Definition chain (conv : Z) (hs ls : list Q) : Prop :=
  match hs, ls with h :: hr, l :: lr => chain_from conv h l hr lr | _, _ => True end.

Lemma chain_from_nth conv : forall hs ls hp lp i, chain_from conv hp lp hs ls ->
  (i < length hs)%nat -> (i < length ls)%nat ->
  slope_le conv (nth i (hp :: hs) 0) (nth i (lp :: ls) 0) (nth i hs 0) (nth i ls 0).
Proof. induction hs as [|h hs IH]; intros [|l ls] hp lp i H Hi Hl; cbn [length] in *; try lia.
  destruct H as [H1 H2]. destruct i as [|i]. exact H1.
  apply (IH ls h l i); [assumption|lia|lia]. Qed.
Lemma chain_nth conv hs ls i : chain conv hs ls -> (S i < length hs)%nat -> (S i < length ls)%nat ->
  slope_le conv (nth i hs 0) (nth i ls 0) (nth (S i) hs 0) (nth (S i) ls 0).
Proof. destruct hs as [|h hs], ls as [|l ls]; cbn [length chain]; intros H Hi Hl; try lia.
  apply (chain_from_nth conv hs ls h l i H); lia. Qed.

Lemma acf_chain conv : forall hs ls hp lp, 0 < lp -> Forall (fun l => 0 < l) ls ->
  chain_from conv hp lp (approx_convexity_from conv hp lp hs ls) ls.
Proof. induction hs as [|h hs IH]; intros [|l ls] hp lp Hlp HL; cbn [approx_convexity_from chain_from]; auto.
  inversion HL; subst. split; [|apply IH; assumption].
  assert (E : hp * (l / lp) * lp == hp * l) by (field; lra).
  unfold slope_le. destruct (conv =? 1)%Z; rewrite Qred_correct.
  - assert (hp * (l / lp) * lp <= qmax h (hp * (l / lp)) * lp) by (apply Qmult_le_compat_r; [apply qmax_r|lra]). lra.
  - assert (qmin h (hp * (l / lp)) * lp <= hp * (l / lp) * lp) by (apply Qmult_le_compat_r; [apply qmin_r|lra]). lra. Qed.
Lemma approx_convexity_chain conv hs ls : conv <> 0%Z -> Forall (fun l => 0 < l) ls ->
  chain conv (approx_convexity conv hs ls) ls.
Proof. intros Hc HL. unfold approx_convexity. rewrite (eqb0_false Hc).
  destruct hs as [|h hs], ls as [|l ls]; cbn [chain]; auto. inversion HL; subst. apply acf_chain; assumption. Qed.

Lemma slope_le_scale conv k h0 l0 h1 l1 x0 x1 : 0 <= k -> x0 == h0 * k -> x1 == h1 * k ->
  slope_le conv h0 l0 h1 l1 -> slope_le conv x0 l0 x1 l1.
Proof. unfold slope_le. intros Hk E0 E1. destruct (conv =? 1)%Z; intros H; rewrite E0, E1.
  - pose proof (qmul_le_l k _ _ Hk H). lra.
  - pose proof (qmul_le_l k _ _ Hk H). lra. Qed.
Lemma chain_from_scale conv f : scales f ->
  forall hs ls hp lp, chain_from conv hp lp hs ls -> chain_from conv (f hp) lp (map f hs) ls.
Proof. intros (k & Hk & Hf). induction hs as [|h hs IH]; intros [|l ls] hp lp H; cbn [map chain_from] in *; auto.
  destruct H as [H1 H2]. split; [|apply IH; assumption].
  eapply slope_le_scale; [exact Hk|apply Hf|apply Hf|exact H1]. Qed.
Lemma chain_scale conv f hs ls : scales f -> chain conv hs ls -> chain conv (map f hs) ls.
Proof. intros Hf. destruct hs as [|h hs], ls as [|l ls]; cbn [map chain]; auto. apply chain_from_scale; assumption. Qed.

Lemma convex_pair_slope conv a b l0 l1 : 0 < l0 -> 0 < l1 ->
  let base := (a + b) / (l0 + l1) in
  slope_le conv (if (conv =? 1)%Z then Qred (qmin a (l0 * base)) else Qred (qmax a (l0 * base))) l0
                (if (conv =? 1)%Z then Qred (qmax b (l1 * base)) else Qred (qmin b (l1 * base))) l1.
Proof. intros H0 H1 base. unfold slope_le. destruct (conv =? 1)%Z; rewrite !Qred_correct.
  - assert (qmin a (l0 * base) * l1 <= l0 * base * l1) by (apply Qmult_le_compat_r; [apply qmin_r|lra]).
    assert (l1 * base * l0 <= qmax b (l1 * base) * l0) by (apply Qmult_le_compat_r; [apply qmax_r|lra]). lra.
  - assert (l0 * base * l1 <= qmax a (l0 * base) * l1) by (apply Qmult_le_compat_r; [apply qmax_r|lra]).
    assert (qmin b (l1 * base) * l0 <= l1 * base * l0) by (apply Qmult_le_compat_r; [apply qmin_r|lra]). lra. Qed.

Lemma project_convexity_two conv hs ls : conv <> 0%Z -> length hs = 2%nat -> (2 <= length ls)%nat ->
  Forall (fun l => 0 < l) ls -> chain conv (project_convexity conv 0 hs ls) ls.
Proof. intros Hc HL HLs HP. destruct hs as [|a [|b [|x hs]]]; try discriminate. destruct ls as [|l0 [|l1 lr]]; cbn in HLs; try lia.
  unfold project_convexity. rewrite (eqb0_false Hc).
  cbn [length convex_pairs chain chain_from]. inversion HP as [|? ? P0 HP']; subst. inversion HP' as [|? ? P1 _]; subst.
  split; [|destruct lr; exact I]. apply convex_pair_slope; assumption. Qed.

Lemma finalize_chain c n b h : pwl_valid c n -> p_conv c <> 0%Z -> (p_mono c <> 0%Z \/ has_bounds c = false) ->
  chain (p_conv c) (snd (pwl_finalize c b h)) (p_lengths c).
Proof. intros (_ & _ & HL & _) Hc Hor. rewrite pwl_finalize_eq.
  assert (H2 : chain (p_conv c) (fin_h2 c h) (p_lengths c)).
  { unfold fin_h2. rewrite (eqb0_false Hc).
    apply approx_convexity_chain; assumption. }
  destruct (has_bounds c); [|exact H2]. destruct Hor as [Hm|?]; [|discriminate].
  rewrite (eqb0_false Hm), (eqb0_false Hc). cbn [negb andb].
  destruct (squeeze_eq (p_mono c) b (fin_h2 c h) (p_min c) (p_max c) (p_cmin c) (p_cmax c)) as (f & Hf & ->).
  apply chain_scale; assumption. Qed.

Lemma pwl_convex c n bias hs : pwl_valid c n -> length hs = n ->
  p_conv c <> 0%Z -> (p_mono c <> 0%Z \/ has_bounds c = false) ->
  forall i, (S i < n)%nat ->
  slope_le (p_conv c) (nth i (tl (pwl_project_col c (bias :: hs))) 0) (nth i (p_lengths c) 0)
                      (nth (S i) (tl (pwl_project_col c (bias :: hs))) 0) (nth (S i) (p_lengths c) 0).
Proof. intros V HL Hc Hor i Hi.
  assert (Hlen : length (tl (pwl_project_col c (bias :: hs))) = n).
  { pose proof (pwl_project_col_length c (bias :: hs)) as H. destruct (pwl_project_col c (bias :: hs)); cbn in *; lia. }
  assert (HLs : length (p_lengths c) = n) by apply V.
  apply chain_nth; try lia. clear Hlen.
  pose proof (dyk_init_wf bias hs) as WF. rewrite HL in WF.
  destruct (pwl_project_col_cases c bias hs) as [[Hnp ->]|[_ ->]]; cbn [tl].
  - (* convexity is the only projection, so group 0 acts and group 1 does not: n = 2 *)
    pose proof (st_m_length c n _ WF) as [L2 _]. pose proof (st_c0_length c n _ WF) as [L3 _].
    assert (E0 : conv_on c 2 (s2_h c (dyk_init bias hs)) = true).
    { unfold conv_on. rewrite (eqb0_false Hc), L2. apply Nat.leb_le. lia. }
    assert (E1 : conv_on c 3 (s3_h c (dyk_init bias hs)) = false).
    { revert Hnp. unfold s4_np. rewrite E0. destruct (conv_on c 3 _); [|reflexivity].
      destruct (has_bounds c), (negb (p_mono c =? 0)%Z); cbn; lia. }
    assert (Hn : n = 2%nat).
    { unfold conv_on in E1. rewrite (eqb0_false Hc), L3 in E1. apply Nat.leb_gt in E1. lia. }
    rewrite body_state; cbn [d_h]. unfold s4_h, st_c1. rewrite E1. unfold s3_h, st_c0, roll. rewrite E0. cbn [fst].
    apply project_convexity_two; [assumption| |lia|apply V].
    rewrite lsub_length; [lia|rewrite L2; apply WF].
  - eapply finalize_chain; eassumption. Qed.

Lemma pwl_convex_nth c n bias hs : pwl_valid c n -> length hs = n ->
  p_conv c <> 0%Z -> (p_mono c <> 0%Z \/ has_bounds c = false) ->
  forall i, (S i < n)%nat ->
  let h := tl (pwl_project_col c (bias :: hs)) in let l := p_lengths c in
  (p_conv c = 1%Z -> nth i h 0 * nth (S i) l 0 <= nth (S i) h 0 * nth i l 0) /\
  (p_conv c = (-1)%Z -> nth (S i) h 0 * nth i l 0 <= nth i h 0 * nth (S i) l 0).
Proof. intros V HL Hc Hor i Hi h l. pose proof (pwl_convex c n bias hs V HL Hc Hor i Hi) as H.
  unfold slope_le in H. split; intros E; rewrite E in H; exact H. Qed.

(* the same with real slopes *)
Lemma slope_le_div {h0 l0 h1 l1} : 0 < l0 -> 0 < l1 -> (h0 * l1 <= h1 * l0 <-> h0 / l0 <= h1 / l1).
Proof. intros H0 H1. pose proof (qmul_div_cancel l0 h0 H0) as E0. pose proof (qmul_div_cancel l1 h1 H1) as E1.
  split; intros H.
  - apply (Qmult_le_l _ _ (l0 * l1)). nra. nra.
  - assert (l0 * l1 * (h0 / l0) <= l0 * l1 * (h1 / l1)) by (apply qmul_le_l; [nra|assumption]). nra. Qed.

Lemma pwl_convex_slopes c n bias hs : pwl_valid c n -> length hs = n ->
  p_conv c <> 0%Z -> (p_mono c <> 0%Z \/ has_bounds c = false) ->
  forall i, (S i < n)%nat ->
  let h := tl (pwl_project_col c (bias :: hs)) in let l := p_lengths c in
  (p_conv c = 1%Z -> nth i h 0 / nth i l 0 <= nth (S i) h 0 / nth (S i) l 0) /\
  (p_conv c = (-1)%Z -> nth (S i) h 0 / nth (S i) l 0 <= nth i h 0 / nth i l 0).
Proof. intros V HL Hc Hor i Hi h l.
  destruct (pwl_convex_nth c n bias hs V HL Hc Hor i Hi) as [H1 H2]. fold h l in H1, H2.
  pose proof (valid_len_pos c n i V ltac:(lia)) as P0. pose proof (valid_len_pos c n (S i) V Hi) as P1. fold l in P0, P1.
  split; intros E.
  - apply (proj1 (slope_le_div P0 P1)). exact (H1 E).
  - apply (proj1 (slope_le_div P1 P0)). exact (H2 E). Qed.

(* Clamps.  The bias end is immediate; the far end needs the Dykstra invariant:
   after every MONOTONICITY step  bias + sum heights >= output_max
   (increasing, normalised). *)

Lemma qsum_shift_pointwise a b d : length a = length b ->
  (forall i, (i < length a)%nat -> nth i a 0 == nth i b 0 + d) -> qsum a == qsum b + qn (length a) * d.
Proof. intros HL H. rewrite HL, <- qsum_map_shift. apply qsum_eq_pointwise; [rewrite map_length; exact HL|].
  intros i Hi. rewrite (nth_map_lt (fun h => Qred (h + d)) b i 0 0), Qred_correct by lia. apply H, Hi. Qed.

(* what _project_bounds_considering_monotonicity (increasing, CLAMPED max) returns *)
Definition bmi_facts (omin omax : Q) (cmin : bct) (N rb s bq hd bd : Q) : Prop :=
  bq + s + N * hd == omax /\
  match cmin with
  | BClamped => bq == omin
  | BBound => (N + 1) * bd == omax - (rb + s) /\ bq == qmax (rb + bd) omin
  | BNone => bq == rb + hd /\ (N + 1) * hd == omax - (rb + s)
  end.

Lemma bmi_clamped_max rb rh omin omax cmin : (1 <= length rh)%nat ->
  exists bq hd bd, bounds_mono_inc rb rh omin omax cmin BClamped = (Qred bq, map (fun h => Qred (h + hd)) rh) /\
    bmi_facts omin omax cmin (qn (length rh)) rb (qsum rh) bq hd bd.
Proof. intros Hn. pose proof (qn_pos _ Hn) as HN. unfold bounds_mono_inc, bmi_facts.
  set (N := qn (length rh)) in *. set (s := qsum rh).
  destruct cmin; cbn [bct_eqb]; cbv beta iota zeta.
  - exists (rb + (omax - (rb + s)) / (N + 1)), ((omax - (rb + s)) / (N + 1)), 0. split; [reflexivity|].
    pose proof (qmul_div_cancel (N + 1) (omax - (rb + s)) ltac:(lra)). split; [lra|]. split; [reflexivity|lra].
  - exists (qmax (rb + (omax - (rb + s)) / (N + 1)) omin),
           ((omax - (qmax (rb + (omax - (rb + s)) / (N + 1)) omin + s)) / N), ((omax - (rb + s)) / (N + 1)).
    split; [reflexivity|].
    pose proof (qmul_div_cancel (N + 1) (omax - (rb + s)) ltac:(lra)).
    pose proof (qmul_div_cancel N (omax - (qmax (rb + (omax - (rb + s)) / (N + 1)) omin + s)) HN).
    split; [lra|]. split; [lra|reflexivity].
  - exists omin, ((omax - (omin + s)) / N), 0. split; [reflexivity|].
    pose proof (qmul_div_cancel N (omax - (omin + s)) HN). split; [lra|reflexivity]. Qed.

Section ClampFarEnd.
  (* normalised (increasing) coordinates: bounds omin/omax, min constraint cmin,
     max constraint CLAMPED, n heights *)
  Variables (omin omax : Q) (cmin : bct) (n : nat).
  Hypothesis Hn : (1 <= n)%nat.
  Let N := qn n.

  Definition cm_B (b : Q) (h : list Q) (lbb k : Q) : Prop :=
    omax <= b + qsum h /\
    match cmin with
    | BClamped => b == omin
    | BBound => omin <= b /\ (b == omin \/ lbb == k)
    | BNone => lbb == k
    end.
  Definition cm_shape (h lhb m : list Q) (k : Q) : Prop :=
    length h = n /\ length lhb = n /\ length m = n /\
    (forall i, (i < n)%nat -> nth i lhb 0 == k) /\
    (forall i, (i < n)%nat -> 0 <= nth i m 0 /\ (0 < nth i m 0 -> nth i h 0 == 0)).
  (* before an iteration / after at least one iteration *)
  Definition cm_pre (b : Q) (h : list Q) (lbb : Q) (lhb m : list Q) : Prop :=
    exists k, cm_shape h lhb m k /\ ((forall i, (i < n)%nat -> nth i m 0 == 0) \/ cm_B b h lbb k).
  Definition cm_post (b : Q) (h : list Q) (lbb : Q) (lhb m : list Q) : Prop :=
    exists k, cm_shape h lhb m k /\ cm_B b h lbb k.

  Lemma cm_post_pre b h lbb lhb m : cm_post b h lbb lhb m -> cm_pre b h lbb lhb m.
  Proof. intros (k & H1 & H2). exists k. auto. Qed.

  Lemma cm_step b h lbb lhb m rb rh bq hd bd b1 h1 lbb1 lhb1 h2 m1 :
    cm_pre b h lbb lhb m ->
    rb == b - lbb -> length rh = n -> (forall i, (i < n)%nat -> nth i rh 0 == nth i h 0 - nth i lhb 0) ->
    bmi_facts omin omax cmin N rb (qsum rh) bq hd bd ->
    b1 == bq -> lbb1 == b1 - rb ->
    length h1 = n -> (forall i, (i < n)%nat -> nth i h1 0 == nth i rh 0 + hd) ->
    length lhb1 = n -> (forall i, (i < n)%nat -> nth i lhb1 0 == nth i h1 0 - nth i rh 0) ->
    length h2 = n -> (forall i, (i < n)%nat -> nth i h2 0 == qmax (nth i h1 0 - nth i m 0) 0) ->
    length m1 = n -> (forall i, (i < n)%nat -> nth i m1 0 == nth i h2 0 - (nth i h1 0 - nth i m 0)) ->
    cm_post b1 h2 lbb1 lhb1 m1.
  Proof.
    intros (k & (Lh & Llhb & Lm & Hk & Hm) & Hor) Erb Lrh Hrh (Hsum & Hc) Eb1 Elbb1 Lh1 Hh1 Llhb1 Hlhb1 Lh2 Hh2 Lm1 Hm1.
    pose proof (qn_pos n Hn) as HN. fold N in HN.
    assert (Es : qsum rh == qsum h + N * (- k)).
    { unfold N. rewrite <- Lrh. apply qsum_shift_pointwise; [lia|]. rewrite Lrh. intros i Hi. rewrite Hrh, Hk by assumption. lra. }
    assert (Es1 : qsum h1 == qsum rh + N * hd).
    { unfold N. rewrite <- Lh1. apply qsum_shift_pointwise; [lia|]. rewrite Lh1. exact Hh1. }
    (* the new bounds shift is not larger than the stored one *)
    assert (Heps : cm_B b h lbb k -> hd <= k).
    { intros (HB & HC). apply (Qmult_le_l _ _ N); [exact HN|]. destruct cmin.
      - destruct Hc as (Hbq & Hhd). apply (Qmult_le_l _ _ (N + 1)); [lra|].
        assert (E : (N + 1) * (N * hd) == N * ((N + 1) * hd)) by ring. rewrite E, Hhd.
        assert (E' : (N + 1) * (N * k) == N * ((N + 1) * k)) by ring. rewrite E'.
        apply qmul_le_l; lra.
      - destruct Hc as (Hbd & Hbq). destruct HC as (Hge & [Heq|Heq]).
        + assert (omin <= bq) by (rewrite Hbq; apply qmax_r). lra.
        + assert (Hbdk : bd <= k). { apply (Qmult_le_l _ _ (N + 1)); lra. }
          pose proof (qmul_le_l N bd k ltac:(lra) Hbdk).
          revert Hbq. qcases; intros Hbq; lra.
      - lra. }
    exists hd. split; [split; [exact Lh2|split; [exact Llhb1|split; [exact Lm1|split]]]|].
    - intros i Hi. rewrite Hlhb1, Hh1 by assumption. lra.
    - intros i Hi. rewrite Hm1, Hh2 by assumption. split; [|intros H0; revert H0]; qcases; lra.
    - assert (Hle : qsum h1 <= qsum h2).
      { apply qsum_le_pointwise; [lia|]. rewrite Lh1. intros i Hi. rewrite Hh2 by assumption.
        destruct (Hm i Hi) as (Hm0 & Hm0').
        destruct Hor as [Hz|HB].
        - rewrite (Hz i Hi). qcases; lra.
        - pose proof (Heps HB) as He. destruct (Qlt_le_dec 0 (nth i m 0)) as [Hpos|Hnp].
          + assert (nth i h1 0 <= 0). { rewrite Hh1, Hrh, (Hm0' Hpos), Hk by assumption. lra. }
            qcases; lra.
          + assert (nth i m 0 == 0) by lra. qcases; lra. }
      split; [lra|]. destruct cmin.
      + destruct Hc as (Hbq & _). lra.
      + destruct Hc as (Hbd & Hbq). split. { rewrite Eb1, Hbq. apply qmax_r. }
        revert Hbq. qcases; intros Hbq; [left; lra|right].
        rewrite Elbb1, Eb1, Hbq. assert (hd == bd) by (apply (Qmult_inj_l _ _ N); lra). lra.
      + lra.
  Qed.
End ClampFarEnd.

Lemma nth_qneg l i : (i < length l)%nat -> nth i (qneg_list l) 0 = - nth i l 0.
Proof. intros H. unfold qneg_list. apply (nth_map_lt Qopp l i 0 0 H). Qed.

Ltac len :=
  repeat match goal with
  | |- context [length (map _ _)] => rewrite map_length
  | |- context [length (qneg_list _)] => rewrite qneg_list_length
  | |- context [length (lsub ?a ?b)] => rewrite (lsub_length a b) by len
  end; try assumption; try lia.
Ltac nthsimp :=
  repeat match goal with
  | |- context [nth ?i (map ?f ?l) 0] => rewrite (nth_map_lt f l i 0 0) by len
  | |- context [nth ?i (qneg_list ?l) 0] => rewrite (nth_qneg l i) by len
  | |- context [nth ?i (lsub ?a ?b) 0] => rewrite (nth_lsub a b i) by len
  end; rewrite ?Qred_correct.

Definition cm_inc_pre c n st := cm_pre (p_min c) (p_max c) (p_cmin c) n
  (d_bias st) (d_h st) (d_lb_bounds st) (d_lh_bounds st) (d_lh_mono st).
Definition cm_inc_post c n st := cm_post (p_min c) (p_max c) (p_cmin c) n
  (d_bias st) (d_h st) (d_lb_bounds st) (d_lh_bounds st) (d_lh_mono st).
Definition cm_dec_pre c n st := cm_pre (- p_max c) (- p_min c) (p_cmax c) n
  (- d_bias st) (qneg_list (d_h st)) (- d_lb_bounds st) (qneg_list (d_lh_bounds st)) (qneg_list (d_lh_mono st)).
Definition cm_dec_post c n st := cm_post (- p_max c) (- p_min c) (p_cmax c) n
  (- d_bias st) (qneg_list (d_h st)) (- d_lb_bounds st) (qneg_list (d_lh_bounds st)) (qneg_list (d_lh_mono st)).

Lemma body_cm_inc c n st : (1 <= n)%nat -> p_mono c = 1%Z -> p_conv c = 0%Z -> p_cmax c = BClamped ->
  dyk_wf n st -> cm_inc_pre c n st -> cm_inc_post c n (fst (dyk_body c st)).
Proof. intros Hn Hm Hc Hcl WF Hpre. unfold cm_inc_post. rewrite body_state. cbn [d_bias d_h d_lb_bounds d_lh_bounds d_lh_mono].
  rewrite body_mono_noconv by exact Hc.
  assert (Hb : has_bounds c = true) by (apply has_bounds_true; right; congruence).
  pose proof (bnd_rh_length n st WF) as Lrh. destruct WF as (Lh & Llhb & Lm & _).
  destruct (bmi_clamped_max (bnd_rb st) (bnd_rh st) (p_min c) (p_max c) (p_cmin c) ltac:(lia)) as (bq & hd & bd & E & F).
  rewrite Lrh in F.
  assert (Eres : bnd_res c st = (Qred bq, map (fun h => Qred (h + hd)) (bnd_rh st))).
  { unfold bnd_res, bounds_mono. rewrite Hm, Hcl. cbn [Z.eqb]. exact E. }
  unfold st_m, roll, s2_h, mono_rh, s1_lhb, s1_lbb, s1_h, s1_bias. rewrite Hb, Eres, Hm. cbn [Z.eqb negb fst snd].
  unfold project_monotonicity. cbn [Z.eqb Pos.eqb].
  eapply (cm_step (p_min c) (p_max c) (p_cmin c) n Hn (d_bias st) (d_h st) (d_lb_bounds st) (d_lh_bounds st) (d_lh_mono st)
           (bnd_rb st) (bnd_rh st) bq hd bd) with (h1 := map (fun h => Qred (h + hd)) (bnd_rh st)).
  - exact Hpre.
  - unfold bnd_rb. rewrite Qred_correct. reflexivity.
  - exact Lrh.
  - intros i Hi. unfold bnd_rh. nthsimp. reflexivity.
  - exact F.
  - apply Qred_correct.
  - rewrite Qred_correct. reflexivity.
  - len.
  - intros i Hi. nthsimp. reflexivity.
  - len.
  - intros i Hi. nthsimp. reflexivity.
  - len.
  - intros i Hi. nthsimp. reflexivity.
  - len.
  - intros i Hi. nthsimp. reflexivity.
Qed.

Lemma body_cm_dec c n st : (1 <= n)%nat -> p_mono c = (-1)%Z -> p_conv c = 0%Z -> p_cmin c = BClamped ->
  dyk_wf n st -> cm_dec_pre c n st -> cm_dec_post c n (fst (dyk_body c st)).
Proof. intros Hn Hm Hc Hcl WF Hpre. unfold cm_dec_post. rewrite body_state. cbn [d_bias d_h d_lb_bounds d_lh_bounds d_lh_mono].
  rewrite body_mono_noconv by exact Hc.
  assert (Hb : has_bounds c = true) by (apply has_bounds_true; left; congruence).
  pose proof (bnd_rh_length n st WF) as Lrh. destruct WF as (Lh & Llhb & Lm & _).
  destruct (bmi_clamped_max (- bnd_rb st) (qneg_list (bnd_rh st)) (- p_max c) (- p_min c) (p_cmax c)
              ltac:(rewrite qneg_list_length; lia)) as (bq & hd & bd & E & F).
  rewrite qneg_list_length, Lrh in F.
  assert (Eres : bnd_res c st = (- Qred bq, qneg_list (map (fun h => Qred (h + hd)) (qneg_list (bnd_rh st))))).
  { unfold bnd_res, bounds_mono. rewrite Hm, Hcl. cbn [Z.eqb Pos.eqb]. rewrite E. reflexivity. }
  unfold st_m, roll, s2_h, mono_rh, s1_lhb, s1_lbb, s1_h, s1_bias. rewrite Hb, Eres, Hm. cbn [Z.eqb negb fst snd].
  unfold project_monotonicity. cbn [Z.eqb Pos.eqb].
  eapply (cm_step (- p_max c) (- p_min c) (p_cmax c) n Hn (- d_bias st) (qneg_list (d_h st)) (- d_lb_bounds st)
           (qneg_list (d_lh_bounds st)) (qneg_list (d_lh_mono st))
           (- bnd_rb st) (qneg_list (bnd_rh st)) bq hd bd)
    with (h1 := qneg_list (qneg_list (map (fun h => Qred (h + hd)) (qneg_list (bnd_rh st))))).
  - exact Hpre.
  - unfold bnd_rb. rewrite Qred_correct. lra.
  - len.
  - intros i Hi. unfold bnd_rh. nthsimp. lra.
  - exact F.
  - rewrite Qred_correct. lra.
  - rewrite !Qred_correct. lra.
  - len.
  - intros i Hi. nthsimp. lra.
  - len.
  - intros i Hi. nthsimp. lra.
  - len.
  - intros i Hi. nthsimp. qcases; lra.
  - len.
  - intros i Hi. nthsimp. lra.
Qed.

Lemma cm_inc_init c n b h : length h = n -> cm_inc_pre c n (dyk_init b h).
Proof. intros HL. exists 0. unfold dyk_init; cbn [d_bias d_h d_lb_bounds d_lh_bounds d_lh_mono].
  split; [|left; intros i Hi; nthsimp; reflexivity].
  unfold cm_shape. split; [len|]. split; [len|]. split; [len|].
  split; intros i Hi; nthsimp; [reflexivity|split; [lra|intros H; lra]]. Qed.
Lemma cm_dec_init c n b h : length h = n -> cm_dec_pre c n (dyk_init b h).
Proof. intros HL. exists 0. unfold dyk_init; cbn [d_bias d_h d_lb_bounds d_lh_bounds d_lh_mono].
  split; [|left; intros i Hi; nthsimp; lra].
  unfold cm_shape. split; [len|]. split; [len|]. split; [len|].
  split; intros i Hi; nthsimp; [lra|split; [lra|intros H; lra]]. Qed.

(* an invariant that holds after every iteration, from a weaker one that holds initially *)
Lemma dyk_iter_post (Pre Post : dyk -> Prop) c n :
  (forall st, dyk_wf n st -> Pre st -> Post (fst (dyk_body c st))) -> (forall st, Post st -> Pre st) ->
  forall k st, dyk_wf n st -> Pre st -> Post (dyk_iter c (S k) st).
Proof. intros Hstep Hpp k st WF HP. rewrite dyk_iter_S_last.
  assert (H : dyk_wf n (dyk_iter c k st) /\ Pre (dyk_iter c k st)).
  { apply (dyk_iter_inv (fun st => dyk_wf n st /\ Pre st)); [|auto].
    intros s (W & P). split. apply dyk_body_wf; exact W. apply Hpp, Hstep; assumption. }
  destruct H. apply Hstep; assumption. Qed.

Lemma cm_inc_final c n b h k : (1 <= n)%nat -> length h = n -> p_mono c = 1%Z -> p_conv c = 0%Z -> p_cmax c = BClamped ->
  cm_inc_post c n (dyk_iter c (S k) (dyk_init b h)).
Proof. intros Hn HL Hm Hc Hcl. apply (dyk_iter_post (cm_inc_pre c n) (cm_inc_post c n) c n).
  - intros. apply body_cm_inc; assumption.
  - intros st. apply cm_post_pre.
  - rewrite <- HL; apply dyk_init_wf.
  - apply cm_inc_init; exact HL. Qed.
Lemma cm_dec_final c n b h k : (1 <= n)%nat -> length h = n -> p_mono c = (-1)%Z -> p_conv c = 0%Z -> p_cmin c = BClamped ->
  cm_dec_post c n (dyk_iter c (S k) (dyk_init b h)).
Proof. intros Hn HL Hm Hc Hcl. apply (dyk_iter_post (cm_dec_pre c n) (cm_dec_post c n) c n).
  - intros. apply body_cm_dec; assumption.
  - intros st. apply cm_post_pre.
  - rewrite <- HL; apply dyk_init_wf.
  - apply cm_dec_init; exact HL. Qed.

Lemma pwl_project_col_loop c b h : has_bounds c = true -> p_mono c <> 0%Z ->
  let stN := dyk_iter c (p_iters c) (dyk_init b h) in
  pwl_project_col c (b :: h) = fst (pwl_finalize c (d_bias stN) (d_h stN)) :: snd (pwl_finalize c (d_bias stN) (d_h stN)).
Proof. intros Hb Hm. destruct (pwl_project_col_cases c b h) as [[Hnp _]|[_ E]]; [|exact E].
  destruct (shortcut_bounds c _ Hb Hnp) as [Hm0 _]. contradiction. Qed.

Lemma finalize_noconv_cumsum c b h : has_bounds c = true -> p_conv c = 0%Z ->
  qleq (cumsum (fst (pwl_finalize c b h) :: snd (pwl_finalize c b h)))
       (map (clipf (p_min c) (p_max c) (down (p_cmin c)) (down (p_cmax c))) (cumsum (b :: fin_h1 c h))).
Proof. intros Hb Hc. rewrite pwl_finalize_eq, Hb. unfold fin_h2. rewrite Hc. cbn [Z.eqb negb andb].
  rewrite Bool.andb_false_r. apply bounds_only_cumsum.
  rewrite !down_none. unfold has_bounds in Hb. destruct (p_cmin c), (p_cmax c); try discriminate; ((left; discriminate) || (right; discriminate)). Qed.

Lemma last_cumsum_from : forall l acc, last (acc :: cumsum_from acc l) 0 == acc + qsum l.
Proof. induction l as [|x l IH]; intros acc. cbn. lra.
  change (last (acc :: cumsum_from acc (x :: l)) 0) with (last ((acc + x) :: cumsum_from (acc + x) l) 0).
  rewrite IH. cbn [qsum]. lra. Qed.
Lemma last_map_cons (f : Q -> Q) : forall l a, last (map f (a :: l)) 0 = f (last (a :: l) 0).
Proof. induction l as [|x l IH]; intros a. reflexivity.
  change (last (map f (a :: x :: l)) 0) with (last (map f (x :: l)) 0). rewrite IH. reflexivity. Qed.
Lemma qsum_qneg l : qsum (qneg_list l) == - qsum l.
Proof. induction l as [|x l IH]; cbn [qneg_list map qsum]. lra. fold (qneg_list l). rewrite IH. lra. Qed.

Lemma last_finalize_noconv c b h : has_bounds c = true -> p_conv c = 0%Z ->
  last (cumsum (fst (pwl_finalize c b h) :: snd (pwl_finalize c b h))) 0 ==
  clipf (p_min c) (p_max c) (down (p_cmin c)) (down (p_cmax c)) (b + qsum (fin_h1 c h)).
Proof. intros Hb Hc. rewrite (qleq_last _ _ (finalize_noconv_cumsum c b h Hb Hc)).
  unfold cumsum. cbn [cumsum_from]. rewrite last_map_cons. apply clipf_proper. rewrite last_cumsum_from. lra. Qed.
Lemma first_finalize_noconv c b h : has_bounds c = true -> p_conv c = 0%Z ->
  nth 0 (cumsum (fst (pwl_finalize c b h) :: snd (pwl_finalize c b h))) 0 ==
  clipf (p_min c) (p_max c) (down (p_cmin c)) (down (p_cmax c)) b.
Proof. intros Hb Hc. rewrite (qleq_nth _ _ 0 (finalize_noconv_cumsum c b h Hb Hc)).
  unfold cumsum. cbn [cumsum_from map nth]. apply clipf_proper. lra. Qed.

(* the BOUNDS step puts the bias inside the near bound, and on it if that bound is CLAMPED *)
Lemma bmi_bias_near b h omin omax cmin cmax :
  (cmin <> BNone -> omin <= fst (bounds_mono_inc b h omin omax cmin cmax)) /\
  (cmin = BClamped -> fst (bounds_mono_inc b h omin omax cmin cmax) == omin).
Proof. unfold bounds_mono_inc. split; intros Hc; destruct cmax, cmin; try congruence; cbn [fst bct_eqb];
  rewrite ?Qred_correct; try apply Qle_refl; try apply qmax_r; reflexivity. Qed.

Lemma loop_bias_near c bias hs : (1 <= p_iters c)%nat ->
  let b := d_bias (dyk_iter c (p_iters c) (dyk_init bias hs)) in
  (p_mono c = 1%Z -> (p_cmin c <> BNone -> p_min c <= b) /\ (p_cmin c = BClamped -> b == p_min c)) /\
  (p_mono c = (-1)%Z -> (p_cmax c <> BNone -> b <= p_max c) /\ (p_cmax c = BClamped -> b == p_max c)).
Proof. intros Hk. cbv zeta. destruct (p_iters c) as [|k]; [lia|].
  rewrite dyk_iter_S_last, body_state. cbn [d_bias]. set (st := dyk_iter c k (dyk_init bias hs)).
  unfold s1_bias, bnd_res, bounds_mono. split; intros Hm; rewrite Hm; cbn [Z.eqb Pos.eqb].
  - destruct (bmi_bias_near (bnd_rb st) (bnd_rh st) (p_min c) (p_max c) (p_cmin c) (p_cmax c)) as [A B].
    split; intros G; rewrite has_bounds_true by (left; congruence); auto.
  - destruct (bmi_bias_near (- bnd_rb st) (qneg_list (bnd_rh st)) (- p_max c) (- p_min c) (p_cmax c) (p_cmin c)) as [A B].
    destruct (bounds_mono_inc _ _ _ _ _ _) as [b' h']. cbn [fst] in *.
    split; intros G; rewrite has_bounds_true by (right; congruence); [specialize (A G)|specialize (B G)]; lra. Qed.

(* the monotonicity projection of _finalize_constraints moves the sum of the heights in its own direction *)
Lemma fin_h1_sum c h : (p_mono c = 1%Z -> qsum h <= qsum (fin_h1 c h)) /\ (p_mono c = (-1)%Z -> qsum (fin_h1 c h) <= qsum h).
Proof. unfold fin_h1, project_monotonicity. split; intros ->; cbn [Z.eqb Pos.eqb].
  - pose proof (qsum_map_le (fun x => x) (fun x => qmax x 0) h (fun x _ => qmax_l x 0)) as H. rewrite map_id in H. exact H.
  - pose proof (qsum_map_le (fun x => qmin x 0) (fun x => x) h (fun x _ => qmin_l x 0)) as H. rewrite map_id in H. exact H. Qed.

Lemma pwl_clamp_min_exact c n bias hs : pwl_valid c n -> length hs = n ->
  p_conv c = 0%Z -> (1 <= p_iters c)%nat -> p_cmin c = BClamped ->
  (p_mono c = 1%Z -> nth 0 (keypoint_outputs (pwl_project_col c (bias :: hs))) 0 == p_min c) /\
  (p_mono c = (-1)%Z -> last (keypoint_outputs (pwl_project_col c (bias :: hs))) 0 == p_min c).
Proof. intros V HL Hc Hit Hcl. destruct V as (Hn & _ & _ & _ & _ & Hle & _).
  assert (Hb : has_bounds c = true) by (apply has_bounds_true; left; congruence).
  assert (Hmm : down (p_cmax c) = BBound -> p_min c <= p_max c).
  { intros G. apply Hle; [congruence|]. apply down_none. congruence. }
  unfold keypoint_outputs.
  split; intros Hm; rewrite pwl_project_col_loop by (try assumption; rewrite Hm; discriminate); cbv zeta.
  - rewrite first_finalize_noconv by assumption.
    destruct (loop_bias_near c bias hs Hit) as [N _]. destruct (N Hm) as [_ E]. cbv zeta in E.
    rewrite (clipf_proper (E Hcl)). apply clipf_id; intros G; [lra|auto].
  - rewrite last_finalize_noconv by assumption. destruct (p_iters c) as [|k]; [lia|].
    pose proof (cm_dec_final c n bias hs k Hn HL Hm Hc Hcl) as (kk & _ & (HB & _)). rewrite qsum_qneg in HB.
    pose proof (proj2 (fin_h1_sum c (d_h (dyk_iter c (S k) (dyk_init bias hs)))) Hm) as Hs.
    rewrite Hcl. cbn [down]. apply clipf_bot; [exact Hmm|lra]. Qed.

Lemma pwl_clamp_max_exact c n bias hs : pwl_valid c n -> length hs = n ->
  p_conv c = 0%Z -> (1 <= p_iters c)%nat -> p_cmax c = BClamped ->
  (p_mono c = 1%Z -> last (keypoint_outputs (pwl_project_col c (bias :: hs))) 0 == p_max c) /\
  (p_mono c = (-1)%Z -> nth 0 (keypoint_outputs (pwl_project_col c (bias :: hs))) 0 == p_max c).
Proof. intros V HL Hc Hit Hcl. destruct V as (Hn & _ & _ & _ & _ & Hle & _).
  assert (Hb : has_bounds c = true) by (apply has_bounds_true; right; congruence).
  assert (Hmm : down (p_cmin c) = BBound -> p_min c <= p_max c).
  { intros G. apply Hle; [|congruence]. apply down_none. congruence. }
  unfold keypoint_outputs.
  split; intros Hm; rewrite pwl_project_col_loop by (try assumption; rewrite Hm; discriminate); cbv zeta.
  - rewrite last_finalize_noconv by assumption. destruct (p_iters c) as [|k]; [lia|].
    pose proof (cm_inc_final c n bias hs k Hn HL Hm Hc Hcl) as (kk & _ & (HB & _)).
    pose proof (proj1 (fin_h1_sum c (d_h (dyk_iter c (S k) (dyk_init bias hs)))) Hm) as Hs.
    rewrite Hcl. cbn [down]. apply clipf_top; [exact Hmm|lra].
  - rewrite first_finalize_noconv by assumption.
    destruct (loop_bias_near c bias hs Hit) as [_ N]. destruct (N Hm) as [_ E]. cbv zeta in E.
    rewrite (clipf_proper (E Hcl)). apply clipf_id; intros G; [auto|lra]. Qed.

(* known finding D3: with num_projection_iterations = 0 the clamp is not met *)
Lemma pwl_clamp_refuted_zero_iterations :
  exists c w, pwl_valid c (length w - 1) /\ p_conv c = 0%Z /\ p_mono c = 1%Z /\ p_cmax c = BClamped /\ p_iters c = 0%nat /\
    ~ last (keypoint_outputs (pwl_project_col c w)) 0 == p_max c.
Proof. exists (mkPwl 1 0 0 4 BBound BClamped [1; 1] 0), [0; 1; 1].
  split. { apply pwl_validb_ok. reflexivity. }
  repeat (split; [reflexivity|]). vm_compute. discriminate. Qed.

(* C04_feasible_fixed: a kernel column that meets every configured constraint is
   returned unchanged (up to Qeq) *)

Definition feasible (c : pwl_cfg) (bias : Q) (h : list Q) : Prop :=
  (p_mono c = 1%Z -> Forall (fun x => 0 <= x) h) /\
  (p_mono c = (-1)%Z -> Forall (fun x => x <= 0) h) /\
  (p_cmin c <> BNone -> Forall (fun s => p_min c <= s) (keypoint_outputs (bias :: h))) /\
  (p_cmax c <> BNone -> Forall (fun s => s <= p_max c) (keypoint_outputs (bias :: h))) /\
  (p_conv c <> 0%Z -> chain (p_conv c) h (p_lengths c)) /\
  (p_cmin c = BClamped -> (p_mono c = 1%Z -> bias == p_min c) /\ (p_mono c = (-1)%Z -> bias + qsum h == p_min c)) /\
  (p_cmax c = BClamped -> (p_mono c = 1%Z -> bias + qsum h == p_max c) /\ (p_mono c = (-1)%Z -> bias == p_max c)).

Ltac qdisc := vm_compute; let HH := fresh in intro HH; discriminate HH.
Ltac qforall := repeat (apply Forall_cons; [qdisc|]); apply Forall_nil.
Example feasible_example :
  feasible (mkPwl 1 1 0 4 BClamped BClamped [1; 1; 2] 8) 0 [1#2; 1; 5#2].
Proof. unfold feasible, keypoint_outputs; cbn [p_mono p_conv p_min p_max p_cmin p_cmax p_lengths].
  split. { intros _. qforall. }
  split. { discriminate. }
  split. { intros _. vm_compute cumsum. qforall. }
  split. { intros _. vm_compute cumsum. qforall. }
  split. { intros _. cbn [chain chain_from]. unfold slope_le; cbn [Z.eqb Pos.eqb]. repeat split; qdisc. }
  split; intros _; (split; [intros _; reflexivity|discriminate]). Qed.

Lemma cumsum_from_qleq : forall a b acc acc', acc == acc' -> qleq a b -> qleq (cumsum_from acc a) (cumsum_from acc' b).
Proof. intros a b acc acc' E H; revert acc acc' E; induction H; intros acc acc' E; cbn [cumsum_from]; constructor.
  rewrite E, H; reflexivity. apply IHForall2. rewrite E, H; reflexivity. Qed.
Lemma slope_le_proper conv a b c d a' b' c' d' : a == a' -> b == b' -> c == c' -> d == d' ->
  slope_le conv a b c d -> slope_le conv a' b' c' d'.
Proof. unfold slope_le. intros Ea Eb Ec Ed. destruct (conv =? 1)%Z; rewrite Ea, Eb, Ec, Ed; auto. Qed.
Lemma chain_from_qleq conv : forall hs hs' ls hp hp' lp, hp == hp' -> qleq hs hs' ->
  chain_from conv hp lp hs ls -> chain_from conv hp' lp hs' ls.
Proof. intros hs hs' ls hp hp' lp E H; revert ls hp hp' lp E; induction H; intros [|l0 ls] hp hp' lp E; cbn [chain_from]; auto.
  intros [H1 H2]. split. eapply slope_le_proper; [exact E|reflexivity|exact H|reflexivity|exact H1].
  eapply IHForall2; [exact H|exact H2]. Qed.
Lemma chain_qleq conv hs hs' ls : qleq hs hs' -> chain conv hs ls -> chain conv hs' ls.
Proof. intros H. destruct H; destruct ls; cbn [chain]; auto. apply chain_from_qleq; assumption. Qed.

Lemma feasible_proper c b b' h h' : b == b' -> qleq h h' -> feasible c b h -> feasible c b' h'.
Proof. intros Eb Eh (F1 & F2 & F3 & F4 & F5 & F6 & F7).
  assert (Ecs : qleq (keypoint_outputs (b :: h)) (keypoint_outputs (b' :: h'))).
  { unfold keypoint_outputs, cumsum. apply cumsum_from_qleq; [reflexivity|]. constructor; assumption. }
  pose proof (qleq_qsum _ _ Eh) as Es.
  split; [|split; [|split; [|split; [|split; [|split]]]]].
  - intros G. eapply Forall_ge_qleq; [exact Eh|auto].
  - intros G. eapply Forall_le_qleq; [exact Eh|auto].
  - intros G. eapply Forall_ge_qleq; [exact Ecs|auto].
  - intros G. eapply Forall_le_qleq; [exact Ecs|auto].
  - intros G. eapply chain_qleq; [exact Eh|auto].
  - intros G. destruct (F6 G) as [G1 G2]. split; intros G'; rewrite <- Eb, <- ?Es; auto.
  - intros G. destruct (F7 G) as [G1 G2]. split; intros G'; rewrite <- Eb, <- ?Es; auto. Qed.

(* the total is among the partial sums *)
Lemma cumsum_from_total : forall x acc, exists s, In s (acc :: cumsum_from acc x) /\ s == acc + qsum x.
Proof. induction x as [|x0 r IH]; intros acc; cbn [qsum cumsum_from].
  - exists acc. split; [left; reflexivity|lra].
  - destruct (IH (acc + x0)) as (s & Hs & E). exists s. split; [right; exact Hs|lra]. Qed.
Lemma feasible_lo c b h : feasible c b h -> p_cmin c <> BNone -> p_min c <= b /\ p_min c <= b + qsum h.
Proof. intros (_ & _ & F3 & _) H. specialize (F3 H). unfold keypoint_outputs, cumsum in F3. cbn [cumsum_from] in F3.
  rewrite Forall_forall in F3. destruct (cumsum_from_total h (0 + b)) as (s & Hs & E).
  pose proof (F3 _ Hs). pose proof (F3 _ (or_introl eq_refl)). lra. Qed.
Lemma feasible_hi c b h : feasible c b h -> p_cmax c <> BNone -> b <= p_max c /\ b + qsum h <= p_max c.
Proof. intros (_ & _ & _ & F4 & _) H. specialize (F4 H). unfold keypoint_outputs, cumsum in F4. cbn [cumsum_from] in F4.
  rewrite Forall_forall in F4. destruct (cumsum_from_total h (0 + b)) as (s & Hs & E).
  pose proof (F4 _ Hs). pose proof (F4 _ (or_introl eq_refl)). lra. Qed.

(* zero_heights = tf.zeros_like(heights), the initial stored changes *)
Definition zeros_like (h : list Q) : list Q := map (fun _ => 0) h.
Lemma nth_zeros_like h i : nth i (zeros_like h) 0 = 0.
Proof. unfold zeros_like. revert i; induction h; intros [|i]; cbn; auto. Qed.
Lemma zeros_like_length h : length (zeros_like h) = length h. Proof. apply map_length. Qed.
Lemma lsub_zero a z h : qleq a h -> qleq z (zeros_like h) -> qleq (lsub a z) h.
Proof. intros Ha Hz. pose proof (qleq_length _ _ Ha). pose proof (qleq_length _ _ Hz) as Lz. rewrite zeros_like_length in Lz.
  apply (Forall2_nth_intro Qeq 0 0). rewrite lsub_length; lia. rewrite lsub_length by lia. intros i Hi.
  rewrite nth_lsub by lia. rewrite Qred_correct, (qleq_nth _ _ i Ha), (qleq_nth _ _ i Hz), nth_zeros_like. lra. Qed.
Lemma lsub_self a b h : qleq a h -> qleq b h -> qleq (lsub a b) (zeros_like h).
Proof. intros Ha Hb. pose proof (qleq_length _ _ Ha). pose proof (qleq_length _ _ Hb).
  apply (Forall2_nth_intro Qeq 0 0). rewrite lsub_length, zeros_like_length; lia. rewrite lsub_length by lia. intros i Hi.
  rewrite nth_lsub by lia. rewrite Qred_correct, (qleq_nth _ _ i Ha), (qleq_nth _ _ i Hb), nth_zeros_like. lra. Qed.
Lemma qneg_qleq a b : qleq a b -> qleq (qneg_list a) (qneg_list b).
Proof. induction 1; cbn; constructor; [rewrite H; reflexivity|assumption]. Qed.
Lemma qneg_invol a : qleq (qneg_list (qneg_list a)) a.
Proof. induction a; cbn; constructor; [lra|assumption]. Qed.

(* each projection is the identity (up to Qeq) on a feasible point *)
Lemma diffs_cumsum : forall x acc p l', p == acc -> qleq l' (cumsum_from acc x) -> qleq (diffs_from p l') x.
Proof. induction x as [|x0 r IH]; intros acc p l' E H; cbn [cumsum_from] in H; inversion H as [|y ? l ? Hy Hl]; subst; cbn [diffs_from]; constructor.
  - rewrite Qred_correct, Hy, E. lra.
  - eapply IH; [|exact Hl]. exact Hy. Qed.

Lemma bounds_only_fixed b x omin omax cmin cmax :
  (cmin = BBound -> Forall (fun s => omin <= s) (cumsum (b :: x))) ->
  (cmax = BBound -> Forall (fun s => s <= omax) (cumsum (b :: x))) ->
  fst (bounds_only b x omin omax cmin cmax) == b /\ qleq (snd (bounds_only b x omin omax cmin cmax)) x.
Proof. intros Hlo Hhi. destruct (bounds_only_cases b x omin omax cmin cmax) as [->| ->]; cbn [fst snd].
  { split; [reflexivity|apply qleq_refl]. }
  unfold cumsum in *. cbn [cumsum_from] in *.
  assert (Hid : forall s, In s ((0 + b) :: cumsum_from (0 + b) x) -> clipf omin omax cmin cmax s == s).
  { intros s Hs. apply clipf_id; intros G; [specialize (Hlo G); rewrite Forall_forall in Hlo|specialize (Hhi G); rewrite Forall_forall in Hhi]; auto. }
  split. { rewrite Hid by (left; reflexivity). lra. }
  apply diffs_cumsum with (acc := 0 + b). { apply Hid. left; reflexivity. }
  apply qleq_map_id. intros s Hs. apply Hid. right; exact Hs. Qed.

(* what a NONE / BOUND / CLAMPED constraint asks of the output at the end it applies to *)
Definition lo_met (cmin : bct) (omin b : Q) : Prop :=
  match cmin with BNone => True | BBound => omin <= b | BClamped => b == omin end.
Definition hi_met (cmax : bct) (omax t : Q) : Prop :=
  match cmax with BNone => True | BBound => t <= omax | BClamped => t == omax end.

(* new bias and the common shift of the heights, as computed by the code
   (N = number of heights, s = their sum) *)
Definition bmi_out (N b s omin omax : Q) (cmin cmax : bct) : Q * Q :=
  match cmax with
  | BNone => (match cmin with BClamped => omin | BBound => qmax b omin | BNone => b end, 0)
  | _ =>
      let clamped_max := bct_eqb cmax BClamped in
      let '(b', hd) :=
        match cmin with
        | BClamped => (omin, (omax - (omin + s)) / N)
        | BBound =>
            let bd := (omax - (b + s)) / (N + 1) in
            let bd := if clamped_max then bd else qmin bd 0 in
            let b' := qmax (b + bd) omin in
            (b', (omax - (b' + s)) / N)
        | BNone =>
            let bd := (omax - (b + s)) / (N + 1) in
            let hd := bd in
            let bd := if clamped_max then bd else qmin bd 0 in
            (b + bd, hd)
        end in
      (b', if clamped_max then hd else qmin hd 0)
  end.

Lemma bmi_shape b h omin omax cmin cmax :
  let o := bmi_out (qn (length h)) b (qsum h) omin omax cmin cmax in
  fst (bounds_mono_inc b h omin omax cmin cmax) == fst o /\
  qleq (snd (bounds_mono_inc b h omin omax cmin cmax)) (map (fun x => x + snd o) h).
Proof. cbv zeta. unfold bounds_mono_inc, bmi_out.
  assert (Z : qleq h (map (fun x => x + 0) h)).
  { apply qleq_sym. apply qleq_map_id. intros; lra. }
  assert (S : forall d, qleq (map (fun x => Qred (x + d)) h) (map (fun x => x + d) h)).
  { intros d. apply qleq_map. intros x _. apply Qred_correct. }
  destruct cmax; destruct cmin; cbn [bct_eqb fst snd]; cbv beta iota zeta; cbn [fst snd];
    rewrite ?Qred_correct; (split; [reflexivity|]); auto. Qed.

Lemma bmi_scalar_vi N b s omin omax cmin cmax : 0 < N ->
  let bq := fst (bmi_out N b s omin omax cmin cmax) in
  let hd := snd (bmi_out N b s omin omax cmin cmax) in
  lo_met cmin omin bq /\ hi_met cmax omax (bq + (s + N * hd)) /\
  forall cb cs, lo_met cmin omin cb -> hi_met cmax omax (cb + cs) ->
    (b - bq) * (cb - bq) + (- hd) * (cs - (s + N * hd)) <= 0.
Proof. intros HN. cbv zeta. unfold bmi_out.
  pose proof (qmul_div_cancel (N + 1) (omax - (b + s)) ltac:(lra)) as D1.
  set (bd0 := (omax - (b + s)) / (N + 1)) in *.
  destruct cmax; destruct cmin; cbn [bct_eqb fst snd lo_met hi_met]; cbv beta iota zeta; cbn [fst snd].
  - split; [exact I|]. split; [exact I|]. intros cb cs _ _. nra.
  - split; [apply qmax_r|]. split; [exact I|]. intros cb cs Hc _. qcases; nra.
  - split; [reflexivity|]. split; [exact I|]. intros cb cs Hc _. nra.
  - split; [exact I|]. split.
    + qcases; nra.
    + intros cb cs _ Hc. qcases; nra.
  - set (bq := qmax (b + qmin bd0 0) omin).
    pose proof (qmul_div_cancel N (omax - (bq + s)) HN) as D2.
    set (hd0 := (omax - (bq + s)) / N) in *.
    split; [apply qmax_r|]. split.
    + qcases; nra.
    + intros cb cs Hc1 Hc2. subst bq. revert D2. qcases; intros D2.
      all: try nra.
      * assert (K1 : (N + 1) * (b + bd0 - omin) <= 0) by nra.
        assert (K2 : N * (b - omin + hd0) <= 0) by nra.
        assert (K3 : b - omin + hd0 <= 0) by nra.
        assert (K4 : 0 <= - hd0 * (omin - cb - (cs - (s + N * hd0)))) by nra.
        nra.
      * assert (K : hd0 == bd0) by (apply (Qmult_inj_l _ _ N); [lra|nra]).
        rewrite K. nra.
  - pose proof (qmul_div_cancel N (omax - (omin + s)) HN) as D2.
    set (hd0 := (omax - (omin + s)) / N) in *.
    split; [reflexivity|]. split.
    + qcases; nra.
    + intros cb cs Hc1 Hc2. qcases; nra.
  - split; [exact I|]. split.
    + nra.
    + intros cb cs _ Hc. nra.
  - set (bq := qmax (b + bd0) omin).
    pose proof (qmul_div_cancel N (omax - (bq + s)) HN) as D2.
    set (hd0 := (omax - (bq + s)) / N) in *.
    split; [apply qmax_r|]. split.
    + nra.
    + intros cb cs Hc1 Hc2. subst bq. revert D2. qcases; intros D2.
      * assert (K1 : (N + 1) * (b + bd0 - omin) <= 0) by nra.
        assert (K2 : N * (b - omin + hd0) <= 0) by nra.
        assert (K3 : b - omin + hd0 <= 0) by nra.
        assert (K4 : cs - (s + N * hd0) == omin - cb) by lra.
        rewrite K4. nra.
      * assert (K : hd0 == bd0) by (apply (Qmult_inj_l _ _ N); [lra|nra]).
        rewrite K. nra.
  - pose proof (qmul_div_cancel N (omax - (omin + s)) HN) as D2.
    set (hd0 := (omax - (omin + s)) / N) in *.
    split; [reflexivity|]. split.
    + nra.
    + intros cb cs Hc1 Hc2.
      assert (K1 : cb - omin == 0) by lra. assert (K2 : cs - (s + N * hd0) == 0) by lra.
      rewrite K1, K2. lra.
Qed.

Lemma bmi_fixed b x omin omax cmin cmax : (1 <= length x)%nat ->
  (cmin <> BNone -> omin <= b) -> (cmax <> BNone -> b + qsum x <= omax) ->
  (cmin = BClamped -> b == omin) -> (cmax = BClamped -> b + qsum x == omax) ->
  fst (bounds_mono_inc b x omin omax cmin cmax) == b /\ qleq (snd (bounds_mono_inc b x omin omax cmin cmax)) x.
Proof. intros Hn Hlo Hhi Hcl Hch. pose proof (qn_pos _ Hn) as HN.
  destruct (bmi_shape b x omin omax cmin cmax) as [E1 E2]. cbv zeta in E1, E2.
  destruct (bmi_scalar_vi (qn (length x)) b (qsum x) omin omax cmin cmax HN) as (_ & _ & V). cbv zeta in V.
  destruct (bmi_out _ _ _ _ _ _ _) as [bq hd]. cbn [fst snd] in *.
  assert (L : lo_met cmin omin b) by (destruct cmin; cbn; [exact I|apply Hlo; discriminate|apply Hcl; reflexivity]).
  assert (H : hi_met cmax omax (b + qsum x)) by (destruct cmax; cbn; [exact I|apply Hhi; discriminate|apply Hch; reflexivity]).
  (* the point itself is in the set, so the variational inequality leaves it no room to move *)
  specialize (V b (qsum x) L H). set (d := b - bq) in V.
  assert (S : 0 <= qn (length x) * (hd * hd)) by nra.
  assert (Zd : d * d <= 0) by nra. assert (Zh : hd * hd <= 0) by nra.
  assert (Eh : hd == 0) by nra. assert (Ed : d == 0) by nra.
  split. { rewrite E1. unfold d in Ed. lra. }
  eapply qleq_trans; [exact E2|]. apply qleq_map_id. intros y _. rewrite Eh. lra. Qed.

Definition bnd_step (c : pwl_cfg) (b : Q) (x : list Q) : Q * list Q :=
  if (p_mono c =? 0)%Z
  then bounds_only b x (p_min c) (p_max c) (p_cmin c) (p_cmax c)
  else bounds_mono (p_mono c) b x (p_min c) (p_max c) (p_cmin c) (p_cmax c).

Lemma bnd_fixed c n b x : pwl_valid c n -> length x = n -> feasible c b x ->
  fst (bnd_step c b x) == b /\ qleq (snd (bnd_step c b x)) x.
Proof. intros V HL F. pose proof (feasible_lo c b x F) as Flo. pose proof (feasible_hi c b x F) as Fhi.
  destruct V as (Hn & _ & _ & Hm & _). destruct F as (F1 & F2 & F3 & F4 & F5 & F6 & F7).
  unfold bnd_step. destruct Hm as [Hm|[Hm|Hm]]; rewrite Hm; cbn [Z.eqb Pos.eqb].
  - (* decreasing *) unfold bounds_mono. cbn [Z.eqb Pos.eqb].
    destruct (bmi_fixed (- b) (qneg_list x) (- p_max c) (- p_min c) (p_cmax c) (p_cmin c)) as [E1 E2].
    + rewrite qneg_list_length; lia.
    + intros G. specialize (Fhi G). lra.
    + intros G. specialize (Flo G). rewrite qsum_qneg. lra.
    + intros G. destruct (F7 G) as [_ G2]. rewrite (G2 Hm). reflexivity.
    + intros G. destruct (F6 G) as [_ G2]. rewrite qsum_qneg, <- (G2 Hm). lra.
    + destruct (bounds_mono_inc _ _ _ _ _ _) as [b' h']. cbn [fst snd] in *. split. lra.
      eapply qleq_trans; [apply qneg_qleq; exact E2|apply qneg_invol].
  - (* no monotonicity *) apply bounds_only_fixed.
    + intros G. apply F3. congruence.
    + intros G. apply F4. congruence.
  - (* increasing *) unfold bounds_mono. cbn [Z.eqb Pos.eqb]. apply bmi_fixed.
    + lia.
    + intros G. apply Flo; exact G.
    + intros G. apply Fhi; exact G.
    + intros G. destruct (F6 G) as [G1 _]. exact (G1 Hm).
    + intros G. destruct (F7 G) as [G1 _]. exact (G1 Hm). Qed.

Lemma mono_fixed c n b x : pwl_valid c n -> feasible c b x -> qleq (project_monotonicity (p_mono c) x) x.
Proof. intros (_ & _ & _ & Hm & _) (F1 & F2 & _). unfold project_monotonicity.
  destruct Hm as [Hm|[Hm|Hm]]; rewrite Hm; cbn [Z.eqb Pos.eqb].
  - specialize (F2 Hm). rewrite Forall_forall in F2. apply qleq_map_id. intros y Hy. specialize (F2 y Hy). qcases; lra.
  - apply qleq_refl.
  - specialize (F1 Hm). rewrite Forall_forall in F1. apply qleq_map_id. intros y Hy. specialize (F1 y Hy). qcases; lra. Qed.

Lemma chain_from_tail conv hp lp hs ls : chain_from conv hp lp hs ls -> chain conv hs ls.
Proof. destruct hs, ls; cbn [chain chain_from]; auto. intros [_ H]; exact H. Qed.

Lemma convex_pair_fixed conv h0 l0 h1 l1 : 0 < l0 -> 0 < l1 -> slope_le conv h0 l0 h1 l1 ->
  let base := (h0 + h1) / (l0 + l1) in
  (if (conv =? 1)%Z then Qred (qmin h0 (l0 * base)) else Qred (qmax h0 (l0 * base))) == h0 /\
  (if (conv =? 1)%Z then Qred (qmax h1 (l1 * base)) else Qred (qmin h1 (l1 * base))) == h1.
Proof. intros H0 H1 HS base. pose proof (qmul_div_cancel (l0 + l1) (h0 + h1) ltac:(lra)) as E. fold base in E.
  assert (E0 : (l0 + l1) * (l0 * base) == l0 * (h0 + h1)) by (rewrite <- E; ring).
  assert (E1 : (l0 + l1) * (l1 * base) == l1 * (h0 + h1)) by (rewrite <- E; ring).
  unfold slope_le in HS. destruct (conv =? 1)%Z; rewrite !Qred_correct.
  - assert (h0 <= l0 * base) by (apply (Qmult_le_l _ _ (l0 + l1)); lra).
    assert (l1 * base <= h1) by (apply (Qmult_le_l _ _ (l0 + l1)); lra). split; qcases; lra.
  - assert (l0 * base <= h0) by (apply (Qmult_le_l _ _ (l0 + l1)); lra).
    assert (h1 <= l1 * base) by (apply (Qmult_le_l _ _ (l0 + l1)); lra). split; qcases; lra. Qed.

Lemma convex_pairs_fixed conv : forall k hs ls, (length hs <= k)%nat -> Forall (fun l => 0 < l) ls ->
  chain conv hs ls -> qleq (convex_pairs conv hs ls) hs.
Proof. induction k as [|k IH]; intros hs ls Hk HP HC.
  - destruct hs; [|cbn in Hk; lia]. destruct ls; constructor.
  - destruct hs as [|h0 [|h1 hr]]; try (destruct ls; apply qleq_refl).
    destruct ls as [|l0 [|l1 lr]]; try apply qleq_refl.
    cbn [convex_pairs]. cbn [chain chain_from] in HC. destruct HC as [HS HT].
    inversion HP as [|? ? P0 HP']; subst. inversion HP' as [|? ? P1 HP'']; subst.
    destruct (convex_pair_fixed conv h0 l0 h1 l1 P0 P1 HS) as [E0 E1]. cbv zeta in E0, E1.
    constructor; [exact E0|]. constructor; [exact E1|].
    apply IH; [cbn in Hk; lia|exact HP''|]. eapply chain_from_tail; exact HT. Qed.

Lemma project_convexity_fixed conv g hs ls : Forall (fun l => 0 < l) ls -> chain conv hs ls ->
  qleq (project_convexity conv g hs ls) hs.
Proof. intros HP HC. unfold project_convexity. destruct (conv =? 0)%Z; [apply qleq_refl|].
  destruct hs as [|h [|h' hr]]; [destruct g; constructor|apply qleq_refl|].
  cbn [length]. destruct g.
  - apply (convex_pairs_fixed conv (S (S (length hr)))); [cbn; lia|exact HP|exact HC].
  - destruct ls as [|l lr]; [apply qleq_refl|]. constructor; [reflexivity|].
    inversion HP; subst. apply (convex_pairs_fixed conv (S (length hr))); [cbn; lia|assumption|].
    cbn [chain] in HC. eapply chain_from_tail; exact HC. Qed.

Lemma acf_fixed conv : forall hs ls hp hp' lp, 0 < lp -> Forall (fun l => 0 < l) ls -> hp' == hp ->
  chain_from conv hp lp hs ls -> qleq (approx_convexity_from conv hp' lp hs ls) hs.
Proof. induction hs as [|h hs IH]; intros [|l ls] hp hp' lp Hlp HP E HC; cbn [approx_convexity_from]; try apply qleq_refl.
  cbn [chain_from] in HC. destruct HC as [HS HT]. inversion HP; subst.
  assert (Et : lp * (hp' * (l / lp)) == hp * l) by (rewrite E; field; lra).
  assert (Eh : (if (conv =? 1)%Z then Qred (qmax h (hp' * (l / lp))) else Qred (qmin h (hp' * (l / lp)))) == h).
  { unfold slope_le in HS. destruct (conv =? 1)%Z; rewrite Qred_correct.
    - assert (hp' * (l / lp) <= h) by (apply (Qmult_le_l _ _ lp); lra). qcases; lra.
    - assert (h <= hp' * (l / lp)) by (apply (Qmult_le_l _ _ lp); lra). qcases; lra. }
  constructor; [exact Eh|]. eapply IH; [assumption|assumption|exact Eh|exact HT]. Qed.
Lemma approx_convexity_fixed conv hs ls : Forall (fun l => 0 < l) ls -> chain conv hs ls ->
  qleq (approx_convexity conv hs ls) hs.
Proof. intros HP HC. unfold approx_convexity. destruct (conv =? 0)%Z; [apply qleq_refl|].
  destruct hs as [|h hs], ls as [|l ls]; try apply qleq_refl. constructor; [reflexivity|].
  inversion HP; subst. eapply acf_fixed; [assumption|assumption|reflexivity|exact HC]. Qed.

Lemma squeeze_inc_fixed b y omax cmax : (cmax <> BNone -> b + qsum y <= omax) ->
  fst (squeeze_inc b y omax cmax) = b /\ qleq (snd (squeeze_inc b y omax cmax)) y.
Proof. intros H. destruct (squeeze_inc_cases b y omax cmax) as [[_ ->]|[Hc ->]]; cbn [fst snd]; (split; [reflexivity|]).
  { apply qleq_refl. }
  assert (Hd : squeeze_d b y omax == 1).
  { unfold squeeze_d. specialize (H Hc). destruct (qlt (1 # 1000) (omax - b)) eqn:E; [|qcases; lra].
    apply qlt_true in E. pose proof (qmul_div_cancel (omax - b) (qsum y) ltac:(lra)).
    assert (qsum y / (omax - b) <= 1) by (apply (Qmult_le_l _ _ (omax - b)); lra). qcases; lra. }
  apply qleq_map_id. intros h _. rewrite Qred_correct, Hd. field. Qed.

Lemma squeeze_fixed c b y : feasible c b y ->
  fst (squeeze (p_mono c) b y (p_min c) (p_max c) (p_cmin c) (p_cmax c)) == b /\
  qleq (snd (squeeze (p_mono c) b y (p_min c) (p_max c) (p_cmin c) (p_cmax c))) y.
Proof. intros F. pose proof (feasible_lo c b y F) as Flo. pose proof (feasible_hi c b y F) as Fhi.
  destruct (Z.eqb_spec (p_mono c) (-1)) as [Hm|Hm].
  - rewrite Hm. destruct (squeeze_dec_cases b y (p_min c) (p_max c) (p_cmin c) (p_cmax c)) as [[_ ->]|[Hc ->]]; cbn [fst snd].
    { split; [reflexivity|apply qleq_refl]. }
    destruct (squeeze_inc_fixed (- b) (qneg_list y) (- p_min c) (p_cmin c)) as [E1 E2].
    { intros _. rewrite qsum_qneg. specialize (Flo Hc). lra. }
    rewrite E1. split; [lra|]. eapply qleq_trans; [apply qneg_qleq; exact E2|apply qneg_invol].
  - unfold squeeze. rewrite (proj2 (Z.eqb_neq _ _) Hm). destruct (squeeze_inc_fixed b y (p_max c) (p_cmax c)) as [E1 E2].
    + intros G. apply Fhi; exact G.
    + rewrite E1. split; [reflexivity|exact E2]. Qed.

Lemma finalize_fixed c n b x : pwl_valid c n -> length x = n -> feasible c b x ->
  fst (pwl_finalize c b x) == b /\ qleq (snd (pwl_finalize c b x)) x.
Proof. intros V HL F. rewrite pwl_finalize_eq.
  assert (E1 : qleq (fin_h1 c x) x).
  { unfold fin_h1. destruct (p_mono c =? 0)%Z; [apply qleq_refl|]. eapply mono_fixed; eassumption. }
  assert (F1 : feasible c b (fin_h1 c x)) by (eapply feasible_proper; [reflexivity|apply qleq_sym; exact E1|exact F]).
  assert (E2 : qleq (fin_h2 c x) (fin_h1 c x)).
  { unfold fin_h2. destruct (p_conv c =? 0)%Z eqn:Ec; [apply qleq_refl|].
    apply approx_convexity_fixed. apply V. apply F1. intros G; rewrite G in Ec; discriminate. }
  assert (F2 : feasible c b (fin_h2 c x)) by (eapply feasible_proper; [reflexivity|apply qleq_sym; exact E2|exact F1]).
  pose proof (qleq_trans _ _ _ E2 E1) as E.
  destruct (has_bounds c); [|split; [reflexivity|exact E]].
  destruct (negb (p_mono c =? 0)%Z && negb (p_conv c =? 0)%Z)%bool eqn:Em.
  - destruct (squeeze_fixed c b (fin_h2 c x) F2) as [G1 G2]. split; [exact G1|eapply qleq_trans; eassumption].
  - destruct (bounds_only_fixed b (fin_h2 c x) (p_min c) (p_max c) (down (p_cmin c)) (down (p_cmax c))) as [G1 G2].
    + intros G. apply F2. apply down_none. congruence.
    + intros G. apply F2. apply down_none. congruence.
    + split; [exact G1|eapply qleq_trans; eassumption]. Qed.

(* Dykstra: the state stays at the feasible point and every stored change stays 0 *)
Definition fixed_inv (bias : Q) (h : list Q) (st : dyk) : Prop :=
  d_bias st == bias /\ qleq (d_h st) h /\ d_lb_bounds st == 0 /\
  qleq (d_lh_bounds st) (zeros_like h) /\ qleq (d_lh_mono st) (zeros_like h) /\ qleq (d_lh_c0 st) (zeros_like h) /\ qleq (d_lh_c1 st) (zeros_like h).

Lemma fixed_inv_init bias h : fixed_inv bias h (dyk_init bias h).
Proof. unfold fixed_inv, dyk_init; cbn. repeat split; try reflexivity; apply qleq_refl. Qed.

Lemma roll_fixed on (f : list Q -> list Q) h cur lh :
  (on = true -> forall x, qleq x h -> qleq (f x) x) -> qleq cur h -> qleq lh (zeros_like h) ->
  qleq (fst (roll on f cur lh)) h /\ qleq (snd (roll on f cur lh)) (zeros_like h).
Proof. intros Hf Hc Hl. unfold roll. destruct on; cbn [fst snd]; [|split; assumption].
  pose proof (lsub_zero _ _ _ Hc Hl) as Hr. pose proof (qleq_trans _ _ _ (Hf eq_refl _ Hr) Hr) as Hfr.
  split; [exact Hfr|]. apply lsub_self; assumption. Qed.

Lemma body_fixed c n bias h st : pwl_valid c n -> length h = n -> feasible c bias h ->
  fixed_inv bias h st -> fixed_inv bias h (fst (dyk_body c st)).
Proof. intros V HL F (I1 & I2 & I3 & I4 & I5 & I6 & I7). rewrite body_state. unfold fixed_inv.
  cbn [d_bias d_h d_lb_bounds d_lh_bounds d_lh_mono d_lh_c0 d_lh_c1].
  assert (Ffeas : forall b' x, b' == bias -> qleq x h -> feasible c b' x).
  { intros b' x Eb Ex. eapply feasible_proper; [symmetry; exact Eb|apply qleq_sym; exact Ex|exact F]. }
  (* bounds *)
  assert (Erb : bnd_rb st == bias) by (unfold bnd_rb; rewrite Qred_correct, I1, I3; lra).
  assert (Erh : qleq (bnd_rh st) h) by (apply lsub_zero; assumption).
  assert (Lrh : length (bnd_rh st) = n) by (rewrite (qleq_length _ _ Erh); exact HL).
  destruct (bnd_fixed c n (bnd_rb st) (bnd_rh st) V Lrh (Ffeas _ _ Erb Erh)) as [B1 B2].
  change (bnd_step c (bnd_rb st) (bnd_rh st)) with (bnd_res c st) in B1, B2.
  assert (S1b : s1_bias c st == bias) by (unfold s1_bias; destruct (has_bounds c); [rewrite B1; exact Erb|exact I1]).
  assert (S1h : qleq (s1_h c st) h) by (unfold s1_h; destruct (has_bounds c); [eapply qleq_trans; eassumption|exact I2]).
  assert (S1lbb : s1_lbb c st == 0) by (unfold s1_lbb; destruct (has_bounds c); [rewrite Qred_correct, B1; lra|exact I3]).
  assert (S1lhb : qleq (s1_lhb c st) (zeros_like h)).
  { unfold s1_lhb; destruct (has_bounds c); [|exact I4]. apply lsub_self; [eapply qleq_trans; eassumption|exact Erh]. }
  (* monotonicity, then the two convexity groups *)
  destruct (roll_fixed (negb (p_mono c =? 0)%Z) (project_monotonicity (p_mono c)) h (s1_h c st) (d_lh_mono st)) as [M1 M2];
    [|exact S1h|exact I5|].
  { intros _ x Ex. eapply mono_fixed; [exact V|apply (Ffeas bias x); [reflexivity|exact Ex]]. }
  fold (st_m c st) in M1, M2. rewrite st_m_fst in M1.
  assert (Hconv : forall g k y, conv_on c k y = true -> forall x, qleq x h -> qleq (pconv c g x) x).
  { intros g k y Ec x Ex. apply project_convexity_fixed. apply V. apply (Ffeas bias x); [reflexivity|exact Ex|].
    intros G. unfold conv_on in Ec. rewrite G in Ec. discriminate. }
  destruct (roll_fixed _ (pconv c 0) h _ (d_lh_c0 st) (Hconv 0%nat 2%nat (s2_h c st)) M1 I6) as [C1 C2].
  fold (st_c0 c st) in C1, C2. fold (s3_h c st) in C1.
  destruct (roll_fixed _ (pconv c 1) h _ (d_lh_c1 st) (Hconv 1%nat 3%nat (s3_h c st)) C1 I7) as [D1 D2].
  repeat split; assumption. Qed.

Lemma pwl_feasible_fixed c n bias h : pwl_valid c n -> length h = n -> feasible c bias h ->
  qleq (pwl_project_col c (bias :: h)) (bias :: h).
Proof. intros V HL F.
  destruct (pwl_project_col_cases c bias h) as [[_ ->]|[_ ->]].
  - destruct (body_fixed c n bias h (dyk_init bias h) V HL F (fixed_inv_init bias h)) as (I1 & I2 & _).
    constructor; assumption.
  - assert (I : fixed_inv bias h (dyk_iter c (p_iters c) (dyk_init bias h))).
    { apply dyk_iter_inv; [|apply fixed_inv_init]. intros st. apply (body_fixed c n); assumption. }
    destruct I as (I1 & I2 & _).
    set (st := dyk_iter c (p_iters c) (dyk_init bias h)) in *.
    destruct (finalize_fixed c n (d_bias st) (d_h st) V) as [G1 G2].
    + rewrite (qleq_length _ _ I2). exact HL.
    + eapply feasible_proper; [symmetry; exact I1|apply qleq_sym; exact I2|exact F].
    + constructor. rewrite G1; exact I1. eapply qleq_trans; eassumption. Qed.

(* monotone (both directions), bounds, clamps, no convexity, >= 1 iteration *)
Example ex_hyp_clamp_inc : let c := mkPwl 1 0 (-1) 2 BClamped BClamped [1; 1#2; 3] 3 in
  pwl_valid c 3 /\ p_conv c = 0%Z /\ (1 <= p_iters c)%nat /\ p_cmin c = BClamped /\ p_cmax c = BClamped /\ p_mono c = 1%Z /\
  ~ (p_mono c <> 0%Z /\ p_conv c <> 0%Z) /\
  keypoint_outputs (pwl_project_col c [7; -3; 5; 1#3]) = [-1; -1; 2; 2].
Proof. cbv zeta. cbn [p_mono p_conv p_min p_max p_cmin p_cmax p_lengths p_iters]. split; [apply pwl_validb_ok; reflexivity|]. repeat (split; [first [reflexivity|lia]|]).
  vm_compute. reflexivity. Qed.
Example ex_hyp_clamp_dec : let c := mkPwl (-1) 0 (-1) 2 BClamped BClamped [1; 1#2; 3] 2 in
  pwl_valid c 3 /\ p_conv c = 0%Z /\ (1 <= p_iters c)%nat /\ p_cmin c = BClamped /\ p_cmax c = BClamped /\ p_mono c = (-1)%Z /\
  keypoint_outputs (pwl_project_col c [7; -3; 5; 1#3]) = [2; -1; -1; -1].
Proof. cbv zeta. cbn [p_mono p_conv p_min p_max p_cmin p_cmax p_lengths p_iters]. split; [apply pwl_validb_ok; reflexivity|]. repeat (split; [first [reflexivity|lia]|]). vm_compute. reflexivity. Qed.
(* convexity: with monotonicity and bounds / without bounds *)
Example ex_hyp_convex_mono : let c := mkPwl 1 1 0 4 BClamped BClamped [1; 1; 2] 8 in
  pwl_valid c 3 /\ p_conv c <> 0%Z /\ p_mono c <> 0%Z /\ feasible c 0 [1#2; 1; 5#2].
Proof. cbv zeta. cbn [p_mono p_conv p_min p_max p_cmin p_cmax p_lengths p_iters]. split; [apply pwl_validb_ok; reflexivity|]. split; [discriminate|]. split; [discriminate|]. exact feasible_example. Qed.
Example ex_hyp_convex_unbounded : let c := mkPwl 0 (-1) 0 0 BNone BNone [1; 2] 4 in
  pwl_valid c 2 /\ p_conv c <> 0%Z /\ has_bounds c = false.
Proof. cbv zeta. cbn [p_mono p_conv p_min p_max p_cmin p_cmax p_lengths p_iters]. split; [apply pwl_validb_ok; reflexivity|]. split; [discriminate|reflexivity]. Qed.
(* bounds without monotonicity, with convexity *)
Example ex_hyp_bounds_convex : let c := mkPwl 0 1 0 1 BBound BBound [1; 1] 2 in
  pwl_valid c 2 /\ ~ (p_mono c <> 0%Z /\ p_conv c <> 0%Z) /\ p_cmin c <> BNone /\ p_cmax c <> BNone.
Proof. cbv zeta. cbn [p_mono p_conv p_min p_max p_cmin p_cmax p_lengths p_iters]. split; [apply pwl_validb_ok; reflexivity|]. split; [intros [H _]; apply H; reflexivity|]. split; discriminate. Qed.
