(* Model/CondPWL.v.  With keypoints kp_{i+1} = kp_i + len_i the interpolation is
   y0 + [seg_sum] over pieces that may have length 0 ([wclip]); the derived outputs
   have [inc_shape] or [none_shape].  Bounds, monotonicity, clamps and cyclic ends
   follow for one slice ([pwl_row]) and, through [pwl_fn_eq], for every entry of an
   accepted call. *)
From TFL Require Import Model.CondPWL.
Open Scope Q_scope.

(* What float softmax guarantees up to rounding: same length, entries >= 0
   (exact zeros allowed: underflow), sum 1 on non-empty input. *)
Definition softmax_ok (sm : list Q -> list Q) : Prop :=
  forall l, length (sm l) = length l /\ (forall v, In v (sm l) -> 0 <= v) /\ (l <> [] -> qsum (sm l) == 1).
(* mathematical softmax: strictly positive entries *)
Definition softmax_pos (sm : list Q -> list Q) : Prop := forall l v, In v (sm l) -> 0 < v.
(* sigmoid takes values in [0, 1] (closed: float saturation allowed) *)
Definition sigmoid_ok (sg : Q -> Q) : Prop := forall z, 0 <= sg z /\ sg z <= 1.

Lemma wclip_range x kp len : 0 <= wclip x kp len /\ wclip x kp len <= 1.
Proof. unfold wclip. destruct (Qeq_bool len 0).
  - destruct (qlt kp x); lra.
  - apply qclip_range; lra. Qed.

(* a piece is a step (length 0) or a ramp (positive length) *)
Lemma len_cases len : 0 <= len -> (Qeq_bool len 0 = true /\ len == 0) \/ (Qeq_bool len 0 = false /\ 0 < len).
Proof. intros H. destruct (Qeq_bool len 0) eqn:E; [left|right]; split; trivial.
  - apply Qeq_bool_iff, E.
  - apply Qeq_bool_neq in E. lra. Qed.

Lemma wclip_mono x y kp len : 0 <= len -> x <= y -> wclip x kp len <= wclip y kp len.
Proof. intros Hl Hxy. unfold wclip. destruct (len_cases len Hl) as [[-> E]|[-> E]].
  - destruct (qlt kp x) eqn:E1, (qlt kp y) eqn:E2; try lra.
    apply qlt_true in E1. apply qlt_false in E2. lra.
  - apply qclip_mono. apply qdiv_le_mono. exact E. lra. Qed.

(* on or left of the left keypoint of the piece: weight 0 *)
Lemma wclip_left x kp len : 0 <= len -> x <= kp -> wclip x kp len == 0.
Proof. intros Hl H. unfold wclip. destruct (len_cases len Hl) as [[-> E]|[-> E]].
  - destruct (qlt kp x) eqn:E1; [apply qlt_true in E1; lra|reflexivity].
  - pose proof (Qle_shift_div_r (x - kp) len 0 E ltac:(lra)). unfold qclip. qcases; lra. Qed.
(* right of the piece, or on its right keypoint when the piece is a ramp: weight 1 *)
Lemma wclip_right x kp len : 0 <= len -> kp + len <= x -> kp + len < x \/ 0 < len -> wclip x kp len == 1.
Proof. intros Hl H Hs. unfold wclip. destruct (len_cases len Hl) as [[-> E]|[-> E]].
  - destruct (qlt kp x) eqn:E1; [reflexivity|apply qlt_false in E1; lra].
  - pose proof (Qle_shift_div_l 1 (x - kp) len E ltac:(lra)). unfold qclip. qcases; lra. Qed.

Lemma wclip_kp_eq x kp kp' len : kp == kp' -> wclip x kp len == wclip x kp' len.
Proof. intros H. unfold wclip, qlt. destruct (Qeq_bool len 0); rewrite H; reflexivity. Qed.

(* sum_i wclip(x, kp_i, len_i) * d_i with kp_{i+1} = kp_i + len_i *)
Fixpoint seg_sum (x kp : Q) (lens ds : list Q) : Q :=
  match lens, ds with
  | len :: lens', d :: ds' => wclip x kp len * d + seg_sum x (kp + len) lens' ds'
  | _, _ => 0
  end.

Lemma seg_sum_kp_eq x lens : forall kp kp' ds, kp == kp' -> seg_sum x kp lens ds == seg_sum x kp' lens ds.
Proof. induction lens as [|len lens IH]; intros kp kp' [|d ds] H; cbn [seg_sum]; try reflexivity.
  rewrite (wclip_kp_eq x kp kp' len H). rewrite (IH (kp + len) (kp' + len) ds) by (rewrite H; reflexivity). reflexivity. Qed.

Lemma interp_tail x imin lens : forall acc ds,
  qsum (map2 Qmult (map2 (wclip x) (map (fun s => s + imin) (cumsum_excl acc lens)) lens) ds)
  == seg_sum x (acc + imin) lens ds.
Proof. induction lens as [|len lens IH]; intros acc ds.
  - destruct ds; reflexivity.
  - destruct ds as [|d ds]; cbn [cumsum_excl map map2 qsum seg_sum]. reflexivity.
    rewrite IH. rewrite (seg_sum_kp_eq x lens (acc + len + imin) (acc + imin + len) ds) by lra. reflexivity. Qed.

Lemma interp_seg x c lens y0 ds :
  interp x (keypoints c lens) lens (y0 :: ds) == y0 + seg_sum x (p_imin c) lens ds.
Proof. unfold interp, interp_weights, keypoints. cbn [map2 qsum]. rewrite interp_tail.
  rewrite (seg_sum_kp_eq x lens (0 + p_imin c) (p_imin c) ds) by lra. lra. Qed.
Lemma interp_nil x kps lens : interp x kps lens [] = 0.
Proof. reflexivity. Qed.

Definition all_nonneg (l : list Q) : Prop := forall v, In v l -> 0 <= v.

Lemma all_nonneg_cons a l : all_nonneg (a :: l) <-> 0 <= a /\ all_nonneg l.
Proof. split.
  - intros H. split; [apply H; left; reflexivity|intros v Hv; apply H; right; exact Hv].
  - intros [Ha Hl] v [<-|Hv]; [exact Ha|apply Hl, Hv]. Qed.

Lemma seg_sum_inc_bounds x lens : forall kp ds, all_nonneg ds ->
  0 <= seg_sum x kp lens ds /\ seg_sum x kp lens ds <= qsum ds.
Proof. induction lens as [|len lens IH]; intros kp ds H.
  - pose proof (qsum_nonneg ds H). destruct ds; cbn [seg_sum]; lra.
  - destruct ds as [|d ds]; cbn [seg_sum qsum]. lra.
    apply all_nonneg_cons in H as [Hd H]. destruct (IH (kp + len) ds H) as [H1 H2].
    destruct (wclip_range x kp len) as [W0 W1].
    pose proof (qmul_nonneg _ _ W0 Hd). pose proof (qmul_nonneg (1 - wclip x kp len) d ltac:(lra) Hd). lra. Qed.

Lemma seg_sum_mono x y lens : forall kp ds, all_nonneg lens -> all_nonneg ds -> x <= y ->
  seg_sum x kp lens ds <= seg_sum y kp lens ds.
Proof. induction lens as [|len lens IH]; intros kp [|d ds] Hl Hd Hxy; cbn [seg_sum]; try lra.
  apply all_nonneg_cons in Hd as [H0d Hd]. apply all_nonneg_cons in Hl as [H0l Hl].
  pose proof (wclip_mono x y kp len H0l Hxy).
  pose proof (qmul_nonneg (wclip y kp len - wclip x kp len) d ltac:(lra) H0d).
  pose proof (IH (kp + len) ds Hl Hd Hxy). lra. Qed.

(* on or left of the first remaining keypoint: all weights 0 *)
Lemma seg_sum_left x lens : forall kp ds, all_nonneg lens -> x <= kp -> seg_sum x kp lens ds == 0.
Proof. induction lens as [|len lens IH]; intros kp [|d ds] Hl H; cbn [seg_sum]; try reflexivity.
  apply all_nonneg_cons in Hl as [H0l Hl].
  rewrite (wclip_left x kp len H0l H), (IH (kp + len) ds Hl) by lra. lra. Qed.
(* right of every piece, or on the last keypoint when every piece is a ramp: all weights 1 *)
Lemma seg_sum_right x lens : forall kp ds, all_nonneg lens -> length lens = length ds -> kp + qsum lens <= x ->
  kp + qsum lens < x \/ (forall v, In v lens -> 0 < v) -> seg_sum x kp lens ds == qsum ds.
Proof. induction lens as [|len lens IH]; intros kp [|d ds] Hl Hlen H Hs; cbn [seg_sum qsum] in *; try reflexivity; try discriminate.
  apply all_nonneg_cons in Hl as [H0l Hl]. pose proof (qsum_nonneg lens Hl).
  rewrite wclip_right, IH; try assumption; try lra.
  - injection Hlen as Hlen. exact Hlen.
  - destruct Hs as [Hs|Hs]; [left; lra|right; intros v Hv; apply Hs; right; exact Hv].
  - destruct Hs as [Hs|Hs]; [left; lra|right; apply Hs; left; reflexivity]. Qed.

(* successive differences, recursively *)
Fixpoint diffs (y0 : Q) (rest : list Q) : list Q :=
  match rest with [] => [] | y1 :: r => (y1 - y0) :: diffs y1 r end.
Lemma map2_removelast_diffs rest : forall y0, map2 Qminus rest (removelast (y0 :: rest)) = diffs y0 rest.
Proof. induction rest as [|y1 r IH]; intros y0. reflexivity.
  change (removelast (y0 :: y1 :: r)) with (y0 :: removelast (y1 :: r)). cbn [map2 diffs]. rewrite IH. reflexivity. Qed.

(* staircase: with ordered (possibly collapsed) keypoints the interpolated
   value stays between the smallest and the largest keypoint output *)
Lemma seg_sum_none_bounds x lo hi lens : forall kp y0 rest, all_nonneg lens ->
  lo <= y0 <= hi -> (forall y, In y rest -> lo <= y <= hi) ->
  lo <= y0 + seg_sum x kp lens (diffs y0 rest) <= hi.
Proof. induction lens as [|len lens IH]; intros kp y0 [|y1 r] Hl H0 Hr; cbn [seg_sum diffs]; try lra.
  apply all_nonneg_cons in Hl as [Hlen Hl'].
  assert (H1 : lo <= y1 <= hi) by (apply Hr; left; reflexivity).
  destruct (Qlt_le_dec (kp + len) x) as [Hx|Hx].
  - rewrite (wclip_right x kp len Hlen (Qlt_le_weak _ _ Hx) (or_introl Hx)).
    pose proof (IH (kp + len) y1 r Hl' H1 (fun y Hy => Hr y (or_intror Hy))). lra.
  - rewrite (seg_sum_left x lens (kp + len) _ Hl' Hx).
    pose proof (between_bounds lo hi _ y0 y1 (wclip_range x kp len) H0 H1). lra. Qed.

Lemma qsum_map_mul_r (r : Q) l : qsum (map (fun v => v * r) l) == qsum l * r.
Proof. induction l as [|a l IH]; cbn [map qsum]. lra. rewrite IH. lra. Qed.
Lemma all_nonneg_map_mul (r : Q) l : 0 <= r -> all_nonneg l -> all_nonneg (map (fun v => v * r) l).
Proof. intros Hr H v Hv. apply in_map_iff in Hv. destruct Hv as [a [<- Ha]]. apply qmul_nonneg. apply H; exact Ha. exact Hr. Qed.
Lemma removelast_nonneg l : all_nonneg l -> all_nonneg (removelast l) /\ qsum (removelast l) <= qsum l.
Proof. induction l as [|a l IH]; intros H. split; [exact H|cbn; lra].
  destruct l as [|b l]. split; [intros v []|]. cbn. pose proof (H a (or_introl eq_refl)). lra.
  change (removelast (a :: b :: l)) with (a :: removelast (b :: l)).
  apply all_nonneg_cons in H as [Ha H]. destruct (IH H) as [A B]. split.
  - apply all_nonneg_cons. split; assumption.
  - cbn [qsum] in *. lra. Qed.
Lemma removelast_cons_ne (a : Q) l : l <> [] -> removelast (a :: l) = a :: removelast l.
Proof. destruct l; [congruence|reflexivity]. Qed.
Lemma removelast_length {A} (l : list A) : length (removelast l) = pred (length l).
Proof. induction l as [|a l IH]. reflexivity. destruct l. reflexivity.
  change (removelast (a :: a0 :: l)) with (a :: removelast (a0 :: l)). cbn [length] in *. rewrite IH. reflexivity. Qed.
(* the differences along a list that ends in z telescope to z *)
Lemma diffs_telescope r : forall y0 z, y0 + qsum (diffs y0 (r ++ [z])) == z.
Proof. induction r as [|y1 r IH]; intros y0 z; cbn [app diffs qsum]. lra. specialize (IH y1 z). lra. Qed.
Lemma diffs_length rest : forall y0, length (diffs y0 rest) = length rest.
Proof. induction rest as [|y1 r IH]; intros y0; cbn [diffs length]. reflexivity. rewrite IH. reflexivity. Qed.

Section Row.
Variable sm : list Q -> list Q.
Variable sg : Q -> Q.
Hypothesis Hsm : softmax_ok sm.
Hypothesis Hsg : sigmoid_ok sg.
Variable c : pcfg.
Hypothesis Hin : p_imin c <= p_imax c.
Hypothesis Hout : p_omin c <= p_omax c.

Definition kip_list (kip : option (list Q)) : list Q := match kip with None => [0] | Some p => 0 :: p end.
Lemma kip_list_ne kip : kip_list kip <> [].
Proof. destruct kip; discriminate. Qed.

Lemma key_deltas_nonneg kip : all_nonneg (key_deltas sm c kip).
Proof. unfold key_deltas. apply all_nonneg_map_mul. unfold rng_in; lra. destruct (Hsm (kip_list kip)) as [_ [H _]]. exact H. Qed.
Lemma key_deltas_sum kip : qsum (key_deltas sm c kip) == rng_in c.
Proof. unfold key_deltas. rewrite qsum_map_mul_r. destruct (Hsm (kip_list kip)) as [_ [_ H]].
  fold (kip_list kip). rewrite (H (kip_list_ne kip)). lra. Qed.
Lemma key_deltas_length kip : length (key_deltas sm c kip) = length (kip_list kip).
Proof. unfold key_deltas. rewrite map_length. destruct (Hsm (kip_list kip)) as [H _]. exact H. Qed.
Lemma key_deltas_pos kip : softmax_pos sm -> p_imin c < p_imax c -> forall v, In v (key_deltas sm c kip) -> 0 < v.
Proof. intros Hp Hlt v Hv. unfold key_deltas in Hv. apply in_map_iff in Hv. destruct Hv as [a [<- Ha]].
  apply Hp in Ha. unfold rng_in. apply Qmult_lt_0_compat; lra. Qed.

(* the derived [y0, delta_1, ...] in 'increasing' mode *)
Definition inc_shape (kos : list Q) : Prop := kos <> [] ->
  p_omin c <= hd 0 kos /\ all_nonneg (tl kos) /\ qsum kos <= p_omax c
  /\ (p_cmin c = true -> hd 0 kos == p_omin c) /\ (p_cmax c = true -> qsum kos == p_omax c).

Lemma ko_inc_shape ko : inc_shape (ko_inc sm c ko).
Proof. unfold inc_shape, ko_inc. destruct (Hsm (0 :: ko)) as [Hlen [Hnn Hs]].
  assert (Hsum : qsum (map (fun v => v * rng_out c) (sm (0 :: ko))) == rng_out c).
  { rewrite qsum_map_mul_r. rewrite Hs by discriminate. lra. }
  assert (Hd : all_nonneg (map (fun v => v * rng_out c) (sm (0 :: ko)))).
  { apply all_nonneg_map_mul. unfold rng_out; lra. exact Hnn. }
  destruct (map (fun v => v * rng_out c) (sm (0 :: ko))) as [|d0 dr] eqn:E.
  { apply (f_equal (@length Q)) in E. rewrite map_length, Hlen in E. discriminate. }
  cbn [qsum] in Hsum. unfold rng_out in Hsum.
  destruct (proj1 (all_nonneg_cons _ _) Hd) as [H0 Hr].
  destruct (removelast_nonneg _ Hd) as [A B]. destruct (removelast_nonneg _ Hr) as [A' B']. cbn [qsum] in B.
  destruct (p_cmin c), (p_cmax c); cbn [firstn skipn map app]; intros Hne.
  - cbn [hd tl qsum]. repeat split; intros; try assumption; lra.
  - rewrite removelast_cons_ne by discriminate. cbn [hd tl qsum]. repeat split; intros; try assumption; try discriminate; lra.
  - cbn [hd tl qsum]. repeat split; intros; try assumption; try discriminate; lra.
  - destruct dr as [|d1 dr]; [contradiction|]. rewrite removelast_cons_ne by discriminate.
    cbn [hd tl qsum]. repeat split; intros; try assumption; try discriminate; lra. Qed.

Lemma ko_inc_length ko :
  Z.of_nat (length (ko_inc sm c ko)) = (Z.of_nat (length ko) + b2z (p_cmin c) + b2z (p_cmax c))%Z.
Proof. unfold ko_inc. destruct (Hsm (0 :: ko)) as [Hlen _].
  assert (L : length (map (fun v => v * rng_out c) (sm (0 :: ko))) = S (length ko)) by (rewrite map_length, Hlen; reflexivity).
  destruct (map (fun v => v * rng_out c) (sm (0 :: ko))) as [|d0 dr]; [discriminate|].
  cbn [length] in L. destruct (p_cmin c), (p_cmax c); cbn [firstn skipn map app b2z]; rewrite ?removelast_length; cbn [length]; lia. Qed.

(* shape in 'none' mode: keypoint outputs ys in range, stored as y0 :: diffs *)
Definition none_shape (kos : list Q) : Prop :=
  kos = [] \/ exists y0 rest, kos = y0 :: diffs y0 rest /\ p_omin c <= y0 <= p_omax c
    /\ (forall y, In y rest -> p_omin c <= y <= p_omax c) /\ (p_cyc c = true -> y0 + qsum (diffs y0 rest) == y0).

Lemma sg_scaled_range z : p_omin c <= sg z * rng_out c + p_omin c <= p_omax c.
Proof. pose proof (between_bounds (p_omin c) (p_omax c) _ (p_omin c) (p_omax c) (Hsg z)). unfold rng_out. lra. Qed.

Lemma ko_none_shape ko : none_shape (ko_none sg c ko).
Proof. unfold none_shape, ko_none. set (ys := map (fun p => sg p * rng_out c + p_omin c) ko).
  assert (Hys : forall y, In y ys -> p_omin c <= y <= p_omax c).
  { intros y Hy. apply in_map_iff in Hy. destruct Hy as [z [<- _]]. apply sg_scaled_range. }
  destruct ys as [|y0 r]. { left. destruct (p_cyc c); reflexivity. }
  assert (H0 : p_omin c <= y0 <= p_omax c) by (apply Hys; left; reflexivity).
  right. exists y0, (if p_cyc c then r ++ [y0] else r).
  destruct (p_cyc c); cbn [firstn app skipn]; rewrite map2_removelast_diffs; (split; [reflexivity|split; [exact H0|split]]).
  - intros y Hy. apply in_app_iff in Hy. destruct Hy as [Hy|[<-|[]]]; [apply Hys; right; exact Hy|exact H0].
  - intros _. apply diffs_telescope.
  - intros y Hy. apply Hys. right. exact Hy.
  - discriminate. Qed.

Lemma ko_none_length ko : ko <> [] ->
  Z.of_nat (length (ko_none sg c ko)) = (Z.of_nat (length ko) + b2z (p_cyc c))%Z.
Proof. intros Hne. unfold ko_none. set (ys := map (fun p => sg p * rng_out c + p_omin c) ko).
  assert (L : length ys = length ko) by apply map_length.
  destruct ys as [|y0 r]. { destruct ko; [congruence|discriminate]. }
  destruct (p_cyc c); cbn [firstn app skipn b2z]; rewrite map2_removelast_diffs; cbn [length]; rewrite diffs_length, ?app_length; cbn [length] in *; lia. Qed.

(* derived [y0, delta_1, ...] of a slice *)
Definition kos_of (kop : list Q) : list Q := kernel_outputs sm sg c (snd (split_missing sg c kop)).
(* the slice has as many derived outputs as keypoints (what the size check ensures) *)
Definition row_sized (kip : option (list Q)) (kop : list Q) : Prop :=
  length (kos_of kop) = S (length (key_deltas sm c kip)).
Definition not_missing (x : Q) : Prop := match p_min c with Some m => ~ x == m | None => True end.
Definition row_interp (kip : option (list Q)) (kop : list Q) (x : Q) : Q :=
  interp x (keypoints c (key_deltas sm c kip)) (key_deltas sm c kip) (kos_of kop).

Lemma pwl_row_not_missing kip kop x : not_missing x -> pwl_row sm sg c kip kop x = row_interp kip kop x.
Proof. unfold not_missing, pwl_row, row_interp, kos_of. destruct (p_min c) as [m|]; [|reflexivity].
  intros H. destruct (fst (split_missing sg c kop)); [|reflexivity].
  destruct (Qeq_bool x m) eqn:E; [|reflexivity]. apply Qeq_bool_iff in E. contradiction. Qed.

Lemma pwl_row_missing kip kop x m : p_min c = Some m -> x == m ->
  pwl_row sm sg c kip kop x =
  match p_mout c with Some v => v | None => p_omin c + sg (last kop 0) * rng_out c end.
Proof. intros Hm Hx. unfold pwl_row, split_missing. rewrite Hm.
  apply Qeq_bool_iff in Hx. destruct (p_mout c); cbn [fst snd]; rewrite Hx; reflexivity. Qed.

Lemma kos_none kop : is_none c = true -> none_shape (kos_of kop).
Proof. intros E. unfold kos_of, kernel_outputs. rewrite E. apply ko_none_shape. Qed.
Lemma kos_inc kop : is_none c = false -> inc_shape (kos_of kop).
Proof. intros E. unfold kos_of, kernel_outputs. rewrite E. apply ko_inc_shape. Qed.

Lemma row_interp_bounds kip kop x : kos_of kop <> [] ->
  p_omin c <= row_interp kip kop x <= p_omax c.
Proof. intros Hne. unfold row_interp. pose proof (key_deltas_nonneg kip) as Hl.
  destruct (is_none c) eqn:Ei.
  - destruct (kos_none kop Ei) as [E|[y0 [rest [E [H0 [Hr _]]]]]]; [contradiction|].
    rewrite E, interp_seg. apply seg_sum_none_bounds; assumption.
  - destruct (kos_inc kop Ei Hne) as (H0 & Hd & Hs & _). destruct (kos_of kop) as [|y0 ds]; [contradiction|]. cbn [hd tl qsum] in *.
    rewrite interp_seg. destruct (seg_sum_inc_bounds x (key_deltas sm c kip) (p_imin c) ds Hd). lra. Qed.

Lemma pwl_row_bounds kip kop x : kos_of kop <> [] -> (p_mout c = None \/ not_missing x) ->
  p_omin c <= pwl_row sm sg c kip kop x <= p_omax c.
Proof. intros Hne Hm. pose proof (row_interp_bounds kip kop x Hne) as HB.
  unfold pwl_row. fold (kos_of kop). fold (row_interp kip kop x).
  destruct (p_min c) as [m|] eqn:Em; [|exact HB].
  unfold split_missing. rewrite Em. destruct (p_mout c) as [v|] eqn:Ev; cbn [fst].
  - destruct Hm as [Hm|Hm]; [discriminate|]. unfold not_missing in Hm. rewrite Em in Hm.
    destruct (Qeq_bool x m) eqn:E; [apply Qeq_bool_iff in E; contradiction|exact HB].
  - destruct (Qeq_bool x m); [|exact HB]. pose proof (sg_scaled_range (last kop 0)). lra. Qed.

Lemma row_interp_monotone kip kop x y : is_none c = false -> x <= y ->
  row_interp kip kop x <= row_interp kip kop y.
Proof. intros Hi Hxy. unfold row_interp. pose proof (key_deltas_nonneg kip) as Hl.
  pose proof (kos_inc kop Hi) as H. destruct (kos_of kop) as [|y0 ds].
  - rewrite !interp_nil. lra.
  - destruct (H ltac:(discriminate)) as (_ & Hd & _). rewrite !interp_seg.
    pose proof (seg_sum_mono x y _ (p_imin c) ds Hl Hd Hxy). lra. Qed.

(* values left of / right of all keypoints *)
Definition right_of (x : Q) : Prop :=
  p_imax c < x \/ (softmax_pos sm /\ p_imin c < p_imax c /\ p_imax c <= x).
Lemma row_interp_right kip kop x : row_sized kip kop -> right_of x ->
  row_interp kip kop x == qsum (kos_of kop).
Proof. intros Hs Hx. unfold row_interp. unfold row_sized in Hs.
  destruct (kos_of kop) as [|y0 ds]; [discriminate|]. rewrite interp_seg. cbn [qsum].
  assert (L : length (key_deltas sm c kip) = length ds) by (cbn [length] in Hs; lia).
  pose proof (key_deltas_sum kip) as S. unfold rng_in in S.
  rewrite seg_sum_right; [reflexivity|apply key_deltas_nonneg|exact L| |].
  - destruct Hx as [Hx|[_ [_ Hx]]]; lra.
  - destruct Hx as [Hx|[Hp [Hlt _]]]; [left; lra|right; apply key_deltas_pos; assumption]. Qed.
Lemma row_interp_left kip kop x : x <= p_imin c -> row_interp kip kop x == hd 0 (kos_of kop).
Proof. intros Hx. unfold row_interp. destruct (kos_of kop) as [|y0 ds]. reflexivity.
  rewrite interp_seg. rewrite seg_sum_left. cbn; lra. apply key_deltas_nonneg. exact Hx. Qed.

(* cyclic, parameter level: the last keypoint output (cumulative sum) equals the first *)
Lemma kos_cyclic kop : is_none c = true -> p_cyc c = true -> qsum (kos_of kop) == hd 0 (kos_of kop).
Proof. intros Hi Hc. destruct (kos_none kop Hi) as [E|[y0 [rest [E [_ [_ H]]]]]]; rewrite E.
  reflexivity. cbn [qsum hd]. exact (H Hc). Qed.

Lemma row_sized_ne kip kop : row_sized kip kop -> kos_of kop <> [].
Proof. unfold row_sized. destruct (kos_of kop); discriminate. Qed.

Lemma split_missing_length kop : kop <> [] -> Z.of_nat (length (snd (split_missing sg c kop))) =
  (Z.of_nat (length kop) - b2z (opt_some (p_min c) && negb (opt_some (p_mout c))))%Z.
Proof. intros Hne. unfold split_missing. destruct (p_min c), (p_mout c); cbn [snd opt_some andb negb b2z]; rewrite ?removelast_length; try lia.
  destruct kop; [congruence|cbn [length]; lia]. Qed.

End Row.

(* flag combinations that _verify_pwl_calibration lets through *)
Definition cfg_valid (c : pcfg) : Prop :=
  p_imin c <= p_imax c /\ p_omin c <= p_omax c
  /\ (is_none c = true \/ is_inc c = true)
  /\ (is_none c = true -> p_cmin c = false /\ p_cmax c = false)
  /\ (is_inc c = true -> p_cyc c = false)
  /\ (opt_some (p_mout c) = true -> opt_some (p_min c) = true).
(* module docstring: # keypoints, -1 cyclic, -1 clamp_min, -1 clamp_max,
   +1 "if need to learn how to impute missing" *)
Definition doc_output_size (c : pcfg) (num_kp : Z) : Z :=
  (num_kp - b2z (p_cyc c) - b2z (p_cmin c) - b2z (p_cmax c)
   + b2z (opt_some (p_min c) && negb (opt_some (p_mout c))))%Z.
(* shape forms of keypoint_output_parameters that the check lets through *)
Definition kop_form_ok (c : pcfg) (kop : ptens) : Prop :=
  match kop with
  | P2 _ => (p_units c <= 1)%nat
  | P3 t => length (hd [] t) = p_units c
  end.
Definition inputs_form_ok (c : pcfg) (inputs : list (list Q)) : Prop :=
  (width inputs <= 1)%nat \/ width inputs = p_units c.

Lemma b2z_range b : (0 <= b2z b <= 1)%Z.
Proof. destruct b; cbn; lia. Qed.
Lemma b2z_and_not a b : (b = true -> a = true) -> b2z (a && negb b) = (b2z a - b2z b)%Z.
Proof. destruct a, b; cbn; intros H; try reflexivity. discriminate (H eq_refl). Qed.

Lemma nandb_imp a b : negb (a && b) = true <-> (a = true -> b = false).
Proof. destruct a, b; cbn; intuition congruence. Qed.
Lemma kop_form_checks c kop :
  negb ((1 <? p_units c)%nat && negb (prank kop =? 3)%nat) = true
  /\ negb ((prank kop =? 3)%nat && negb (pdim1 kop =? p_units c)%nat) = true <-> kop_form_ok c kop.
Proof. destruct kop; cbn [prank pdim1 kop_form_ok Nat.eqb negb andb].
  - rewrite andb_true_r, negb_true_iff, Nat.ltb_ge. tauto.
  - rewrite andb_false_r, negb_involutive, Nat.eqb_eq. cbn [negb]. tauto. Qed.
Lemma inputs_form_check c inputs :
  negb ((1 <? width inputs)%nat && negb (width inputs =? p_units c)%nat) = true <-> inputs_form_ok c inputs.
Proof. unfold inputs_form_ok. rewrite negb_true_iff, andb_false_iff, negb_false_iff, Nat.ltb_ge, Nat.eqb_eq. tauto. Qed.

(* _verify_pwl_calibration, check by check: every boolean test of [verify] decides one conjunct
   (kop_form_ok: two tests); a conjunction of tests is true when each of them is *)
Lemma verify_iff c inputs kip kop : verify c inputs kip kop = true <->
  cfg_valid c /\ kop_form_ok c kop /\ inputs_form_ok c inputs
  /\ (0 < output_param_size c kip)%Z /\ Z.of_nat (plast kop) = output_param_size c kip.
Proof.
  pose proof (nqlt_true (p_imax c) (p_imin c)) as Timin.
  pose proof (orb_true_iff (is_none c) (is_inc c)) as Tmono.
  assert (Tclamp : negb (is_none c && (p_cmin c || p_cmax c)) = true <->
                   (is_none c = true -> p_cmin c = false /\ p_cmax c = false))
    by (rewrite nandb_imp, orb_false_iff; reflexivity).
  pose proof (nqlt_true (p_omax c) (p_omin c)) as Tomin.
  pose proof (nandb_imp (is_inc c) (p_cyc c)) as Tcyc.
  assert (Tmiss : negb (opt_some (p_mout c) && negb (opt_some (p_min c))) = true <->
                  (opt_some (p_mout c) = true -> opt_some (p_min c) = true))
    by (rewrite nandb_imp, negb_false_iff; reflexivity).
  pose proof (Z.ltb_lt 0 (output_param_size c kip)) as Tsize.
  pose proof (kop_form_checks c kop) as Tkop.
  pose proof (Z.eqb_eq (Z.of_nat (plast kop)) (output_param_size c kip)) as Tlast.
  pose proof (inputs_form_check c inputs) as Tin.
  unfold cfg_valid. rewrite <- Timin, <- Tmono, <- Tclamp, <- Tomin, <- Tcyc, <- Tmiss, <- Tsize, <- Tkop, <- Tlast, <- Tin.
  unfold verify. split.
  - intros H. repeat (apply andb_true_iff in H; destruct H as [H ?]). repeat split; assumption.
  - intros ((H1 & H2 & H3 & H4 & H5 & H6) & (K1 & K2) & X & P & S). repeat (apply andb_true_iff; split); assumption. Qed.

Lemma output_size_doc c kip : cfg_valid c -> output_param_size c kip = doc_output_size c (num_keypoints kip).
Proof. intros (_ & _ & _ & _ & _ & Hs). unfold output_param_size, doc_output_size. rewrite (b2z_and_not _ _ Hs). lia. Qed.

Lemma verify_sizes c inputs kip kop :
  cfg_valid c -> kop_form_ok c kop -> inputs_form_ok c inputs ->
  (verify c inputs kip kop = true <->
   (Z.of_nat (plast kop) = doc_output_size c (num_keypoints kip) /\ (0 < doc_output_size c (num_keypoints kip))%Z)).
Proof. intros Hc Hk Hx. rewrite verify_iff, (output_size_doc c kip Hc). tauto. Qed.

Definition slice_kip (c : pcfg) (kip : option ptens) (b u : nat) : option (list Q) :=
  match kip with None => None | Some t => Some (bsel [] u (bsel [] b (tile1 (p_units c) (to3 t)))) end.
Definition slice_kop (c : pcfg) (kop : ptens) (b u : nat) : list Q :=
  bsel [] u (bsel [] b (tile1 (p_units c) (to3 kop))).
Definition slice_x (c : pcfg) (inputs : list (list Q)) (b u : nat) : Q :=
  bsel 0 u (bsel [] b (tile1 (p_units c) inputs)).

(* batch size of the result *)
Definition out_batch (c : pcfg) (inputs : list (list Q)) (kip : option ptens) (kop : ptens) : nat :=
  Nat.max (length (tile1 (p_units c) inputs))
    (Nat.max (match kip with None => 1%nat | Some t => length (tile1 (p_units c) (to3 t)) end)
             (length (tile1 (p_units c) (to3 kop)))).

(* the broadcasting test of pwl_fn *)
Definition bcast_test (c : pcfg) (inputs : list (list Q)) (kip : option ptens) (kop : ptens) : bool :=
  let units := p_units c in
  let B := out_batch c inputs kip kop in
  bcompat B (length (tile1 units inputs))
  && bcompat B (match kip with None => 1%nat | Some t => length (tile1 units (to3 t)) end)
  && bcompat B (length (tile1 units (to3 kop)))
  && bcompat units (match kip with None => units | Some t => length (hd [] (tile1 units (to3 t))) end)
  && bcompat units (length (hd [] (tile1 units (to3 kop))))
  && bcompat units (width (tile1 units inputs)).

(* size check, broadcasting test, then pwl_row on every (example, unit) slice *)
Lemma pwl_fn_eq sm sg c inputs kip kop : pwl_fn sm sg c inputs kip kop =
  if verify c inputs kip kop && bcast_test c inputs kip kop then
    Some (map (fun b => map (fun u => pwl_row sm sg c (slice_kip c kip b u) (slice_kop c kop b u) (slice_x c inputs b u))
                 (seq 0 (p_units c))) (seq 0 (out_batch c inputs kip kop)))
  else None.
Proof. unfold pwl_fn, bcast_test, out_batch, slice_kip, slice_kop, slice_x.
  destruct (verify c inputs kip kop); [|reflexivity]. destruct kip; reflexivity. Qed.

Lemma pwl_fn_some {sm sg c inputs kip kop out} : pwl_fn sm sg c inputs kip kop = Some out ->
  verify c inputs kip kop = true /\ bcast_test c inputs kip kop = true /\ length out = out_batch c inputs kip kop.
Proof. rewrite pwl_fn_eq. destruct (verify c inputs kip kop), (bcast_test c inputs kip kop); try discriminate.
  intros [= <-]. rewrite map_length, seq_length. auto. Qed.

Lemma bcast_test_kop {c inputs kip kop} : bcast_test c inputs kip kop = true ->
  bcompat (out_batch c inputs kip kop) (length (tile1 (p_units c) (to3 kop))) = true
  /\ bcompat (p_units c) (length (hd [] (tile1 (p_units c) (to3 kop)))) = true.
Proof. unfold bcast_test. cbv zeta. intros H. repeat (apply andb_true_iff in H; destruct H as [H ?]). split; assumption. Qed.
Lemma bcast_test_kip {c inputs t kop} : bcast_test c inputs (Some t) kop = true ->
  bcompat (out_batch c inputs (Some t) kop) (length (tile1 (p_units c) (to3 t))) = true
  /\ bcompat (p_units c) (length (hd [] (tile1 (p_units c) (to3 t)))) = true.
Proof. unfold bcast_test. cbv zeta. intros H. repeat (apply andb_true_iff in H; destruct H as [H ?]). split; assumption. Qed.

Lemma pwl_fn_entry sm sg c inputs kip kop out b u :
  pwl_fn sm sg c inputs kip kop = Some out -> (b < length out)%nat -> (u < p_units c)%nat ->
  nth u (nth b out []) 0 =
  pwl_row sm sg c (slice_kip c kip b u) (slice_kop c kop b u) (slice_x c inputs b u).
Proof. intros H Hb Hu. rewrite pwl_fn_eq in H.
  destruct (verify c inputs kip kop && bcast_test c inputs kip kop); [|discriminate]. injection H as <-.
  rewrite map_length, seq_length in Hb. rewrite (nth_map_seq _ _ _ _ Hb). rewrite (nth_map_seq _ _ _ _ Hu). reflexivity. Qed.

(* a tensor is rectangular *)
Definition rect_kop (kop : ptens) : Prop :=
  match kop with
  | P2 t => forall r, In r t -> length r = plast kop
  | P3 t => forall m, In m t -> length m = length (hd [] t) /\ forall r, In r m -> length r = plast kop
  end.

Lemma bsel_in_range {A} (d : A) n i (l : list A) : bcompat n (length l) = true -> (i < n)%nat -> In (bsel d i l) l.
Proof. unfold bcompat, bsel. intros H Hi. destruct (length l =? 1)%nat eqn:E.
  - apply Nat.eqb_eq in E. apply nth_In. lia.
  - cbn [orb] in H. apply Nat.eqb_eq in H. apply nth_In. lia. Qed.

Lemma length_concat_repeat {A} (m : list A) n : length (concat (repeat m n)) = (n * length m)%nat.
Proof. induction n as [|n IH]; cbn [repeat concat]. reflexivity. rewrite app_length, IH. lia. Qed.
Lemma hd_In {A} (d : A) l : l <> [] -> In (hd d l) l.
Proof. destruct l; [congruence|left; reflexivity]. Qed.

(* a 3-tensor whose matrices all have n rows, each of length p *)
Definition uniform3 (n p : nat) (t3 : list (list (list Q))) : Prop :=
  forall m, In m t3 -> length m = n /\ forall r, In r m -> length r = p.

Lemma to3_uniform t : rect_kop t -> exists n, uniform3 n (plast t) (to3 t).
Proof. destruct t as [t|t]; cbn [to3 rect_kop]; intros Hr.
  - exists 1%nat. intros m Hm. apply in_map_iff in Hm. destruct Hm as [r [<- Hr']]. split; [reflexivity|].
    intros r' [<-|[]]. apply Hr, Hr'.
  - exists (length (hd [] t)). exact Hr. Qed.
Lemma tile1_uniform units t3 n p : uniform3 n p t3 -> exists n', uniform3 n' p (tile1 units t3).
Proof. intros H. unfold tile1. destruct ((length (hd [] t3) =? 1)%nat && (1 <? units)%nat); [|exists n; exact H].
  exists (units * n)%nat. intros m' Hm. apply in_map_iff in Hm. destruct Hm as [m [<- Hm]]. destruct (H m Hm) as [L R]. split.
  - rewrite length_concat_repeat, L. reflexivity.
  - intros r Hr. apply in_concat in Hr. destruct Hr as [l [Hl Hr]]. apply repeat_spec in Hl. subst l. apply R, Hr. Qed.

(* a slice of a rectangular parameter tensor, read with broadcasting, is one of its rows *)
Lemma slice_length {units t B} b u : rect_kop t ->
  bcompat B (length (tile1 units (to3 t))) = true -> bcompat units (length (hd [] (tile1 units (to3 t)))) = true ->
  (b < B)%nat -> (u < units)%nat -> length (bsel [] u (bsel [] b (tile1 units (to3 t)))) = plast t.
Proof. intros Hr Bc Uc Hb Hu. destruct (to3_uniform t Hr) as [n H]. destruct (tile1_uniform units _ _ _ H) as [n' H'].
  set (k3 := tile1 units (to3 t)) in *. pose proof (bsel_in_range [] _ b k3 Bc Hb) as Hin.
  assert (Hne : k3 <> []) by (intros E; rewrite E in Hin; destruct Hin).
  destruct (H' _ Hin) as [L R]. rewrite (proj1 (H' _ (hd_In [] k3 Hne))), <- L in Uc.
  apply R, (bsel_in_range [] units); assumption. Qed.

Lemma slice_kop_length {sm sg c inputs kip kop out b u} : rect_kop kop ->
  pwl_fn sm sg c inputs kip kop = Some out -> (b < length out)%nat -> (u < p_units c)%nat ->
  length (slice_kop c kop b u) = plast kop.
Proof. intros Hr H Hb Hu. destruct (pwl_fn_some H) as (_ & Bt & L).
  rewrite L in Hb. destruct (bcast_test_kop Bt) as [Bc Uc].
  exact (slice_length b u Hr Bc Uc Hb Hu). Qed.

Lemma num_keypoints_ge2 kip : (2 <= num_keypoints kip)%Z.
Proof. destruct kip; cbn; lia. Qed.

(* length of the derived outputs of a slice of an accepted call = number of keypoints *)
Lemma kos_length_accepted {sm} sg {c inputs kip kop slice} : softmax_ok sm ->
  verify c inputs kip kop = true -> length slice = plast kop ->
  Z.of_nat (length (kos_of sm sg c slice)) = num_keypoints kip.
Proof. intros Hsm V L. apply verify_iff in V. destruct V as ((_ & _ & Hm & Hn & Hc & Hs) & _ & _ & P & S).
  rewrite <- L in S. assert (Hne : slice <> []) by (intros ->; cbn [length] in S; lia).
  pose proof (split_missing_length sg c slice Hne) as SL. rewrite (b2z_and_not _ _ Hs) in SL.
  pose proof (num_keypoints_ge2 kip). pose proof (b2z_range (p_cyc c)).
  unfold output_param_size in *. unfold kos_of, kernel_outputs. destruct (is_none c).
  - destruct (Hn eq_refl) as [A B]. rewrite A, B in *. cbn [b2z] in *.
    rewrite ko_none_length; [lia|]. intros E. rewrite E in SL. cbn [length] in SL. lia.
  - rewrite (ko_inc_length sm Hsm), Hc in * by (destruct Hm; [discriminate|assumption]). cbn [b2z] in *. lia. Qed.

Lemma pwl_fn_bounds sm sg c inputs kip kop out b u :
  softmax_ok sm -> sigmoid_ok sg -> rect_kop kop ->
  pwl_fn sm sg c inputs kip kop = Some out -> (b < length out)%nat -> (u < p_units c)%nat ->
  (p_mout c = None \/ not_missing c (slice_x c inputs b u)) ->
  p_omin c <= nth u (nth b out []) 0 <= p_omax c.
Proof. intros Hsm Hsg Hr H Hb Hu Hm. rewrite (pwl_fn_entry _ _ _ _ _ _ _ _ _ H Hb Hu).
  destruct (pwl_fn_some H) as [V _]. pose proof (proj1 (proj1 (verify_iff _ _ _ _) V)) as [Hi [Ho _]].
  apply pwl_row_bounds; try assumption.
  pose proof (kos_length_accepted sg Hsm V (slice_kop_length Hr H Hb Hu)) as L.
  pose proof (num_keypoints_ge2 kip). intros E. rewrite E in L. cbn [length] in L. lia. Qed.

Definition rect_kip (kip : option ptens) : Prop := match kip with None => True | Some t => rect_kop t end.

Lemma pwl_fn_row_sized sm sg c inputs kip kop out b u :
  softmax_ok sm -> rect_kip kip -> rect_kop kop ->
  pwl_fn sm sg c inputs kip kop = Some out -> (b < length out)%nat -> (u < p_units c)%nat ->
  row_sized sm sg c (slice_kip c kip b u) (slice_kop c kop b u).
Proof. intros Hsm Hrk Hro H Hb Hu. unfold row_sized.
  destruct (pwl_fn_some H) as (V & Bt & E).
  pose proof (kos_length_accepted sg Hsm V (slice_kop_length Hro H Hb Hu)) as L.
  rewrite (key_deltas_length sm Hsm c). destruct kip as [t|]; cbn [rect_kip] in Hrk.
  - rewrite E in Hb. destruct (bcast_test_kip Bt) as [Bc Uc].
    pose proof (slice_length b u Hrk Bc Uc Hb Hu) as Lp. cbn [slice_kip kip_list length num_keypoints] in *. lia.
  - cbn [slice_kip kip_list length num_keypoints] in *. lia. Qed.

(* uniform distribution: same length, strictly positive, sums to 1 *)
Definition ex_softmax (l : list Q) : list Q := map (fun _ => / inject_Z (Z.of_nat (length l))) l.
Lemma ex_softmax_ok : softmax_ok ex_softmax /\ softmax_pos ex_softmax.
Proof. assert (N : forall l : list Q, l <> [] -> 0 < inject_Z (Z.of_nat (length l)))
    by (intros l Hl; apply qofnat_pos; destruct l; [congruence|cbn; lia]).
  assert (P : forall l v, In v (ex_softmax l) -> 0 < v).
  { intros l v Hv. apply in_map_iff in Hv. destruct Hv as [a [<- Ha]]. apply Qinv_lt_0_compat, N. intros ->. destruct Ha. }
  split; [|exact P]. intros l. split; [apply map_length|]. split.
  - intros v Hv. apply Qlt_le_weak, (P l v Hv).
  - intros Hne. unfold ex_softmax. rewrite qsum_const. apply Qmult_inv_r. pose proof (N l Hne). lra. Qed.

(* The slice theorems as Props/C15.v takes them: with all four standing hypotheses
   (both oracles, both ranges) whichever of them the particular theorem uses.  Off the
   missing value pwl_row is [row_interp]; left of the keypoints that is the first derived
   output, right of them their sum. *)
Lemma T_pwl_bounds : forall sm sg c kip kop x,
  softmax_ok sm -> sigmoid_ok sg -> p_imin c <= p_imax c -> p_omin c <= p_omax c ->
  kos_of sm sg c kop <> [] -> (p_mout c = None \/ not_missing c x) ->
  p_omin c <= pwl_row sm sg c kip kop x <= p_omax c.
Proof. intros. apply pwl_row_bounds; assumption. Qed.
Lemma T_pwl_monotone : forall sm sg c kip kop x y,
  softmax_ok sm -> sigmoid_ok sg -> p_imin c <= p_imax c -> p_omin c <= p_omax c ->
  is_none c = false -> not_missing c x -> not_missing c y -> x <= y ->
  pwl_row sm sg c kip kop x <= pwl_row sm sg c kip kop y.
Proof. intros sm sg c kip kop x y Hsm _ Hi Ho Hn Hx Hy Hxy. rewrite !pwl_row_not_missing by assumption.
  apply row_interp_monotone; assumption. Qed.
Lemma T_pwl_clamps_params : forall sm sg c kop,
  softmax_ok sm -> sigmoid_ok sg -> p_omin c <= p_omax c -> is_none c = false -> kos_of sm sg c kop <> [] ->
  (p_cmin c = true -> hd 0 (kos_of sm sg c kop) == p_omin c) /\
  (p_cmax c = true -> qsum (kos_of sm sg c kop) == p_omax c).
Proof. intros sm sg c kop Hsm _ Ho Hi Hne. destruct (kos_inc sm sg Hsm c Ho kop Hi Hne) as (_ & _ & _ & Hmin & Hmax).
  split; assumption. Qed.
Lemma T_pwl_clamps : forall sm sg c kip kop x,
  softmax_ok sm -> sigmoid_ok sg -> p_imin c <= p_imax c -> p_omin c <= p_omax c ->
  is_none c = false -> row_sized sm sg c kip kop -> not_missing c x ->
  (p_cmin c = true -> x <= p_imin c -> pwl_row sm sg c kip kop x == p_omin c) /\
  (p_cmax c = true -> right_of sm c x -> pwl_row sm sg c kip kop x == p_omax c).
Proof. intros sm sg c kip kop x Hsm Hsg Hi Ho Hn Hs Hm. rewrite pwl_row_not_missing by assumption.
  destruct (T_pwl_clamps_params sm sg c kop Hsm Hsg Ho Hn (row_sized_ne sm sg c kip kop Hs)) as [Pmin Pmax].
  split; intros Hc Hx.
  - rewrite row_interp_left by assumption. exact (Pmin Hc).
  - rewrite row_interp_right by assumption. exact (Pmax Hc). Qed.
Lemma T_pwl_cyclic : forall sm sg c kip kop x y,
  softmax_ok sm -> sigmoid_ok sg -> p_imin c <= p_imax c -> p_omin c <= p_omax c ->
  is_none c = true -> p_cyc c = true ->
  qsum (kos_of sm sg c kop) == hd 0 (kos_of sm sg c kop) /\
  (row_sized sm sg c kip kop -> not_missing c x -> not_missing c y -> x <= p_imin c -> right_of sm c y ->
   pwl_row sm sg c kip kop x == pwl_row sm sg c kip kop y).
Proof. intros sm sg c kip kop x y Hsm Hsg Hi Ho Hn Hc.
  pose proof (kos_cyclic sm sg Hsg c Ho kop Hn Hc) as P. split; [exact P|]. intros Hs Hmx Hmy Hx Hy.
  rewrite !pwl_row_not_missing by assumption.
  rewrite row_interp_left, (row_interp_right sm sg Hsm c Hi kip kop y) by assumption. symmetry. exact P. Qed.
Lemma T_param_forms_refuted : exists c inputs kip kop,
  cfg_valid c /\ p_units c = 2%nat /\ kop = P3 [[[0; 0]]] /\ kip = None
  /\ Z.of_nat (plast kop) = doc_output_size c (num_keypoints kip)
  /\ verify c inputs kip kop = false.
Proof. exists (mkP 0 1 0 1 2 MonoNone false false false None None), [[0]], None, (P3 [[[0; 0]]]).
  split. { unfold cfg_valid; cbn. repeat split; try lra; auto; discriminate. }
  repeat split; reflexivity. Qed.
Lemma T_ex_call :
  let c := mkP 0 1 0 1 1 MonoInc true true false None None in
  cfg_valid c /\ verify c [[1 # 2]] (Some (P2 [[0]])) (P2 [[0]]) = true /\
  row_sized ex_softmax (fun _ => 1 # 2) c (Some [0]) [0] /\
  pwl_fn ex_softmax (fun _ => 1 # 2) c [[1 # 2]; [1]; [-1 # 1]] (Some (P2 [[0]])) (P2 [[0]])
    = Some [[4 # 8]; [8 # 8]; [0 # 4]].
Proof. cbv zeta. split; [|split; [|split]]; try (vm_compute; reflexivity).
  unfold cfg_valid; cbn; repeat split; try lra; auto; discriminate. Qed.
