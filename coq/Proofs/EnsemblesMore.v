(* Further lemmas for C17: acceptance direction of
   _get_rtl_structure, determinism of the random ensemble / the all-pairs
   cover / Crystals, and totality of the Crystals use allocation for strictly
   positive importance scores (the hypothesis that excludes known finding
   D13). *)
From Coq Require Import Permutation Sorted Qround.
From TFL Require Import Base.Lists Model.Ensembles Proofs.RTLStructure Proofs.Ensembles.
Open Scope nat_scope.

Lemma rtl_rejects_iff : forall sh1 sh2 cfg,
  rtl_structure cfg sh1 sh2 = None <->
  (n_inputs (c_input cfg) = 0 \/ c_num cfg * c_rank cfg < n_inputs (c_input cfg)).
Proof.
  intros sh1 sh2 cfg. unfold rtl_structure. rewrite flatten_length.
  destruct (Nat.ltb_spec (c_num cfg * c_rank cfg) (n_inputs (c_input cfg))).
  - split; auto.
  - destruct (Nat.eqb_spec (n_inputs (c_input cfg)) 0).
    + split; auto.
    + split; [discriminate|]. intros [|]; lia.
Qed.

Lemma rtl_accepts_enough_slots : forall sh1 sh2 cfg,
  0 < n_inputs (c_input cfg) -> n_inputs (c_input cfg) <= c_num cfg * c_rank cfg ->
  exists s, rtl_structure cfg sh1 sh2 = Some s.
Proof.
  intros sh1 sh2 cfg H0 H1. destruct (rtl_structure cfg sh1 sh2) as [s|] eqn:E; [eauto|].
  apply rtl_rejects_iff in E. lia.
Qed.

Lemma rnd_phase1_ext ch1 ch1' rank feats : forall lats,
  (forall f nf, In f feats -> nf <> [] -> ch1 f nf = ch1' f nf) ->
  rnd_phase1 ch1 rank feats lats = rnd_phase1 ch1' rank feats lats.
Proof.
  induction feats as [|f r IH]; intros lats H; cbn [rnd_phase1]. reflexivity.
  destruct (non_full rank lats) as [|a nf] eqn:E. reflexivity.
  rewrite (H f (a :: nf)); [|left; reflexivity|discriminate].
  apply IH. intros g nf' Hg Hn. apply H; [right; exact Hg|exact Hn].
Qed.

Lemma rnd_phase2_ext ch2 ch2' rank feats : forall lats k,
  (forall k av sz, sz <= length av -> ch2 k av sz = ch2' k av sz) ->
  rnd_phase2 ch2 rank feats k lats = rnd_phase2 ch2' rank feats k lats.
Proof.
  induction lats as [|l r IH]; intros k H; cbn [rnd_phase2]. reflexivity.
  destruct (Nat.ltb_spec (length (filter (fun f => negb (memb f l)) feats)) (rank - length l)). reflexivity.
  rewrite (IH (S k) H). destruct (rnd_phase2 ch2' rank feats (S k) r); [|reflexivity].
  rewrite H by assumption. reflexivity.
Qed.

(* the ensemble depends only on the values np.random.choice returns on the
   calls the code can make: choice(non_full_indices) for a feature f < n on a
   non-empty candidate list, and choice(candidates, size, replace=False) with
   size <= number of candidates *)
Lemma random_deterministic : forall ch1 ch2 ch1' ch2' n num rank,
  (forall f nf, f < n -> nf <> [] -> ch1 f nf = ch1' f nf) ->
  (forall k av sz, sz <= length av -> ch2 k av sz = ch2' k av sz) ->
  random_ensemble ch1 ch2 n num rank = random_ensemble ch1' ch2' n num rank.
Proof.
  intros ch1 ch2 ch1' ch2' n num rank H1 H2. unfold random_ensemble.
  rewrite (rnd_phase1_ext ch1 ch1' rank (seq 0 n)).
  2:{ intros f nf Hf Hn. apply H1; [apply in_seq in Hf; lia|exact Hn]. }
  destruct (rnd_phase1 ch1' rank (seq 0 n) (repeat [] num)); [|reflexivity].
  apply rnd_phase2_ext. exact H2.
Qed.

(* all-pairs cover: depends only on the one permutation the shuffle returns *)
Lemma cover_deterministic : forall sh sh' n rank,
  sh (pairs n) = sh' (pairs n) ->
  pairs_cover sh n rank = pairs_cover sh' n rank /\ prefitting_cover sh n rank = prefitting_cover sh' n rank.
Proof. intros sh sh' n rank E. unfold prefitting_cover, pairs_cover. rewrite E. split; reflexivity. Qed.

(* Crystals: no random source at all; the result is a function of the six
   inputs (feature count, lattice count, rank, swap bound, the two score
   tables) *)
Lemma crystals_deterministic : forall c c',
  k_n c = k_n c' -> k_num c = k_num c' -> k_rank c = k_rank c' -> k_max_swaps c = k_max_swaps c' ->
  k_T c = k_T c' -> k_lap c = k_lap c' ->
  crystal_uses c = crystal_uses c' /\ crystal_lattices c = crystal_lattices c'.
Proof. intros [n num rank ms T lap] [n' num' rank' ms' T' lap']. cbn. intros; subst. split; reflexivity. Qed.

Open Scope Q_scope.

Lemma qround_ge_half x : x - (1#2) <= inject_Z (qround_half_even x).
Proof.
  unfold qround_half_even. pose proof (Qfloor_le x) as Hf. pose proof (Qlt_floor x) as Hl.
  rewrite inject_Z_plus in Hl. change (inject_Z 1) with 1 in Hl.
  destruct (Qcompare (x - inject_Z (Qfloor x)) (1#2)) eqn:Ec.
  - apply Qeq_alt in Ec. destruct (Z.even _); [lra|]. rewrite inject_Z_plus. change (inject_Z 1) with 1. lra.
  - apply Qlt_alt in Ec. lra.
  - rewrite inject_Z_plus. change (inject_Z 1) with 1. lra.
Qed.

Lemma inject_Z_half_le a b : inject_Z a <= inject_Z b + (1#2) -> (a <= b)%Z.
Proof.
  intros H. destruct (Z_le_gt_dec a b) as [|Hg]; [assumption|exfalso].
  assert (Hz : (b + 1 <= a)%Z) by lia. rewrite Zle_Qle, inject_Z_plus in Hz. change (inject_Z 1) with 1 in Hz. lra.
Qed.

Lemma zsum_zset_add i d l : (i < length l)%nat -> zsum (zset_add i d l) = (zsum l + d)%Z.
Proof. unfold zsum. revert i; induction l as [|x l IH]; intros [|i] H; cbn [length] in H; try lia;
  cbn [zset_add fold_right]; [lia|]. rewrite IH by lia. lia. Qed.

(* after a feature whose score is at least the average of the K + 1 scores
   left has taken its uses, what remains fits the K others *)
Lemma alloc_added_share num rem s rs K : (1 <= num)%nat -> (0 <= rem)%Z -> 0 < s -> s <= rs ->
  rs <= (inject_Z (Z.of_nat K) + 1) * s -> (rem <= Z.of_nat (S K) * (Z.of_nat num - 1))%Z ->
  (rem - alloc_added num rem s rs <= Z.of_nat K * (Z.of_nat num - 1))%Z.
Proof.
  intros Hnum HR Hs Hle Hrs Hrem. unfold alloc_added.
  set (R := inject_Z rem). set (x := R * s / rs). set (Kq := inject_Z (Z.of_nat K)) in *.
  assert (Hpos : 0 < rs) by lra.
  assert (HRq : 0 <= R) by (unfold R; change 0 with (inject_Z 0); rewrite <- Zle_Qle; lia).
  assert (HK : 0 <= Kq) by apply qofnat_nonneg.
  (* the feature's share is at least 1/(K+1): x * (K+1) >= R *)
  assert (Hshare : R <= x * (Kq + 1)).
  { unfold x, Qdiv. setoid_replace (R * s * / rs * (Kq + 1)) with ((R * (s * (Kq + 1))) / rs) by (unfold Qdiv; ring).
    apply Qle_shift_div_l; [exact Hpos|]. apply qmul_le_l; [exact HRq|]. lra. }
  pose proof (qround_ge_half x) as Hr2.
  destruct (Z.min_spec (qround_half_even x) (Z.of_nat num - 1)) as [[Hlt ->]|[Hge ->]]; [|lia].
  apply inject_Z_half_le. unfold Zminus. rewrite inject_Z_plus, inject_Z_opp, inject_Z_mult. fold R Kq.
  set (N1 := inject_Z (Z.of_nat num + - (1))).
  assert (HN1 : 0 <= N1) by (unfold N1; change 0 with (inject_Z 0); rewrite <- Zle_Qle; lia).
  assert (HRM : R <= (Kq + 1) * N1).
  { unfold R, Kq, N1. change 1 with (inject_Z 1). rewrite <- inject_Z_plus, <- inject_Z_mult, <- Zle_Qle. lia. }
  (* (R - x) * (K+1) <= R * K <= (K+1) * N1 * K *)
  assert (H1 : (R - x) * (Kq + 1) <= R * Kq) by lra.
  assert (H2 : R * Kq <= ((Kq + 1) * N1) * Kq)
    by (rewrite (Qmult_comm R Kq), (Qmult_comm ((Kq + 1) * N1) Kq); apply qmul_le_l; assumption).
  assert (H4 : R - x <= Kq * N1) by (apply Qmult_le_r with (z := Kq + 1); lra).
  lra.
Qed.

Section AllocTotal.
Variable num : nat.
Variable imp : list Q.
Let sc (f : nat) : Q := nth f imp 0.

(* order: importance descending (what np.argsort(-importance) returns) *)
Definition desc_sorted (order : list nat) : Prop := StronglySorted (fun a b => sc b <= sc a) order.

Lemma alloc_uses_total : forall order uses rem rs,
  (forall f, In f order -> 0 < sc f /\ (f < length uses)%nat) ->
  desc_sorted order ->
  rs == qsum (map sc order) ->
  (0 <= rem <= Z.of_nat (length order) * (Z.of_nat num - 1))%Z ->
  exists uses', alloc_uses num imp order uses rem rs = Some uses' /\
                zsum uses' = (zsum uses + rem)%Z /\ length uses' = length uses.
Proof.
  induction order as [|f r IH]; intros uses rem rs Hin Hsort HS HR; cbn [alloc_uses].
  - exists uses. cbn [length] in HR. split; [reflexivity|]. split; [lia|reflexivity].
  - cbn [map qsum] in HS. fold (sc f).
    destruct (Hin f (or_introl eq_refl)) as [Hf Hlen].
    assert (Hnum : (1 <= num)%nat) by (cbn [length] in HR; nia).
    assert (Hrest0 : 0 <= qsum (map sc r)).
    { apply qsum_map_nonneg. intros g Hg. destruct (Hin g (or_intror Hg)). lra. }
    destruct (Qeq_bool rs 0) eqn:Ez. { apply Qeq_bool_iff in Ez. lra. }
    inversion Hsort as [|? ? Hsr Hall]; subst.
    assert (Hrest1 : qsum (map sc r) <= inject_Z (Z.of_nat (length r)) * sc f).
    { rewrite <- qsum_const. apply qsum_map_le. rewrite Forall_forall in Hall. exact Hall. }
    fold (alloc_added num rem (sc f) rs).
    pose proof (alloc_added_bounds num rem (sc f) rs Hnum (proj1 HR) ltac:(lra) ltac:(lra) ltac:(lra)) as Ha.
    pose proof (alloc_added_share num rem (sc f) rs (length r) Hnum (proj1 HR) Hf ltac:(lra) ltac:(lra) (proj2 HR)) as Hnew.
    set (added := alloc_added num rem (sc f) rs) in *.
    destruct (IH (zset_add f added uses) (rem - added)%Z (Qred (rs - sc f))) as [uses' [E [Hs Hl]]].
    + intros g Hg. rewrite zset_add_length. apply Hin. right; exact Hg.
    + exact Hsr.
    + rewrite Qred_correct. lra.
    + lia.
    + exists uses'. split; [exact E|]. rewrite Hs, Hl, zset_add_length, zsum_zset_add by exact Hlen.
      split; [lia|reflexivity].
Qed.
End AllocTotal.

Lemma ins_desc_sorted imp x l : desc_sorted imp l -> desc_sorted imp (ins_desc imp x l).
Proof.
  unfold desc_sorted. induction l as [|y l IH]; intros Hs; cbn [ins_desc].
  - constructor; constructor.
  - inversion Hs as [|? ? Hsl Hall]; subst.
    destruct (Qle_bool (nth y imp 0) (nth x imp 0)) eqn:E.
    + apply Qle_bool_iff in E. constructor; [exact Hs|]. constructor; [exact E|].
      rewrite Forall_forall in *. intros z Hz. pose proof (Hall z Hz). lra.
    + assert (Hlt : nth x imp 0 < nth y imp 0).
      { destruct (Qlt_le_dec (nth x imp 0) (nth y imp 0)) as [|Hge]; [assumption|].
        apply Qle_bool_iff in Hge. congruence. }
      constructor; [apply IH; exact Hsl|].
      apply Forall_forall. intros z Hz. apply (Permutation_in _ (ins_desc_perm imp x l)) in Hz.
      destruct Hz as [<-|Hz]; [lra|]. rewrite Forall_forall in Hall. apply Hall; exact Hz.
Qed.

Lemma argsort_desc_sorted imp : desc_sorted imp (argsort_desc imp).
Proof. unfold argsort_desc. induction (seq 0 (length imp)) as [|x l IH]; cbn [fold_right].
  constructor. apply ins_desc_sorted; exact IH. Qed.

Lemma zsum_repeat1 n : zsum (repeat 1%Z n) = Z.of_nat n.
Proof. induction n as [|n IH]. reflexivity. cbn [repeat]. unfold zsum in *. cbn [fold_right]. rewrite IH. lia. Qed.

(* For strictly positive importance scores, enough slots and lattice_rank <=
   number of features, the allocation neither raises nor fails its assert:
   the uses sum to num_lattices * lattice_rank. *)
Lemma crystal_uses_total : forall c,
  (forall f, (f < k_n c)%nat -> 0 < nth f (importance (k_n c) (k_T c) (k_lap c)) 0) ->
  (k_n c <= k_num c * k_rank c)%nat -> (k_rank c <= k_n c)%nat ->
  exists uses, crystal_uses c = Some uses /\ zsum uses = Z.of_nat (k_num c * k_rank c) /\
               length uses = k_n c.
Proof.
  intros c Hpos Hslots Hrank. unfold crystal_uses.
  set (imp := importance (k_n c) (k_T c) (k_lap c)) in *.
  assert (Hlen : length imp = k_n c) by apply importance_length.
  destruct (alloc_uses_total (k_num c) imp (argsort_desc imp) (repeat 1%Z (k_n c))
             (Z.of_nat (k_num c * k_rank c) - Z.of_nat (k_n c))%Z (Qred (qsum imp))) as [uses [E [Hs Hl]]].
  - intros f Hf. apply (Permutation_in _ (argsort_desc_perm imp)) in Hf. apply in_seq in Hf.
    rewrite repeat_length. split; [apply Hpos|]; lia.
  - apply argsort_desc_sorted.
  - apply qsum_argsort.
  - rewrite (Permutation_length (argsort_desc_perm imp)), seq_length, Hlen.
    assert (k_num c * k_rank c <= k_num c * k_n c)%nat by (apply Nat.mul_le_mono_l; exact Hrank).
    nia.
  - rewrite E. rewrite zsum_repeat1 in Hs. rewrite repeat_length in Hl.
    exists uses. replace (zsum uses =? Z.of_nat (k_num c * k_rank c))%Z with true by (symmetry; apply Z.eqb_eq; lia).
    split; [reflexivity|]. split; [lia|exact Hl].
Qed.
Open Scope nat_scope.

Lemma flat_map_cond_length {A B} (q : A -> bool) (y : B) (F : A -> list B) us :
  length (flat_map (fun u => if q u then y :: F u else F u) us) = countp q us + length (flat_map F us).
Proof. induction us as [|u r IH]; cbn [flat_map]. reflexivity.
  rewrite countp_cons, !app_length, IH. destruct (q u); cbn [length b2n]; lia. Qed.

Lemma flat_map_nil_length {A B} (us : list A) : length (flat_map (fun _ => @nil B) us) = 0.
Proof. induction us; cbn; auto. Qed.

Lemma flat_map_filter_length (g : nat -> Z) us : forall fs,
  length (flat_map (fun u => filter (fun f => (Z.of_nat u <=? g f)%Z) fs) us) =
  list_sum (map (fun f => countp (fun u => (Z.of_nat u <=? g f)%Z) us) fs).
Proof.
  induction fs as [|f r IH]; cbn [map].
  - apply flat_map_nil_length.
  - rewrite (flat_map_ext _ (fun u => if (Z.of_nat u <=? g f)%Z then f :: filter (fun f0 => (Z.of_nat u <=? g f0)%Z) r
                                      else filter (fun f0 => (Z.of_nat u <=? g f0)%Z) r)) by (intros; reflexivity).
    rewrite flat_map_cond_length, IH. reflexivity.
Qed.

Lemma countp_le_seq k M : (0 <= k)%Z ->
  countp (fun u => (Z.of_nat u <=? k)%Z) (seq 1 M) = Z.to_nat (Z.min k (Z.of_nat M)).
Proof.
  intros Hk. induction M as [|M IH]. unfold countp; cbn [seq filter length]; lia.
  rewrite seq_S, countp_app, IH, countp_cons. unfold countp at 1. cbn [filter length].
  destruct (Z.leb_spec (Z.of_nat (1 + M)) k); cbn [b2n]; lia.
Qed.

Lemma list_sum_to_nat l : Forall (fun u => (0 <= u)%Z) l -> list_sum (map Z.to_nat l) = Z.to_nat (zsum l).
Proof. unfold zsum. induction 1 as [|x l Hx Hl IH]. reflexivity.
  cbn [map fold_right]. change (list_sum (Z.to_nat x :: map Z.to_nat l)) with (Z.to_nat x + list_sum (map Z.to_nat l)).
  rewrite IH. assert (0 <= fold_right Z.add 0 l)%Z by (clear IH; induction Hl; cbn [fold_right]; lia). lia. Qed.

Lemma add_list_length n uses : length uses = n -> Forall (fun u => (0 <= u)%Z) uses ->
  length (add_list n uses) = Z.to_nat (zsum uses).
Proof.
  intros Hn Hpos. unfold add_list. rewrite flat_map_filter_length.
  rewrite <- list_sum_to_nat by exact Hpos.
  transitivity (list_sum (map Z.to_nat (map (fun i => nth i uses 0%Z) (seq 0 (length uses)))));
    [|rewrite map_nth_seq; reflexivity].
  rewrite Hn, map_map.
  f_equal. apply map_ext_in. intros f Hf. apply in_seq in Hf.
  assert (Hin : In (nth f uses 0%Z) uses) by (apply nth_In; lia).
  pose proof (zmax_list_ge uses _ Hin). rewrite Forall_forall in Hpos. pose proof (Hpos _ Hin).
  rewrite countp_le_seq by assumption. lia.
Qed.

(* strictly positive importance, non-negative torsions, enough slots,
   lattice_rank <= number of features: _get_final_crystal_lattices returns *)
Lemma crystal_lattices_total : forall c,
  Forall (Forall (fun x => (0 <= x)%Q)) (k_T c) ->
  (forall f, f < k_n c -> (0 < nth f (importance (k_n c) (k_T c) (k_lap c)) 0)%Q) ->
  k_n c <= k_num c * k_rank c -> k_rank c <= k_n c ->
  exists uses lats, crystal_uses c = Some uses /\ zsum uses = Z.of_nat (k_num c * k_rank c) /\
                    Forall (fun u => (1 <= u)%Z) uses /\ length uses = k_n c /\ crystal_lattices c = Some lats.
Proof.
  intros c HT Hpos Hslots Hrank.
  destruct (crystal_uses_total c Hpos Hslots Hrank) as [uses [Eu [Hs Hl]]].
  exists uses. unfold crystal_lattices. rewrite Eu.
  assert (Hge1 : Forall (fun u => (1 <= u)%Z) uses).
  { destruct (Nat.eq_dec (k_num c) 0) as [Z0|NZ].
    - rewrite Z0 in Hslots. cbn in Hslots. assert (length uses = 0) by lia. destruct uses; [constructor|discriminate].
    - apply (crystal_uses_ge1 c uses); [|lia|exact Hslots|exact Eu].
      intros f. destruct (Nat.lt_ge_cases f (k_n c)) as [Hf|Hf]; [apply Qlt_le_weak, Hpos, Hf|].
      rewrite nth_overflow; [apply Qle_refl|rewrite importance_length; exact Hf]. }
  assert (Hge0 : Forall (fun u => (0 <= u)%Z) uses) by (eapply Forall_impl; [|exact Hge1]; cbn; intros; lia).
  pose proof (add_list_length (k_n c) uses Hl Hge0) as Hal. rewrite Hs, Nat2Z.id in Hal.
  pose proof (crystals_from_uses_spec c HT uses) as S.
  destruct (crystals_from_uses c uses) as [lats|]; [|contradiction].
  exists lats. split; [reflexivity|]. split; [exact Hs|]. split; [exact Hge1|]. split; [exact Hl|reflexivity].
Qed.

(* a sufficient condition on the inputs: non-negative torsions and strictly
   positive laplacians give strictly positive importance *)
Lemma importance_pos n T lap : Forall (Forall (fun x => (0 <= x)%Q)) T ->
  (forall f, f < n -> (0 < nth f lap 0)%Q) ->
  forall f, f < n -> (0 < nth f (importance n T lap) 0)%Q.
Proof. intros HT HL f Hf. pose proof (importance_ge n T lap f HT Hf). pose proof (HL f Hf). lra. Qed.

(* Crystals without the "returned" hypothesis: strictly positive importance
   (which excludes D13), non-negative torsions, enough slots and
   lattice_rank <= number of features: the function returns num_lattices
   lattices of exactly lattice_rank features and every feature is used. *)
Lemma crystals_positive_closed : forall c,
  Forall (Forall (fun x => (0 <= x)%Q)) (k_T c) ->
  (forall f, f < k_n c -> (0 < nth f (importance (k_n c) (k_T c) (k_lap c)) 0)%Q) ->
  k_n c <= k_num c * k_rank c -> k_rank c <= k_n c ->
  exists lats, crystal_lattices c = Some lats /\ length lats = k_num c /\
    (forall l, In l lats -> length l = k_rank c) /\
    (forall f, f < k_n c -> exists l, In l lats /\ In f l).
Proof.
  intros c HT Hpos Hslots Hrank.
  destruct (crystal_lattices_total c HT Hpos Hslots Hrank) as [uses [lats [Eu [Hs [Hge1 [Hl El]]]]]].
  exists lats. split; [exact El|].
  destruct (crystals_closed c lats HT El) as [uses' [Eu' [_ [H1 [H2 H3]]]]].
  assert (uses' = uses) by congruence. subst uses'.
  split; [exact H1|]. split; [exact H2|]. intros f Hf. apply H3; [exact Hf|].
  rewrite Forall_forall in Hge1. apply Hge1, nth_In. lia.
Qed.

(* the hypotheses are satisfiable, and the D13 witness violates exactly the
   positivity hypothesis *)
Lemma crystals_positive_example :
  let c := mkcr 3 2 2 1000 [[0; 1; 1#2]; [1; 0; 1#4]; [1#2; 1#4; 0]]%Q [1#4; 1#8; 1#8]%Q in
  Forall (Forall (fun x => (0 <= x)%Q)) (k_T c) /\
  (forall f, f < k_n c -> (0 < nth f (importance (k_n c) (k_T c) (k_lap c)) 0)%Q) /\
  k_n c <= k_num c * k_rank c /\ k_rank c <= k_n c.
Proof. cbv zeta. split; [|split; [|split]].
  - repeat constructor; discriminate.
  - intros f Hf. cbn [k_n] in Hf. destruct f as [|[|[|f]]]; [vm_compute; reflexivity..|lia].
  - cbn; lia.
  - cbn; lia. Qed.
