(* C13: the cyclic (is_cyclic=True) PWL Hessian / wrinkle regularizers on keypoint
   outputs that are linear / quadratic in the keypoint index.

   "Hessian vanishes on outputs linear in the index" and "wrinkle vanishes on
   outputs quadratic in the index" hold for NON-cyclic calibrators only
   (Proofs/Regularizers.v: pwl_hessian_zero_linear, pwl_wrinkle_zero_quadratic).
   With is_cyclic the documented sums have one difference per keypoint, the
   indices wrapping around; on a ramp the interior differences vanish and the
   two (Hessian) / three (wrinkle) wrap-around differences remain, so the
   regularizer is the l1/l2 norm of these terms alone, summed over the units. *)
From TFL Require Import Model.Regularizers Proofs.Regularizers.
Open Scope Q_scope.

Lemma idxQ_S n : idxQ (S n) == idxQ n + 1.
Proof. replace (S n) with (n + 1)%nat by lia. rewrite idxQ_plus. reflexivity. Qed.
Lemma idxQ_0 : idxQ 0 == 0. Proof. reflexivity. Qed.
Lemma idxQ_1 : idxQ 1 == 1. Proof. reflexivity. Qed.
Lemma idxQ_2 : idxQ 2 == 2. Proof. reflexivity. Qed.

(* norms of a list of differences whose first m entries vanish *)
Section Tail.
Variable g : Q -> Q.
Hypothesis g_proper : forall x y, x == y -> g x == g y.
Hypothesis g_zero : g 0 == 0.

Lemma head_zero (d : nat -> Q) m : (forall i, (i < m)%nat -> d i == 0) -> qsum (map (fun i => g (d i)) (seq 0 m)) == 0.
Proof. intros H. apply qsum_map_zero. intros i Hi. apply in_seq in Hi. rewrite (g_proper _ 0). exact g_zero. apply H. lia. Qed.

Lemma tail2 {d : nat -> Q} m {t1 t2} : (forall i, (i < m)%nat -> d i == 0) -> d m == t1 -> d (S m) == t2 ->
  qsum (map g (map d (seq 0 (S (S m))))) == qsum (map g [t1; t2]).
Proof. intros H0 H1 H2. rewrite map_map, !qsum_seq_S, (head_zero d m H0). cbn [map qsum].
  rewrite (g_proper _ _ H1), (g_proper _ _ H2). lra. Qed.

Lemma tail3 {d : nat -> Q} m {t1 t2 t3} : (forall i, (i < m)%nat -> d i == 0) ->
  d m == t1 -> d (S m) == t2 -> d (S (S m)) == t3 ->
  qsum (map g (map d (seq 0 (S (S (S m)))))) == qsum (map g [t1; t2; t3]).
Proof. intros H0 H1 H2 H3. rewrite map_map, !qsum_seq_S, (head_zero d m H0). cbn [map qsum].
  rewrite (g_proper _ _ H1), (g_proper _ _ H2), (g_proper _ _ H3). lra. Qed.
End Tail.

Section OneUnit.
Variable y : list Q.

(* second differences of a cyclic linear ramp of k = m + 2 keypoints *)
Lemma second_diff_cyclic_linear a b m : length y = S (S m) ->
  (forall i, (i < S (S m))%nat -> nth i y 0 == a + b * idxQ i) ->
  (forall i, (i < m)%nat -> second_diff true y i == 0) /\
  second_diff true y m == idxQ (S (S m)) * b /\
  second_diff true y (S m) == - (idxQ (S (S m)) * b).
Proof.
  intros Hl H.
  assert (Hq : forall i, (i < S (S m))%nat -> nth i y 0 == a + b * idxQ i + 0 * (idxQ i * idxQ i))
    by (intros i Hi; rewrite (H i Hi); ring).
  assert (Rr := ramp_row true a b 0 Hl Hq). assert (Rw := ramp_wrap a b 0 Hl Hq).
  assert (E1 : idxQ (S m) == idxQ m + 1) by apply idxQ_S.
  assert (EK : idxQ (S (S m)) == idxQ m + 2) by (rewrite idxQ_S, E1; ring).
  rewrite EK. unfold second_diff. split; [|split].
  - intros i Hi.
    assert (F1 : idxQ (i + 1) == idxQ i + 1) by apply idxQ_plus.
    assert (F2 : idxQ (i + 2) == idxQ i + 2) by apply idxQ_plus.
    rewrite (Rr i i _ (Qeq_refl _)), (Rr (i + 1)%nat _ _ F1), (Rr (i + 2)%nat _ _ F2) by lia. ring.
  - rewrite (Rr m m _ (Qeq_refl _)), (Rr (m + 1)%nat _ _ E1), (Rw (m + 2)%nat _ _ idxQ_0) by lia. ring.
  - rewrite (Rr (S m) _ _ E1), (Rw (S m + 1)%nat _ _ idxQ_0), (Rw (S m + 2)%nat _ _ idxQ_1) by lia. ring.
Qed.

(* third differences of a cyclic quadratic ramp of k = m + 3 keypoints *)
Lemma third_diff_cyclic_quadratic a b c m : length y = S (S (S m)) ->
  (forall i, (i < S (S (S m)))%nat -> nth i y 0 == a + b * idxQ i + c * (idxQ i * idxQ i)) ->
  let K := idxQ (S (S (S m))) in
  (forall i, (i < m)%nat -> third_diff true y i == 0) /\
  third_diff true y m == - (K * b + K * K * c) /\
  third_diff true y (S m) == 2 * K * b + (2 * K * K - 2 * K) * c /\
  third_diff true y (S (S m)) == - (K * b) + (2 * K - K * K) * c.
Proof.
  intros Hl H K. assert (Rr := ramp_row true a b c Hl H). assert (Rw := ramp_wrap a b c Hl H).
  assert (E1 : idxQ (S m) == idxQ m + 1) by apply idxQ_S.
  assert (E2 : idxQ (S (S m)) == idxQ m + 2) by (rewrite idxQ_S, E1; ring).
  assert (EK : K == idxQ m + 3) by (unfold K; rewrite idxQ_S, E2; ring).
  rewrite EK. unfold third_diff. split; [|split; [|split]].
  - intros i Hi.
    assert (F1 : idxQ (i + 1) == idxQ i + 1) by apply idxQ_plus.
    assert (F2 : idxQ (i + 2) == idxQ i + 2) by apply idxQ_plus.
    assert (F3 : idxQ (i + 3) == idxQ i + 3) by apply idxQ_plus.
    rewrite (Rr i i _ (Qeq_refl _)), (Rr (i + 1)%nat _ _ F1), (Rr (i + 2)%nat _ _ F2), (Rr (i + 3)%nat _ _ F3) by lia. ring.
  - rewrite (Rr m m _ (Qeq_refl _)), (Rr (m + 1)%nat _ _ E1), (Rr (m + 2)%nat _ _ E2), (Rw (m + 3)%nat _ _ idxQ_0) by lia. ring.
  - rewrite (Rr (S m) _ _ E1), (Rr (S m + 1)%nat _ _ E2), (Rw (S m + 2)%nat _ _ idxQ_0), (Rw (S m + 3)%nat _ _ idxQ_1) by lia. ring.
  - rewrite (Rr (S (S m)) _ _ E2), (Rw (S (S m) + 1)%nat _ _ idxQ_0), (Rw (S (S m) + 2)%nat _ _ idxQ_1), (Rw (S (S m) + 3)%nat _ _ idxQ_2) by lia.
    ring.
Qed.
End OneUnit.

(* the wrap-around terms *)
Definition hessian_wrap_terms (k : nat) (b : Q) : list Q := [idxQ k * b; - (idxQ k * b)].
Definition wrinkle_wrap_terms (k : nat) (b c : Q) : list Q :=
  let K := idxQ k in [- (K * b + K * K * c); 2 * K * b + (2 * K * K - 2 * K) * c; - (K * b) + (2 * K - K * K) * c].

Section Cyclic.
Variables (l1 l2 : Q) (units : nat) (x : list row).
Hypothesis Hwf : wf units x.

Theorem pwl_hessian_cyclic_linear (a b : nat -> Q) : (2 <= length x)%nat ->
  (forall u i, (u < units)%nat -> (i < length x)%nat -> nth i (outputs x u) 0 == a u + b u * idxQ i) ->
  pwl_hessian l1 l2 true units x ==
  qsum (map (fun u => doc_norms l1 l2 (hessian_wrap_terms (length x) (b u))) (seq 0 units)).
Proof.
  intros Hk Hl. rewrite (pwl_hessian_doc _ _ _ _ _ Hwf (fun _ => Hk)).
  unfold doc_pwl_hessian, doc_pwl. apply qsum_map_ext. intros u Hu. apply in_seq in Hu.
  unfold doc_pwl_unit, n_terms. rewrite kp_column_length. set (y := keypoint_outputs (column u x)).
  destruct (length x) as [|[|m]] eqn:Ek; try lia.
  destruct (second_diff_cyclic_linear y (a u) (b u) m) as (D0 & D1 & D2).
  { unfold y. rewrite kp_column_length. exact Ek. }
  { intros i Hi. apply Hl; lia. }
  unfold doc_norms, hessian_wrap_terms.
  rewrite (tail2 qabs qabs_proper qabs_0 m D0 D1 D2), (tail2 sq sq_proper sq_0 m D0 D1 D2). reflexivity.
Qed.

Theorem pwl_wrinkle_cyclic_quadratic (a b c : nat -> Q) : (3 <= length x)%nat ->
  (forall u i, (u < units)%nat -> (i < length x)%nat ->
     nth i (outputs x u) 0 == a u + b u * idxQ i + c u * (idxQ i * idxQ i)) ->
  pwl_wrinkle l1 l2 true units x ==
  qsum (map (fun u => doc_norms l1 l2 (wrinkle_wrap_terms (length x) (b u) (c u))) (seq 0 units)).
Proof.
  intros Hk Hq. rewrite pwl_wrinkle_doc by assumption.
  unfold doc_pwl_wrinkle, doc_pwl. apply qsum_map_ext. intros u Hu. apply in_seq in Hu.
  unfold doc_pwl_unit, n_terms. rewrite kp_column_length. set (y := keypoint_outputs (column u x)).
  destruct (length x) as [|[|[|m]]] eqn:Ek; try lia.
  destruct (third_diff_cyclic_quadratic y (a u) (b u) (c u) m) as (D0 & D1 & D2 & D3).
  { unfold y. rewrite kp_column_length. exact Ek. }
  { intros i Hi. apply Hq; lia. }
  unfold doc_norms, wrinkle_wrap_terms. cbv zeta.
  rewrite (tail3 qabs qabs_proper qabs_0 m D0 D1 D2 D3), (tail3 sq sq_proper sq_0 m D0 D1 D2 D3). reflexivity.
Qed.
End Cyclic.

(* the zero clauses are false for cyclic calibrators: concrete witnesses *)

(* heights 2, 2, 2 (outputs 1, 3, 5, 7: linear), 1 unit, l1 = l2 = 1: non-cyclic
   Hessian 0; cyclic Hessian = |4*2| + |-(4*2)| + 2 * 64 = 144 *)
Lemma cyclic_hessian_linear_witness :
  let x := [[1]; [2]; [2]; [2]] in
  wf 1 x /\
  (forall u i, (u < 1)%nat -> (i < length x)%nat -> nth i (outputs x u) 0 == 1 + 2 * idxQ i) /\
  pwl_hessian 1 1 false 1 x == 0 /\ pwl_hessian 1 1 true 1 x == 144 /\
  qsum (map (fun u => doc_norms 1 1 (hessian_wrap_terms (length x) 2)) (seq 0 1)) == 144.
Proof. cbv zeta. split; [|split; [|split; [|split]]].
  - intros r [<-|[<-|[<-|[<-|[]]]]]; reflexivity.
  - intros u i Hu Hi. cbn [length] in Hi. assert (u = 0%nat) by lia. subst u.
    destruct i as [|[|[|[|i]]]]; try lia; vm_compute; reflexivity.
  - vm_compute. reflexivity.
  - vm_compute. reflexivity.
  - vm_compute. reflexivity. Qed.

(* outputs 1, 2, 5, 10, 17 (y_i = 1 + i^2: quadratic), 1 unit, l1 = 1, l2 = 0:
   non-cyclic wrinkle 0; cyclic wrinkle = |-25| + |40| + |-15| = 80 *)
Lemma cyclic_wrinkle_quadratic_witness :
  let x := [[1]; [1]; [3]; [5]; [7]] in
  wf 1 x /\
  (forall u i, (u < 1)%nat -> (i < length x)%nat -> nth i (outputs x u) 0 == 1 + 0 * idxQ i + 1 * (idxQ i * idxQ i)) /\
  pwl_wrinkle 1 0 false 1 x == 0 /\ pwl_wrinkle 1 0 true 1 x == 80 /\
  qsum (map (fun u => doc_norms 1 0 (wrinkle_wrap_terms (length x) 0 1)) (seq 0 1)) == 80.
Proof. cbv zeta. split; [|split; [|split; [|split]]].
  - intros r [<-|[<-|[<-|[<-|[<-|[]]]]]]; reflexivity.
  - intros u i Hu Hi. cbn [length] in Hi. assert (u = 0%nat) by lia. subst u.
    destruct i as [|[|[|[|[|i]]]]]; try lia; vm_compute; reflexivity.
  - vm_compute. reflexivity.
  - vm_compute. reflexivity.
  - vm_compute. reflexivity. Qed.
