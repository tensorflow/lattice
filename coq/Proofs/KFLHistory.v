(* C07, histories WITH parameter updates.

   Proofs/KFL.v treats histories made of constraint applications only
   (run: StepK / StepS / StepF).  The property statement also speaks of
   "signs that change between updates" and of "all orders in which kernel and
   scale are updated/constrained".  Here a history is a list of EVENTS: a
   constraint application, or an update (variable.assign) of the scale, the
   kernel or the bias to an arbitrary new value of the same shape.  Three
   freshness flags are computed from the history:

     km_fresh  a kernel constraint (K or F) was applied after the LAST update of
               the kernel AND after the last update of the scale
     kb_fresh  a kernel constraint was applied after the last update of the kernel
               (scale updates in between are allowed)
     s_fresh   a scale constraint (S or F) was applied after the last update of
               the scale

   Theorems: km_fresh -> monotone; kb_fresh /\ s_fresh -> bounded (the bound
   part of the kernel constraint does not depend on the scale, so a scale whose
   signs changed after the kernel constraint only needs the scale constraint);
   and a witness that s_fresh /\ kb_fresh alone do NOT give monotonicity: the
   interleaving  K (against the old signs) ; scale update flipping a sign ; S
   leaves a decreasing output. *)
From TFL Require Import Model.KFL Proofs.KFL.
Open Scope Q_scope.

Inductive event :=
| EStep (st : step)                 (* kernel.constraint / scale.constraint / finalize_constraints() *)
| ESetScale (s : list (list Q))     (* scale.assign(new value): e.g. an optimizer step *)
| ESetKernel (k : kernel)           (* kernel.assign(new value) *)
| ESetBias (b : list Q).            (* bias.assign(new value) *)

Definition apply_event (root : nat -> Q -> Q) (c : config) (p : params) (e : event) : params :=
  match e with
  | EStep st => apply_step root c p st
  | ESetScale s => mkPar (p_kern p) s (p_bias p)
  | ESetKernel k => mkPar k (p_scale p) (p_bias p)
  | ESetBias b => mkPar (p_kern p) (p_scale p) b
  end.
Definition run_events (root : nat -> Q -> Q) (c : config) (es : list event) (p : params) : params :=
  fold_left (apply_event root c) es p.

(* every update assigns a value of the variable's shape (what assign enforces):
   after it the parameters are still [shaped] *)
Fixpoint events_ok (root : nat -> Q -> Q) (c : config) (dims : nat) (es : list event) (p : params) : Prop :=
  match es with
  | [] => True
  | e :: r => (match e with EStep _ => True | _ => shaped c dims (apply_event root c p e) end) /\
              events_ok root c dims r (apply_event root c p e)
  end.

(* flags: [indep] = the established kernel fact does not depend on the scale *)
Definition kflag (indep : bool) (a : bool) (e : event) : bool :=
  match e with
  | EStep StepS => a
  | EStep _ => true
  | ESetKernel _ => false
  | ESetScale _ => if indep then a else false
  | ESetBias _ => a
  end.
Definition sflag (b : bool) (e : event) : bool :=
  match e with
  | EStep StepK => b
  | EStep _ => true
  | ESetScale _ => false
  | _ => b
  end.
Definition km_fresh (es : list event) : bool := fold_left (kflag false) es false.
Definition kb_fresh (es : list event) : bool := fold_left (kflag true) es false.
Definition s_fresh (es : list event) : bool := fold_left sflag es false.

(* a history of constraint applications only is a special case *)
Lemma run_events_steps root c steps p : run_events root c (map EStep steps) p = run root c steps p.
Proof. revert p. induction steps as [|st r IH]; intros p. reflexivity. cbn. apply IH. Qed.
Lemma kflag_steps indep : forall steps a, fold_left (kflag indep) (map EStep steps) a = a || hasK steps.
Proof. induction steps as [|st r IH]; intros a; cbn [map fold_left hasK existsb]. rewrite orb_false_r; reflexivity.
  rewrite IH. destruct st; cbn [kflag]; unfold hasK; destruct a; reflexivity. Qed.
Lemma sflag_steps : forall steps b, fold_left sflag (map EStep steps) b = b || hasS steps.
Proof. induction steps as [|st r IH]; intros b; cbn [map fold_left hasS existsb]. rewrite orb_false_r; reflexivity.
  rewrite IH. destruct st; cbn [sflag]; unfold hasS; destruct b; reflexivity. Qed.

(* re-pairing a Forall2 after one side was replaced: what R says about the side that stays is kept *)
Lemma Forall2_keep_left {A B B'} (R : A -> B -> Prop) (T U : A -> B' -> Prop) l1 l2 l2' :
  Forall2 R l1 l2 -> Forall2 T l1 l2' -> (forall a b b', R a b -> T a b' -> U a b') -> Forall2 U l1 l2'.
Proof. intros H. revert l2'. induction H; intros l2' HT HU; inversion HT; subst; constructor; eauto. Qed.
Lemma Forall2_keep_right {A A' B} (R : A -> B -> Prop) (T U : A' -> B -> Prop) l1 l1' l2 :
  Forall2 R l1 l2 -> Forall2 T l1' l2 -> (forall a a' b, R a b -> T a' b -> U a' b) -> Forall2 U l1' l2.
Proof. intros H. revert l1'. induction H; intros l1' HT HU; inversion HT; subst; constructor; eauto. Qed.

Section Hist.
Variable root : nat -> Q -> Q.
Variable c : config.
Variable dims : nat.
Variable PK : Q -> term -> Prop.
Variable PS : Q -> Prop.
Variable indep : bool.
Hypothesis HK : forall s vs, tshape (c_size c) dims vs ->
  tshape (c_size c) dims (Ktg root c s vs) /\ PK s (Ktg root c s vs).
Hypothesis HKS : forall s vs, PK s vs -> PK (S1 c s) vs.
Hypothesis HS : forall s, PS (S1 c s).
Hypothesis Hindep : indep = true -> forall s s' vs, PK s vs -> PK s' vs.

Notation Inv := (inv c dims PK PS).

Lemma inv_shaped a b p : Inv a b p -> shaped c dims p.
Proof. intros H. eapply Forall2_impl2. exact H. intros s vs (H1 & _). exact H1. Qed.

(* the kernel is replaced: what is known about the scale stays *)
Lemma inv_set_kernel a b p k : Inv a b p -> shaped c dims (mkPar k (p_scale p) (p_bias p)) ->
  Inv false b (mkPar k (p_scale p) (p_bias p)).
Proof.
  intros H Hsh. unfold inv, shaped in *. cbn [p_kern p_scale] in *.
  eapply Forall2_keep_left. exact H. exact Hsh. cbn beta. intros su ku ku' Hu Hu'.
  eapply Forall2_keep_left. exact Hu. exact Hu'. cbn beta. intros s vs vs' (_ & _ & Hs) Ht.
  split; [exact Ht|split; [intros; discriminate|exact Hs]].
Qed.

(* the scale is replaced: a scale-independent kernel fact stays *)
Lemma inv_set_scale a b p s' : Inv a b p -> shaped c dims (mkPar (p_kern p) s' (p_bias p)) ->
  Inv (if indep then a else false) false (mkPar (p_kern p) s' (p_bias p)).
Proof.
  intros H Hsh. unfold inv, shaped in *. cbn [p_kern p_scale] in *.
  eapply Forall2_keep_right. exact H. exact Hsh. cbn beta. intros su su' ku Hu Hu'.
  eapply Forall2_keep_right. exact Hu. exact Hu'. cbn beta. intros s s2 vs (_ & Hk & _) Ht.
  split; [exact Ht|split; [|intros; discriminate]].
  destruct indep; [|intros; discriminate]. intros Ha. apply (Hindep eq_refl s), Hk, Ha.
Qed.

Lemma inv_step a b p st : Inv a b p ->
  Inv (kflag indep a (EStep st)) (sflag b (EStep st)) (apply_step root c p st).
Proof.
  intros H. rewrite apply_step_ops. destruct st; cbn [kflag sflag].
  - apply (inv_opK root c dims PK PS HK a b p H).
  - apply (inv_opS c dims PK PS HKS HS a b p H).
  - apply (inv_opS c dims PK PS HKS HS true b). apply (inv_opK root c dims PK PS HK a b p H).
Qed.

Lemma run_events_inv : forall es a b p, Inv a b p -> events_ok root c dims es p ->
  Inv (fold_left (kflag indep) es a) (fold_left sflag es b) (run_events root c es p).
Proof.
  induction es as [|e r IH]; intros a b p H Hok. exact H.
  cbn [fold_left run_events]. fold (run_events root c r (apply_event root c p e)).
  destruct Hok as [He Hr]. apply IH; [|exact Hr].
  destruct e as [st|s'|k|bb]; cbn [apply_event] in *.
  - apply inv_step, H.
  - cbn [kflag sflag]. apply (inv_set_scale a b); assumption.
  - cbn [kflag sflag]. apply (inv_set_kernel a b); assumption.
  - exact H.
Qed.

Lemma run_events_establishes es p : shaped c dims p -> events_ok root c dims es p ->
  Inv (fold_left (kflag indep) es false) (fold_left sflag es false) (run_events root c es p).
Proof.
  intros Hsh Hok. apply run_events_inv; [|exact Hok]. apply shaped_inv, Hsh.
Qed.
End Hist.

Section Main.
Variable root : nat -> Q -> Q.
Hypothesis Hroot : root_ok root.

Lemma events_bias_last c es p bb :
  p_bias (run_events root c (es ++ [ESetBias bb]) p) = bb.
Proof. unfold run_events. rewrite fold_left_app. reflexivity. Qed.

(* the bias is only changed by bias updates *)
Fixpoint no_bias_update (es : list event) : bool :=
  match es with [] => true | ESetBias _ :: _ => false | _ :: r => no_bias_update r end.
Lemma run_events_bias c : forall es p, no_bias_update es = true -> p_bias (run_events root c es p) = p_bias p.
Proof. induction es as [|e r IH]; intros p H. reflexivity.
  cbn [run_events fold_left]. fold (run_events root c r (apply_event root c p e)).
  destruct e as [st| | |]; cbn [no_bias_update] in H; try discriminate; rewrite (IH _ H); [destruct st|..]; reflexivity. Qed.

(* monotone: a kernel constraint after the last update of kernel or scale *)
Theorem kfl_monotone_history c dims p es ms u xs ys :
  cfg_ok c dims -> shaped c dims p -> events_ok root c dims es p -> km_fresh es = true ->
  canon_monos (c_monos c) = Some ms ->
  coords_le ms xs ys ->
  c_clip c = true \/ (in_range (c_size c) xs /\ in_range (c_size c) ys) ->
  unit_out c (run_events root c es p) u xs <= unit_out c (run_events root c es p) u ys.
Proof.
  intros Hc Hsh Hok HK. pose proof Hc as (_ & _ & Hb & _).
  pose proof (run_events_establishes root c dims (kgood c) (sgood c) false
                (good_HK root Hroot c dims Hc) (fun s vs => kgood_scale c s vs Hb)
                (fun s => sgood_finalize c s Hb) ltac:(intros; discriminate) es p Hsh Hok) as Hinv.
  fold (km_fresh es) in Hinv. rewrite HK in Hinv.
  apply (units_monotone c dims); [exact Hc|].
  eapply Forall2_impl2. exact Hinv. intros s vs (H1 & H2 & _). auto.
Qed.

(* bounded: a kernel constraint after the last KERNEL update, a scale constraint
   after the last SCALE update, the bias at its fixed value when evaluating *)
Theorem kfl_bounded_history c dims p es u xs :
  cfg_ok c dims -> shaped c dims p -> events_ok root c dims es p ->
  kb_fresh es = true -> s_fresh es = true ->
  (u < length (p_scale (run_events root c es p)))%nat ->
  nth u (p_bias (run_events root c es p)) 0 == bias_init1 (c_min c) (c_max c) ->
  length xs = dims -> c_clip c = true \/ in_range (c_size c) xs ->
  (forall lo, c_min c = Some lo -> lo <= unit_out c (run_events root c es p) u xs) /\
  (forall hi, c_max c = Some hi -> unit_out c (run_events root c es p) u xs <= hi).
Proof.
  intros Hc Hsh Hok HK HS _. pose proof Hc as (_ & _ & Hb & _).
  assert (HKb : forall s vs, tshape (c_size c) dims vs ->
            tshape (c_size c) dims (Ktg root c s vs) /\ kbnd c (Ktg root c s vs)).
  { intros s vs Ht. destruct (good_HK root Hroot c dims Hc s vs Ht) as (G1 & _ & G2). split; assumption. }
  pose proof (run_events_establishes root c dims (fun _ => kbnd c) (sgood c) true
                HKb (fun _ vs H => H) (fun s => sgood_finalize c s Hb) (fun _ _ _ vs H => H) es p Hsh Hok) as Hinv.
  fold (kb_fresh es) in Hinv. fold (s_fresh es) in Hinv. rewrite HK, HS in Hinv.
  apply (units_bounded c dims); [exact Hc|].
  eapply Forall2_impl2. exact Hinv. intros s vs (H1 & H2 & H3). auto.
Qed.
End Main.


(* lattice_sizes=2, one increasing input, bounds [0,1], clip on; kernel (0,1),
   scale +1, bias 1/2 (the fixed value). *)
Definition stale_cfg : config := mkCfg 2 (Some [true]) (Some 0) (Some 1) true.
Definition stale_par : params := mkPar [[ [[0; 1]] ]] [[ 1 ]] [1#2].
Definition stale_events : list event := [EStep StepK; ESetScale [[ -1 ]]; EStep StepS].
Lemma stale_cfg_ok : cfg_ok stale_cfg 1.
Proof. apply cfg_ok_one, bounds_ok_two. lra. Qed.
Lemma stale_shaped : shaped stale_cfg 1 stale_par.
Proof. repeat constructor. Qed.

(* The kernel was constrained against scale +1; the scale is then updated to -1
   (sign change) and the scale constraint applied.  Both bounds flags hold, the
   output stays within [0,1] (kfl_bounded_history), but it is DECREASING in the
   input declared increasing: f(0) = 1/2 > f(1) = 0. *)
Lemma stale_kernel_constraint_witness : exists root c dims p es ms u xs ys,
  root_ok root /\ cfg_ok c dims /\ shaped c dims p /\ events_ok root c dims es p /\
  kb_fresh es = true /\ s_fresh es = true /\ km_fresh es = false /\
  canon_monos (c_monos c) = Some ms /\ coords_le ms xs ys /\
  in_range (c_size c) xs /\ in_range (c_size c) ys /\
  unit_out c (run_events root c es p) u ys < unit_out c (run_events root c es p) u xs.
Proof.
  exists (fun _ x => x), stale_cfg, 1%nat, stale_par, stale_events, [true], 0%nat, [0], [1].
  split; [exact root_ok_id|split; [exact stale_cfg_ok|split; [exact stale_shaped|]]].
  split. { cbn. split; [exact I|split; [|split; exact I]]. repeat constructor. }
  split; [reflexivity|split; [reflexivity|split; [reflexivity|split; [reflexivity|]]]].
  split. { cbn. split; [lra|exact I]. }
  split. { apply in_range2_one; lra. }
  split. { apply in_range2_one; lra. }
  vm_compute. reflexivity.
Qed.

(* With the kernel constraint applied once more after the sign change the
   history is km_fresh and kfl_monotone_history applies. *)
Lemma stale_repaired : km_fresh (stale_events ++ [EStep StepK]) = true /\
  unit_out stale_cfg (run_events (fun _ x => x) stale_cfg (stale_events ++ [EStep StepK]) stale_par) 0 [0] <=
  unit_out stale_cfg (run_events (fun _ x => x) stale_cfg (stale_events ++ [EStep StepK]) stale_par) 0 [1].
Proof. split. reflexivity. vm_compute. discriminate. Qed.

(* The bias hypothesis of the bounds theorem is needed: both constraints
   applied, then the bias of the bounded layer assigned away from its fixed
   value -> the output leaves [0,1]. *)
Lemma moved_bias_witness : exists root c dims p es u xs hi,
  root_ok root /\ cfg_ok c dims /\ shaped c dims p /\ events_ok root c dims es p /\
  kb_fresh es = true /\ s_fresh es = true /\ in_range (c_size c) xs /\ length xs = dims /\
  c_max c = Some hi /\ hi < unit_out c (run_events root c es p) u xs.
Proof.
  exists (fun _ x => x), stale_cfg, 1%nat, stale_par, [EStep StepF; ESetBias [1]], 0%nat, [1], 1.
  split; [exact root_ok_id|split; [exact stale_cfg_ok|split; [exact stale_shaped|]]].
  split. { cbn. split; [exact I|split; [|exact I]]. repeat constructor. }
  split; [reflexivity|split; [reflexivity|]].
  split. { apply in_range2_one; lra. }
  split; [reflexivity|split; [reflexivity|]].
  vm_compute. reflexivity.
Qed.

(* the hypotheses of the two history theorems are jointly satisfiable with a
   history that contains updates of all three variables *)
Lemma history_hypotheses_witness : exists root c dims p es ms xs ys,
  root_ok root /\ cfg_ok c dims /\ shaped c dims p /\ events_ok root c dims es p /\
  km_fresh es = true /\ kb_fresh es = true /\ s_fresh es = true /\
  canon_monos (c_monos c) = Some ms /\ coords_le ms xs ys /\
  in_range (c_size c) xs /\ in_range (c_size c) ys /\ length xs = dims /\
  (0 < length (p_scale (run_events root c es p)))%nat /\
  nth 0 (p_bias (run_events root c es p)) 0 == bias_init1 (c_min c) (c_max c).
Proof.
  exists (fun _ x => x), stale_cfg, 1%nat, stale_par,
    [EStep StepK; ESetKernel [[ [[3; -1]] ]]; ESetBias [5]; ESetScale [[ -2 ]]; ESetBias [1#2]; EStep StepS; EStep StepK],
    [true], [1#2], [1].
  split; [exact root_ok_id|split; [exact stale_cfg_ok|split; [exact stale_shaped|]]].
  split. { cbn. repeat split; repeat constructor. }
  split; [reflexivity|split; [reflexivity|split; [reflexivity|split; [reflexivity|]]]].
  split. { cbn. split; [lra|exact I]. }
  split. { apply in_range2_one; lra. }
  split. { apply in_range2_one; lra. }
  split; [reflexivity|split; [cbn; lia|vm_compute; reflexivity]].
Qed.
