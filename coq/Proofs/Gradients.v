(* Lemmas for C19 (gradients equal true derivatives). *)
From Coq Require Import Qround.
From TFL Require Proofs.Interp1D.
From TFL Require Import Model.Gradients.
Open Scope Q_scope.

Lemma qeqb_false a b : Qeq_bool a b = false <-> ~ a == b.
Proof. split. intros H E. apply Qeq_bool_iff in E. congruence.
  intros H. destruct (Qeq_bool a b) eqn:E; [|reflexivity]. apply Qeq_bool_iff in E. contradiction. Qed.

Lemma is_zero_z x : x == 0 -> is_zero x = 1.
Proof. intros H. unfold is_zero. apply Qeq_bool_iff in H. rewrite H. reflexivity. Qed.
Lemma is_zero_nz x : ~ x == 0 -> is_zero x = 0.
Proof. intros H. unfold is_zero. apply qeqb_false in H. rewrite H. reflexivity. Qed.
Lemma is_zero_cases x : (x == 0 /\ is_zero x = 1) \/ (~ x == 0 /\ is_zero x = 0).
Proof. destruct (Qeq_dec x 0) as [H|H]; [left|right]; split; auto using is_zero_z, is_zero_nz. Qed.

Lemma num_zeros_cons x t : num_zeros (x :: t) = is_zero x + num_zeros t.
Proof. reflexivity. Qed.
Lemma num_zeros_nonneg t : 0 <= num_zeros t.
Proof. induction t as [|x t IH]. unfold num_zeros; cbn; lra. rewrite num_zeros_cons.
  destruct (is_zero_cases x) as [[_ ->]|[_ ->]]; lra. Qed.
(* the count is an integer: it is 0 or at least 1 *)
Lemma num_zeros_int t : num_zeros t == 0 \/ 1 <= num_zeros t.
Proof. induction t as [|x t IH]. left; reflexivity. rewrite num_zeros_cons.
  pose proof (num_zeros_nonneg t).
  destruct (is_zero_cases x) as [[_ ->]|[_ ->]]. right; lra. destruct IH; [left|right]; lra. Qed.
Lemma num_zeros_pos_prod t : 1 <= num_zeros t -> prod t == 0.
Proof. induction t as [|x t IH]; intros H. unfold num_zeros in H; cbn in H; lra.
  rewrite num_zeros_cons in H. cbn [prod].
  destruct (is_zero_cases x) as [[Hx E]|[Hx E]]; rewrite E in H.
  - rewrite Hx. lra.
  - rewrite IH by lra. lra. Qed.
Lemma num_zeros_has_zero t i : (i < length t)%nat -> nth i t 0 == 0 -> 1 <= num_zeros t.
Proof. revert i; induction t as [|x t IH]; intros i Hi Hz; cbn in Hi. lia.
  rewrite num_zeros_cons. pose proof (num_zeros_nonneg t). destruct i as [|i]; cbn in Hz.
  - rewrite (is_zero_z x Hz). lra.
  - assert (1 <= num_zeros t) by (apply (IH i); [lia|exact Hz]).
    destruct (is_zero_cases x) as [[_ ->]|[_ ->]]; lra. Qed.
Lemma num_zeros_0_plus_mask t : num_zeros t == 0 -> prod (plus_mask t) == prod t.
Proof. induction t as [|x t IH]; intros H. reflexivity.
  rewrite num_zeros_cons in H. pose proof (num_zeros_nonneg t).
  unfold plus_mask in *. cbn [map prod].
  destruct (is_zero_cases x) as [[_ E]|[_ E]]; rewrite E in *. lra.
  rewrite IH by lra. lra. Qed.

Lemma prod_split t i : (i < length t)%nat -> prod t == nth i t 0 * prod_others i t.
Proof. unfold prod_others. revert i; induction t as [|x t IH]; intros i Hi; cbn in Hi. lia.
  destruct i as [|i]; cbn [nth remove_nth prod]. reflexivity.
  rewrite (IH i) by lia. ring. Qed.

(* the product is affine in each coordinate *)
Lemma prod_set_nth t i v : (i < length t)%nat -> prod (set_nth i v t) == v * prod_others i t.
Proof. unfold prod_others. revert i; induction t as [|x t IH]; intros i Hi; cbn in Hi. lia.
  destruct i as [|i]; cbn [set_nth remove_nth prod]. reflexivity.
  rewrite (IH i) by lia. ring. Qed.

Lemma ind_eq1_true a : a == 1 -> (if Qeq_bool a 1 then 1 else 0) = 1.
Proof. intros H. apply Qeq_bool_iff in H. rewrite H. reflexivity. Qed.
Lemma ind_eq1_false a : ~ a == 1 -> (if Qeq_bool a 1 then 1 else 0) = 0.
Proof. intros H. apply qeqb_false in H. rewrite H. reflexivity. Qed.

(* the single-zero branch at a zero position, for every zero pattern *)
Lemma grad1_at_zero t : forall i, (i < length t)%nat -> nth i t 0 == 0 ->
  (if Qeq_bool (num_zeros t) 1 then 1 else 0) * prod (plus_mask t) == prod_others i t.
Proof. unfold prod_others. induction t as [|x t IH]; intros i Hi Hz; cbn in Hi. lia.
  rewrite num_zeros_cons. unfold plus_mask in *. cbn [map prod].
  pose proof (num_zeros_nonneg t) as Hnn.
  destruct i as [|i]; cbn [nth remove_nth prod] in *.
  - rewrite (is_zero_z x Hz). destruct (num_zeros_int t) as [H0|H1].
    + rewrite ind_eq1_true by lra. rewrite (num_zeros_0_plus_mask t H0). rewrite Hz. ring.
    + rewrite ind_eq1_false by lra. rewrite (num_zeros_pos_prod t H1). ring.
  - assert (H1 : 1 <= num_zeros t) by (apply (num_zeros_has_zero t i); [lia|exact Hz]).
    destruct (is_zero_cases x) as [[Hx E]|[Hx E]]; rewrite E.
    + rewrite ind_eq1_false by lra. rewrite Hx. ring.
    + rewrite (Qeqb_comp _ _ (Qplus_0_l (num_zeros t)) 1 1 (Qeq_refl 1)). rewrite <- (IH i) by (try lia; exact Hz). ring. Qed.

(* grad_fn delivers, at every position and for every zero pattern, the product
   of all the other entries *)
Lemma grad_prod_others t i : (i < length t)%nat -> nth i (grad_prod t) 0 == prod_others i t.
Proof. intros Hi. unfold grad_prod. rewrite (nth_map_lt _ _ _ 0 0) by exact Hi. rewrite Qred_correct.
  destruct (is_zero_cases (nth i t 0)) as [[Hz E]|[Hz E]]; rewrite E.
  - unfold divide_no_nan. apply Qeq_bool_iff in Hz. rewrite Hz. apply Qeq_bool_iff in Hz.
    rewrite (grad1_at_zero t i Hi Hz). ring.
  - unfold divide_no_nan. pose proof Hz as Hb. apply qeqb_false in Hb. rewrite Hb.
    rewrite (prod_split t i Hi). field. exact Hz. Qed.

Lemma grad_prod_length t : length (grad_prod t) = length t.
Proof. unfold grad_prod. apply map_length. Qed.

(* replacing factor i by v, scaled: the product is affine in each factor, with slope grad_prod *)
Lemma prod_replace s t i v : (i < length t)%nat ->
  s * prod (set_nth i v t) - s * prod t == s * (v - nth i t 0) * nth i (grad_prod t) 0.
Proof. intros H. rewrite prod_set_nth by exact H. rewrite (prod_split t i H) at 1.
  rewrite grad_prod_others by exact H. ring. Qed.

Lemma prod_gradient t i h : (i < length t)%nat ->
  prod (set_nth i (nth i t 0 + h) t) - prod t == h * nth i (grad_prod t) 0.
Proof. intros Hi. pose proof (prod_replace 1 t i (nth i t 0 + h) Hi). lra. Qed.

Lemma grad_prod_dy_nth dy t i : (i < length t)%nat ->
  nth i (grad_prod_dy dy t) 0 == dy * nth i (grad_prod t) 0.
Proof. intros Hi. unfold grad_prod_dy. rewrite (nth_map_lt _ _ _ 0 0) by (rewrite grad_prod_length; exact Hi).
  apply Qred_correct. Qed.

Lemma prod_gradient_dy dy t i h : (i < length t)%nat ->
  dy * (prod (set_nth i (nth i t 0 + h) t) - prod t) == h * nth i (grad_prod_dy dy t) 0.
Proof. intros Hi. rewrite grad_prod_dy_nth by exact Hi. rewrite prod_gradient by exact Hi. ring. Qed.

(* the slope of an affine function is unique: whatever number g satisfies the
   difference identity for all h is the delivered gradient *)
Lemma prod_gradient_unique t i g : (i < length t)%nat ->
  (forall h, prod (set_nth i (nth i t 0 + h) t) - prod t == h * g) -> g == nth i (grad_prod t) 0.
Proof. intros Hi H. pose proof (H 1) as H1. rewrite prod_gradient in H1 by exact Hi. lra. Qed.

Lemma dot_set_nth w : forall K v a, (v < length K)%nat ->
  dot w (set_nth v a K) == dot w K + (a - nth v K 0) * nth v w 0.
Proof. induction w as [|x w IH]; intros K v a Hv.
  - destruct (set_nth v a K), K; cbn [dot]; destruct v; cbn [nth]; ring.
  - destruct K as [|k K]; cbn in Hv. lia. destruct v as [|v]; cbn [set_nth dot nth].
    ring. rewrite (IH K v a) by lia. ring. Qed.

Lemma lin_eval_gradient w K v h : (v < length K)%nat ->
  lin_eval w (set_nth v (nth v K 0 + h) K) - lin_eval w K == h * nth v w 0.
Proof. intros Hv. unfold lin_eval. rewrite dot_set_nth by exact Hv. ring. Qed.

Lemma lin_eval_gradient_unique w K v g : (v < length K)%nat ->
  (forall h, lin_eval w (set_nth v (nth v K 0 + h) K) - lin_eval w K == h * g) -> g == nth v w 0.
Proof. intros Hv H. pose proof (H 1) as H1. rewrite lin_eval_gradient in H1 by exact Hv. lra. Qed.

(* 1-D hat weights.  qnat and hat unfold to the same terms as Interp1D's qn and
   hat, so the theory of the hat function proved there applies as it stands. *)
Lemma qnat_S k : qnat (S k) == qnat k + 1.
Proof. exact (qofnat_S k). Qed.
Lemma qnat_nonneg k : 0 <= qnat k.
Proof. exact (qofnat_nonneg k). Qed.
Lemma qnat_lt k j : (k < j)%nat -> qnat k + 1 <= qnat j.
Proof. exact (qofnat_succ_le k j). Qed.
Lemma hat_nonneg x k : 0 <= hat x k.
Proof. exact (Interp1D.hat_nonneg x k). Qed.
Lemma hat_le1 x k : hat x k <= 1.
Proof. exact (Interp1D.hat_le_1 x k). Qed.
Lemma hat_eq a b k : a == b -> hat a k == hat b k.
Proof. intros H. exact (Interp1D.hat_proper a b H k k eq_refl). Qed.

(* the hat at vertex k vanishes outside (k-1, k+1) and rises on [k-1, k] *)
Lemma hat_outside x k : x <= qnat k - 1 \/ qnat k + 1 <= x -> hat x k == 0.
Proof. intros [H|H]; unfold hat; qcases; lra. Qed.
Lemma hat_rising x k : qnat k - 1 <= x -> x <= qnat k -> hat x k == x - qnat k + 1.
Proof. intros H1 H2. unfold hat. qcases; lra. Qed.
(* inside the cell [j, j+1] only the hats at j and j+1 are non-zero *)
Lemma hat_cell x j k : qnat j <= x -> x <= qnat j + 1 ->
  hat x k == if Nat.eqb j k then 1 - (x - qnat j) else if Nat.eqb (S j) k then x - qnat j else 0.
Proof. exact (Interp1D.hat_cell x j k). Qed.

(* partition of unity *)
Lemma w1d_sum n x : 0 <= x -> x <= qnat n - 1 -> qsum (w1d n x) == 1.
Proof. exact (Interp1D.hat_sum_one n x). Qed.
Lemma w1d_nonneg n x a : In a (w1d n x) -> 0 <= a.
Proof. unfold w1d. intros H. apply in_map_iff in H. destruct H as [k [<- _]]. apply hat_nonneg. Qed.

(* a weight vector: non-negative entries summing to one *)
Definition convex_weights (w : list Q) : Prop := (forall a, In a w -> 0 <= a) /\ qsum w == 1.

Lemma qsum_map_red (a : Q) o : qsum (map (fun b => Qred (a * b)) o) == a * qsum o.
Proof. induction o as [|b o IH]; cbn [map qsum]. ring. rewrite IH, Qred_correct. ring. Qed.

Lemma outer_sum ws : qsum (outer ws) == prod (map qsum ws).
Proof. induction ws as [|w ws IH]; cbn [outer map prod]. cbn; lra.
  rewrite qsum_flat_map.
  rewrite (qsum_map_ext _ (fun a => qsum (outer ws) * a)) by (intros; rewrite qsum_map_red; ring).
  rewrite (qsum_map_scale (fun a => a)), map_id, IH. ring. Qed.
Lemma outer_nonneg ws : (forall w, In w ws -> forall a, In a w -> 0 <= a) -> forall b, In b (outer ws) -> 0 <= b.
Proof. induction ws as [|w ws IH]; intros H b Hb; cbn [outer] in Hb.
  - destruct Hb as [<-|[]]. lra.
  - apply in_flat_map in Hb. destruct Hb as [a [Ha Hb]]. apply in_map_iff in Hb. destruct Hb as [c [<- Hc]].
    rewrite Qred_correct. apply qmul_nonneg. apply (H w); [left; reflexivity|exact Ha].
    apply IH; [|exact Hc]. intros w' Hw'. apply H. right; exact Hw'. Qed.
Lemma outer_convex ws : Forall convex_weights ws -> convex_weights (outer ws).
Proof. intros H. split.
  - apply outer_nonneg. intros w Hw. rewrite Forall_forall in H. apply (H w Hw).
  - rewrite outer_sum. induction H as [|w ws [_ Hw] _ IH]; cbn [map prod]. reflexivity. rewrite Hw, IH. ring. Qed.

Lemma clip_lat_range s x : (1 <= s)%nat -> 0 <= clip_lat s x /\ clip_lat s x <= qnat s - 1.
Proof. intros Hs. unfold clip_lat. apply qclip_range. destruct s as [|s]. lia. rewrite qnat_S. pose proof (qnat_nonneg s). lra. Qed.

Lemma w1d_two_convex clip x : clip = true \/ (0 <= x /\ x <= 1) -> convex_weights (w1d_two clip x).
Proof. intros H. unfold w1d_two, convex_weights. destruct clip.
  - split. intros a [<-|[<-|[]]]; unfold qclip; qcases; lra. cbn [qsum]. unfold qclip. qcases; lra.
  - destruct H as [H|[H0 H1]]. discriminate. split. intros a [<-|[<-|[]]]; lra. cbn [qsum]. ring. Qed.
Lemma w1d_convex clip s x : (1 <= s)%nat -> clip = true \/ (0 <= x /\ x <= qnat s - 1) ->
  convex_weights (w1d s (if clip then clip_lat s x else x)).
Proof. intros Hs H. split. intros a; apply w1d_nonneg.
  destruct clip. destruct (clip_lat_range s x Hs). apply w1d_sum; assumption.
  destruct H as [H|[H0 H1]]. discriminate. apply w1d_sum; assumption. Qed.

(* the hypothesis under which the lattice is evaluated inside its domain:
   either inputs are clipped (the layer's default) or the point is in range *)
Definition lattice_point_ok (clip : bool) (sizes : list nat) (x : list Q) : Prop :=
  Forall2 (fun s xi => (2 <= s)%nat /\ (clip = true \/ (0 <= xi /\ xi <= qnat s - 1))) sizes x.

Lemma hyper_weights_convex clip as_list sizes x : lattice_point_ok clip sizes x ->
  convex_weights (hyper_weights clip as_list sizes x).
Proof. intros H. unfold hyper_weights. destruct (all_two sizes && negb as_list) eqn:E.
  - apply andb_true_iff in E. destruct E as [E _]. unfold all_two in E. apply outer_convex.
    induction H as [|s xi sizes x [Hs Hx] _ IH]; cbn [map]. constructor.
    cbn [forallb] in E. apply andb_true_iff in E. destruct E as [E1 E2]. apply Nat.eqb_eq in E1. subst s.
    constructor; [|apply IH; exact E2]. apply w1d_two_convex.
    assert (E1 : qnat 2 - 1 == 1) by reflexivity. rewrite E1 in Hx. exact Hx.
  - apply outer_convex. clear E. induction H as [|s xi sizes x [Hs Hx] _ IH]; cbn [map2]; constructor.
    apply w1d_convex; [lia|exact Hx]. exact IH. Qed.

(* gather + weighted sum is linear in the gathered kernel: the derivative
   w.r.t. kernel entry v is the total weight of the terms that gather v *)
Lemma sp_eval_gradient ts K v h :
  sp_eval ts (fun u => K u + (if Z.eqb u v then h else 0)) - sp_eval ts K == h * sp_weight ts v.
Proof. unfold sp_eval, sp_weight. induction ts as [|[i a] ts IH]; cbn [map qsum fst snd]. ring.
  destruct (Z.eqb i v); lra. Qed.

Lemma simplex_terms_sum l : forall prev idx, qsum (map snd (simplex_terms prev idx l)) == prev.
Proof. induction l as [|[r s] l IH]; intros prev idx; cbn [simplex_terms map qsum snd]. ring.
  rewrite IH. ring. Qed.

(* descending chain below [prev], ending above 0 *)
Fixpoint chain (prev : Q) (l : list (Q * Z)) : Prop :=
  match l with [] => 0 <= prev | p :: l' => fst p <= prev /\ chain (fst p) l' end.
Lemma simplex_terms_nonneg l : forall prev idx, chain prev l ->
  forall p, In p (simplex_terms prev idx l) -> 0 <= snd p.
Proof. induction l as [|[r s] l IH]; intros prev idx H p Hp; cbn [simplex_terms chain fst] in *.
  - destruct Hp as [<-|[]]. exact H.
  - destruct H as [H1 H2]. destruct Hp as [<-|Hp]. cbn [snd]. lra. exact (IH r _ H2 p Hp). Qed.
Lemma ins_chain p l : forall prev, chain prev l -> 0 <= fst p -> fst p <= prev -> chain prev (ins_desc p l).
Proof. induction l as [|q l IH]; intros prev H H0 H1; cbn [ins_desc chain] in *. split; assumption.
  destruct H as [Hq Hl]. destruct (Qle_bool (fst q) (fst p)) eqn:E; cbn [chain].
  - apply Qle_bool_iff in E. repeat split; assumption.
  - apply (qle_false (fst q) (fst p)) in E. split. exact Hq. apply IH; [exact Hl|exact H0|lra]. Qed.
Lemma sort_chain l : (forall p, In p l -> 0 <= fst p /\ fst p <= 1) -> chain 1 (sort_desc l).
Proof. induction l as [|p l IH]; intros H; cbn [sort_desc fold_right]. cbn; lra.
  destruct (H p (or_introl eq_refl)). apply ins_chain; try assumption.
  apply IH. intros q Hq. apply H. right; exact Hq. Qed.

(* truncation toward zero is the floor for non-negative rationals *)
Lemma trunc_floor x : 0 <= x -> trunc x = Qfloor x.
Proof. intros H. unfold trunc. destruct x as [n d]. cbn [Qnum Qden Qfloor]. apply Z.quot_div_nonneg.
  unfold Qle in H; cbn in H. lia. reflexivity. Qed.
Lemma qnat_inject s : inject_Z (Z.of_nat s - 2) == qnat s - 2.
Proof. unfold qnat, Z.sub. rewrite inject_Z_plus, inject_Z_opp. reflexivity. Qed.

Definition in01 (r : Q) : Prop := 0 <= r /\ r <= 1.
(* one dimension of a point inside the lattice range *)
Definition simplex_ok_dim (all2 : bool) (s : nat) (z : Q) : Prop :=
  (2 <= s)%nat /\ (all2 = true -> s = 2%nat) /\ 0 <= z /\ z <= qnat s - 1.

Lemma residual_ok all2 s z : simplex_ok_dim all2 s z -> in01 (z - inject_Z (corner all2 s z)).
Proof. intros [Hs [H2 [H0 H1]]]. unfold corner, in01. destruct all2.
  - rewrite (H2 eq_refl) in H1. assert (E : qnat 2 - 1 == 1) by reflexivity. rewrite E in H1.
    assert (E0 : inject_Z 0 == 0) by reflexivity. rewrite E0. lra.
  - rewrite trunc_floor by exact H0. pose proof (Qfloor_le z) as Hf. pose proof (Qlt_floor z) as Hg.
    rewrite inject_Z_plus in Hg. assert (E1 : inject_Z 1 == 1) by reflexivity. rewrite E1 in Hg.
    destruct (Z.min_spec (Qfloor z) (Z.of_nat s - 2)) as [[Hlt ->]|[Hge ->]].
    + lra.
    + rewrite Zle_Qle in Hge. rewrite qnat_inject in *. lra. Qed.

Lemma residuals_ok {all2 sizes z} : Forall2 (simplex_ok_dim all2) sizes z ->
  Forall in01 (map2 (fun zi c => zi - inject_Z c) z (map2 (corner all2) sizes z)).
Proof. induction 1 as [|s zi sizes z Hd _ IH]; cbn [map2]; constructor. apply residual_ok; exact Hd. exact IH. Qed.

(* clipping, or the range hypothesis, puts every coordinate inside the lattice range *)
Lemma lattice_point_simplex_ok {clip sizes x} : lattice_point_ok clip sizes x ->
  Forall2 (simplex_ok_dim (all_two sizes)) sizes (if clip then map2 clip_lat sizes x else x).
Proof. intros H.
  assert (A : forall s, In s sizes -> all_two sizes = true -> s = 2%nat).
  { intros s Hin E. unfold all_two in E. rewrite forallb_forall in E. specialize (E s Hin). apply Nat.eqb_eq in E. congruence. }
  revert A. generalize (all_two sizes). intros a2 A. induction H as [|s xi sizes x [Hs Hx] _ IH].
  - destruct clip; constructor.
  - specialize (IH (fun s' Hin => A s' (or_intror Hin))).
    assert (D : simplex_ok_dim a2 s (if clip then clip_lat s xi else xi)).
    { split. exact Hs. split. apply A. left; reflexivity. destruct clip. apply clip_lat_range; lia.
      destruct Hx as [Hx|Hx]. discriminate. exact Hx. }
    destruct clip; cbn [map2]; constructor; assumption. Qed.

Lemma simplex_sparse_convex clip sizes x : lattice_point_ok clip sizes x ->
  (forall p, In p (simplex_sparse clip sizes x) -> 0 <= snd p) /\
  qsum (map snd (simplex_sparse clip sizes x)) == 1.
Proof. intros H. unfold simplex_sparse. split; [|apply simplex_terms_sum].
  apply simplex_terms_nonneg. apply sort_chain. intros [r s] Hp. apply in_combine_l in Hp. cbn [fst].
  pose proof (residuals_ok (lattice_point_simplex_ok H)) as HF.
  rewrite Forall_forall in HF. exact (HF r Hp). Qed.

Lemma simplex_weights_nth clip sizes x v : (v < num_vertices sizes)%nat ->
  nth v (simplex_weights clip sizes x) 0 == sp_weight (simplex_sparse clip sizes x) (Z.of_nat v).
Proof. intros H. unfold simplex_weights. rewrite nth_map_seq by exact H. apply Qred_correct. Qed.

Lemma dot_app a : forall b c d, length a = length b -> dot (a ++ c) (b ++ d) == dot a b + dot c d.
Proof. induction a as [|x a IH]; intros [|y b] c d H; cbn in H; try discriminate; cbn [app dot]. ring.
  rewrite IH by congruence. ring. Qed.
Lemma dot_map_sub wl ws : forall hs, length ws = length hs ->
  dot (map (fun a => a - wl) ws) hs == dot ws hs - wl * qsum hs.
Proof. induction ws as [|a ws IH]; intros [|k hs] H; cbn in H; try discriminate; cbn [map dot qsum]. ring.
  rewrite IH by congruence. ring. Qed.
Lemma cyclic_fold_snoc wb whs wl : cyclic_fold (wb :: whs ++ [wl]) = wb :: map (fun a => a - wl) whs.
Proof. unfold cyclic_fold. rewrite removelast_last. rewrite app_length. cbn [length].
  replace (length whs + 1 - 1)%nat with (length whs) by lia.
  rewrite app_nth2 by lia. rewrite Nat.sub_diag. reflexivity. Qed.
Lemma snoc_decomp {A} (l : list A) n : length l = S n -> exists l' a, l = l' ++ [a] /\ length l' = n.
Proof. intros H. destruct (exists_last (l := l)) as [l' [a E]]. intros ->; discriminate.
  exists l', a. split. exact E. subst l. rewrite app_length in H. cbn in H. lia. Qed.

(* the cyclic calibrator, whose last height is minus the sum of the others, is
   again a weighted sum of the free kernel entries, with the folded weights *)
Lemma cyclic_dot w K : length w = S (length K) ->
  dot w (K ++ [- qsum (tl K)]) == dot (cyclic_fold w) K.
Proof. intros Hl. destruct w as [|wb w']; [discriminate|]. injection Hl as Hl. destruct K as [|b hs].
  { destruct w'; [|discriminate]. cbn. ring. }
  destruct (snoc_decomp w' (length hs) Hl) as [whs [wl [-> Hw]]].
  rewrite cyclic_fold_snoc. cbn [tl app dot]. rewrite dot_app by exact Hw. rewrite dot_map_sub by exact Hw.
  cbn [dot]. ring. Qed.

Lemma pwl_weights_length kps lens x : length kps = length lens -> length (pwl_weights kps lens x) = S (length kps).
Proof. intros H. unfold pwl_weights. cbn [length]. rewrite map2_length, <- H, Nat.min_id. reflexivity. Qed.
Lemma cyclic_fold_length w : (2 <= length w)%nat -> length (cyclic_fold w) = (length w - 1)%nat.
Proof. destruct w as [|b hs]; cbn [length]. lia. intros H.
  unfold cyclic_fold. cbn [length]. rewrite map_length, removelast_firstn_len, firstn_length. lia. Qed.

Lemma pwl_kernel_gradient (cyclic : bool) m mo kps lens (K : list Q) x v h :
  length kps = length lens -> K <> [] ->
  length K = (if cyclic then length kps else S (length kps)) -> (v < length K)%nat ->
  pwl_eval cyclic m mo kps lens (set_nth v (nth v K 0 + h) K) x - pwl_eval cyclic m mo kps lens K x
  == h * nth v (pwl_kernel_weights cyclic m kps lens x) 0.
Proof. intros Hl HK HlK Hv. unfold pwl_eval, pwl_kernel_weights.
  pose proof (pwl_weights_length kps lens x Hl) as Hw. set (w := pwl_weights kps lens x) in *.
  destruct cyclic.
  - rewrite (cyclic_dot w (set_nth v (nth v K 0 + h) K)) by (rewrite set_nth_length; congruence).
    rewrite (cyclic_dot w K) by congruence.
    rewrite (nth_map_lt _ _ _ 0 0) by (rewrite cyclic_fold_length; lia).
    rewrite Qred_correct, dot_set_nth by exact Hv. ring.
  - rewrite (nth_map_lt _ _ _ 0 0) by lia. rewrite Qred_correct, dot_set_nth by exact Hv. ring. Qed.

Lemma cat_weights_nth nb default i b : (b < nb)%nat ->
  nth b (cat_weights nb default i) 0 = if Z.eqb (Z.of_nat b) (cat_index nb default i) then 1 else 0.
Proof. intros H. unfold cat_weights. apply nth_map_seq. exact H. Qed.
Lemma cat_kernel_gradient nb default i K b h : (b < nb)%nat -> (b < length K)%nat ->
  lin_eval (cat_weights nb default i) (set_nth b (nth b K 0 + h) K) - lin_eval (cat_weights nb default i) K
  == h * (if Z.eqb (Z.of_nat b) (cat_index nb default i) then 1 else 0).
Proof. intros Hb HK. rewrite lin_eval_gradient by exact HK. rewrite cat_weights_nth by exact Hb. reflexivity. Qed.

(* Kronecker-factored lattice: chain rule through grad_fn *)
Lemma kfl_dots_set_K ws : forall K d row,
  kfl_dots ws (set_nth_g d row K) = set_nth d (dot (nth d ws []) row) (kfl_dots ws K).
Proof. unfold kfl_dots. induction ws as [|w ws IH]; intros [|Kd K] [|d] row; cbn [set_nth_g map2 set_nth nth];
  try reflexivity. rewrite IH. reflexivity. Qed.
Lemma kfl_dots_set_ws ws : forall K d w',
  kfl_dots (set_nth_g d w' ws) K = set_nth d (dot w' (nth d K [])) (kfl_dots ws K).
Proof. unfold kfl_dots. induction ws as [|w ws IH]; intros [|Kd K] [|d] w'; cbn [set_nth_g map2 set_nth nth];
  try reflexivity. rewrite IH. reflexivity. Qed.
Lemma kfl_dots_length ws K : length (kfl_dots ws K) = Nat.min (length ws) (length K).
Proof. apply map2_length. Qed.
Lemma kfl_dots_nth ws K d : (d < length ws)%nat -> (d < length K)%nat ->
  nth d (kfl_dots ws K) 0 = dot (nth d ws []) (nth d K []).
Proof. intros. unfold kfl_dots. apply nth_map2; assumption. Qed.

Lemma kfl_term_kernel_gradient ws scale K d k h :
  (d < length K)%nat -> (d < length ws)%nat -> (k < length (nth d K []))%nat ->
  kfl_term ws scale (set_nth_g d (set_nth k (nth k (nth d K []) 0 + h) (nth d K [])) K) - kfl_term ws scale K
  == h * (scale * nth d (grad_prod (kfl_dots ws K)) 0 * nth k (nth d ws []) 0).
Proof. intros HK Hw Hk. unfold kfl_term. rewrite kfl_dots_set_K.
  rewrite prod_replace by (rewrite kfl_dots_length; lia). rewrite kfl_dots_nth by assumption.
  rewrite dot_set_nth by exact Hk. ring. Qed.

Lemma kfl_term_scale_gradient ws scale K h :
  kfl_term ws (scale + h) K - kfl_term ws scale K == h * prod (kfl_dots ws K).
Proof. unfold kfl_term. ring. Qed.

(* inputs: wherever the 1-D interpolation weights of dimension d move affinely
   with the input, w_d(x + h) = w_d(x) + h * dw *)
Lemma dot_axpy h w : forall dw K, length w = length dw ->
  dot (map2 (fun a s => a + h * s) w dw) K == dot w K + h * dot dw K.
Proof. induction w as [|a w IH]; intros [|s dw] K H; cbn in H; try discriminate; cbn [map2 dot]. ring.
  destruct K as [|k K]; cbn [dot]. ring. rewrite IH by congruence. ring. Qed.
Lemma kfl_term_input_gradient ws scale K d dw h :
  (d < length K)%nat -> (d < length ws)%nat -> length (nth d ws []) = length dw ->
  kfl_term (set_nth_g d (map2 (fun a s => a + h * s) (nth d ws []) dw) ws) scale K - kfl_term ws scale K
  == h * (scale * nth d (grad_prod (kfl_dots ws K)) 0 * dot dw (nth d K [])).
Proof. intros HK Hw Hl. unfold kfl_term. rewrite kfl_dots_set_ws.
  rewrite prod_replace by (rewrite kfl_dots_length; lia). rewrite kfl_dots_nth by assumption.
  rewrite dot_axpy by exact Hl. ring. Qed.

(* slope of the hat weights inside a cell [j, j+1] *)
Definition hat_slope (j k : nat) : Q := if Nat.eqb k j then -(1) else if Nat.eqb k (S j) then 1 else 0.
Lemma hat_affine_in_cell j x h k : qnat j <= x -> x <= qnat j + 1 -> qnat j <= x + h -> x + h <= qnat j + 1 ->
  hat (x + h) k - hat x k == h * hat_slope j k.
Proof. intros H1 H2 H3 H4. rewrite (hat_cell x j k H1 H2), (hat_cell (x + h) j k H3 H4).
  unfold hat_slope. rewrite (Nat.eqb_sym k j), (Nat.eqb_sym k (S j)).
  destruct (j =? k)%nat, (S j =? k)%nat; ring. Qed.

(* hat_dx is the slope of the piece of the hat that x lies strictly inside *)
Lemma hat_dx_outside x k : x <= qnat k - 1 \/ qnat k + 1 <= x -> hat_dx x k = 0.
Proof. intros H. unfold hat_dx. rewrite (proj2 (qlt_false _ _)). reflexivity. destruct H; qcases; lra. Qed.
Lemma hat_dx_rising x k : qnat k - 1 < x -> x < qnat k -> hat_dx x k = 1.
Proof. intros H1 H2. unfold hat_dx. rewrite !(proj2 (qlt_true _ _)). reflexivity. exact H2. qcases; lra. Qed.
Lemma hat_dx_falling x k : qnat k <= x -> x < qnat k + 1 -> hat_dx x k = -(1).
Proof. intros H1 H2. unfold hat_dx. rewrite (proj2 (qlt_true _ _)), (proj2 (qlt_false _ _)). reflexivity.
  exact H1. qcases; lra. Qed.
Lemma hat_dx_cell x j k : qnat j < x -> x < qnat j + 1 -> hat_dx x k = hat_slope j k.
Proof. intros H1 H2. unfold hat_slope.
  destruct (Nat.eqb_spec k j) as [->|Hj]; [|destruct (Nat.eqb_spec k (S j)) as [->|HS]].
  - apply hat_dx_falling; lra.
  - apply hat_dx_rising; rewrite qnat_S; lra.
  - apply hat_dx_outside. destruct (Nat.lt_ge_cases k j) as [Hlt|Hge].
    + right. pose proof (qnat_lt k j Hlt). lra.
    + left. pose proof (qnat_lt (S j) k ltac:(lia)) as Hq. rewrite qnat_S in Hq. lra. Qed.

(* the whole output: bias + mean over terms *)
Lemma qsum_map2_set_g {B} (f : Q -> B -> Q) (db : B) a : forall b t v, (t < length a)%nat -> (t < length b)%nat ->
  qsum (map2 f a (set_nth_g t v b)) == qsum (map2 f a b) + (f (nth t a 0) v - f (nth t a 0) (nth t b db)).
Proof. induction a as [|x a IH]; intros [|y b] [|t] v Ha Hb; cbn in Ha, Hb; try lia; cbn [set_nth_g map2 qsum nth].
  ring. rewrite IH by lia. ring. Qed.
Lemma qsum_map2_set_l {B} (f : Q -> B -> Q) (db : B) a : forall b t v, (t < length a)%nat -> (t < length b)%nat ->
  qsum (map2 f (set_nth t v a) b) == qsum (map2 f a b) + (f v (nth t b db) - f (nth t a 0) (nth t b db)).
Proof. induction a as [|x a IH]; intros [|y b] [|t] v Ha Hb; cbn in Ha, Hb; try lia; cbn [set_nth map2 qsum nth].
  ring. rewrite IH by lia. ring. Qed.

Lemma kfl_out_kernel_gradient ws bias scales Ks t d k h :
  (t < length scales)%nat -> (t < length Ks)%nat -> (d < length (nth t Ks []))%nat -> (d < length ws)%nat ->
  (k < length (nth d (nth t Ks []) []))%nat -> (k < length (nth d ws []))%nat ->
  kfl_out ws bias scales
    (set_nth_g t (set_nth_g d (set_nth k (nth k (nth d (nth t Ks []) []) 0 + h) (nth d (nth t Ks []) [])) (nth t Ks [])) Ks)
  - kfl_out ws bias scales Ks
  == h * nth k (nth d (kfl_grad_kernel ws (length scales) (nth t scales 0) (nth t Ks [])) []) 0.
Proof. intros Ht HtK Hd Hdw Hk Hkw. unfold kfl_out.
  rewrite (qsum_map2_set_g (kfl_term ws) []) by assumption.
  unfold kfl_grad_kernel.
  rewrite (nth_map2 _ _ _ _ 0 [] []).
  2:{ rewrite grad_prod_length, kfl_dots_length. lia. } 2:{ exact Hdw. }
  rewrite (nth_map_lt _ _ _ 0 0) by exact Hkw. rewrite Qred_correct, kfl_term_kernel_gradient by assumption.
  unfold Qdiv. ring. Qed.

Lemma kfl_out_scale_gradient ws bias scales Ks t h : (t < length scales)%nat -> (t < length Ks)%nat ->
  kfl_out ws bias (set_nth t (nth t scales 0 + h) scales) Ks - kfl_out ws bias scales Ks
  == h * kfl_grad_scale ws (length scales) (nth t Ks []).
Proof. intros Ht HtK. unfold kfl_out, kfl_grad_scale. rewrite set_nth_length.
  rewrite (qsum_map2_set_l (kfl_term ws) []) by assumption.
  rewrite kfl_term_scale_gradient. unfold Qdiv. ring. Qed.

(* satisfiability of the hypotheses used above *)
Example lattice_point_ok_sat : lattice_point_ok false [2%nat; 3%nat] [1#2; 3#2].
Proof. unfold lattice_point_ok. constructor; [|constructor; [|constructor]];
  (split; [lia|right; split; unfold qnat, Qle; cbn; lia]). Qed.
Example hat_cell_sat : qnat 1 <= (5#4) /\ (5#4) <= qnat 1 + 1 /\ qnat 1 <= (5#4) + (1#4) /\ (5#4) + (1#4) <= qnat 1 + 1.
Proof. unfold qnat, Qle; cbn; lia. Qed.

(* The guard lattice_point_ok is needed: with clip_inputs = False and a point
   outside the lattice range, the 2^d shortcut extrapolates ([1 - x, x], a
   negative weight) and the general path loses mass (weights sum to < 1). *)
Lemma unclipped_outside_negative :
  exists sizes x, ~ lattice_point_ok false sizes x /\
    exists a, In a (hyper_weights false false sizes x) /\ a < 0.
Proof. exists [2%nat], [3#2]. split.
  - intros H. inversion H as [|s xi ss xx [_ [Hc|[_ Hr]]] Ht]; subst. discriminate.
    vm_compute in Hr. apply Hr. reflexivity.
  - exists (-1#2). split. vm_compute. left; reflexivity. reflexivity. Qed.
Lemma unclipped_outside_mass_lost :
  exists sizes x, ~ lattice_point_ok false sizes x /\
    forall as_list, qsum (hyper_weights false as_list sizes x) == 1#2.
Proof. exists [3%nat], [5#2]. split.
  - intros H. inversion H as [|s xi ss xx [_ [Hc|[_ Hr]]] Ht]; subst. discriminate.
    vm_compute in Hr. apply Hr. reflexivity.
  - intros [|]; vm_compute; reflexivity. Qed.
