(* Lemmas about the model of lattice_lib.project_by_dykstra
   (Model/LatticeDykstra.v) for property C08.

   The roll-back invariant of dyk_step / dyk_sweep / dyk_loop and "maps that fix
   W keep W and every stored change zero" hold for any list of keyed maps.  The
   fixpoint theorem asks every keyed map to be a [nearest_map].  Two generic
   block maps ([pr_op]: disjoint pairs along one axis, [sq_op]: disjoint 2x2
   squares on two axes) are nearest maps as soon as their local 2- / 4-point
   rule is a nearest-point rule ([nearest_rule2], [nearest_rule4]); the group
   updates of monotonicity / unimodality, Edgeworth, trapezoid, monotonic
   dominance and joint monotonicity are instances ([gop_exact]), and their
   group sets of both parities together are the family's feasibility predicate.
   For range dominance and joint unimodality ([gop_other]) only properness and
   feasible => fixed are proved.

   NOT proved: convergence of the iterates (Boyle-Dykstra 1986); boundedness and
   summable movement of the model's iterates are in Proofs/LatticeDykstraBound.v. *)
From TFL Require Export Model.LatticeDykstra Proofs.LatticeSpecFacts Proofs.DykstraTheory.
Open Scope Q_scope.

Lemma key_eqb_eq a b : key_eqb a b = true <-> a = b.
Proof. revert b; induction a as [|x a IH]; intros [|y b]; cbn [key_eqb]; split; intros H; try congruence; try discriminate.
  - apply andb_prop in H. destruct H as [H1 H2]. apply Z.eqb_eq in H1. apply IH in H2. congruence.
  - inversion H; subst. rewrite Z.eqb_refl. cbn [andb]. apply IH. reflexivity. Qed.
Lemma key_eqb_refl a : key_eqb a a = true.
Proof. apply key_eqb_eq. reflexivity. Qed.
Lemma key_eqb_neq a b : a <> b -> key_eqb a b = false.
Proof. intros H. destruct (key_eqb a b) eqn:E; [|reflexivity]. apply key_eqb_eq in E. contradiction. Qed.

Definition tzero : tens := fun _ => 0.
(* sum of all stored changes at position x *)
Definition lc_sum (lc : list (key * tens)) (x : idx) : Q := qsum (map (fun e : key * tens => snd e x) lc).

Lemma lc_set_sum lc k t x : lc_sum (lc_set lc k t) x == lc_sum lc x - lc_get lc k x + t x.
Proof. unfold lc_sum, lc_get. induction lc as [|e r IH]; cbn [lc_set find map qsum].
  - cbn. lra.
  - destruct (key_eqb (fst e) k); cbn [map qsum snd]. lra. rewrite IH. lra. Qed.

Lemma lc_set_in {lc k t e} : In e (lc_set lc k t) -> e = (k, t) \/ In e lc.
Proof. induction lc as [|e0 r IH]; cbn [lc_set]. intros [<-|[]]; auto.
  destruct (key_eqb (fst e0) k).
  - intros [<-|H]; [left; reflexivity|right; right; assumption].
  - intros [<-|H]; [right; left; reflexivity|]. destruct (IH H); [left|right; right]; assumption. Qed.
Lemma lc_set_keys {lc k t k'} : In k' (map fst (lc_set lc k t)) -> k' = k \/ In k' (map fst lc).
Proof. intros H. apply in_map_iff in H. destruct H as [e [<- He]]. destruct (lc_set_in He) as [->|H].
  left; reflexivity. right. apply in_map; assumption. Qed.
Lemma lc_set_nodup lc k t : NoDup (map fst lc) -> NoDup (map fst (lc_set lc k t)).
Proof. induction lc as [|e r IH]; cbn [lc_set map]; intros H. constructor; [intros []|constructor].
  inversion H; subst. destruct (key_eqb (fst e) k) eqn:E; cbn [map fst].
  - apply key_eqb_eq in E. rewrite <- E. constructor; assumption.
  - constructor; [|apply IH; assumption]. intros Hin. destruct (lc_set_keys Hin) as [Hk|Hk].
    + rewrite Hk, key_eqb_refl in E. discriminate.
    + contradiction. Qed.

Lemma lc_get_in lc e : NoDup (map fst lc) -> In e lc -> lc_get lc (fst e) = snd e.
Proof. unfold lc_get. induction lc as [|e0 r IH]; cbn [map find]; intros Hnd Hin. destruct Hin.
  inversion Hnd; subst. destruct Hin as [->|Hin]. rewrite key_eqb_refl. reflexivity.
  destruct (key_eqb (fst e0) (fst e)) eqn:E.
  - apply key_eqb_eq in E. exfalso. apply H1. rewrite E. apply in_map; assumption.
  - apply IH; assumption. Qed.
Lemma lc_get_set_same lc k t : lc_get (lc_set lc k t) k = t.
Proof. unfold lc_get. induction lc as [|e r IH]; cbn [lc_set find fst]. rewrite key_eqb_refl. reflexivity.
  destruct (key_eqb (fst e) k) eqn:E; cbn [find fst]. rewrite key_eqb_refl. reflexivity. rewrite E. exact IH. Qed.
Lemma lc_get_set_other lc k t k' : k' <> k -> lc_get (lc_set lc k t) k' = lc_get lc k'.
Proof. intros Hne. unfold lc_get. induction lc as [|e r IH]; cbn [lc_set find fst].
  - rewrite (key_eqb_neq k k') by congruence. reflexivity.
  - destruct (key_eqb (fst e) k) eqn:E; cbn [find fst].
    + apply key_eqb_eq in E. rewrite E. rewrite (key_eqb_neq k k') by congruence. reflexivity.
    + destruct (key_eqb (fst e) k'); [reflexivity|exact IH]. Qed.
(* the sum over the stored entries is the sum of lc_get over the distinct stored keys *)
Lemma lc_sum_keys lc x : NoDup (map fst lc) ->
  lc_sum lc x = qsum (map (fun k => lc_get lc k x) (map fst lc)).
Proof. intros Hnd. unfold lc_sum. rewrite map_map. f_equal. apply map_ext_in. intros e He.
  rewrite (lc_get_in lc e Hnd He). reflexivity. Qed.

Definition dyk_inv (sh : list nat) (W0 : tens) (st : tens * list (key * tens)) : Prop :=
  NoDup (map fst (snd st)) /\ forall x, valid sh x -> fst st x == W0 x + lc_sum (snd st) x.

(* One step with the memo tables and Qred normalisations read off: the map is
   applied to the rolled-back point, and the change it makes is stored under
   the key. *)
Lemma dyk_step_spec sh W lc k op : exists rolled new,
  dyk_step sh (W, lc) (k, op) = (op rolled, lc_set lc k new) /\
  teq sh rolled (vsub W (lc_get lc k)) /\ teq sh new (vsub (op rolled) rolled).
Proof. eexists _, _. split. reflexivity.
  split; apply memo_teq_l; intros x _; rewrite Qred_correct; reflexivity. Qed.

Lemma dyk_step_inv sh W0 st kop : dyk_inv sh W0 st -> dyk_inv sh W0 (dyk_step sh st kop).
Proof. destruct st as [W lc], kop as [k op]. intros [Hnd Hsum].
  destruct (dyk_step_spec sh W lc k op) as (rolled & new & -> & Hr & Hn). cbn [fst snd] in *.
  split; cbn [fst snd].
  - apply lc_set_nodup; assumption.
  - intros x Hv. rewrite lc_set_sum, (Hn x Hv). unfold vsub. rewrite (Hr x Hv). unfold vsub. rewrite (Hsum x Hv). ring. Qed.
Lemma dyk_sweep_inv sh W0 ops : forall st, dyk_inv sh W0 st -> dyk_inv sh W0 (dyk_sweep sh ops st).
Proof. unfold dyk_sweep. induction ops as [|kop ops IH]; intros st H; cbn [fold_left]. exact H.
  apply IH. apply dyk_step_inv; assumption. Qed.
Lemma dyk_loop_inv sh W0 ops n : forall st, dyk_inv sh W0 st -> dyk_inv sh W0 (dyk_loop sh ops n st).
Proof. induction n as [|n IH]; intros st H; cbn [dyk_loop]. exact H. apply IH. apply dyk_sweep_inv; assumption. Qed.

(* Increment-sum invariant: after any number of sweeps over any keyed maps the
   current point is the start plus the sum of the stored changes, one per
   distinct key (duplicated keys share one slot). *)
Theorem increment_sum (sh : list nat) (ops : list (key * (tens -> tens))) (n : nat) (W : tens) :
  let W' := fst (dyk_loop sh ops n (W, [])) in
  let lc := snd (dyk_loop sh ops n (W, [])) in
  NoDup (map fst lc) /\
  forall x, valid sh x -> W' x == W x + qsum (map (fun k => lc_get lc k x) (map fst lc)).
Proof. cbv zeta.
  assert (H0 : dyk_inv sh W (W, [])).
  { split; cbn [fst snd map]. constructor. intros x _. unfold lc_sum. cbn. lra. }
  destruct (dyk_loop_inv sh W ops n _ H0) as [Hnd Hsum]. split. exact Hnd.
  intros x Hv. rewrite <- lc_sum_keys by assumption. apply Hsum; assumption. Qed.

Definition op_proper (sh : list nat) (op : tens -> tens) : Prop :=
  forall W W', teq sh W W' -> teq sh (op W) (op W').
Definition op_fixes (sh : list nat) (op : tens -> tens) (W : tens) : Prop := teq sh (op W) W.

Definition fix_inv (sh : list nat) (W : tens) (st : tens * list (key * tens)) : Prop :=
  teq sh (fst st) W /\ forall e, In e (snd st) -> teq sh (snd e) tzero.

Lemma lc_get_zero sh lc k : (forall e, In e lc -> teq sh (snd e) tzero) -> teq sh (lc_get lc k) tzero.
Proof. intros H. unfold lc_get. destruct (find (fun e => key_eqb (fst e) k) lc) as [e|] eqn:E.
  apply find_some in E. apply H. apply E. apply teq_refl. Qed.

Lemma dyk_step_fix sh W st kop : op_proper sh (snd kop) -> op_fixes sh (snd kop) W ->
  fix_inv sh W st -> fix_inv sh W (dyk_step sh st kop).
Proof. destruct st as [Wc lc], kop as [k op]. cbn [snd]. intros Hp Hf [HW Hz].
  destruct (dyk_step_spec sh Wc lc k op) as (rolled & new & -> & Hr & Hn). cbn [fst snd] in *.
  assert (Hr' : teq sh rolled W).
  { intros x Hv. rewrite (Hr x Hv). unfold vsub. rewrite (HW x Hv), (lc_get_zero sh lc k Hz x Hv). unfold tzero. ring. }
  assert (Ho : teq sh (op rolled) W) by (eapply teq_trans; [apply Hp; exact Hr'|exact Hf]).
  split; cbn [fst snd]. exact Ho.
  intros e He. destruct (lc_set_in He) as [->|Hin]; [|apply Hz; assumption]. cbn [snd].
  intros x Hv. rewrite (Hn x Hv). unfold vsub, tzero. rewrite (Ho x Hv), (Hr' x Hv). ring. Qed.

(* If every map of the list fixes W (and respects teq) then after any number of
   sweeps the point is still W and every stored change is zero. *)
Theorem dyk_loop_fixed (sh : list nat) (ops : list (key * (tens -> tens))) (n : nat) (W : tens) :
  (forall kop, In kop ops -> op_proper sh (snd kop) /\ op_fixes sh (snd kop) W) ->
  teq sh (fst (dyk_loop sh ops n (W, []))) W /\
  forall e, In e (snd (dyk_loop sh ops n (W, []))) -> teq sh (snd e) tzero.
Proof. intros H.
  assert (Hsweep : forall l, incl l ops -> forall st, fix_inv sh W st -> fix_inv sh W (dyk_sweep sh l st)).
  { unfold dyk_sweep. induction l as [|kop l IH]; intros Hl st Hi; cbn [fold_left]. exact Hi.
    apply IH. intros a Ha; apply Hl; right; exact Ha.
    destruct (H kop (Hl kop (or_introl eq_refl))). apply dyk_step_fix; assumption. }
  assert (Hloop : forall st, fix_inv sh W st -> fix_inv sh W (dyk_loop sh ops n st)).
  { induction n as [|m IH]; intros st Hi; cbn [dyk_loop]. exact Hi. apply IH, Hsweep. apply incl_refl. exact Hi. }
  apply Hloop. split; cbn [fst snd]. apply teq_refl. intros e []. Qed.

Lemma teq_veq sh f g : teq sh f g <-> veq (all_idx sh) f g.
Proof. unfold teq, veq. split; intros H i Hi; apply H; apply all_idx_valid; assumption. Qed.

(* a nearest-point map onto a set of tensors that is closed under teq *)
Definition nearest_map (sh : list nat) (C : tens -> Prop) (P : tens -> tens) : Prop :=
  is_proj (all_idx sh) C P /\ (forall f g, teq sh f g -> C f -> C g).

(* the nearest point being unique, such a map respects teq *)
Lemma nearest_map_proper {sh C P} : nearest_map sh C P -> op_proper sh P.
Proof. intros [HP _] W W' E. apply teq_veq. apply (is_proj_proper (all_idx sh) C P W W' HP). apply teq_veq. exact E. Qed.
Lemma nearest_map_fixes {sh C P W} : nearest_map sh C P -> C W -> op_proper sh P /\ op_fixes sh P W.
Proof. intros H HW. split. exact (nearest_map_proper H). apply teq_veq. exact (is_proj_fixes (all_idx sh) C P W (proj1 H) HW). Qed.

(* transfer to a map that agrees with P pointwise *)
Lemma nearest_map_ext sh C (P P' : tens -> tens) :
  (forall y, teq sh (P' y) (P y)) -> nearest_map sh C P -> nearest_map sh C P'.
Proof. intros HE [HP HC]. split; [|exact HC]. intros y. destruct (HP y) as [H1 H2]. split.
  - apply (HC (P y)). apply teq_sym, HE. exact H1.
  - intros z Hz.
    rewrite (ip_ext (all_idx sh) (vsub y (P' y)) (vsub y (P y)) (vsub z (P' y)) (vsub z (P y)))
      by (apply vsub_veq; [apply veq_refl|apply teq_veq, HE]).
    apply H2; assumption. Qed.

Lemma all_idx_nodup sh : NoDup (all_idx sh).
Proof. induction sh as [|s sh IH]; cbn [all_idx]. constructor; [intros []|constructor].
  assert (G : forall l, NoDup l -> NoDup (flat_map (fun k : nat => map (cons k) (all_idx sh)) l)).
  { induction l as [|k l IHl]; intros Hl; cbn [flat_map]. constructor. inversion Hl; subst.
    apply nodup_app.
    - apply NoDup_map_inj_in; [|exact IH]. intros x y _ _ E. inversion E; reflexivity.
    - apply IHl; assumption.
    - intros x Hx Hx'. apply in_map_iff in Hx. destruct Hx as [r [<- Hr]].
      apply in_flat_map in Hx'. destruct Hx' as [k' [Hk' Hx']]. apply in_map_iff in Hx'. destruct Hx' as [r' [E _]].
      inversion E; subst. contradiction. }
  apply G. apply seq_NoDup. Qed.

Definition ofs (up : bool) (i : nat) : nat := if up then S i else i.

(* i is the lower index of a pair (i, i+1) of the group g on an axis of size n *)
Definition pair_low (g n i : nat) : Prop := (g <= i)%nat /\ Nat.even (i - g) = true /\ (S i < n)%nat.

Lemma pair_pos_inv {g n k i up} : pair_pos g n k = Some (i, up) -> (k < n)%nat -> pair_low g n i /\ k = ofs up i.
Proof. unfold pair_pos, ofs, pair_low. intros H Hk.
  destruct ((g <=? k)%nat && Nat.even (k - g) && (S k <? n)%nat) eqn:E1.
  - inversion H; subst. apply andb_prop in E1. destruct E1 as [E1 E3]. apply andb_prop in E1. destruct E1 as [E1 E2].
    apply Nat.leb_le in E1. apply Nat.ltb_lt in E3. auto.
  - destruct ((S g <=? k)%nat && Nat.odd (k - g)) eqn:E2; [|discriminate]. inversion H; subst.
    apply andb_prop in E2. destruct E2 as [E2 E3]. apply Nat.leb_le in E2.
    replace (k - g)%nat with (S (k - 1 - g)) in E3 by lia. rewrite Nat.odd_succ in E3.
    repeat split; try lia. exact E3. Qed.
Lemma even_succ_false m : Nat.even m = true -> Nat.even (S m) = false.
Proof. intros H. rewrite Nat.even_succ. rewrite <- Nat.negb_even. rewrite H. reflexivity. Qed.
Lemma pair_pos_ofs g n i up : pair_low g n i -> pair_pos g n (ofs up i) = Some (i, up).
Proof. intros (H1 & H2 & H3). unfold pair_pos. destruct up; cbn [ofs].
  - replace (S i - g)%nat with (S (i - g)) by lia.
    rewrite (even_succ_false _ H2). rewrite andb_false_r. cbn [andb].
    rewrite Nat.odd_succ, H2. assert (E : (S g <=? S i)%nat = true) by (apply Nat.leb_le; lia). rewrite E. cbn [andb].
    replace (S i - 1)%nat with i by lia. reflexivity.
  - apply Nat.leb_le in H1. apply Nat.ltb_lt in H3. rewrite H1, H2, H3. reflexivity. Qed.
Lemma ofs_lt up i n : (S i < n)%nat -> (ofs up i < n)%nat.
Proof. destruct up; cbn [ofs]; lia. Qed.

(* the other element of the pair (or the coordinate itself outside every pair) *)
Definition partner (g n k : nat) : nat :=
  match pair_pos g n k with Some (i, up) => ofs (negb up) i | None => k end.
Lemma partner_some {g n k i up} : pair_pos g n k = Some (i, up) -> partner g n k = ofs (negb up) i.
Proof. unfold partner. intros ->. reflexivity. Qed.
Lemma partner_none {g n k} : pair_pos g n k = None -> partner g n k = k.
Proof. unfold partner. intros ->. reflexivity. Qed.
Lemma partner_lt g n k : (k < n)%nat -> (partner g n k < n)%nat.
Proof. intros Hk. unfold partner. destruct (pair_pos g n k) as [[i up]|] eqn:E; [|exact Hk].
  apply ofs_lt. apply (pair_pos_inv E Hk). Qed.
Lemma partner_invol g n k : (k < n)%nat -> partner g n (partner g n k) = k.
Proof. intros Hk. destruct (pair_pos g n k) as [[i up]|] eqn:E.
  - destruct (pair_pos_inv E Hk) as [HL H2].
    rewrite (partner_some E). rewrite (partner_some (pair_pos_ofs g n i (negb up) HL)).
    rewrite negb_involutive. symmetry; exact H2.
  - rewrite (partner_none E). apply partner_none. exact E. Qed.

Lemma rv_lt dir sc j : (j < sc)%nat -> (rv dir sc j < sc)%nat.
Proof. unfold rv. destruct (dir <? 0)%Z; lia. Qed.
Lemma rv_invol dir sc j : (j < sc)%nat -> rv dir sc (rv dir sc j) = j.
Proof. unfold rv. destruct (dir <? 0)%Z; lia. Qed.

(* the local term of the variational inequality at one position *)
Definition vterm (y z Py : tens) (x : idx) : Q := (y x - Py x) * (z x - Py x).
Lemma vterm_zero y z Py x : Py x = y x -> vterm y z Py x == 0.
Proof. intros E. unfold vterm. rewrite E. ring. Qed.
Lemma ip_vterm sh y z Py : ip (all_idx sh) (vsub y Py) (vsub z Py) = qsum (map (vterm y z Py) (all_idx sh)).
Proof. reflexivity. Qed.

(* A local rule F gives the new values of a pair (of the four corners of a
   square) from the old ones.  It is a nearest-point rule onto the admissible
   set C if C is closed under ==, the new values are in C, and they satisfy the
   variational inequality against every admissible z. *)
Record nearest_rule2 (C : Q -> Q -> Prop) (F : Q -> Q -> bool -> Q) : Prop := {
  rule2_proper : forall lo hi lo' hi', lo == lo' -> hi == hi' -> C lo hi -> C lo' hi';
  rule2_in : forall lo hi, C (F lo hi false) (F lo hi true);
  rule2_vi : forall lo hi zlo zhi, C zlo zhi ->
     (lo - F lo hi false) * (zlo - F lo hi false) + (hi - F lo hi true) * (zhi - F lo hi true) <= 0 }.
Record nearest_rule4 (C : Q -> Q -> Q -> Q -> Prop) (F : Q -> Q -> Q -> Q -> bool -> bool -> Q) : Prop := {
  rule4_proper : forall a b c e a' b' c' e', a == a' -> b == b' -> c == c' -> e == e' -> C a b c e -> C a' b' c' e';
  rule4_in : forall a b c e, C (F a b c e false false) (F a b c e true false) (F a b c e false true) (F a b c e true true);
  rule4_vi : forall a b c e za zb zc ze, C za zb zc ze ->
     (a - F a b c e false false) * (za - F a b c e false false) + (b - F a b c e true false) * (zb - F a b c e true false) +
     ((c - F a b c e false true) * (zc - F a b c e false true) + (e - F a b c e true true) * (ze - F a b c e true true)) <= 0 }.
Arguments rule2_proper {C F}. Arguments rule2_in {C F}. Arguments rule2_vi {C F}.
Arguments rule4_proper {C F}. Arguments rule4_in {C F}. Arguments rule4_vi {C F}.

(* the identity as an involution of an axis *)
Lemma id_lt (n : nat) : forall j, (j < n)%nat -> ((fun k : nat => k) j < n)%nat.
Proof. intros j H. exact H. Qed.
Lemma id_inv (n : nat) : forall j, (j < n)%nat -> (fun k : nat => k) ((fun k : nat => k) j) = j.
Proof. intros j _. reflexivity. Qed.

(* The pairs (i, i+1), i = g, g+2, ..., of the axis d, read through an involution
   r of the axis (identity or reversal): position of a tensor index in its pair,
   and the map that swaps the two positions of every pair. *)
Section AxisPairs.
Variables (sh : list nat) (d g : nat) (r : nat -> nat).
Notation n := (nth d sh 0%nat).
Hypothesis Hd : (d < length sh)%nat.
Hypothesis r_lt : forall j, (j < n)%nat -> (r j < n)%nat.
Hypothesis r_inv : forall j, (j < n)%nat -> r (r j) = j.

Lemma pr_facts {x i up} : valid sh x -> pair_pos g n (r (nth d x 0%nat)) = Some (i, up) ->
  pair_low g n i /\ nth d x 0%nat = r (ofs up i).
Proof. intros Hv Ep. pose proof (valid_nth sh x d Hv Hd) as Hk.
  destruct (pair_pos_inv Ep (r_lt _ Hk)) as [HL H2].
  split. exact HL. rewrite <- H2. symmetry. apply r_inv. exact Hk. Qed.

Definition pr_sigma (x : idx) : idx := upd x d (r (partner g n (r (nth d x 0%nat)))).
Lemma pr_sigma_valid x : valid sh x -> valid sh (pr_sigma x).
Proof. intros Hv. apply upd_valid. assumption. apply r_lt, partner_lt, r_lt. apply valid_nth; assumption. Qed.
Lemma pr_sigma_invol_on : invol_on (all_idx sh) pr_sigma.
Proof. intros x Hv. apply all_idx_valid in Hv. split. apply all_idx_valid, pr_sigma_valid, Hv.
  pose proof (valid_nth sh x d Hv Hd) as Hk. unfold pr_sigma.
  rewrite nth_upd_same by (rewrite (valid_length sh x Hv); exact Hd).
  rewrite r_inv by (apply partner_lt, r_lt; exact Hk).
  rewrite partner_invol by (apply r_lt; exact Hk). rewrite r_inv by exact Hk.
  rewrite upd_upd. apply upd_self. Qed.
Lemma pr_sigma_some x i up : pair_pos g n (r (nth d x 0%nat)) = Some (i, up) -> pr_sigma x = upd x d (r (ofs (negb up) i)).
Proof. intros Ep. unfold pr_sigma. rewrite (partner_some Ep). reflexivity. Qed.
Lemma pr_sigma_none x : valid sh x -> pair_pos g n (r (nth d x 0%nat)) = None -> pr_sigma x = x.
Proof. intros Hv Ep. unfold pr_sigma. rewrite (partner_none Ep).
  rewrite r_inv by (apply valid_nth; assumption). apply upd_self. Qed.
End AxisPairs.

(* Generic map on the pairs of one axis.  The new value at a position is a
   function F of the context position (only its coordinates other than d may
   matter), the pair index and the two old values. *)
Section PairOp.
Variables (sh : list nat) (d g : nat) (r : nat -> nat).
Notation n := (nth d sh 0%nat).
Hypothesis Hd : (d < length sh)%nat.
Hypothesis r_lt : forall j, (j < n)%nat -> (r j < n)%nat.
Hypothesis r_inv : forall j, (j < n)%nat -> r (r j) = j.
Variable F : idx -> nat -> Q -> Q -> bool -> Q.
Hypothesis F_ctx : forall x k i lo hi up, F (upd x d k) i lo hi up = F x i lo hi up.

Definition pr_op (W : tens) : tens := memo sh (fun x =>
  match pair_pos g n (r (nth d x 0%nat)) with
  | Some (i, up) => F x i (W (upd x d (r i))) (W (upd x d (r (S i)))) up
  | None => W x
  end).

Lemma pr_op_at W b i up : valid sh b -> pair_low g n i ->
  pr_op W (upd b d (r (ofs up i))) = F b i (W (upd b d (r i))) (W (upd b d (r (S i)))) up.
Proof. intros Hv HL. unfold pr_op.
  assert (Ho : (ofs up i < n)%nat) by (apply ofs_lt, HL).
  rewrite memo_ok by (apply upd_valid; [assumption|apply r_lt; assumption]).
  rewrite nth_upd_same by (rewrite (valid_length sh b Hv); exact Hd).
  rewrite r_inv by assumption. rewrite pair_pos_ofs by assumption.
  rewrite F_ctx, !upd_upd. reflexivity. Qed.
Lemma pr_op_off W x : valid sh x -> pair_pos g n (r (nth d x 0%nat)) = None -> pr_op W x = W x.
Proof. intros Hv Ep. unfold pr_op. rewrite memo_ok by assumption. rewrite Ep. reflexivity. Qed.

(* the constraint set of the group: a local condition on every pair *)
Variable Cloc : idx -> nat -> Q -> Q -> Prop.
Definition pr_ok (W : tens) : Prop :=
  forall b i, valid sh b -> (g <= i)%nat -> Nat.even (i - g) = true -> (S i < n)%nat ->
    Cloc b i (W (upd b d (r i))) (W (upd b d (r (S i)))).

Hypothesis F_rule : forall x i, nearest_rule2 (Cloc x i) (F x i).

Lemma pr_ok_teq f f' : teq sh f f' -> pr_ok f -> pr_ok f'.
Proof. intros E Hok b i Hb H1 H2 H3.
  apply (rule2_proper (F_rule b i) (f (upd b d (r i))) (f (upd b d (r (S i))))); [| |apply Hok; assumption];
    apply E; apply upd_valid; try assumption; apply r_lt; lia. Qed.

Lemma pr_local y z x : valid sh x -> pr_ok z ->
  vterm y z (pr_op y) x + vterm y z (pr_op y) (pr_sigma sh d g r x) <= 0.
Proof. intros Hv Hz.
  destruct (pair_pos g n (r (nth d x 0%nat))) as [[i up]|] eqn:Ep.
  - destruct (pr_facts sh d g r Hd r_lt r_inv Hv Ep) as [HL H4].
    rewrite (pr_sigma_some sh d g r x i up Ep).
    pose proof (pr_op_at y x i false Hv HL) as Elo.
    pose proof (pr_op_at y x i true Hv HL) as Ehi.
    destruct HL as (H1 & H2 & H3).
    pose proof (rule2_vi (F_rule x i) (y (upd x d (r i))) (y (upd x d (r (S i)))) _ _ (Hz x i Hv H1 H2 H3)) as HV.
    assert (Ex : upd x d (r (ofs up i)) = x) by (apply upd_eq_self; exact H4).
    unfold vterm. destruct up; cbn [ofs negb] in *; rewrite Ex in Elo, Ehi, HV; rewrite Elo, Ehi; lra.
  - rewrite (pr_sigma_none sh d g r Hd r_inv x Hv Ep).
    rewrite (vterm_zero y z (pr_op y) x) by (apply pr_op_off; assumption). lra. Qed.

Theorem pr_op_nearest : nearest_map sh pr_ok pr_op.
Proof. split; [|exact pr_ok_teq]. intros y. split.
  - intros b i Hb H1 H2 H3. pose proof (conj H1 (conj H2 H3)) as HL.
    pose proof (pr_op_at y b i false Hb HL) as Elo. pose proof (pr_op_at y b i true Hb HL) as Ehi.
    cbn [ofs] in Elo, Ehi. rewrite Elo, Ehi. apply (rule2_in (F_rule b i)).
  - intros z Hz. rewrite ip_vterm. apply (sum_sym2_nonpos (all_idx sh) (all_idx_nodup sh) (pr_sigma sh d g r)).
    + apply pr_sigma_invol_on; assumption.
    + intros i Hi. apply pr_local. apply all_idx_valid; assumption. exact Hz. Qed.
End PairOp.

(* Generic map on disjoint 2x2 squares {i,i+1} x {j,j+1} (i = g0, g0+2, ...;
   j = g1, g1+2, ... read through the involution r) of the axes p, q.  The new
   value at corner (pa, pb) is F of the four old corner values
   (00, 10, 01, 11 = (i,j), (i+1,j), (i,j+1), (i+1,j+1)). *)
Definition corner (a00 a10 a01 a11 : Q) (pa pb : bool) : Q :=
  if pa then (if pb then a11 else a10) else (if pb then a01 else a00).

Lemma upd_as_at2_p x p q I J : p <> q -> nth q x 0%nat = J -> upd x p I = at2 x p q I J.
Proof. intros Hne HJ. unfold at2. symmetry. apply upd_eq_self. rewrite nth_upd_other by auto. exact HJ. Qed.
Lemma upd_as_at2_q x p q I J : nth p x 0%nat = I -> upd x q J = at2 x p q I J.
Proof. intros HI. unfold at2. rewrite (upd_eq_self x p I HI). reflexivity. Qed.

Section SquareOp.
Variables (sh : list nat) (p q g0 g1 : nat) (r : nat -> nat).
Notation sp := (nth p sh 0%nat).
Notation sq := (nth q sh 0%nat).
Hypothesis Hpq : p <> q.
Hypothesis Hp : (p < length sh)%nat.
Hypothesis Hq : (q < length sh)%nat.
Hypothesis r_lt : forall j, (j < sq)%nat -> (r j < sq)%nat.
Hypothesis r_inv : forall j, (j < sq)%nat -> r (r j) = j.
Variable F : Q -> Q -> Q -> Q -> bool -> bool -> Q.

Definition sq_op (W : tens) : tens := memo sh (fun x =>
  match pair_pos g0 sp (nth p x 0%nat), pair_pos g1 sq (r (nth q x 0%nat)) with
  | Some (i, pa), Some (j, pb) =>
      F (W (at2 x p q i (r j))) (W (at2 x p q (S i) (r j)))
        (W (at2 x p q i (r (S j)))) (W (at2 x p q (S i) (r (S j)))) pa pb
  | _, _ => W x
  end).

Lemma sq_facts {x i pa j pb} : valid sh x ->
  pair_pos g0 sp (nth p x 0%nat) = Some (i, pa) -> pair_pos g1 sq (r (nth q x 0%nat)) = Some (j, pb) ->
  (pair_low g0 sp i /\ nth p x 0%nat = ofs pa i) /\ (pair_low g1 sq j /\ nth q x 0%nat = r (ofs pb j)).
Proof. intros Hv E1 E2. split.
  exact (pr_facts sh p g0 (fun k => k) Hp (id_lt _) (id_inv _) Hv E1).
  exact (pr_facts sh q g1 r Hq r_lt r_inv Hv E2). Qed.

Lemma sq_op_at W b i j pa pb : valid sh b -> pair_low g0 sp i -> pair_low g1 sq j ->
  sq_op W (at2 b p q (ofs pa i) (r (ofs pb j))) =
  F (W (at2 b p q i (r j))) (W (at2 b p q (S i) (r j)))
    (W (at2 b p q i (r (S j)))) (W (at2 b p q (S i) (r (S j)))) pa pb.
Proof. intros Hv A B. unfold sq_op.
  assert (Ho1 : (ofs pa i < sp)%nat) by (apply ofs_lt, A).
  assert (Ho2 : (ofs pb j < sq)%nat) by (apply ofs_lt, B).
  rewrite memo_ok by (apply at2_valid; [assumption|assumption|apply r_lt; assumption]).
  rewrite at2_nth_m by (try assumption; rewrite (valid_length sh b Hv); assumption).
  rewrite at2_nth_c by (rewrite (valid_length sh b Hv); assumption).
  rewrite r_inv by assumption. rewrite !pair_pos_ofs by assumption.
  rewrite !at2_at2 by assumption. reflexivity. Qed.
Lemma sq_op_at4 W b i j : valid sh b -> pair_low g0 sp i -> pair_low g1 sq j ->
  let a := W (at2 b p q i (r j)) in let b' := W (at2 b p q (S i) (r j)) in
  let c := W (at2 b p q i (r (S j))) in let e := W (at2 b p q (S i) (r (S j))) in
  sq_op W (at2 b p q i (r j)) = F a b' c e false false /\
  sq_op W (at2 b p q (S i) (r j)) = F a b' c e true false /\
  sq_op W (at2 b p q i (r (S j))) = F a b' c e false true /\
  sq_op W (at2 b p q (S i) (r (S j))) = F a b' c e true true.
Proof. intros Hv A B. cbv zeta. repeat split.
  apply (sq_op_at W b i j false false); assumption. apply (sq_op_at W b i j true false); assumption.
  apply (sq_op_at W b i j false true); assumption. apply (sq_op_at W b i j true true); assumption. Qed.
Lemma sq_op_off W x : valid sh x ->
  pair_pos g0 sp (nth p x 0%nat) = None \/ pair_pos g1 sq (r (nth q x 0%nat)) = None -> sq_op W x = W x.
Proof. intros Hv Ep. unfold sq_op. rewrite memo_ok by assumption.
  destruct Ep as [Ep|Ep]; rewrite Ep; [reflexivity|]. destruct (pair_pos g0 sp (nth p x 0%nat)) as [[i pa]|]; reflexivity. Qed.

Variable Cloc : Q -> Q -> Q -> Q -> Prop.
Definition sq_ok (W : tens) : Prop :=
  forall b i j, valid sh b ->
    (g0 <= i)%nat -> Nat.even (i - g0) = true -> (S i < sp)%nat ->
    (g1 <= j)%nat -> Nat.even (j - g1) = true -> (S j < sq)%nat ->
    Cloc (W (at2 b p q i (r j))) (W (at2 b p q (S i) (r j))) (W (at2 b p q i (r (S j)))) (W (at2 b p q (S i) (r (S j)))).

Hypothesis F_rule : nearest_rule4 Cloc F.

Lemma sq_ok_teq f f' : teq sh f f' -> sq_ok f -> sq_ok f'.
Proof. intros E Hok b i j Hb A1 A2 A3 B1 B2 B3.
  apply (rule4_proper F_rule (f (at2 b p q i (r j))) (f (at2 b p q (S i) (r j))) (f (at2 b p q i (r (S j)))) (f (at2 b p q (S i) (r (S j)))));
    try (apply E; apply at2_valid; [assumption|lia|apply r_lt; lia]).
  apply Hok; assumption. Qed.

(* the pair swaps of the two axes; together they generate the four corners of a square *)
Definition sq_s1 : idx -> idx := pr_sigma sh p g0 (fun k => k).
Definition sq_s2 : idx -> idx := pr_sigma sh q g1 r.

Lemma sq_local_base y z b i j : valid sh b -> sq_ok z -> pair_low g0 sp i -> pair_low g1 sq j ->
  vterm y z (sq_op y) (at2 b p q i (r j)) + vterm y z (sq_op y) (at2 b p q (S i) (r j)) +
  (vterm y z (sq_op y) (at2 b p q i (r (S j))) + vterm y z (sq_op y) (at2 b p q (S i) (r (S j)))) <= 0.
Proof. intros Hv Hz A B. unfold vterm.
  destruct (sq_op_at4 y b i j Hv A B) as (E1 & E2 & E3 & E4). rewrite E1, E2, E3, E4.
  destruct A as (A1 & A2 & A3), B as (B1 & B2 & B3). apply (rule4_vi F_rule). apply Hz; assumption. Qed.

Lemma sq_local y z x : valid sh x -> sq_ok z ->
  (vterm y z (sq_op y) x + vterm y z (sq_op y) (sq_s1 x)) +
  (vterm y z (sq_op y) (sq_s2 x) + vterm y z (sq_op y) (sq_s1 (sq_s2 x))) <= 0.
Proof. intros Hv Hz.
  assert (Hp2 : nth p (sq_s2 x) 0%nat = nth p x 0%nat) by (apply nth_upd_other; auto).
  assert (Hq1 : forall x', nth q (sq_s1 x') 0%nat = nth q x' 0%nat) by (intros x'; apply nth_upd_other; auto).
  destruct (pair_pos g0 sp (nth p x 0%nat)) as [[i pa]|] eqn:E1.
  destruct (pair_pos g1 sq (r (nth q x 0%nat))) as [[j pb]|] eqn:E2.
  - destruct (sq_facts Hv E1 E2) as [[A A4] [B B4]].
    assert (Ex : at2 x p q (ofs pa i) (r (ofs pb j)) = x) by (apply at2_eq_self; assumption).
    assert (Es1 : sq_s1 x = at2 x p q (ofs (negb pa) i) (r (ofs pb j))).
    { unfold sq_s1. rewrite (pr_sigma_some sh p g0 _ x i pa E1). apply upd_as_at2_p; assumption. }
    assert (Es2 : sq_s2 x = at2 x p q (ofs pa i) (r (ofs (negb pb) j))).
    { unfold sq_s2. rewrite (pr_sigma_some sh q g1 r x j pb E2). apply upd_as_at2_q; assumption. }
    assert (Es12 : sq_s1 (sq_s2 x) = at2 x p q (ofs (negb pa) i) (r (ofs (negb pb) j))).
    { unfold sq_s1. rewrite (pr_sigma_some sh p g0 _ (sq_s2 x) i pa) by (rewrite Hp2; exact E1).
      unfold sq_s2. rewrite (pr_sigma_some sh q g1 r x j pb E2). unfold at2. apply upd_comm. auto. }
    pose proof (sq_local_base y z x i j Hv Hz A B) as HL.
    rewrite Es12, Es1, Es2. destruct pa, pb; cbn [ofs negb] in *; rewrite Ex in HL; lra.
  - assert (Es2 : sq_s2 x = x) by (apply (pr_sigma_none sh q g1 r Hq r_inv x Hv E2)).
    rewrite Es2.
    rewrite (vterm_zero y z (sq_op y) x) by (apply sq_op_off; auto).
    rewrite (vterm_zero y z (sq_op y) (sq_s1 x))
      by (apply sq_op_off; [apply (pr_sigma_valid sh p g0 _ Hp (id_lt _)); assumption|right; rewrite Hq1; exact E2]).
    lra.
  - assert (Es1 : forall x', valid sh x' -> nth p x' 0%nat = nth p x 0%nat -> sq_s1 x' = x').
    { intros x' Hv' Hx'. apply (pr_sigma_none sh p g0 _ Hp (id_inv _) x' Hv'). cbv beta. rewrite Hx'. exact E1. }
    pose proof (pr_sigma_valid sh q g1 r Hq r_lt x Hv) as Hv2. fold sq_s2 in Hv2.
    rewrite (Es1 x Hv eq_refl), (Es1 (sq_s2 x) Hv2 Hp2).
    rewrite (vterm_zero y z (sq_op y) x) by (apply sq_op_off; auto).
    rewrite (vterm_zero y z (sq_op y) (sq_s2 x)) by (apply sq_op_off; [exact Hv2|left; rewrite Hp2; exact E1]).
    lra. Qed.

Theorem sq_op_nearest : nearest_map sh sq_ok sq_op.
Proof. split; [|exact sq_ok_teq]. intros y. split.
  - intros b i j Hb A1 A2 A3 B1 B2 B3.
    destruct (sq_op_at4 y b i j Hb (conj A1 (conj A2 A3)) (conj B1 (conj B2 B3))) as (E1 & E2 & E3 & E4).
    rewrite E1, E2, E3, E4. apply (rule4_in F_rule).
  - intros z Hz. rewrite ip_vterm. apply (sum_sym4_nonpos (all_idx sh) sq_s1 sq_s2).
    + apply all_idx_nodup.
    + apply (pr_sigma_invol_on sh p g0 _ Hp (id_lt _) (id_inv _)).
    + apply (pr_sigma_invol_on sh q g1 r Hq r_lt r_inv).
    + intros i Hi. apply sq_local. apply all_idx_valid; assumption. exact Hz. Qed.
End SquareOp.

(* the groups of parity g = 0 and g = 1 together cover every adjacent pair / square *)
Lemma parity_group k : exists g, (g = 0 \/ g = 1)%nat /\ (g <= k)%nat /\ Nat.even (k - g) = true.
Proof. destruct (Nat.even k) eqn:E.
  - exists 0%nat. rewrite Nat.sub_0_r. auto with arith.
  - destruct k as [|k]. discriminate E. exists 1%nat. split. auto. split. lia.
    cbn [Nat.sub]. rewrite Nat.sub_0_r. rewrite Nat.even_succ in E. rewrite <- Nat.negb_odd, E. reflexivity. Qed.

(* the local condition on all adjacent pairs of an axis / all unit squares of two axes *)
Definition pr_all sh d r (Cloc : idx -> nat -> Q -> Q -> Prop) (W : tens) : Prop :=
  forall b i, valid sh b -> (S i < nth d sh 0)%nat -> Cloc b i (W (upd b d (r i))) (W (upd b d (r (S i)))).
Definition sq_all sh p q r (Cloc : Q -> Q -> Q -> Q -> Prop) (W : tens) : Prop :=
  forall b i j, valid sh b -> (S i < nth p sh 0)%nat -> (S j < nth q sh 0)%nat ->
    Cloc (W (at2 b p q i (r j))) (W (at2 b p q (S i) (r j))) (W (at2 b p q i (r (S j)))) (W (at2 b p q (S i) (r (S j)))).

Lemma pr_ok_intro sh d g r Cloc W : pr_all sh d r Cloc W -> pr_ok sh d g r Cloc W.
Proof. intros H b i Hb _ _ Hi. apply H; assumption. Qed.
Lemma pr_ok_cover sh d r Cloc W :
  (forall g, (g = 0 \/ g = 1)%nat -> (S g < nth d sh 0)%nat -> pr_ok sh d g r Cloc W) -> pr_all sh d r Cloc W.
Proof. intros H b i Hb Hi. destruct (parity_group i) as (g & Hg & Hle & Hev).
  apply (H g Hg ltac:(lia)); assumption. Qed.
Lemma sq_ok_intro sh p q g0 g1 r Cloc W : sq_all sh p q r Cloc W -> sq_ok sh p q g0 g1 r Cloc W.
Proof. intros H b i j Hb _ _ Hi _ _ Hj. apply H; assumption. Qed.
Lemma sq_ok_cover sh p q r Cloc W :
  (forall g0 g1, (g0 = 0 \/ g0 = 1)%nat -> (g1 = 0 \/ g1 = 1)%nat -> (S g0 < nth p sh 0)%nat -> (S g1 < nth q sh 0)%nat ->
     sq_ok sh p q g0 g1 r Cloc W) ->
  sq_all sh p q r Cloc W.
Proof. intros H b i j Hb Hi Hj.
  destruct (parity_group i) as (g0 & Hg0 & Hle0 & Hev0). destruct (parity_group j) as (g1 & Hg1 & Hle1 & Hev1).
  apply (H g0 g1 Hg0 Hg1 ltac:(lia) ltac:(lia)); assumption. Qed.

(* a condition on the adjacent pairs of an axis read through rv is the direct
   condition for a positive direction and the mirrored one for a negative *)
Lemma rv_cases dir sc : dir <> 0%Z ->
  ((0 <? dir)%Z = true /\ forall k, rv dir sc k = k) \/
  ((0 <? dir)%Z = false /\ forall k, rv dir sc k = (sc - 1 - k)%nat).
Proof. intros Hd. unfold rv. destruct (Z.ltb_spec 0 dir) as [H|H]; [left|right]; split; try reflexivity; intros k.
  - destruct (Z.ltb_spec dir 0); [lia|reflexivity].
  - destruct (Z.ltb_spec dir 0); [reflexivity|lia]. Qed.
Lemma rv_pairs dir n (R : nat -> nat -> Prop) : dir <> 0%Z ->
  ((forall j, (S j < n)%nat -> R (rv dir n j) (rv dir n (S j))) <->
   (forall j, (S j < n)%nat -> if (0 <? dir)%Z then R j (S j) else R (S j) j)).
Proof. intros Hd. destruct (rv_cases dir n Hd) as [[-> Er]|[-> Er]]; split; intros H j Hj.
  - specialize (H j Hj). rewrite !Er in H. exact H.
  - rewrite !Er. apply H; exact Hj.
  - specialize (H (n - 1 - S j)%nat ltac:(lia)). rewrite !Er in H.
    replace (n - 1 - (n - 1 - S j))%nat with (S j) in H by lia.
    replace (n - 1 - S (n - 1 - S j))%nat with j in H by lia. exact H.
  - rewrite !Er. replace (n - 1 - j)%nat with (S (n - 1 - S j)) by lia. apply H. lia. Qed.

(* the code's direction rule for unimodality: pairs with lower index i < size/2
   form the first part *)
Definition uni_inc (uni : Z) (n i : nat) : bool :=
  let first := (i <? n / 2)%nat in ((uni =? -1)%Z && first) || ((uni =? 1)%Z && negb first).
Definition unimodal_along (sh : list nat) (uni : Z) (d : nat) (f : tens) : Prop :=
  forall i, valid sh i -> (S (nth d i 0%nat) < nth d sh 0%nat)%nat ->
    if uni_inc uni (nth d sh 0%nat) (nth d i 0%nat)
    then f i <= f (upd i d (S (nth d i 0%nat))) else f (upd i d (S (nth d i 0%nat))) <= f i.

Definition pair_lo (mono uni : Z) (inc : bool) (lo hi : Q) : Q :=
  let avg := (lo + hi) * (1#2) in
  let lo1 := if (mono =? 1)%Z then qmin lo avg else lo in
  if (uni =? 0)%Z then lo1 else if inc then qmin lo1 avg else qmax lo1 avg.
Definition pair_hi (mono uni : Z) (inc : bool) (lo hi : Q) : Q :=
  let avg := (lo + hi) * (1#2) in
  let hi1 := if (mono =? 1)%Z then qmax hi avg else hi in
  if (uni =? 0)%Z then hi1 else if inc then qmax hi1 avg else qmin hi1 avg.
Definition mono_F (mono uni : Z) (n : nat) (x : idx) (i : nat) (lo hi : Q) (up : bool) : Q :=
  if up then pair_hi mono uni (uni_inc uni n i) lo hi else pair_lo mono uni (uni_inc uni n i) lo hi.
Definition mono_C (mono uni : Z) (n : nat) (x : idx) (i : nat) (lo hi : Q) : Prop :=
  (mono = 1%Z -> lo <= hi) /\ (uni <> 0%Z -> if uni_inc uni n i then lo <= hi else hi <= lo).
(* the constraint set of the group (d, g): every pair (i, i+1), i = g, g+2, ..., at
   every position of the other axes, is ordered as required *)
Definition mono_group_ok (sh : list nat) (mono uni : Z) (d g : nat) : tens -> Prop :=
  pr_ok sh d g (fun k => k) (mono_C mono uni (nth d sh 0%nat)).

Ltac mono_cases mono uni n i :=
  destruct (Z.eqb_spec mono 1); destruct (Z.eqb_spec uni 0); destruct (uni_inc uni n i); cbv beta iota zeta.

Lemma mono_rule mono uni n x i : nearest_rule2 (mono_C mono uni n x i) (mono_F mono uni n x i).
Proof. unfold mono_C, mono_F, pair_lo, pair_hi. split.
  - intros lo hi lo' hi' H1 H2 [A B]. split. intros E; specialize (A E); lra.
    intros E; specialize (B E). destruct (uni_inc uni n i); lra.
  - intros lo hi. split; intros E; mono_cases mono uni n i; try contradiction; qcases; lra.
  - intros lo hi zlo zhi [A B].
    mono_cases mono uni n i; try (specialize (A ltac:(assumption))); try (specialize (B ltac:(assumption)));
      cbv beta iota in *; qcases; first [nra | (assert (E : hi == lo) by lra; rewrite E; nra)]. Qed.

Lemma mono_group_bridge sh mono uni d g W :
  teq sh (mono_group sh mono uni d g W) (pr_op sh d g (fun k => k) (mono_F mono uni (nth d sh 0%nat)) W).
Proof. unfold mono_group, pr_op. cbv zeta. apply memo_teq_ext. intros x Hv.
  destruct (pair_pos g (nth d sh 0%nat) (nth d x 0%nat)) as [[i up]|]; [|reflexivity].
  rewrite Qred_correct. unfold mono_F, pair_lo, pair_hi, uni_inc. destruct up; reflexivity. Qed.

(* the monotonicity / unimodality group update is the nearest-point map onto
   the set of kernels whose pairs of this (dimension, group) are ordered *)
Theorem mono_group_nearest sh mono uni d g : (d < length sh)%nat ->
  nearest_map sh (mono_group_ok sh mono uni d g) (mono_group sh mono uni d g).
Proof. intros Hd. eapply nearest_map_ext. apply mono_group_bridge.
  apply (pr_op_nearest sh d g (fun k => k) Hd (id_lt _) (id_inv _)).
  - intros. reflexivity.
  - intros. apply mono_rule. Qed.
Theorem mono_group_is_proj sh mono uni d g : (d < length sh)%nat ->
  is_proj (all_idx sh) (mono_group_ok sh mono uni d g) (mono_group sh mono uni d g).
Proof. intros Hd. apply mono_group_nearest. exact Hd. Qed.

(* on all adjacent pairs the local constraint is monotonicity / unimodality along d *)
Lemma mono_pairs_iff sh mono uni d W : (d < length sh)%nat ->
  (pr_all sh d (fun k => k) (mono_C mono uni (nth d sh 0%nat)) W <->
   (mono = 1%Z -> mono_along sh d W) /\ (uni <> 0%Z -> unimodal_along sh uni d W)).
Proof. intros Hd. split.
  - intros H. split; intros E i Hv Hs; destruct (H i (nth d i 0%nat) Hv Hs) as [A B];
      rewrite upd_self in A, B; [apply A|apply B]; exact E.
  - intros [Hm Hu] b i Hb Hi.
    assert (Hv : valid sh (upd b d i)) by (apply upd_valid; [assumption|lia]).
    assert (En : nth d (upd b d i) 0%nat = i) by (apply nth_upd_same; rewrite (valid_length sh b Hb); exact Hd).
    split; intros E; [pose proof (Hm E _ Hv) as H|pose proof (Hu E _ Hv) as H];
      rewrite En, upd_upd in H; apply H; exact Hi. Qed.
Lemma mono_feasible_group_ok sh mono uni d g W : (d < length sh)%nat ->
  (mono = 1%Z -> mono_along sh d W) -> (uni <> 0%Z -> unimodal_along sh uni d W) ->
  mono_group_ok sh mono uni d g W.
Proof. intros Hd Hm Hu. apply pr_ok_intro. apply mono_pairs_iff; [exact Hd|split; assumption]. Qed.

Definition edge_F (a b c e : Q) (pa pb : bool) : Q :=
  let diff := (b - a) - (e - c) in
  let corr := qmax (quarter diff) 0 in
  if Bool.eqb pa pb then corner a b c e pa pb + corr else corner a b c e pa pb - corr.
Definition edge_C (a b c e : Q) : Prop := (b - a) - (e - c) <= 0.
(* the constraint set of the Edgeworth group (g0, g1) of trust t: the slope
   inequality on every square with lower corner (i, j), i = g0, g0+2, ...,
   j = g1, g1+2, ... (j counted on the reversed conditional axis for direction -1) *)
Definition edge_group_ok (sh : list nat) (t : trust) (g0 g1 : nat) : tens -> Prop :=
  let '(m, c, dir) := t in sq_ok sh m c g0 g1 (rv dir (nth c sh 0%nat)) edge_C.

Lemma edge_rule : nearest_rule4 edge_C edge_F.
Proof. split. all: unfold edge_C, edge_F, corner, quarter; cbn [Bool.eqb]; cbv zeta.
  - intros; lra.
  - intros. qcases; lra.
  - intros a b c e za zb zc ze H. qcases; nra. Qed.

Lemma edge_group_bridge sh m c dir g0 g1 W : (m < length sh)%nat -> (c < length sh)%nat ->
  teq sh (edge_group sh (m, c, dir) g0 g1 W) (sq_op sh m c g0 g1 (rv dir (nth c sh 0%nat)) edge_F W).
Proof. intros Hm Hc. unfold edge_group, sq_op. cbv zeta. apply memo_teq_ext. intros x Hv.
  destruct (pair_pos g0 (nth m sh 0%nat) (nth m x 0%nat)) as [[i pa]|] eqn:E1; [|reflexivity].
  destruct (pair_pos g1 (nth c sh 0%nat) (rv dir (nth c sh 0%nat) (nth c x 0%nat))) as [[j pb]|] eqn:E2; [|reflexivity].
  rewrite Qred_correct.
  destruct (sq_facts sh m c g0 g1 (rv dir (nth c sh 0%nat)) Hm Hc (rv_lt dir _) (rv_invol dir _) Hv E1 E2)
    as [[_ A4] [_ B4]].
  assert (Ex : at2 x m c (ofs pa i) (rv dir (nth c sh 0%nat) (ofs pb j)) = x) by (apply at2_eq_self; assumption).
  unfold edge_F, corner. destruct pa, pb; cbn [ofs Bool.eqb] in *; rewrite Ex; reflexivity. Qed.

(* the Edgeworth group update (coefficient 1/4 on each of the four corners) is
   the nearest-point map onto its group's constraint set *)
Theorem edge_group_nearest sh m c dir g0 g1 : m <> c -> (m < length sh)%nat -> (c < length sh)%nat ->
  nearest_map sh (edge_group_ok sh (m, c, dir) g0 g1) (edge_group sh (m, c, dir) g0 g1).
Proof. intros Hmc Hm Hc. eapply nearest_map_ext. intros y; apply edge_group_bridge; assumption.
  apply (sq_op_nearest sh m c g0 g1 _ Hmc Hm Hc (rv_lt dir _) (rv_invol dir _)).
  exact edge_rule. Qed.
Theorem edge_group_is_proj sh m c dir g0 g1 : m <> c -> (m < length sh)%nat -> (c < length sh)%nat ->
  is_proj (all_idx sh) (edge_group_ok sh (m, c, dir) g0 g1) (edge_group sh (m, c, dir) g0 g1).
Proof. intros Hmc Hm Hc. apply edge_group_nearest; assumption. Qed.

Lemma edge_squares_iff sh m c dir W : dir <> 0%Z ->
  (sq_all sh m c (rv dir (nth c sh 0%nat)) edge_C W <-> edgeworth_holds sh (m, c, dir) W).
Proof. intros Hdir.
  pose proof (fun b i => rv_pairs dir (nth c sh 0%nat) (fun j j' =>
    edge_C (W (at2 b m c i j)) (W (at2 b m c (S i) j)) (W (at2 b m c i j')) (W (at2 b m c (S i) j'))) Hdir) as K.
  split; intros H b i j Hb Hi Hj.
  - pose proof (proj1 (K b i) (fun j Hj => H b i j Hb Hi Hj) j Hj) as G. cbv beta in G.
    unfold edge_C, esq in *. destruct (0 <? dir)%Z; lra.
  - apply (proj2 (K b i)); [|exact Hj]. intros j' Hj'. pose proof (H b i j' Hb Hi Hj') as G.
    unfold edge_C, esq in *. destruct (0 <? dir)%Z; lra. Qed.
Lemma edge_feasible_group_ok sh m c dir g0 g1 W : dir <> 0%Z ->
  edgeworth_holds sh (m, c, dir) W -> edge_group_ok sh (m, c, dir) g0 g1 W.
Proof. intros Hdir H. apply sq_ok_intro. apply edge_squares_iff; assumption. Qed.

Definition trap_F (m mx : nat) (x : idx) (j : nat) (lo hi : Q) (up : bool) : Q :=
  let a := nth m x 0%nat in
  if (a =? 0)%nat then let corr := qmax ((hi - lo) * (1#2)) 0 in (if up then hi - corr else lo + corr)
  else if (a =? mx)%nat then let corr := qmax ((lo - hi) * (1#2)) 0 in (if up then hi + corr else lo - corr)
  else (if up then hi else lo).
Definition trap_C (m mx : nat) (x : idx) (j : nat) (lo hi : Q) : Prop :=
  let a := nth m x 0%nat in
  if (a =? 0)%nat then hi <= lo else if (a =? mx)%nat then lo <= hi else True.
(* constraint set of trapezoid group g of trust t: on the pairs (j, j+1),
   j = g, g+2, ... of the (possibly reversed) conditional axis, non-increasing at
   the lowest main index and non-decreasing at the highest *)
Definition trap_group_ok (sh : list nat) (t : trust) (g : nat) : tens -> Prop :=
  let '(m, c, dir) := t in pr_ok sh c g (rv dir (nth c sh 0%nat)) (trap_C m (nth m sh 0%nat - 1)).

Lemma trap_F_ctx m mx c x k j lo hi up : m <> c -> trap_F m mx (upd x c k) j lo hi up = trap_F m mx x j lo hi up.
Proof. intros H. unfold trap_F. rewrite nth_upd_other by auto. reflexivity. Qed.
Lemma trap_rule m mx x j : nearest_rule2 (trap_C m mx x j) (trap_F m mx x j).
Proof. split. all: unfold trap_C, trap_F; cbv zeta.
  - intros lo hi lo' hi' H1 H2. destruct (nth m x 0 =? 0)%nat; [|destruct (nth m x 0 =? mx)%nat]; intros; try lra; exact I.
  - intros lo hi. destruct (nth m x 0 =? 0)%nat; [|destruct (nth m x 0 =? mx)%nat]; try exact I; qcases; lra.
  - intros lo hi zlo zhi. destruct (nth m x 0 =? 0)%nat; [|destruct (nth m x 0 =? mx)%nat]; intros H; qcases; nra. Qed.

Lemma trap_group_bridge sh m c dir g W : (c < length sh)%nat ->
  teq sh (trap_group sh (m, c, dir) g W) (pr_op sh c g (rv dir (nth c sh 0%nat)) (trap_F m (nth m sh 0%nat - 1)) W).
Proof. intros Hc. unfold trap_group, pr_op. cbv zeta. apply memo_teq_ext. intros x Hv.
  destruct (pair_pos g (nth c sh 0%nat) (rv dir (nth c sh 0%nat) (nth c x 0%nat))) as [[j up]|] eqn:Ep; [|reflexivity].
  destruct (pr_facts sh c g (rv dir (nth c sh 0%nat)) Hc (rv_lt dir _) (rv_invol dir _) Hv Ep) as [_ H4].
  assert (Ex : upd x c (rv dir (nth c sh 0%nat) (ofs up j)) = x) by (apply upd_eq_self; exact H4).
  unfold trap_F. cbv zeta.
  destruct (Nat.eqb_spec (nth m x 0%nat) 0) as [Ea|Ea].
  - rewrite Qred_correct. unfold at2. rewrite (upd_eq_self x m 0%nat Ea).
    destruct up; cbn [ofs] in Ex; rewrite Ex; reflexivity.
  - destruct (Nat.eqb_spec (nth m x 0%nat) (nth m sh 0 - 1)%nat) as [Eb|Eb].
    + rewrite Qred_correct. unfold at2. rewrite (upd_eq_self x m _ Eb).
      destruct up; cbn [ofs] in Ex; rewrite Ex; reflexivity.
    + destruct up; cbn [ofs] in Ex; rewrite Ex; reflexivity. Qed.

(* the trapezoid group update (halfway moves on the two extreme rows of the
   main axis) is the nearest-point map onto its group's constraint set *)
Theorem trap_group_nearest sh m c dir g : m <> c -> (c < length sh)%nat ->
  nearest_map sh (trap_group_ok sh (m, c, dir) g) (trap_group sh (m, c, dir) g).
Proof. intros Hmc Hc. eapply nearest_map_ext. intros y; apply trap_group_bridge; assumption.
  apply (pr_op_nearest sh c g _ Hc (rv_lt dir _) (rv_invol dir _)).
  - intros. apply trap_F_ctx. exact Hmc.
  - intros. apply trap_rule. Qed.
Theorem trap_group_is_proj sh m c dir g : m <> c -> (c < length sh)%nat ->
  is_proj (all_idx sh) (trap_group_ok sh (m, c, dir) g) (trap_group sh (m, c, dir) g).
Proof. intros Hmc Hc. apply trap_group_nearest; assumption. Qed.

(* trapezoid_holds says that every pair of columns (rv j, rv (j+1)) is ordered
   downwards in the lowest main row and upwards in the highest *)
Lemma trap_holds_rows sh m c dir W : dir <> 0%Z ->
  (trapezoid_holds sh (m, c, dir) W <->
   forall b, valid sh b -> forall j, (S j < nth c sh 0)%nat ->
     W (at2 b m c 0%nat (rv dir (nth c sh 0%nat) (S j))) <= W (at2 b m c 0%nat (rv dir (nth c sh 0%nat) j)) /\
     W (at2 b m c (nth m sh 0 - 1)%nat (rv dir (nth c sh 0%nat) j)) <= W (at2 b m c (nth m sh 0 - 1)%nat (rv dir (nth c sh 0%nat) (S j)))).
Proof. intros Hdir.
  pose proof (fun b => rv_pairs dir (nth c sh 0%nat) (fun j j' =>
    W (at2 b m c 0%nat j') <= W (at2 b m c 0%nat j) /\
    W (at2 b m c (nth m sh 0 - 1)%nat j) <= W (at2 b m c (nth m sh 0 - 1)%nat j')) Hdir) as K.
  split.
  - intros H b Hb. apply (proj2 (K b)). intros j Hj. apply (H b j Hb Hj).
  - intros H b j Hb. revert j. apply (proj1 (K b)). apply H. exact Hb. Qed.
Lemma trap_feasible_group_ok sh m c dir g W : dir <> 0%Z ->
  trapezoid_holds sh (m, c, dir) W -> trap_group_ok sh (m, c, dir) g W.
Proof. intros Hdir H. apply pr_ok_intro. intros b j Hb Hj.
  destruct (proj1 (trap_holds_rows sh m c dir W Hdir) H b Hb j Hj) as [A B].
  unfold trap_C. cbv zeta. unfold at2 in A, B.
  destruct (Nat.eqb_spec (nth m b 0%nat) 0) as [E0|_]. rewrite (upd_eq_self b m _ E0) in A. exact A.
  destruct (Nat.eqb_spec (nth m b 0%nat) (nth m sh 0 - 1)%nat) as [E1|_]. rewrite (upd_eq_self b m _ E1) in B. exact B.
  exact I. Qed.
(* conversely (main axis of size >= 2, so that its lowest and highest row differ) *)
Lemma trap_pairs_holds sh m c dir W : (m < length sh)%nat -> (2 <= nth m sh 0)%nat -> dir <> 0%Z ->
  pr_all sh c (rv dir (nth c sh 0%nat)) (trap_C m (nth m sh 0 - 1)%nat) W -> trapezoid_holds sh (m, c, dir) W.
Proof. intros Hm Hsz Hdir H. apply trap_holds_rows. exact Hdir. intros b Hb j Hj.
  assert (En : forall k, nth m (upd b m k) 0%nat = k) by (intros k; apply nth_upd_same; rewrite (valid_length sh b Hb); exact Hm).
  split.
  - pose proof (H (upd b m 0%nat) j (upd_valid sh b m 0%nat Hb ltac:(lia)) Hj) as G.
    unfold trap_C in G. cbv zeta in G. rewrite En in G. exact G.
  - pose proof (H (upd b m (nth m sh 0 - 1)%nat) j (upd_valid sh b m (nth m sh 0 - 1)%nat Hb ltac:(lia)) Hj) as G.
    unfold trap_C in G. cbv zeta in G. rewrite En in G.
    destruct (Nat.eqb_spec (nth m sh 0 - 1)%nat 0); [lia|]. rewrite Nat.eqb_refl in G. exact G. Qed.

Definition mdom_holds (sh : list nat) (p q : nat) (f : tens) : Prop :=
  forall b i j, valid sh b -> (S i < nth p sh 0%nat)%nat -> (S j < nth q sh 0%nat)%nat ->
    (f (at2 b p q i j) + f (at2 b p q (S i) (S j))) * (1#2) <= f (at2 b p q (S i) j) /\
    f (at2 b p q i (S j)) <= (f (at2 b p q i j) + f (at2 b p q (S i) (S j))) * (1#2).

Definition mdom_F (g2 : bool) (a b c e : Q) (pa pb : bool) : Q :=
  let mid := (a + e) * (1#2) in
  if g2 then
    let corr := qmax (third (mid - b)) 0 in
    match pa, pb with
    | true, false => b + 2 * corr
    | false, false => a - corr
    | true, true => e - corr
    | false, true => c
    end
  else
    let corr := qmin (third (mid - c)) 0 in
    match pa, pb with
    | false, true => c + 2 * corr
    | false, false => a - corr
    | true, true => e - corr
    | true, false => b
    end.
Definition mdom_C (g2 : bool) (a b c e : Q) : Prop :=
  if g2 then (a + e) * (1#2) <= b else c <= (a + e) * (1#2).
(* constraint set of the group (g0, g1, g2): one triangle inequality per square *)
Definition mdom_group_ok (sh : list nat) (p q g0 g1 : nat) (g2 : bool) : tens -> Prop :=
  sq_ok sh p q g0 g1 (fun k => k) (mdom_C g2).

Lemma mdom_rule g2 : nearest_rule4 (mdom_C g2) (mdom_F g2).
Proof. split. all: unfold mdom_C, mdom_F, third; cbv zeta.
  - destruct g2; intros; lra.
  - intros. destruct g2; qcases; lra.
  - intros a b c e za zb zc ze H. destruct g2; qcases; nra. Qed.

Lemma mdom_group_bridge sh p q g0 g1 g2 W : (p < length sh)%nat -> (q < length sh)%nat ->
  teq sh (mdom_group sh p q g0 g1 g2 W) (sq_op sh p q g0 g1 (fun k => k) (mdom_F g2) W).
Proof. intros Hp Hq. unfold mdom_group, sq_op. cbv zeta. apply memo_teq_ext. intros x Hv.
  destruct (pair_pos g0 (nth p sh 0%nat) (nth p x 0%nat)) as [[i pa]|] eqn:E1; [|reflexivity].
  destruct (pair_pos g1 (nth q sh 0%nat) (nth q x 0%nat)) as [[j pb]|] eqn:E2; [|reflexivity].
  destruct (sq_facts sh p q g0 g1 (fun k => k) Hp Hq (id_lt _) (id_inv _) Hv E1 E2) as [[_ A4] [_ B4]].
  assert (Ex : at2 x p q (ofs pa i) (ofs pb j) = x) by (apply at2_eq_self; assumption).
  unfold mdom_F. destruct g2, pa, pb; cbn [ofs] in *; try rewrite Qred_correct; rewrite Ex; reflexivity. Qed.

(* the monotonic-dominance group update (2/3 on the right-angle vertex, 1/3 on
   the two others) is the nearest-point map onto its group's constraint set *)
Theorem mdom_group_nearest sh p q g0 g1 g2 : p <> q -> (p < length sh)%nat -> (q < length sh)%nat ->
  nearest_map sh (mdom_group_ok sh p q g0 g1 g2) (mdom_group sh p q g0 g1 g2).
Proof. intros Hpq Hp Hq. eapply nearest_map_ext. intros y; apply mdom_group_bridge; assumption.
  apply (sq_op_nearest sh p q g0 g1 _ Hpq Hp Hq (id_lt _) (id_inv _)).
  apply mdom_rule. Qed.
Theorem mdom_group_is_proj sh p q g0 g1 g2 : p <> q -> (p < length sh)%nat -> (q < length sh)%nat ->
  is_proj (all_idx sh) (mdom_group_ok sh p q g0 g1 g2) (mdom_group sh p q g0 g1 g2).
Proof. intros Hpq Hp Hq. apply mdom_group_nearest; assumption. Qed.

Lemma mdom_squares_iff sh p q W :
  (forall g2, sq_all sh p q (fun k => k) (mdom_C g2) W) <-> mdom_holds sh p q W.
Proof. split.
  - intros H b i j Hb Hi Hj. split; [apply (H true)|apply (H false)]; assumption.
  - intros H g2 b i j Hb Hi Hj. destruct (H b i j Hb Hi Hj). destruct g2; assumption. Qed.
Lemma mdom_feasible_group_ok sh p q g0 g1 g2 W : mdom_holds sh p q W -> mdom_group_ok sh p q g0 g1 g2 W.
Proof. intros H. apply sq_ok_intro. apply mdom_squares_iff. exact H. Qed.

Definition jmono_holds (sh : list nat) (p q : nat) (f : tens) : Prop :=
  forall b i j, valid sh b -> (S i < nth p sh 0%nat)%nat -> (S j < nth q sh 0%nat)%nat ->
    (f (at2 b p q (S i) j) + f (at2 b p q i (S j))) * (1#2) <= f (at2 b p q (S i) (S j)) /\
    f (at2 b p q i j) <= (f (at2 b p q (S i) j) + f (at2 b p q i (S j))) * (1#2).

(* The rule is the monotonic-dominance rule with the corners rotated: the role
   of the square (00, 10, 01, 11) is played by (10, 11, 00, 01). *)
Definition jmono_F (g2 : bool) (a b c e : Q) (pa pb : bool) : Q :=
  mdom_F g2 b e a c pb (negb pa).
Definition jmono_C (g2 : bool) (a b c e : Q) : Prop :=
  if g2 then (b + c) * (1#2) <= e else a <= (b + c) * (1#2).
Definition jmono_group_ok (sh : list nat) (p q g0 g1 : nat) (g2 : bool) : tens -> Prop :=
  sq_ok sh p q g0 g1 (fun k => k) (jmono_C g2).

Lemma jmono_rule g2 : nearest_rule4 (jmono_C g2) (jmono_F g2).
Proof. destruct (mdom_rule g2) as [Hc Hin Hvi]. split.
  - intros a b c e a' b' c' e' Ha Hb Hc' He. exact (Hc b e a c b' e' a' c' Hb He Ha Hc').
  - intros a b c e. exact (Hin b e a c).
  - intros a b c e za zb zc ze H. pose proof (Hvi b e a c zb ze za zc H) as G. unfold jmono_F. cbn [negb]. lra. Qed.

Lemma jmono_group_bridge sh p q g0 g1 g2 W : (p < length sh)%nat -> (q < length sh)%nat ->
  teq sh (jmono_group sh p q g0 g1 g2 W) (sq_op sh p q g0 g1 (fun k => k) (jmono_F g2) W).
Proof. intros Hp Hq. unfold jmono_group, sq_op. cbv zeta. apply memo_teq_ext. intros x Hv.
  destruct (pair_pos g0 (nth p sh 0%nat) (nth p x 0%nat)) as [[i pa]|] eqn:E1; [|reflexivity].
  destruct (pair_pos g1 (nth q sh 0%nat) (nth q x 0%nat)) as [[j pb]|] eqn:E2; [|reflexivity].
  destruct (sq_facts sh p q g0 g1 (fun k => k) Hp Hq (id_lt _) (id_inv _) Hv E1 E2) as [[_ A4] [_ B4]].
  assert (Ex : at2 x p q (ofs pa i) (ofs pb j) = x) by (apply at2_eq_self; assumption).
  unfold jmono_F. destruct g2, pa, pb; cbn [ofs] in *; try rewrite Qred_correct; rewrite Ex; reflexivity. Qed.

(* the joint-monotonicity group update is the nearest-point map onto its
   group's constraint set *)
Theorem jmono_group_nearest sh p q g0 g1 g2 : p <> q -> (p < length sh)%nat -> (q < length sh)%nat ->
  nearest_map sh (jmono_group_ok sh p q g0 g1 g2) (jmono_group sh p q g0 g1 g2).
Proof. intros Hpq Hp Hq. eapply nearest_map_ext. intros y; apply jmono_group_bridge; assumption.
  apply (sq_op_nearest sh p q g0 g1 _ Hpq Hp Hq (id_lt _) (id_inv _)).
  apply jmono_rule. Qed.
Theorem jmono_group_is_proj sh p q g0 g1 g2 : p <> q -> (p < length sh)%nat -> (q < length sh)%nat ->
  is_proj (all_idx sh) (jmono_group_ok sh p q g0 g1 g2) (jmono_group sh p q g0 g1 g2).
Proof. intros Hpq Hp Hq. apply jmono_group_nearest; assumption. Qed.

Lemma jmono_squares_iff sh p q W :
  (forall g2, sq_all sh p q (fun k => k) (jmono_C g2) W) <-> jmono_holds sh p q W.
Proof. split.
  - intros H b i j Hb Hi Hj. split; [apply (H true)|apply (H false)]; assumption.
  - intros H g2 b i j Hb Hi Hj. destruct (H b i j Hb Hi Hj). destruct g2; assumption. Qed.
Lemma jmono_feasible_group_ok sh p q g0 g1 g2 W : jmono_holds sh p q W -> jmono_group_ok sh p q g0 g1 g2 W.
Proof. intros H. apply sq_ok_intro. apply jmono_squares_iff. exact H. Qed.

(* range dominance: feasible => fixed, properness *)
Definition rdom_holds (sh : list nat) (p q : nat) (f : tens) : Prop :=
  forall b i j, valid sh b -> (i < nth p sh 0%nat)%nat -> (j < nth q sh 0%nat)%nat ->
    (f (at2 b p q i (nth q sh 0%nat - 1)) - f (at2 b p q i 0%nat)) -
    (f (at2 b p q (nth p sh 0%nat - 1) j) - f (at2 b p q 0%nat j)) <= 0.

Ltac destruct_ifs := repeat match goal with |- context [if ?b then _ else _] => destruct b end.

(* The update adds to W x a position-dependent multiple (0, +-1) of a
   correction that depends on W only through the violation D of the group's
   inequality; so it is enough to compare the corrections before the positions
   are told apart. *)
Lemma rdom_group_fixed sh p q i j W : (i < nth p sh 0%nat)%nat -> (j < nth q sh 0%nat)%nat ->
  rdom_holds sh p q W -> teq sh (rdom_group sh p q i j W) W.
Proof. intros Hi Hj Hok x Hv. unfold rdom_group. cbv zeta. rewrite memo_ok by assumption.
  pose proof (Hok x i j Hv Hi Hj) as Hd.
  set (D := (W (at2 x p q i (nth q sh 0%nat - 1)) - W (at2 x p q i 0%nat)) -
            (W (at2 x p q (nth p sh 0%nat - 1) j) - W (at2 x p q 0%nat j))) in *.
  assert (Z2 : qmax (D * (1#2)) 0 == 0) by (qcases; lra).
  assert (Z4 : qmax (quarter D) 0 == 0) by (unfold quarter; qcases; lra).
  set (c2 := qmax (D * (1#2)) 0) in *. set (c4 := qmax (quarter D) 0) in *. clearbody c2 c4. clear Hd.
  destruct_ifs; rewrite Qred_correct; lra. Qed.

Lemma rdom_group_proper sh p q i j : (i < nth p sh 0%nat)%nat -> (j < nth q sh 0%nat)%nat ->
  op_proper sh (rdom_group sh p q i j).
Proof. intros Hi Hj W W' E. unfold rdom_group. cbv zeta. apply memo_teq_ext. intros x Hv.
  pose proof (E x Hv) as E0.
  set (D := (W (at2 x p q i (nth q sh 0%nat - 1)) - W (at2 x p q i 0%nat)) -
            (W (at2 x p q (nth p sh 0%nat - 1) j) - W (at2 x p q 0%nat j))).
  set (D' := (W' (at2 x p q i (nth q sh 0%nat - 1)) - W' (at2 x p q i 0%nat)) -
             (W' (at2 x p q (nth p sh 0%nat - 1) j) - W' (at2 x p q 0%nat j))).
  assert (Ed : D == D').
  { unfold D, D'. unfold teq in E. rewrite !E by (apply at2_valid; try assumption; lia). reflexivity. }
  assert (E2 : qmax (D * (1#2)) 0 == qmax (D' * (1#2)) 0) by (qcases; lra).
  assert (E4 : qmax (quarter D) 0 == qmax (quarter D') 0) by (unfold quarter; qcases; lra).
  set (c2 := qmax (D * (1#2)) 0) in *. set (c2' := qmax (D' * (1#2)) 0) in *.
  set (c4 := qmax (quarter D) 0) in *. set (c4' := qmax (quarter D') 0) in *.
  clearbody c2 c2' c4 c4'. clear Ed.
  destruct_ifs; rewrite !Qred_correct; lra. Qed.

(* joint unimodality: feasible => fixed, properness *)
Definition ju_eqn_of (vertex : list nat) (terms : list (nat * nat * Z)) : list (list nat * Q) :=
  map (fun t : nat * nat * Z => let '(k, nv, cf) := t in (upd vertex k nv, inject_Z cf)) terms
  ++ [(vertex, inject_Z (- fold_right Z.add 0%Z (map (fun t : nat * nat * Z => snd t) terms)))].
(* <hyperplane, affected weights> at the position x of the other axes *)
Definition ju_viol (dims : list nat) (eqn : list (list nat * Q)) (W : tens) (x : idx) : Q :=
  qsum (map (fun e : list nat * Q => W (set_coords x dims (fst e)) * snd e) eqn).
Definition ju_op (sh : list nat) (dims : list nat) (valley : bool) (eqn : list (list nat * Q)) : tens -> tens :=
  fun W => memo sh (fun x =>
    let viol := ju_viol dims eqn W x in
    let viol := if valley then qmin viol 0 else qmax viol 0 in
    let cf := viol / qsum (map (fun e : list nat * Q => snd e * snd e) eqn) in
    match find (fun e : list nat * Q => coords_eqb x dims (fst e)) eqn with
    | Some e => Qred (W x - cf * snd e)
    | None => W x
    end).

Lemma junimod_group_some {sh dims valley vertex offs f} :
  junimod_group sh dims valley vertex offs = Some f ->
  exists terms,
    ju_terms (map (fun d => nth d sh 0%nat) dims) (map (fun s => (s / 2)%nat) (map (fun d => nth d sh 0%nat) dims)) vertex offs 0 = Some terms /\
    f = ju_op sh dims valley (ju_eqn_of vertex terms).
Proof. unfold junimod_group. cbv zeta.
  destruct (forallb _ _); [discriminate|].
  destruct (ju_terms _ _ vertex offs 0) as [[|t terms]|] eqn:E; try discriminate.
  intros H. inversion H. exists (t :: terms). split; reflexivity. Qed.

(* the joint-unimodality inequalities: every hyperplane the code projects onto
   (vertex / offsets enumeration of project_by_dykstra), at every position *)
Definition junimod_holds (sh : list nat) (dims : list nat) (valley : bool) (W : tens) : Prop :=
  let sizes := map (fun d => nth d sh 0%nat) dims in
  let centre := map (fun s => (s / 2)%nat) sizes in
  forall vertex offs terms, In vertex (all_vertices sizes) -> In offs (all_offsets (length dims)) ->
    ju_terms sizes centre vertex offs 0 = Some terms ->
    forall x, valid sh x ->
      if valley then 0 <= ju_viol dims (ju_eqn_of vertex terms) W x else ju_viol dims (ju_eqn_of vertex terms) W x <= 0.

Lemma ju_op_fixed sh dims (valley : bool) eqn W :
  (forall x, valid sh x -> if valley then 0 <= ju_viol dims eqn W x else ju_viol dims eqn W x <= 0) ->
  teq sh (ju_op sh dims valley eqn W) W.
Proof. intros H x Hv. unfold ju_op. rewrite memo_ok by assumption. cbv zeta. specialize (H x Hv).
  set (v := ju_viol dims eqn W x) in *.
  destruct (find _ eqn) as [e|]; [|reflexivity]. rewrite Qred_correct.
  destruct valley.
  - assert (Z : qmin v 0 == 0) by (qcases; lra). rewrite Z. unfold Qdiv. ring.
  - assert (Z : qmax v 0 == 0) by (qcases; lra). rewrite Z. unfold Qdiv. ring. Qed.

Lemma set_coords_valid sh : forall dims v x, valid sh x ->
  valid (map (fun d => nth d sh 0%nat) dims) v -> valid sh (set_coords x dims v).
Proof. induction dims as [|d dims IH]; intros v x Hx Hv; cbn [map] in Hv; inversion Hv; subst; cbn [set_coords]. exact Hx.
  apply IH. apply upd_valid; assumption. assumption. Qed.

Lemma ju_terms_range : forall sizes centre vertex offs k terms,
  ju_terms sizes centre vertex offs k = Some terms ->
  forall k' nv cf, In (k', nv, cf) terms -> (k <= k')%nat /\ (nv < nth (k' - k) sizes 0)%nat.
Proof. induction sizes as [|s sizes IH]; intros centre vertex offs k terms H k' nv cf Hin.
  - cbn [ju_terms] in H. inversion H; subst. destruct Hin.
  - destruct centre as [|c centre], vertex as [|v vertex], offs as [|o offs]; cbn [ju_terms] in H;
      try (inversion H; subst; destruct Hin; fail).
    destruct (ju_terms sizes centre vertex offs (S k)) as [rest|] eqn:E; [|discriminate].
    assert (Hrest : In (k', nv, cf) rest -> (k <= k')%nat /\ (nv < nth (k' - k) (s :: sizes) 0)%nat).
    { intros Hr. destruct (IH _ _ _ _ _ E k' nv cf Hr) as [H1 H2]. split. lia.
      replace (k' - k)%nat with (S (k' - S k)) by lia. exact H2. }
    destruct ((Z.of_nat v - Z.of_nat c =? 0)%Z). inversion H; subst. apply Hrest; assumption.
    destruct (((Z.of_nat v + (if o then 1 else -1) <? 0) || (Z.of_nat s <=? Z.of_nat v + (if o then 1 else -1)))%Z) eqn:Eb; [discriminate|].
    inversion H; subst. destruct Hin as [Hin|Hin]; [|apply Hrest; assumption].
    inversion Hin; subst. apply orb_false_elim in Eb. destruct Eb as [Eb1 Eb2].
    apply Z.ltb_ge in Eb1. apply Z.leb_gt in Eb2. split. lia.
    replace (k' - k')%nat with 0%nat by lia. cbn [nth]. lia. Qed.

Lemma ju_eqn_valid sizes vertex offs terms : valid sizes vertex ->
  ju_terms sizes (map (fun s => (s / 2)%nat) sizes) vertex offs 0 = Some terms ->
  forall e, In e (ju_eqn_of vertex terms) -> valid sizes (fst e).
Proof. intros Hv Ht e He. unfold ju_eqn_of in He. apply in_app_or in He. destruct He as [He|[<-|[]]]; [|exact Hv].
  apply in_map_iff in He. destruct He as [[[k nv] cf] [<- Hin]]. cbn [fst].
  destruct (ju_terms_range _ _ _ _ _ _ Ht k nv cf Hin) as [_ H2]. rewrite Nat.sub_0_r in H2.
  apply upd_valid; assumption. Qed.

Lemma ju_op_proper sh dims valley eqn :
  (forall e, In e eqn -> valid (map (fun d => nth d sh 0%nat) dims) (fst e)) ->
  op_proper sh (ju_op sh dims valley eqn).
Proof. intros Heq W W' E. unfold ju_op. apply memo_teq_ext. intros x Hv. cbv zeta.
  assert (Ev : ju_viol dims eqn W x == ju_viol dims eqn W' x).
  { unfold ju_viol. apply qsum_map_ext. intros e He. rewrite (E _ (set_coords_valid sh dims (fst e) x Hv (Heq e He))). reflexivity. }
  set (v := ju_viol dims eqn W x) in *. set (v' := ju_viol dims eqn W' x) in *.
  destruct (find (fun e : list nat * Q => coords_eqb x dims (fst e)) eqn) as [e|]; [|apply E; assumption]. rewrite !Qred_correct.
  destruct valley; rewrite Ev, (E x Hv); reflexivity. Qed.

Definition k_rank (c : dyk_cfg) : nat := length (k_sizes c).
Lemma k_rank_lt c d : (d < k_rank c)%nat -> (d < length (k_shape c))%nat.
Proof. unfold k_rank, k_shape. rewrite app_length. cbn. lia. Qed.

(* index validity of a configuration (what verify_hyperparameters guarantees):
   trust / dominance / joint-monotonicity pairs name two different lattice
   dimensions, trust directions are non-zero *)
Definition trust_idx_ok (c : dyk_cfg) (t : trust) : Prop :=
  let '(m, cd, dir) := t in (m < k_rank c)%nat /\ (cd < k_rank c)%nat /\ m <> cd /\ dir <> 0%Z.
Definition pair_idx_ok (c : dyk_cfg) (pq : nat * nat) : Prop :=
  (fst pq < k_rank c)%nat /\ (snd pq < k_rank c)%nat /\ fst pq <> snd pq.
Definition dyk_cfg_ok (c : dyk_cfg) : Prop :=
  (forall t, In t (k_edge c) -> trust_idx_ok c t) /\
  (forall t, In t (k_trap c) -> trust_idx_ok c t) /\
  (forall pq, In pq (k_mdom c) -> pair_idx_ok c pq) /\
  (forall pq, In pq (k_jmono c) -> pair_idx_ok c pq).

Definition dyk_feasible (c : dyk_cfg) (W : tens) : Prop :=
  let sh := k_shape c in
  (forall d, (d < k_rank c)%nat -> nth d (k_monos c) 0%Z = 1%Z -> mono_along sh d W) /\
  (forall d, (d < k_rank c)%nat -> nth d (k_unis c) 0%Z <> 0%Z -> unimodal_along sh (nth d (k_unis c) 0%Z) d W) /\
  (forall t, In t (k_edge c) -> edgeworth_holds sh t W) /\
  (forall t, In t (k_trap c) -> trapezoid_holds sh t W) /\
  (forall pq, In pq (k_mdom c) -> mdom_holds sh (fst pq) (snd pq) W) /\
  (forall pq, In pq (k_rdom c) -> rdom_holds sh (fst pq) (snd pq) W) /\
  (forall pq, In pq (k_jmono c) -> jmono_holds sh (fst pq) (snd pq) W) /\
  (forall ju, In ju (k_juni c) -> junimod_holds sh (fst ju) (snd ju) W).

(* The members of group_ops: the groups of the families whose update is a
   nearest-point map onto the set named by its key, and the others. *)
Inductive gop_exact (c : dyk_cfg) : key * (tens -> tens) -> Prop :=
| gop_mono d g : (d < k_rank c)%nat -> (g = 0 \/ g = 1)%nat -> (g + 1 < nth d (k_shape c) 0)%nat ->
    ((nth d (k_monos c) 0 =? 0)%Z && (nth d (k_unis c) 0 =? 0)%Z = false) ->
    gop_exact c ([0; zn d; zn g]%Z, mono_group (k_shape c) (nth d (k_monos c) 0%Z) (nth d (k_unis c) 0%Z) d g)
| gop_edge m cd dir g0 g1 : In (m, cd, dir) (k_edge c) -> (g0 = 0 \/ g0 = 1)%nat -> (g1 = 0 \/ g1 = 1)%nat ->
    (g0 < nth m (k_shape c) 0 - 1)%nat -> (g1 < nth cd (k_shape c) 0 - 1)%nat ->
    gop_exact c ([1; zn m; zn cd; dir; zn g0; zn g1]%Z, edge_group (k_shape c) (m, cd, dir) g0 g1)
| gop_trap m cd dir g : In (m, cd, dir) (k_trap c) -> (g = 0 \/ g = 1)%nat -> (g < nth cd (k_shape c) 0 - 1)%nat ->
    gop_exact c ([2; zn m; zn cd; dir; zn g]%Z, trap_group (k_shape c) (m, cd, dir) g)
| gop_mdom p q g0 g1 g2 : In (p, q) (k_mdom c) -> (g0 = 0 \/ g0 = 1)%nat -> (g1 = 0 \/ g1 = 1)%nat ->
    (g0 < nth p (k_shape c) 0 - 1)%nat -> (g1 < nth q (k_shape c) 0 - 1)%nat ->
    gop_exact c ([3; zn p; zn q; zn g0; zn g1; zb g2]%Z, mdom_group (k_shape c) p q g0 g1 g2)
| gop_jmono p q g0 g1 g2 : In (p, q) (k_jmono c) -> (g0 = 0 \/ g0 = 1)%nat -> (g1 = 0 \/ g1 = 1)%nat ->
    (g0 < nth p (k_shape c) 0 - 1)%nat -> (g1 < nth q (k_shape c) 0 - 1)%nat ->
    gop_exact c ([5; zn p; zn q; zn g0; zn g1; zb g2]%Z, jmono_group (k_shape c) p q g0 g1 g2).
Inductive gop_other (c : dyk_cfg) : key * (tens -> tens) -> Prop :=
| gop_rdom p q i j : In (p, q) (k_rdom c) -> (i < nth p (k_shape c) 0)%nat -> (j < nth q (k_shape c) 0)%nat ->
    gop_other c ([4; zn p; zn q; zn i; zn j]%Z, rdom_group (k_shape c) p q i j)
| gop_juni dims valley v o f : In (dims, valley) (k_juni c) ->
    In v (all_vertices (map (fun d => nth d (k_shape c) 0%nat) dims)) -> In o (all_offsets (length dims)) ->
    junimod_group (k_shape c) dims valley v o = Some f ->
    gop_other c ((6 :: zn (length dims) :: map zn dims ++ map zn v ++ map zb o)%Z, f).

(* the parity groups that group_ops enumerates *)
Definition G2 : list nat := [0; 1]%nat.
Definition G4 : list (nat * nat) := [(0, 0); (0, 1); (1, 0); (1, 1)]%nat.
Definition G8 : list (nat * nat * bool) :=
  [(0,0,false); (0,0,true); (0,1,false); (0,1,true); (1,0,false); (1,0,true); (1,1,false); (1,1,true)]%nat.
Lemma in_01 g : In g G2 <-> (g = 0 \/ g = 1)%nat.
Proof. cbn. intuition. Qed.
Lemma in_0011 g0 g1 : In (g0, g1) G4 <-> (g0 = 0 \/ g0 = 1)%nat /\ (g1 = 0 \/ g1 = 1)%nat.
Proof. cbn. split.
  - intros [E|[E|[E|[E|[]]]]]; inversion E; auto.
  - intros [[-> | ->] [-> | ->]]; auto. Qed.
Lemma in_000111 g0 g1 (g2 : bool) : In (g0, g1, g2) G8 <-> (g0 = 0 \/ g0 = 1)%nat /\ (g1 = 0 \/ g1 = 1)%nat.
Proof. cbn. split.
  - intros [E|[E|[E|[E|[E|[E|[E|[E|[]]]]]]]]]; inversion E; auto.
  - intros [[-> | ->] [-> | ->]]; destruct g2; auto 10. Qed.
Lemma orb_leb_false a b x y : ((a <=? x)%nat || (b <=? y)%nat = false) <-> (x < a /\ y < b)%nat.
Proof. rewrite orb_false_iff, !Nat.leb_gt. reflexivity. Qed.

Lemma in_guard {A} (b : bool) (y x : A) : In x (if b then [] else [y]) <-> b = false /\ x = y.
Proof. destruct b; cbn [In]; intuition congruence. Qed.

Lemma group_ops_gop c kop : In kop (group_ops c) <-> gop_exact c kop \/ gop_other c kop.
Proof. unfold group_ops. cbv zeta. split.
  - intros H. repeat (apply in_app_or in H; destruct H as [H|H]); apply in_flat_map in H.
    + destruct H as (d & Hd & H). apply in_seq in Hd.
      destruct ((nth d (k_monos c) 0 =? 0)%Z && (nth d (k_unis c) 0 =? 0)%Z) eqn:Emu; [destruct H|].
      apply in_flat_map in H. destruct H as (g & Hg & H). apply in_01 in Hg.
      apply in_guard in H. destruct H as [Eg ->]. apply Nat.leb_gt in Eg.
      left. apply gop_mono; try assumption. unfold k_rank; lia.
    + destruct H as ([[m cd] dir] & Ht & H). apply in_flat_map in H. destruct H as ([g0 g1] & Hg & H). apply in_0011 in Hg.
      apply in_guard in H. destruct H as [Eg ->]. apply orb_leb_false in Eg. left. apply gop_edge; tauto.
    + destruct H as ([[m cd] dir] & Ht & H). apply in_flat_map in H. destruct H as (g & Hg & H). apply in_01 in Hg.
      apply in_guard in H. destruct H as [Eg ->]. apply Nat.leb_gt in Eg. left. apply gop_trap; assumption.
    + destruct H as ([p q] & Ht & H). apply in_flat_map in H. destruct H as ([[g0 g1] g2] & Hg & H). apply in_000111 in Hg.
      apply in_guard in H. destruct H as [Eg ->]. apply orb_leb_false in Eg. left. apply gop_mdom; tauto.
    + destruct H as ([p q] & Ht & H). apply in_map_iff in H. destruct H as ([i j] & <- & Hij). cbn [snd fst].
      apply in_prod_iff in Hij. destruct Hij as [Hi Hj]. apply in_seq in Hi. apply in_seq in Hj.
      right. apply gop_rdom; try assumption; lia.
    + destruct H as ([p q] & Ht & H). apply in_flat_map in H. destruct H as ([[g0 g1] g2] & Hg & H). apply in_000111 in Hg.
      apply in_guard in H. destruct H as [Eg ->]. apply orb_leb_false in Eg. left. apply gop_jmono; tauto.
    + destruct H as ([dims valley] & Ht & H). apply in_flat_map in H. destruct H as (v & Hv & H).
      apply in_flat_map in H. destruct H as (o & Ho & H).
      destruct (junimod_group (k_shape c) dims valley v o) as [f|] eqn:Ef; [|destruct H].
      destruct H as [<-|[]]. right. apply (gop_juni c dims valley v o f); assumption.
  - intros [H|H]; destruct H.
    + apply in_or_app. left. apply in_flat_map. exists d. split. apply in_seq. unfold k_rank in *. lia.
      rewrite H2. apply in_flat_map. exists g. split. apply in_01; assumption.
      apply in_guard. split; [apply Nat.leb_gt; lia|reflexivity].
    + apply in_or_app. right. apply in_or_app. left. apply in_flat_map. exists (m, cd, dir). split. assumption.
      apply in_flat_map. exists (g0, g1). split. apply in_0011; tauto.
      apply in_guard. split; [apply orb_leb_false; tauto|reflexivity].
    + do 2 (apply in_or_app; right). apply in_or_app. left. apply in_flat_map. exists (m, cd, dir). split. assumption.
      apply in_flat_map. exists g. split. apply in_01; assumption.
      apply in_guard. split; [apply Nat.leb_gt; lia|reflexivity].
    + do 3 (apply in_or_app; right). apply in_or_app. left. apply in_flat_map. exists (p, q). split. assumption.
      apply in_flat_map. exists (g0, g1, g2). split. apply in_000111; tauto.
      apply in_guard. split; [apply orb_leb_false; tauto|reflexivity].
    + do 5 (apply in_or_app; right). apply in_or_app. left. apply in_flat_map. exists (p, q). split. assumption.
      apply in_flat_map. exists (g0, g1, g2). split. apply in_000111; tauto.
      apply in_guard. split; [apply orb_leb_false; tauto|reflexivity].
    + do 4 (apply in_or_app; right). apply in_or_app. left. apply in_flat_map. exists (p, q). split. assumption.
      apply in_map_iff. exists (i, j). split. reflexivity. apply in_prod_iff. split; apply in_seq; lia.
    + do 6 (apply in_or_app; right). apply in_flat_map. exists (dims, valley). split. assumption.
      apply in_flat_map. exists v. split. assumption.
      apply in_flat_map. exists o. split. assumption. rewrite H2. left; reflexivity.
Qed.

Lemma dyk_sweep_cons sh kop r st : dyk_sweep sh (kop :: r) st = dyk_sweep sh r (dyk_step sh st kop).
Proof. reflexivity. Qed.

Lemma sweep_get_other sh ops : forall st k, ~ In k (map fst ops) ->
  lc_get (snd (dyk_sweep sh ops st)) k = lc_get (snd st) k.
Proof. induction ops as [|[k' op] r IH]; intros [W lc] k Hk. reflexivity.
  rewrite dyk_sweep_cons. rewrite IH by (intros H; apply Hk; right; exact H).
  unfold dyk_step. cbv zeta. cbn [snd]. apply lc_get_set_other. intros ->. apply Hk. left. reflexivity. Qed.

(* invariant in the form used below: the sum ranges over the keys of the maps *)
Definition ops_sum (ops : list (key * (tens -> tens))) (lc : list (key * tens)) (x : idx) : Q :=
  qsum (map (fun k => lc_get lc k x) (map fst ops)).
Definition ops_inv (sh : list nat) (ops : list (key * (tens -> tens))) (W0 : tens) (st : tens * list (key * tens)) : Prop :=
  forall x, valid sh x -> fst st x == W0 x + ops_sum ops (snd st) x.
Lemma ops_inv_step sh ops W0 st kop : NoDup (map fst ops) -> In kop ops ->
  ops_inv sh ops W0 st -> ops_inv sh ops W0 (dyk_step sh st kop).
Proof. destruct st as [W lc], kop as [k op]. intros Hnd Hin H x Hv. specialize (H x Hv).
  destruct (dyk_step_spec sh W lc k op) as (rolled & new & -> & Hr & Hn). cbn [fst snd] in *. unfold ops_sum in *.
  rewrite (qsum_update (map fst ops) (fun k' => lc_get lc k' x) (fun k' => lc_get (lc_set lc k new) k' x) k Hnd (in_map fst _ _ Hin)).
  - cbv beta. rewrite lc_get_set_same, (Hn x Hv). unfold vsub. rewrite (Hr x Hv). unfold vsub. lra.
  - intros k' _ Hne. cbv beta. rewrite lc_get_set_other by exact Hne. reflexivity. Qed.
Lemma ops_inv_loop sh ops W0 n : NoDup (map fst ops) ->
  forall st, ops_inv sh ops W0 st -> ops_inv sh ops W0 (dyk_loop sh ops n st).
Proof. intros Hnd.
  assert (Hsweep : forall l, incl l ops -> forall st, ops_inv sh ops W0 st -> ops_inv sh ops W0 (dyk_sweep sh l st)).
  { induction l as [|kop l IH]; intros Hl st H. exact H.
    rewrite dyk_sweep_cons. apply IH. intros a Ha; apply Hl; right; exact Ha.
    apply ops_inv_step; try assumption. apply Hl. left; reflexivity. }
  induction n as [|n IH]; intros st H; cbn [dyk_loop]. exact H. apply IH, Hsweep. apply incl_refl. exact H. Qed.
Lemma ops_inv_init sh ops W0 : ops_inv sh ops W0 (W0, []).
Proof. intros x _. cbn [fst snd]. unfold ops_sum. rewrite qsum_map_zero by (intros; reflexivity). lra. Qed.

Section SweepFix.
Variables (sh : list nat) (W : tens) (lc : list (key * tens)).
Lemma sweep_fix_aux : forall ops Wc lcc,
  NoDup (map fst ops) ->
  (forall kop, In kop ops -> op_proper sh (snd kop)) ->
  teq sh Wc W ->
  (forall kop, In kop ops -> teq sh (lc_get lcc (fst kop)) (lc_get lc (fst kop))) ->
  (forall kop, In kop ops -> teq sh (lc_get (snd (dyk_sweep sh ops (Wc, lcc))) (fst kop)) (lc_get lc (fst kop))) ->
  (forall kop, In kop ops -> teq sh (snd kop (vsub W (lc_get lc (fst kop)))) W) /\
  teq sh (fst (dyk_sweep sh ops (Wc, lcc))) W.
Proof. induction ops as [|[k op] r IH]; intros Wc lcc Hnd Hp HW Hlc Hfix.
  - split. intros kop []. exact HW.
  - cbn [map fst] in Hnd. inversion Hnd as [|? ? Hnotin Hnd']; subst.
    rewrite dyk_sweep_cons in Hfix |- *.
    destruct (dyk_step_spec sh Wc lcc k op) as (rolled & new & Est & Hr0 & Hn). rewrite Est in Hfix |- *.
    set (W1 := op rolled) in *.
    assert (Hnew : teq sh new (lc_get lc k)).
    { pose proof (Hfix (k, op) (or_introl eq_refl)) as H. cbn [fst] in H.
      rewrite sweep_get_other in H by exact Hnotin. cbn [snd] in H. rewrite lc_get_set_same in H. exact H. }
    assert (Hk : teq sh (lc_get lcc k) (lc_get lc k)) by (apply (Hlc (k, op)); left; reflexivity).
    assert (Hr : teq sh rolled (vsub W (lc_get lc k))).
    { intros x Hx. rewrite (Hr0 x Hx). unfold vsub. rewrite (HW x Hx), (Hk x Hx). reflexivity. }
    assert (HW1 : teq sh W1 W).
    { intros x Hx. pose proof (Hnew x Hx) as H. rewrite (Hn x Hx) in H.
      pose proof (Hr x Hx) as H2. unfold vsub in H, H2. lra. }
    destruct (IH W1 (lc_set lcc k new) Hnd' (fun kop H => Hp kop (or_intror H)) HW1) as [IH1 IH2].
    + intros kop Hin. rewrite lc_get_set_other. apply Hlc; right; assumption.
      intros E. apply Hnotin. rewrite <- E. apply in_map; assumption.
    + intros kop Hin. apply Hfix. right; assumption.
    + split; [|exact IH2]. intros kop [<-|Hin]; [|apply IH1; assumption]. cbn [fst snd].
      eapply teq_trans; [|exact HW1]. apply (Hp (k, op) (or_introl eq_refl)). apply teq_sym; exact Hr.
Qed.
End SweepFix.

(* Fixpoint => nearest for the model's sweep: distinct keys, every map a
   nearest-point map onto the set named by its key; a state that satisfies the
   increment-sum invariant and whose stored changes are reproduced by one more
   sweep is the nearest point of the intersection of the sets to W0. *)
Theorem dyk_sweep_fixpoint_nearest sh (ops : list (key * (tens -> tens))) (Cof : key -> tens -> Prop) (W0 W : tens) lc :
  NoDup (map fst ops) ->
  (forall kop, In kop ops ->
     is_proj (all_idx sh) (Cof (fst kop)) (snd kop) /\ op_proper sh (snd kop) /\
     (forall f g, teq sh f g -> Cof (fst kop) f -> Cof (fst kop) g)) ->
  ops_inv sh ops W0 (W, lc) ->
  (forall kop, In kop ops -> teq sh (lc_get (snd (dyk_sweep sh ops (W, lc))) (fst kop)) (lc_get lc (fst kop))) ->
  teq sh (fst (dyk_sweep sh ops (W, lc))) W /\
  (forall kop, In kop ops -> Cof (fst kop) W) /\
  (forall z, (forall kop, In kop ops -> Cof (fst kop) z) ->
     ip (all_idx sh) (vsub W0 W) (vsub z W) <= 0 /\
     ip (all_idx sh) (vsub W0 W) (vsub W0 W) <= ip (all_idx sh) (vsub W0 z) (vsub W0 z)).
Proof. intros Hnd Hops Hinv Hfix.
  destruct (sweep_fix_aux sh W lc ops W lc Hnd (fun kop H => proj1 (proj2 (Hops kop H))) (teq_refl sh W)
              (fun kop _ => teq_refl sh _) Hfix) as [Hsteps HW].
  set (sl := map (fun kop : key * (tens -> tens) => mkSlot (Cof (fst kop)) (snd kop) (lc_get lc (fst kop))) ops).
  destruct (step_fixpoints_nearest (all_idx sh) sl W0 W) as [HC Hvi].
  - intros s Hs. apply in_map_iff in Hs. destruct Hs as [kop [<- Hin]]. cbn [s_C s_P]. apply (Hops kop Hin).
  - intros s Hs f g' E. apply in_map_iff in Hs. destruct Hs as [kop [<- Hin]]. cbn [s_C].
    apply (proj2 (proj2 (Hops kop Hin))). apply teq_veq. exact E.
  - intros s Hs. apply in_map_iff in Hs. destruct Hs as [kop [<- Hin]]. cbn [s_P s_e]. apply teq_veq. apply Hsteps. exact Hin.
  - apply teq_veq. intros x Hx. rewrite (Hinv x Hx). cbn [fst snd]. unfold vadd, vsum, sl, ops_sum. rewrite !map_map. cbn [s_e]. reflexivity.
  - split. exact HW. split.
    + intros kop Hin. apply (HC (mkSlot (Cof (fst kop)) (snd kop) (lc_get lc (fst kop)))). unfold sl. apply in_map_iff. exists kop. split; [reflexivity|exact Hin].
    + intros z Hz.
      assert (Hz' : forall s, In s sl -> s_C s z).
      { intros s Hs. apply in_map_iff in Hs. destruct Hs as [kop [<- Hin]]. cbn [s_C]. apply Hz; exact Hin. }
      split. apply Hvi; exact Hz'. apply vi_nearest. apply Hvi; exact Hz'. Qed.

Theorem dyk_loop_fixpoint_nearest sh (ops : list (key * (tens -> tens))) (Cof : key -> tens -> Prop) (W0 : tens) (n : nat) :
  NoDup (map fst ops) ->
  (forall kop, In kop ops ->
     is_proj (all_idx sh) (Cof (fst kop)) (snd kop) /\ op_proper sh (snd kop) /\
     (forall f g, teq sh f g -> Cof (fst kop) f -> Cof (fst kop) g)) ->
  let st := dyk_loop sh ops n (W0, []) in
  (forall kop, In kop ops -> teq sh (lc_get (snd (dyk_sweep sh ops st)) (fst kop)) (lc_get (snd st) (fst kop))) ->
  teq sh (fst (dyk_sweep sh ops st)) (fst st) /\
  (forall kop, In kop ops -> Cof (fst kop) (fst st)) /\
  (forall z, (forall kop, In kop ops -> Cof (fst kop) z) ->
     ip (all_idx sh) (vsub W0 (fst st)) (vsub z (fst st)) <= 0 /\
     ip (all_idx sh) (vsub W0 (fst st)) (vsub W0 (fst st)) <= ip (all_idx sh) (vsub W0 z) (vsub W0 z)).
Proof. intros Hnd Hops st Hfix.
  pose proof (ops_inv_loop sh ops W0 n Hnd _ (ops_inv_init sh ops W0)) as Hinv. fold st in Hinv.
  destruct st as [W lc] eqn:Est. cbn [fst snd] in *.
  apply (dyk_sweep_fixpoint_nearest sh ops Cof W0 W lc Hnd Hops Hinv Hfix). Qed.

(* the constraint set named by a key (families whose group update is proved to
   be a nearest-point map; other keys: no constraint) *)
Definition key_set (c : dyk_cfg) (k : key) : tens -> Prop :=
  let sh := k_shape c in
  match k with
  | [0; d; g]%Z =>
      mono_group_ok sh (nth (Z.to_nat d) (k_monos c) 0%Z) (nth (Z.to_nat d) (k_unis c) 0%Z) (Z.to_nat d) (Z.to_nat g)
  | [1; m; cd; dir; g0; g1]%Z => edge_group_ok sh (Z.to_nat m, Z.to_nat cd, dir) (Z.to_nat g0) (Z.to_nat g1)
  | [2; m; cd; dir; g]%Z => trap_group_ok sh (Z.to_nat m, Z.to_nat cd, dir) (Z.to_nat g)
  | [3; p; q; g0; g1; g2]%Z => mdom_group_ok sh (Z.to_nat p) (Z.to_nat q) (Z.to_nat g0) (Z.to_nat g1) (g2 =? 1)%Z
  | [5; p; q; g0; g1; g2]%Z => jmono_group_ok sh (Z.to_nat p) (Z.to_nat q) (Z.to_nat g0) (Z.to_nat g1) (g2 =? 1)%Z
  | _ => fun _ => True
  end.

Lemma key_set_mono c d g : key_set c [0; zn d; zn g]%Z =
  mono_group_ok (k_shape c) (nth d (k_monos c) 0%Z) (nth d (k_unis c) 0%Z) d g.
Proof. unfold key_set, zn. cbv beta iota zeta. rewrite !Nat2Z.id. reflexivity. Qed.
Lemma key_set_edge c m cd dir g0 g1 : key_set c [1; zn m; zn cd; dir; zn g0; zn g1]%Z = edge_group_ok (k_shape c) (m, cd, dir) g0 g1.
Proof. unfold key_set, zn. cbv beta iota zeta. rewrite !Nat2Z.id. reflexivity. Qed.
Lemma key_set_trap c m cd dir g : key_set c [2; zn m; zn cd; dir; zn g]%Z = trap_group_ok (k_shape c) (m, cd, dir) g.
Proof. unfold key_set, zn. cbv beta iota zeta. rewrite !Nat2Z.id. reflexivity. Qed.
Lemma zb_eqb g2 : (zb g2 =? 1)%Z = g2.
Proof. destruct g2; reflexivity. Qed.
Lemma key_set_mdom c p q g0 g1 g2 : key_set c [3; zn p; zn q; zn g0; zn g1; zb g2]%Z = mdom_group_ok (k_shape c) p q g0 g1 g2.
Proof. unfold key_set, zn. cbv beta iota zeta. rewrite !Nat2Z.id, zb_eqb. reflexivity. Qed.
Lemma key_set_jmono c p q g0 g1 g2 : key_set c [5; zn p; zn q; zn g0; zn g1; zb g2]%Z = jmono_group_ok (k_shape c) p q g0 g1 g2.
Proof. unfold key_set, zn. cbv beta iota zeta. rewrite !Nat2Z.id, zb_eqb. reflexivity. Qed.

(* the six exact families: no range dominance, no joint unimodality *)
Definition exact_families (c : dyk_cfg) : Prop := k_rdom c = [] /\ k_juni c = [].

Lemma gop_exact_nearest c kop : dyk_cfg_ok c -> gop_exact c kop ->
  nearest_map (k_shape c) (key_set c (fst kop)) (snd kop).
Proof. intros (Oe & Ot & Om & Oj) H. destruct H; cbn [fst snd].
  - rewrite key_set_mono. apply mono_group_nearest, k_rank_lt; assumption.
  - destruct (Oe _ H) as (H4 & H5 & H6 & H7). rewrite key_set_edge.
    apply edge_group_nearest; try apply k_rank_lt; assumption.
  - destruct (Ot _ H) as (H4 & H5 & H6 & H7). rewrite key_set_trap.
    apply trap_group_nearest; try apply k_rank_lt; assumption.
  - destruct (Om _ H) as (H4 & H5 & H6). cbn [fst snd] in *. rewrite key_set_mdom.
    apply mdom_group_nearest; try apply k_rank_lt; assumption.
  - destruct (Oj _ H) as (H4 & H5 & H6). cbn [fst snd] in *. rewrite key_set_jmono.
    apply jmono_group_nearest; try apply k_rank_lt; assumption. Qed.
Lemma gop_exact_feasible c z kop : dyk_cfg_ok c -> dyk_feasible c z -> gop_exact c kop -> key_set c (fst kop) z.
Proof. intros (Oe & Ot & Om & Oj) (Fm & Fu & Fe & Ft & Fd & Fr & Fj & Fju) H. destruct H; cbn [fst snd].
  - rewrite key_set_mono. apply mono_feasible_group_ok. apply k_rank_lt; assumption.
    apply Fm; assumption. apply Fu; assumption.
  - rewrite key_set_edge. destruct (Oe _ H) as (H4 & H5 & H6 & H7). apply edge_feasible_group_ok. assumption. apply Fe; assumption.
  - rewrite key_set_trap. destruct (Ot _ H) as (H4 & H5 & H6 & H7). apply trap_feasible_group_ok. assumption. apply Ft; assumption.
  - rewrite key_set_mdom. apply mdom_feasible_group_ok. apply (Fd _ H).
  - rewrite key_set_jmono. apply jmono_feasible_group_ok. apply (Fj _ H). Qed.
Lemma gop_other_exact c kop : exact_families c -> gop_other c kop -> False.
Proof. intros [Er Eju] H. destruct H as [p q i j H|dims valley v o f H]; [rewrite Er in H|rewrite Eju in H]; destruct H. Qed.

Lemma group_ops_exact c : dyk_cfg_ok c -> exact_families c ->
  forall kop, In kop (group_ops c) ->
    is_proj (all_idx (k_shape c)) (key_set c (fst kop)) (snd kop) /\ op_proper (k_shape c) (snd kop) /\
    (forall f g, teq (k_shape c) f g -> key_set c (fst kop) f -> key_set c (fst kop) g).
Proof. intros Hok Hex kop Hin. apply group_ops_gop in Hin. destruct Hin as [H|H]; [|destruct (gop_other_exact c kop Hex H)].
  pose proof (gop_exact_nearest c kop Hok H) as HN.
  exact (conj (proj1 HN) (conj (nearest_map_proper HN) (proj2 HN))). Qed.

Lemma feasible_key_sets c z : dyk_cfg_ok c -> dyk_feasible c z ->
  forall kop, In kop (group_ops c) -> key_set c (fst kop) z.
Proof. intros Hok Hf kop Hin. apply group_ops_gop in Hin. destruct Hin as [H|H].
  apply gop_exact_feasible; assumption. destruct H; exact I. Qed.

Lemma group_ops_ok c W : dyk_cfg_ok c -> dyk_feasible c W ->
  forall kop, In kop (group_ops c) -> op_proper (k_shape c) (snd kop) /\ op_fixes (k_shape c) (snd kop) W.
Proof. intros Hok Hf kop Hin. apply group_ops_gop in Hin. destruct Hin as [H|H].
  - apply (nearest_map_fixes (gop_exact_nearest c kop Hok H)). apply gop_exact_feasible; assumption.
  - destruct Hf as (_ & _ & _ & _ & _ & Fr & _ & Fju). destruct H; cbn [snd].
    + split. apply rdom_group_proper; assumption. apply rdom_group_fixed; try assumption. apply (Fr _ H).
    + destruct (junimod_group_some H2) as [terms [Hterms ->]]. split.
      * apply ju_op_proper. apply (ju_eqn_valid _ v o terms); [|exact Hterms]. apply all_idx_valid. exact H0.
      * apply ju_op_fixed. intros x Hx. apply (Fju _ H v o terms H0 H1 Hterms x Hx). Qed.

(* Feasible kernels are fixed by the Dykstra stage: all eight families, any
   combination, any number of iterations, any number of units. *)
Theorem feasible_fixed (c : dyk_cfg) (W : tens) :
  dyk_cfg_ok c -> dyk_feasible c W -> teq (k_shape c) (project_by_dykstra c W) W.
Proof. intros Hok Hf. unfold project_by_dykstra.
  destruct (k_iters c =? 0)%nat. apply teq_refl.
  match goal with |- teq _ (if ?b then _ else _) _ => destruct b end. apply teq_refl.
  cbv zeta. apply dyk_loop_fixed. apply group_ops_ok; assumption. Qed.

Theorem feasible_changes_zero (c : dyk_cfg) (W : tens) (n : nat) :
  dyk_cfg_ok c -> dyk_feasible c W ->
  forall e, In e (snd (dyk_loop (k_shape c) (group_ops c) n (W, []))) -> teq (k_shape c) (snd e) tzero.
Proof. intros Hok Hf. apply dyk_loop_fixed. apply group_ops_ok; assumption. Qed.

(* lattice sizes >= 2 on the main axis of a trapezoid trust (so that the lowest
   and the highest main index differ) *)
Definition trap_sizes_ok (c : dyk_cfg) : Prop :=
  forall t, In t (k_trap c) -> (2 <= nth (fst (fst t)) (k_shape c) 0)%nat.

(* conversely a kernel in every group's set is feasible: the groups of both
   parities cover all pairs / squares *)
Lemma key_sets_feasible c W : dyk_cfg_ok c -> exact_families c -> trap_sizes_ok c ->
  (forall kop, In kop (group_ops c) -> key_set c (fst kop) W) -> dyk_feasible c W.
Proof. intros (Oe & Ot & Om & Oj) [Er Eju] Hts HK.
  assert (HG : forall kop, gop_exact c kop -> key_set c (fst kop) W) by (intros kop Hg; apply HK, group_ops_gop; left; exact Hg).
  clear HK.
  assert (Hmu : forall d, (d < k_rank c)%nat -> (nth d (k_monos c) 0 =? 0)%Z && (nth d (k_unis c) 0 =? 0)%Z = false ->
            (nth d (k_monos c) 0%Z = 1%Z -> mono_along (k_shape c) d W) /\
            (nth d (k_unis c) 0%Z <> 0%Z -> unimodal_along (k_shape c) (nth d (k_unis c) 0%Z) d W)).
  { intros d Hd Hmu. apply mono_pairs_iff. apply k_rank_lt; exact Hd.
    apply pr_ok_cover.
    intros g Hg Hs. pose proof (HG _ (gop_mono c d g Hd Hg ltac:(lia) Hmu)) as H. cbn [fst] in H. rewrite key_set_mono in H. exact H. }
  unfold dyk_feasible. cbv zeta. split; [|split; [|split; [|split; [|split; [|split; [|split]]]]]].
  - intros d Hd Hm. apply (Hmu d Hd); [|exact Hm]. rewrite Hm. reflexivity.
  - intros d Hd Hu. apply (Hmu d Hd); [|exact Hu]. apply andb_false_iff. right. apply Z.eqb_neq. exact Hu.
  - intros [[m cd] dir] Ht. destruct (Oe _ Ht) as (H1 & H2 & H3 & H4).
    apply edge_squares_iff. exact H4. apply sq_ok_cover.
    intros g0 g1 Hg0 Hg1 Hs0 Hs1.
    pose proof (HG _ (gop_edge c m cd dir g0 g1 Ht Hg0 Hg1 ltac:(lia) ltac:(lia))) as H. cbn [fst] in H. rewrite key_set_edge in H. exact H.
  - intros [[m cd] dir] Ht. destruct (Ot _ Ht) as (H1 & H2 & H3 & H4). pose proof (Hts _ Ht) as Hsz. cbn [fst] in Hsz.
    apply trap_pairs_holds; try assumption. apply k_rank_lt; exact H1.
    apply pr_ok_cover.
    intros g Hg Hs. pose proof (HG _ (gop_trap c m cd dir g Ht Hg ltac:(lia))) as H. cbn [fst] in H. rewrite key_set_trap in H. exact H.
  - intros [p q] Ht. cbn [fst snd]. apply mdom_squares_iff. intros g2.
    apply sq_ok_cover. intros g0 g1 Hg0 Hg1 Hs0 Hs1.
    pose proof (HG _ (gop_mdom c p q g0 g1 g2 Ht Hg0 Hg1 ltac:(lia) ltac:(lia))) as H. cbn [fst] in H. rewrite key_set_mdom in H. exact H.
  - rewrite Er. intros pq [].
  - intros [p q] Ht. cbn [fst snd]. apply jmono_squares_iff. intros g2.
    apply sq_ok_cover. intros g0 g1 Hg0 Hg1 Hs0 Hs1.
    pose proof (HG _ (gop_jmono c p q g0 g1 g2 Ht Hg0 Hg1 ltac:(lia) ltac:(lia))) as H. cbn [fst] in H. rewrite key_set_jmono in H. exact H.
  - rewrite Eju. intros ju []. Qed.

Lemma feasible_iff_key_sets c W : dyk_cfg_ok c -> exact_families c -> trap_sizes_ok c ->
  (dyk_feasible c W <-> forall kop, In kop (group_ops c) -> key_set c (fst kop) W).
Proof. intros Hok Hex Hts. split. apply feasible_key_sets; assumption. apply key_sets_feasible; assumption. Qed.

(* Fixpoint => nearest feasible kernel, for the configured group maps of the six
   exact families: if one more sweep reproduces every stored change of the state
   reached after n sweeps from (W0, []), that state's kernel W is left unchanged,
   is feasible, and is the Euclidean-nearest feasible kernel to W0. *)
Theorem dykstra_fixpoint_nearest (c : dyk_cfg) (W0 : tens) (n : nat) :
  dyk_cfg_ok c -> exact_families c -> trap_sizes_ok c -> NoDup (map fst (group_ops c)) ->
  let sh := k_shape c in
  let st := dyk_loop sh (group_ops c) n (W0, []) in
  (forall kop, In kop (group_ops c) ->
     teq sh (lc_get (snd (dyk_sweep sh (group_ops c) st)) (fst kop)) (lc_get (snd st) (fst kop))) ->
  teq sh (fst (dyk_sweep sh (group_ops c) st)) (fst st) /\
  dyk_feasible c (fst st) /\
  (forall z, dyk_feasible c z ->
     ip (all_idx sh) (vsub W0 (fst st)) (vsub z (fst st)) <= 0 /\
     ip (all_idx sh) (vsub W0 (fst st)) (vsub W0 (fst st)) <= ip (all_idx sh) (vsub W0 z) (vsub W0 z)).
Proof. intros Hok Hex Hts Hnd sh st Hfix.
  destruct (dyk_loop_fixpoint_nearest sh (group_ops c) (key_set c) W0 n Hnd (group_ops_exact c Hok Hex) Hfix) as (H1 & H2 & H3).
  split. exact H1. split.
  - apply key_sets_feasible; assumption.
  - intros z Hz. apply H3. apply feasible_key_sets; assumption. Qed.

(* deciding the predicates on concrete kernels *)
Definition unimodal_alongb (sh : list nat) (uni : Z) (d : nat) (f : tens) : bool :=
  forallb (fun i => if (S (nth d i 0) <? nth d sh 0)%nat
                    then (if uni_inc uni (nth d sh 0%nat) (nth d i 0%nat)
                          then Qle_bool (f i) (f (upd i d (S (nth d i 0%nat))))
                          else Qle_bool (f (upd i d (S (nth d i 0%nat)))) (f i))
                    else true) (all_idx sh).
Lemma unimodal_alongb_ok sh uni d f : unimodal_alongb sh uni d f = true -> unimodal_along sh uni d f.
Proof. intros H i Hv Hs. pose proof (forall_valid_check sh _ H i Hv) as Hc. cbv beta in Hc.
  apply Nat.ltb_lt in Hs. rewrite Hs in Hc. destruct (uni_inc uni (nth d sh 0%nat) (nth d i 0%nat)); apply Qle_bool_iff; exact Hc. Qed.

Definition sq_forallb (sh : list nat) (p q : nat) (lim : nat -> nat) (P : idx -> nat -> nat -> bool) : bool :=
  forallb (fun b => forallb (fun i => forallb (fun j => P b i j) (seq 0 (lim (nth q sh 0%nat)))) (seq 0 (lim (nth p sh 0%nat)))) (all_idx sh).
Lemma sq_forallb_ok {sh p q lim P} : sq_forallb sh p q lim P = true ->
  forall b i j, valid sh b -> (i < lim (nth p sh 0%nat))%nat -> (j < lim (nth q sh 0%nat))%nat -> P b i j = true.
Proof. intros H b i j Hb Hi Hj. pose proof (forall_valid_check sh _ H b Hb) as Hc. cbv beta in Hc.
  rewrite forallb_forall in Hc. specialize (Hc i ltac:(apply in_seq; lia)).
  rewrite forallb_forall in Hc. apply Hc. apply in_seq; lia. Qed.

Definition mdom_holdsb (sh : list nat) (p q : nat) (f : tens) : bool :=
  sq_forallb sh p q (fun s => (s - 1)%nat) (fun b i j =>
    Qle_bool ((f (at2 b p q i j) + f (at2 b p q (S i) (S j))) * (1#2)) (f (at2 b p q (S i) j)) &&
    Qle_bool (f (at2 b p q i (S j))) ((f (at2 b p q i j) + f (at2 b p q (S i) (S j))) * (1#2))).
Lemma mdom_holdsb_ok sh p q f : mdom_holdsb sh p q f = true -> mdom_holds sh p q f.
Proof. intros H b i j Hb Hi Hj. pose proof (sq_forallb_ok H b i j Hb ltac:(cbv beta; lia) ltac:(cbv beta; lia)) as Hc. cbv beta in Hc.
  apply andb_prop in Hc. destruct Hc as [H1 H2]. split; apply Qle_bool_iff; assumption. Qed.
Definition jmono_holdsb (sh : list nat) (p q : nat) (f : tens) : bool :=
  sq_forallb sh p q (fun s => (s - 1)%nat) (fun b i j =>
    Qle_bool ((f (at2 b p q (S i) j) + f (at2 b p q i (S j))) * (1#2)) (f (at2 b p q (S i) (S j))) &&
    Qle_bool (f (at2 b p q i j)) ((f (at2 b p q (S i) j) + f (at2 b p q i (S j))) * (1#2))).
Lemma jmono_holdsb_ok sh p q f : jmono_holdsb sh p q f = true -> jmono_holds sh p q f.
Proof. intros H b i j Hb Hi Hj. pose proof (sq_forallb_ok H b i j Hb ltac:(cbv beta; lia) ltac:(cbv beta; lia)) as Hc. cbv beta in Hc.
  apply andb_prop in Hc. destruct Hc as [H1 H2]. split; apply Qle_bool_iff; assumption. Qed.
Definition rdom_holdsb (sh : list nat) (p q : nat) (f : tens) : bool :=
  sq_forallb sh p q (fun s => s) (fun b i j =>
    Qle_bool ((f (at2 b p q i (nth q sh 0%nat - 1)) - f (at2 b p q i 0%nat)) -
              (f (at2 b p q (nth p sh 0%nat - 1) j) - f (at2 b p q 0%nat j))) 0).
Lemma rdom_holdsb_ok sh p q f : rdom_holdsb sh p q f = true -> rdom_holds sh p q f.
Proof. intros H b i j Hb Hi Hj. pose proof (sq_forallb_ok H b i j Hb Hi Hj) as Hc. cbv beta in Hc.
  apply Qle_bool_iff. exact Hc. Qed.

Definition junimod_holdsb (sh : list nat) (dims : list nat) (valley : bool) (W : tens) : bool :=
  let sizes := map (fun d => nth d sh 0%nat) dims in
  let centre := map (fun s => (s / 2)%nat) sizes in
  forallb (fun vertex => forallb (fun offs =>
      match ju_terms sizes centre vertex offs 0 with
      | Some terms => forallb (fun x => if valley then Qle_bool 0 (ju_viol dims (ju_eqn_of vertex terms) W x)
                                        else Qle_bool (ju_viol dims (ju_eqn_of vertex terms) W x) 0) (all_idx sh)
      | None => true
      end) (all_offsets (length dims))) (all_vertices sizes).
Lemma junimod_holdsb_ok sh dims valley W : junimod_holdsb sh dims valley W = true -> junimod_holds sh dims valley W.
Proof. unfold junimod_holdsb, junimod_holds. cbv zeta. intros H vertex offs terms Hv Ho Ht x Hx.
  rewrite forallb_forall in H. specialize (H vertex Hv). rewrite forallb_forall in H. specialize (H offs Ho).
  rewrite Ht in H. pose proof (forall_valid_check sh _ H x Hx) as Hc. cbv beta in Hc.
  destruct valley; apply Qle_bool_iff; exact Hc. Qed.

Fixpoint keys_nodupb (l : list key) : bool :=
  match l with [] => true | k :: r => negb (existsb (key_eqb k) r) && keys_nodupb r end.
Lemma keys_nodupb_ok l : keys_nodupb l = true -> NoDup l.
Proof. induction l as [|k r IH]; cbn [keys_nodupb]; intros H. constructor.
  apply andb_prop in H. destruct H as [H1 H2]. constructor; [|apply IH; exact H2].
  intros Hin. apply negb_true_iff in H1. assert (E : existsb (key_eqb k) r = true).
  { apply existsb_exists. exists k. split. exact Hin. apply key_eqb_refl. } congruence. Qed.

Definition qn (n : nat) : Q := inject_Z (Z.of_nat n).

(* Example A: 2 x 3 lattice, 2 units; monotone in dimension 0, Edgeworth and
   trapezoid trust (0, 1, +1), monotonic / range dominance and joint
   monotonicity of (0, 1); kernel  W(i, j, u) = i + u. *)
Definition exA_cfg : dyk_cfg :=
  mkDykCfg [2; 3]%nat 2 [1; 0]%Z [0; 0]%Z [(0, 1, 1%Z)]%nat [(0, 1, 1%Z)]%nat [(0, 1)]%nat [(0, 1)]%nat [(0, 1)]%nat [] 3.
Definition exA_W : tens := fun x => qn (nth 0 x 0%nat) + qn (nth 2 x 0%nat).
Lemma exA_ok : dyk_cfg_ok exA_cfg.
Proof. unfold dyk_cfg_ok. split; [|split; [|split]]; intros t Ht; cbn in Ht; destruct Ht as [<-|[]];
  unfold trust_idx_ok, pair_idx_ok, k_rank; cbn; repeat split; try lia; try discriminate. Qed.
Lemma exA_feasible : dyk_feasible exA_cfg exA_W.
Proof. unfold dyk_feasible. cbv zeta. split; [|split; [|split; [|split; [|split; [|split; [|split]]]]]].
  - intros d Hd Hm. unfold k_rank in Hd. cbn in Hd. destruct d as [|[|d]]; try lia; try discriminate Hm.
    apply mono_alongb_ok. vm_compute. reflexivity.
  - intros d Hd Hu. unfold k_rank in Hd. cbn in Hd. destruct d as [|[|d]]; try lia; exfalso; apply Hu; reflexivity.
  - intros t [<-|[]]. apply edgeworth_holdsb_ok. vm_compute. reflexivity.
  - intros t [<-|[]]. apply trapezoid_holdsb_ok. vm_compute. reflexivity.
  - intros t [<-|[]]. apply mdom_holdsb_ok. vm_compute. reflexivity.
  - intros t [<-|[]]. apply rdom_holdsb_ok. vm_compute. reflexivity.
  - intros t [<-|[]]. apply jmono_holdsb_ok. vm_compute. reflexivity.
  - intros t []. Qed.

(* Example B: 3 x 3 lattice, 2 units; unimodal (valley) in dimension 0 and
   jointly unimodal (valley) in (0, 1); kernel  W(i, j, u) = (i-1)^2 + (j-1)^2 + u. *)
Definition exB_cfg : dyk_cfg :=
  mkDykCfg [3; 3]%nat 2 [0; 0]%Z [1; 0]%Z [] [] [] [] [] [([0; 1]%nat, true)] 2.
Definition sqd (k : nat) : Q := (qn k - 1) * (qn k - 1).
Definition exB_W : tens := fun x => sqd (nth 0 x 0%nat) + sqd (nth 1 x 0%nat) + qn (nth 2 x 0%nat).
Lemma exB_ok : dyk_cfg_ok exB_cfg.
Proof. unfold dyk_cfg_ok. split; [|split; [|split]]; intros t []. Qed.
Lemma exB_feasible : dyk_feasible exB_cfg exB_W.
Proof. unfold dyk_feasible. cbv zeta. split; [|split; [|split; [|split; [|split; [|split; [|split]]]]]];
    try (intros t []; fail).
  - intros d Hd Hm. unfold k_rank in Hd. cbn in Hd. destruct d as [|[|d]]; try lia; discriminate Hm.
  - intros d Hd Hu. unfold k_rank in Hd. cbn in Hd. destruct d as [|[|d]]; try lia.
    + apply unimodal_alongb_ok. vm_compute. reflexivity.
    + exfalso; apply Hu; reflexivity.
  - intros t [<-|[]]. apply junimod_holdsb_ok. vm_compute. reflexivity. Qed.

(* Example C (hypotheses of the fixpoint theorem, with a kernel that moves):
   one monotone dimension of size 2, one unit, W0 = (1, 0).  After one sweep the
   state is ((1/2, 1/2), change (-1/2, +1/2)) and a further sweep reproduces it. *)
Definition exC_cfg : dyk_cfg := mkDykCfg [2]%nat 1 [1]%Z [0]%Z [] [] [] [] [] [] 1.
Definition exC_W0 : tens := of_list [2; 1]%nat [1; 0].
Lemma exC_ok : dyk_cfg_ok exC_cfg /\ exact_families exC_cfg /\ trap_sizes_ok exC_cfg /\ NoDup (map fst (group_ops exC_cfg)).
Proof. split; [|split; [|split]].
  - unfold dyk_cfg_ok. split; [|split; [|split]]; intros t [].
  - split; reflexivity.
  - intros t [].
  - apply keys_nodupb_ok. vm_compute. reflexivity. Qed.
Lemma exC_fixpoint :
  let sh := k_shape exC_cfg in
  let st := dyk_loop sh (group_ops exC_cfg) 1 (exC_W0, []) in
  (forall kop, In kop (group_ops exC_cfg) ->
     teq sh (lc_get (snd (dyk_sweep sh (group_ops exC_cfg) st)) (fst kop)) (lc_get (snd st) (fst kop))) /\
  ~ teq sh (fst st) exC_W0.
Proof. cbv zeta. split.
  - assert (H : forallb (fun kop : key * (tens -> tens) =>
               teqb (k_shape exC_cfg)
                 (lc_get (snd (dyk_sweep (k_shape exC_cfg) (group_ops exC_cfg) (dyk_loop (k_shape exC_cfg) (group_ops exC_cfg) 1 (exC_W0, [])))) (fst kop))
                 (lc_get (snd (dyk_loop (k_shape exC_cfg) (group_ops exC_cfg) 1 (exC_W0, []))) (fst kop)))
               (group_ops exC_cfg) = true) by (vm_compute; reflexivity).
    rewrite forallb_forall in H. intros kop Hin. apply teqb_ok. apply H. exact Hin.
  - intros H. specialize (H [0; 0]%nat ltac:(repeat constructor)). vm_compute in H. discriminate H. Qed.

(* the hypotheses of feasible_fixed and of dykstra_fixpoint_nearest are satisfiable *)
Example feasible_fixed_hyps_A : dyk_cfg_ok exA_cfg /\ dyk_feasible exA_cfg exA_W.
Proof. split. exact exA_ok. exact exA_feasible. Qed.
Example feasible_fixed_hyps_B : dyk_cfg_ok exB_cfg /\ dyk_feasible exB_cfg exB_W.
Proof. split. exact exB_ok. exact exB_feasible. Qed.
Example fixpoint_nearest_hyps_C :
  (dyk_cfg_ok exC_cfg /\ exact_families exC_cfg /\ trap_sizes_ok exC_cfg /\ NoDup (map fst (group_ops exC_cfg))) /\
  let sh := k_shape exC_cfg in
  let st := dyk_loop sh (group_ops exC_cfg) 1 (exC_W0, []) in
  (forall kop, In kop (group_ops exC_cfg) ->
     teq sh (lc_get (snd (dyk_sweep sh (group_ops exC_cfg) st)) (fst kop)) (lc_get (snd st) (fst kop))) /\
  ~ teq sh (fst st) exC_W0.
Proof. split. exact exC_ok. exact exC_fixpoint. Qed.

(* constraint of the range-dominance group = vertex (i, j), at every position *)
Definition rdom_group_ok (sh : list nat) (p q i j : nat) (W : tens) : Prop :=
  forall b, valid sh b ->
    (W (at2 b p q i (nth q sh 0%nat - 1)) - W (at2 b p q i 0%nat)) -
    (W (at2 b p q (nth p sh 0%nat - 1) j) - W (at2 b p q 0%nat j)) <= 0.
Lemma rdom_holds_group_ok sh p q i j W : (i < nth p sh 0%nat)%nat -> (j < nth q sh 0%nat)%nat ->
  rdom_holds sh p q W -> rdom_group_ok sh p q i j W.
Proof. intros Hi Hj H b Hb. apply H; assumption. Qed.

(* At the corners (0, max) and (max, 0) the two ranges share a vertex whose
   coefficient in the inequality is 2; the code leaves that vertex alone and
   moves the two others by violation/2 - feasible, but not the Euclidean
   projection (which moves the shared vertex by 2v/6 and the others by v/6).
   Witness: 2x2 lattice, one unit, vertex (0, 1), y = e_(0,1): the code moves y
   by squared distance 2, the feasible z below is at squared distance 2/3. *)
Theorem rdom_corner_not_nearest :
  exists sh p q i j (z : tens),
    (i < nth p sh 0%nat)%nat /\ (j < nth q sh 0%nat)%nat /\ rdom_group_ok sh p q i j z /\
    forall C : tens -> Prop, C z -> ~ is_proj (all_idx sh) C (rdom_group sh p q i j).
Proof. pose (z := of_list [2; 2; 1]%nat [1#3; 1#3; 0; 1#3]). exists [2; 2; 1]%nat, 0%nat, 1%nat, 0%nat, 1%nat, z.
  split. cbn; lia. split. cbn; lia. split.
  - intros b Hb.
    assert (H : forallb (fun b => Qle_bool
              ((z (at2 b 0 1 0 (nth 1 [2; 2; 1]%nat 0%nat - 1)) - z (at2 b 0 1 0 0)) -
               (z (at2 b 0 1 (nth 0 [2; 2; 1]%nat 0%nat - 1) 1) - z (at2 b 0 1 0 1))) 0) (all_idx [2; 2; 1]%nat) = true)
      by (vm_compute; reflexivity).
    apply Qle_bool_iff. exact (forall_valid_check _ _ H b Hb).
  - intros C Cz HP. destruct (HP (of_list [2; 2; 1]%nat [0; 1; 0; 0])) as [_ H]. specialize (H _ Cz).
    apply Qle_bool_iff in H. vm_compute in H. discriminate H. Qed.

Lemma nodup_flat_map {A B} (f : A -> list B) l : NoDup l -> (forall a, In a l -> NoDup (f a)) ->
  (forall a b x, In a l -> In b l -> In x (f a) -> In x (f b) -> a = b) -> NoDup (flat_map f l).
Proof. induction l as [|a l IH]; intros Hnd Hf Hinj; cbn [flat_map]. constructor. inversion Hnd; subst.
  apply nodup_app.
  - apply Hf. left; reflexivity.
  - apply IH. assumption. intros; apply Hf; right; assumption.
    intros a' b x Ha Hb. apply Hinj; right; assumption.
  - intros x Hx Hx'. apply in_flat_map in Hx'. destruct Hx' as [b [Hb Hxb]].
    assert (a = b) by (apply (Hinj a b x); [left; reflexivity|right; assumption|assumption|assumption]). subst. contradiction. Qed.
Notation kops := (list (key * (tens -> tens))).
Lemma nodup_keys_flat_map {A} (f : A -> kops) l : NoDup l -> (forall a, In a l -> NoDup (map fst (f a))) ->
  (forall a b x y, In a l -> In b l -> In x (f a) -> In y (f b) -> fst x = fst y -> a = b) -> NoDup (map fst (flat_map f l)).
Proof. intros Hnd Hf Hinj. rewrite map_flat_map. apply nodup_flat_map; try assumption.
  intros a b k Ha Hb Hx Hy. apply in_map_iff in Hx. destruct Hx as [x [Ex Hx]]. apply in_map_iff in Hy. destruct Hy as [y [Ey Hy]].
  apply (Hinj a b x y); try assumption. congruence. Qed.
Lemma nodup_keys_opt (b : bool) (kop : key * (tens -> tens)) : NoDup (map fst (if b then [] else [kop])).
Proof. destruct b; cbn [map]. constructor. constructor. intros []. constructor. Qed.
Lemma in_opt (b : bool) (kop x : key * (tens -> tens)) : In x (if b then [] else [kop]) -> x = kop.
Proof. intros H. apply in_guard in H. apply H. Qed.

Lemma G2_nodup : NoDup G2. Proof. repeat constructor; cbn; intuition discriminate. Qed.
Lemma G4_nodup : NoDup G4. Proof. repeat constructor; cbn; intuition discriminate. Qed.
Lemma G8_nodup : NoDup G8. Proof. repeat constructor; cbn; intuition discriminate. Qed.
Lemma zb_inj a b : zb a = zb b -> a = b.
Proof. destruct a, b; cbn; congruence. Qed.

(* One family of group_ops: a keyed map for every listed constraint a and every
   parity group g that is not skipped. *)
Definition seg {A B} (l : list A) (G : list B) (skip : A -> B -> bool) (mk : A -> B -> key * (tens -> tens)) : kops :=
  flat_map (fun a => flat_map (fun g => if skip a g then [] else [mk a g]) G) l.

Lemma seg_nodup {A B} (l : list A) (G : list B) skip mk : NoDup l -> NoDup G ->
  (forall a g a' g', fst (mk a g) = fst (mk a' g') -> a = a' /\ g = g') -> NoDup (map fst (seg l G skip mk)).
Proof. intros Hl HG Hinj. apply nodup_keys_flat_map. exact Hl.
  - intros a _. apply nodup_keys_flat_map. exact HG.
    + intros g _. apply nodup_keys_opt.
    + intros g g' x y _ _ Hx Hy E. apply in_opt in Hx. apply in_opt in Hy. subst. apply (Hinj a g a g' E).
  - intros a a' x y _ _ Hx Hy E.
    apply in_flat_map in Hx. destruct Hx as [g [_ Hx]]. apply in_flat_map in Hy. destruct Hy as [g' [_ Hy]].
    apply in_opt in Hx. apply in_opt in Hy. subst. apply (Hinj a g a' g' E). Qed.
(* the first entry of a key tells the family *)
Lemma seg_tag {A B} tag (l : list A) (G : list B) skip mk : (forall a g, hd 0%Z (fst (mk a g)) = tag) ->
  forall k, In k (map fst (seg l G skip mk)) -> hd 0%Z k = tag.
Proof. intros H k Hk. apply in_map_iff in Hk. destruct Hk as [x [<- Hx]].
  apply in_flat_map in Hx. destruct Hx as [a [_ Hx]]. apply in_flat_map in Hx. destruct Hx as [g [_ Hx]].
  rewrite (in_opt _ _ _ Hx). apply H. Qed.

Definition seg_mono (c : dyk_cfg) : kops :=
  seg (seq 0 (length (k_sizes c))) G2
    (fun d g => (nth d (k_monos c) 0 =? 0)%Z && (nth d (k_unis c) 0 =? 0)%Z || (nth d (k_shape c) 0 <=? g + 1)%nat)
    (fun d g => ([0; zn d; zn g]%Z, mono_group (k_shape c) (nth d (k_monos c) 0%Z) (nth d (k_unis c) 0%Z) d g)).
Definition seg_edge (c : dyk_cfg) : kops :=
  seg (k_edge c) G4
    (fun '(m, cd, dir) '(g0, g1) => (nth m (k_shape c) 0 - 1 <=? g0)%nat || (nth cd (k_shape c) 0 - 1 <=? g1)%nat)
    (fun '(m, cd, dir) '(g0, g1) => ([1; zn m; zn cd; dir; zn g0; zn g1]%Z, edge_group (k_shape c) (m, cd, dir) g0 g1)).
Definition seg_trap (c : dyk_cfg) : kops :=
  seg (k_trap c) G2
    (fun '(m, cd, dir) g => (nth cd (k_shape c) 0 - 1 <=? g)%nat)
    (fun '(m, cd, dir) g => ([2; zn m; zn cd; dir; zn g]%Z, trap_group (k_shape c) (m, cd, dir) g)).
Definition seg_tri (tag : Z) (mk : nat -> nat -> nat -> nat -> bool -> tens -> tens) (sh : list nat) (l : list (nat * nat)) : kops :=
  seg l G8
    (fun '(p, q) '(g0, g1, g2) => (nth p sh 0 - 1 <=? g0)%nat || (nth q sh 0 - 1 <=? g1)%nat)
    (fun '(p, q) '(g0, g1, g2) => ([tag; zn p; zn q; zn g0; zn g1; zb g2]%Z, mk p q g0 g1 g2)).

Lemma group_ops_segs c : exact_families c ->
  group_ops c = seg_mono c ++ seg_edge c ++ seg_trap c ++ seg_tri 3 (mdom_group (k_shape c)) (k_shape c) (k_mdom c)
                ++ seg_tri 5 (jmono_group (k_shape c)) (k_shape c) (k_jmono c).
Proof. intros [Er Eju]. unfold group_ops. cbv zeta. rewrite Er, Eju. cbn [flat_map]. rewrite app_nil_r.
  (* the lists of parity groups are concrete: once a constraint is given as a
     tuple, both sides compute to the same concatenation *)
  f_equal; [|f_equal; [|f_equal; [|f_equal]]]; apply flat_map_ext.
  - intros d. destruct (_ && _); reflexivity.
  - intros [[m cd] dir]. reflexivity.
  - intros [[m cd] dir]. reflexivity.
  - intros [p q]. reflexivity.
  - intros [p q]. reflexivity. Qed.

Lemma seg_mono_tag c : forall k, In k (map fst (seg_mono c)) -> hd 0%Z k = 0%Z.
Proof. apply seg_tag. reflexivity. Qed.
Lemma seg_edge_tag c : forall k, In k (map fst (seg_edge c)) -> hd 0%Z k = 1%Z.
Proof. apply seg_tag. intros [[m cd] dir] [g0 g1]. reflexivity. Qed.
Lemma seg_trap_tag c : forall k, In k (map fst (seg_trap c)) -> hd 0%Z k = 2%Z.
Proof. apply seg_tag. intros [[m cd] dir] g. reflexivity. Qed.
Lemma seg_tri_tag tag mk sh l : forall k, In k (map fst (seg_tri tag mk sh l)) -> hd 0%Z k = tag.
Proof. apply seg_tag. intros [p q] [[g0 g1] g2]. reflexivity. Qed.

Lemma seg_mono_nodup c : NoDup (map fst (seg_mono c)).
Proof. apply seg_nodup. apply seq_NoDup. apply G2_nodup.
  intros d g d' g' E. cbn [fst] in E. inversion E. split; apply Nat2Z.inj; assumption. Qed.
Lemma seg_edge_nodup c : NoDup (k_edge c) -> NoDup (map fst (seg_edge c)).
Proof. intros Hnd. apply seg_nodup. exact Hnd. apply G4_nodup.
  intros [[m cd] dir] [g0 g1] [[m' cd'] dir'] [g0' g1'] E. cbn [fst] in E. inversion E.
  split; repeat f_equal; try apply Nat2Z.inj; assumption. Qed.
Lemma seg_trap_nodup c : NoDup (k_trap c) -> NoDup (map fst (seg_trap c)).
Proof. intros Hnd. apply seg_nodup. exact Hnd. apply G2_nodup.
  intros [[m cd] dir] g [[m' cd'] dir'] g' E. cbn [fst] in E. inversion E.
  split; repeat f_equal; try apply Nat2Z.inj; assumption. Qed.
Lemma seg_tri_nodup tag mk sh l : NoDup l -> NoDup (map fst (seg_tri tag mk sh l)).
Proof. intros Hnd. apply seg_nodup. exact Hnd. apply G8_nodup.
  intros [p q] [[g0 g1] g2] [p' q'] [[g0' g1'] g2'] E. cbn [fst] in E. inversion E.
  split; repeat f_equal; try (apply Nat2Z.inj; assumption). apply zb_inj; assumption. Qed.

(* no constraint listed twice => the keys of the configured group maps are distinct *)
Theorem group_ops_keys_nodup c : exact_families c ->
  NoDup (k_edge c) -> NoDup (k_trap c) -> NoDup (k_mdom c) -> NoDup (k_jmono c) ->
  NoDup (map fst (group_ops c)).
Proof. intros Hex He Ht Hm Hj. rewrite (group_ops_segs c Hex). rewrite !map_app.
  apply nodup_app. apply seg_mono_nodup.
  apply nodup_app. apply seg_edge_nodup; assumption.
  apply nodup_app. apply seg_trap_nodup; assumption.
  apply nodup_app. apply seg_tri_nodup; assumption. apply seg_tri_nodup; assumption.
  - intros k Hk Hk'. apply seg_tri_tag in Hk. apply seg_tri_tag in Hk'. congruence.
  - intros k Hk Hk'. apply seg_trap_tag in Hk. apply in_app_or in Hk'. destruct Hk' as [Hk'|Hk']; apply seg_tri_tag in Hk'; congruence.
  - intros k Hk Hk'. apply seg_edge_tag in Hk. apply in_app_or in Hk'. destruct Hk' as [Hk'|Hk']. apply seg_trap_tag in Hk'; congruence.
    apply in_app_or in Hk'. destruct Hk' as [Hk'|Hk']; apply seg_tri_tag in Hk'; congruence.
  - intros k Hk Hk'. apply seg_mono_tag in Hk. apply in_app_or in Hk'. destruct Hk' as [Hk'|Hk']. apply seg_edge_tag in Hk'; congruence.
    apply in_app_or in Hk'. destruct Hk' as [Hk'|Hk']. apply seg_trap_tag in Hk'; congruence.
    apply in_app_or in Hk'. destruct Hk' as [Hk'|Hk']; apply seg_tri_tag in Hk'; congruence. Qed.

Theorem dykstra_fixpoint_nearest' (c : dyk_cfg) (W0 : tens) (n : nat) :
  dyk_cfg_ok c -> exact_families c -> trap_sizes_ok c ->
  NoDup (k_edge c) -> NoDup (k_trap c) -> NoDup (k_mdom c) -> NoDup (k_jmono c) ->
  let sh := k_shape c in
  let st := dyk_loop sh (group_ops c) n (W0, []) in
  (forall kop, In kop (group_ops c) ->
     teq sh (lc_get (snd (dyk_sweep sh (group_ops c) st)) (fst kop)) (lc_get (snd st) (fst kop))) ->
  teq sh (fst (dyk_sweep sh (group_ops c) st)) (fst st) /\
  dyk_feasible c (fst st) /\
  (forall z, dyk_feasible c z ->
     ip (all_idx sh) (vsub W0 (fst st)) (vsub z (fst st)) <= 0 /\
     ip (all_idx sh) (vsub W0 (fst st)) (vsub W0 (fst st)) <= ip (all_idx sh) (vsub W0 z) (vsub W0 z)).
Proof. intros Hok Hex Hts He Ht Hm Hj. apply dykstra_fixpoint_nearest; try assumption.
  apply group_ops_keys_nodup; assumption. Qed.
