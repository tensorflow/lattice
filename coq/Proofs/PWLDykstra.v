(* The Dykstra loop of the PWL calibrator (dyk_body / dyk_iter of Model/PWLProject.v:
   pwl_calibration_lib.project_all_constraints) for monotonicity +1 / -1 with
   bounds and no convexity, as an instance of the abstract theory of
   Proofs/DykstraTheory.v / Proofs/DykstraBound.v.

   A weight list  bias :: heights  (n >= 1 heights) is read as a function on the
   indices  pI n = [0; ...; n]  with the standard inner product.
   _project_monotonicity is the nearest-point map onto
   CM = { heights of the configured sign }  (mono_is_proj);
   _project_bounds_considering_monotonicity is the nearest-point map onto
   CB = { omin (<=|==) bias  /\  bias + sum heights (<=|==) omax }  (mirrored for
   decreasing), for every input and all nine combinations NONE / BOUND / CLAMPED
   (bounds_is_proj); one iteration of body() is one abstract sweep over these two
   slots, pointwise up to == (body_asweep); and  CM /\ CB  is  feasible  of
   Proofs/PWLProject.v (feasible_iff_vec).  The abstract theorems then hold of the
   model, in terms of weight lists and their squared distance wd2.
   NOT proved: existence of the limit of the iterates (see Proofs/DykstraBound.v). *)
From TFL Require Import Model.PWLProject Proofs.PWLProject.
From TFL Require Export Proofs.DykstraBound.
Open Scope Q_scope.

Definition lo_ok (cmin : bct) (omin b : Q) : Prop :=
  match cmin with BNone => True | BBound => omin <= b | BClamped => b == omin end.
Definition hi_ok (cmax : bct) (omax t : Q) : Prop :=
  match cmax with BNone => True | BBound => t <= omax | BClamped => t == omax end.
Lemma lo_ok_met : lo_ok = lo_met. Proof. reflexivity. Qed.
Lemma hi_ok_met : hi_ok = hi_met. Proof. reflexivity. Qed.

(* the decreasing case is the increasing one in negated coordinates *)
Definition bounds_set (m : Z) (omin omax : Q) (cmin cmax : bct) (b s : Q) : Prop :=
  if (m =? -1)%Z then hi_ok cmax omax b /\ lo_ok cmin omin (b + s)
  else lo_ok cmin omin b /\ hi_ok cmax omax (b + s).

Lemma lo_ok_proper k lo x y : x == y -> lo_ok k lo x -> lo_ok k lo y.
Proof. intros E. destruct k; cbn; auto; rewrite E; auto. Qed.
Lemma hi_ok_proper k hi x y : x == y -> hi_ok k hi x -> hi_ok k hi y.
Proof. intros E. destruct k; cbn; auto; rewrite E; auto. Qed.
Lemma bounds_set_proper m omin omax cmin cmax b s b' s' : b == b' -> s == s' ->
  bounds_set m omin omax cmin cmax b s -> bounds_set m omin omax cmin cmax b' s'.
Proof. intros Eb Es. unfold bounds_set. destruct (m =? -1)%Z; intros [H1 H2]; split.
  - eapply hi_ok_proper; [exact Eb|exact H1].
  - eapply lo_ok_proper; [|exact H2]. rewrite Eb, Es. reflexivity.
  - eapply lo_ok_proper; [exact Eb|exact H1].
  - eapply hi_ok_proper; [|exact H2]. rewrite Eb, Es. reflexivity. Qed.
Lemma lo_neg k hi x : lo_ok k (- hi) (- x) <-> hi_ok k hi x.
Proof. destruct k; cbn; split; intros; auto; lra. Qed.
Lemma hi_neg k lo x : hi_ok k (- lo) (- x) <-> lo_ok k lo x.
Proof. destruct k; cbn; split; intros; auto; lra. Qed.

Lemma qleq_map2 (f g : Q -> Q) a b : (forall x y, x == y -> f x == g y) -> qleq a b -> qleq (map f a) (map g b).
Proof. intros H. induction 1; cbn [map]; constructor; auto. Qed.

(* what _project_bounds_considering_monotonicity returns, both directions:
   new bias bq, all heights shifted by hd, the result is in the set and satisfies
   the variational inequality in the coordinates (bias, sum of heights) *)
Lemma bm_spec m b h omin omax cmin cmax : (1 <= length h)%nat ->
  exists bq hd,
    fst (bounds_mono m b h omin omax cmin cmax) == bq /\
    qleq (snd (bounds_mono m b h omin omax cmin cmax)) (map (fun x => x + hd) h) /\
    bounds_set m omin omax cmin cmax bq (qsum h + qn (length h) * hd) /\
    forall cb cs, bounds_set m omin omax cmin cmax cb cs ->
      (b - bq) * (cb - bq) + (- hd) * (cs - (qsum h + qn (length h) * hd)) <= 0.
Proof. intros Hn. pose proof (qn_pos _ Hn) as HN. unfold bounds_mono, bounds_set.
  destruct (m =? -1)%Z.
  - pose proof (bmi_shape (- b) (qneg_list h) (- omax) (- omin) cmax cmin) as [E1 E2]. cbv zeta in E1, E2.
    rewrite qneg_list_length in E1, E2.
    pose proof (bmi_scalar_vi (qn (length h)) (- b) (qsum (qneg_list h)) (- omax) (- omin) cmax cmin HN) as V.
    cbv zeta in V. rewrite <- lo_ok_met, <- hi_ok_met in V.
    destruct (bmi_out (qn (length h)) (- b) (qsum (qneg_list h)) (- omax) (- omin) cmax cmin) as [bq hd].
    destruct (bounds_mono_inc (- b) (qneg_list h) (- omax) (- omin) cmax cmin) as [b1 h1].
    cbn [fst snd] in *. destruct V as (V1 & V2 & V3). pose proof (qsum_qneg h) as Es.
    exists (- bq), (- hd). split; [rewrite E1; reflexivity|]. split.
    + eapply qleq_trans. apply qneg_qleq. exact E2. unfold qneg_list. rewrite !map_map.
      apply qleq_map. intros x _. ring.
    + split.
      * split. apply lo_neg. eapply lo_ok_proper; [|exact V1]. ring.
        apply hi_neg. eapply hi_ok_proper; [|exact V2]. rewrite Es. ring.
      * intros cb cs [C1 C2]. specialize (V3 (- cb) (- cs)).
        assert (G : (- b - bq) * (- cb - bq) + - hd * (- cs - (qsum (qneg_list h) + qn (length h) * hd)) <= 0).
        { apply V3. apply lo_neg. exact C1.
          eapply hi_ok_proper; [|apply hi_neg; exact C2]. ring. }
        rewrite Es in G.
        lra.
  - pose proof (bmi_shape b h omin omax cmin cmax) as [E1 E2]. cbv zeta in E1, E2.
    pose proof (bmi_scalar_vi (qn (length h)) b (qsum h) omin omax cmin cmax HN) as V. cbv zeta in V.
    rewrite <- lo_ok_met, <- hi_ok_met in V.
    destruct (bmi_out (qn (length h)) b (qsum h) omin omax cmin cmax) as [bq hd]. cbn [fst snd] in *.
    destruct V as (V1 & V2 & V3).
    exists bq, hd. split; [exact E1|]. split; [exact E2|]. split.
    + split; [exact V1|]. eapply hi_ok_proper; [|exact V2]. reflexivity.
    + intros cb cs [C1 C2]. apply V3; assumption. Qed.

Definition pI (n : nat) : list nat := seq 0 (S n).
Definition vof (l : list Q) : nat -> Q := fun i => nth i l 0.
(* the heights part of a vector *)
Definition hts (n : nat) (f : nat -> Q) : list Q := map (fun i => f (S i)) (seq 0 n).

Lemma hts_length n f : length (hts n f) = n.
Proof. unfold hts. rewrite map_length, seq_length. reflexivity. Qed.
Lemma nth_hts n f i : (i < n)%nat -> nth i (hts n f) 0 = f (S i).
Proof. intros Hi. unfold hts. rewrite (nth_map_lt (fun i => f (S i)) (seq 0 n) i 0 0%nat) by (rewrite seq_length; exact Hi).
  rewrite seq_nth by exact Hi. reflexivity. Qed.
Lemma hts_vof n b h : length h = n -> hts n (vof (b :: h)) = h.
Proof. intros HL. apply (nth_ext _ _ 0 0). rewrite hts_length; auto.
  rewrite hts_length. intros i Hi. rewrite nth_hts by exact Hi. reflexivity. Qed.
Lemma pI_split n : pI n = 0%nat :: map S (seq 0 n).
Proof. unfold pI. cbn [seq]. rewrite seq_shift. reflexivity. Qed.
Lemma ip_pI n f g : ip (pI n) f g == f 0%nat * g 0%nat + qsum (map (fun i => f (S i) * g (S i)) (seq 0 n)).
Proof. unfold ip. rewrite pI_split. cbn [map qsum]. rewrite map_map. reflexivity. Qed.
Lemma veq_pI n f g : veq (pI n) f g <-> (f 0%nat == g 0%nat /\ forall i, (i < n)%nat -> f (S i) == g (S i)).
Proof. unfold veq, pI. split.
  - intros H. split. apply H. apply in_seq. lia. intros i Hi. apply H. apply in_seq. lia.
  - intros [H0 H1] i Hi. apply in_seq in Hi. destruct i as [|i]. exact H0. apply H1. lia. Qed.
Lemma hts_qleq n f g : veq (pI n) f g -> qleq (hts n f) (hts n g).
Proof. intros H. apply veq_pI in H. destruct H as [_ H]. unfold hts. apply qleq_map. intros i Hi. apply in_seq in Hi.
  apply H. lia. Qed.

(* (b, h) represents the vector f, up to == *)
Definition lv (n : nat) (b : Q) (h : list Q) (f : nat -> Q) : Prop := b == f 0%nat /\ qleq h (hts n f).
Lemma lv_vof n b h : length h = n -> lv n b h (vof (b :: h)).
Proof. intros HL. split. reflexivity. rewrite hts_vof by exact HL. apply qleq_refl. Qed.
Lemma lv_length {n b h f} : lv n b h f -> length h = n.
Proof. intros [_ H]. rewrite (qleq_length _ _ H). apply hts_length. Qed.
Lemma lv_veq {n b h f} : lv n b h f -> veq (pI n) (vof (b :: h)) f.
Proof. intros [H0 H1]. apply veq_pI. split. exact H0. intros i Hi. unfold vof. cbn [nth].
  rewrite (qleq_nth _ _ i H1). rewrite nth_hts by exact Hi. reflexivity. Qed.
Lemma veq_lv n b h f : length h = n -> veq (pI n) (vof (b :: h)) f -> lv n b h f.
Proof. intros HL H. apply veq_pI in H. destruct H as [H0 H1]. split. exact H0.
  apply (Forall2_nth_intro Qeq 0 0). rewrite hts_length; exact HL. intros i Hi. rewrite nth_hts by lia. apply (H1 i). lia. Qed.
Lemma lv_ext n b h f g : lv n b h f -> veq (pI n) f g -> lv n b h g.
Proof. intros [H0 H1] E. split. rewrite H0. apply veq_pI in E. apply E.
  eapply qleq_trans. exact H1. apply hts_qleq. exact E. Qed.
Lemma lv_sub {n b h f b' h' g} : lv n b h f -> lv n b' h' g -> lv n (Qred (b - b')) (lsub h h') (vsub f g).
Proof. intros L1 L2. pose proof (lv_length L1) as N1. pose proof (lv_length L2) as N2.
  destruct L1 as [A0 A1], L2 as [B0 B1]. split.
  - rewrite Qred_correct, A0, B0. reflexivity.
  - apply (Forall2_nth_intro Qeq 0 0). rewrite lsub_length, hts_length; lia. rewrite lsub_length by lia. intros i Hi.
    rewrite nth_lsub by lia. rewrite Qred_correct, (qleq_nth _ _ i A1), (qleq_nth _ _ i B1).
    rewrite !nth_hts by lia. reflexivity. Qed.

(* squared distance of weight lists *)
Definition wd2 (a b : list Q) : Q := qsum (map2 (fun x y => (x - y) * (x - y)) a b).
Lemma wd2_seq : forall a b, length a = length b ->
  qsum (map (fun i => (nth i a 0 - nth i b 0) * (nth i a 0 - nth i b 0)) (seq 0 (length a))) == wd2 a b.
Proof. induction a as [|x a IH]; intros [|y b] HL; cbn [length] in *; try lia. reflexivity.
  cbn [seq]. rewrite <- seq_shift. cbn [map qsum map2]. unfold wd2. cbn [map2 qsum]. rewrite map_map. cbn [nth].
  rewrite IH by lia. reflexivity. Qed.
Lemma d2_vof n a b : length a = S n -> length b = S n -> d2 (pI n) (vof a) (vof b) == wd2 a b.
Proof. intros Ha Hb. unfold d2, ip, pI, vsub, vof. rewrite <- Ha. apply wd2_seq. lia. Qed.
Lemma wd2_nonneg a b : 0 <= wd2 a b.
Proof. unfold wd2. revert b; induction a as [|x a IH]; intros [|y b]; cbn [map2 qsum]; try lra. specialize (IH b).
  set (d := x - y). assert (0 <= d * d) by nra. lra. Qed.
Lemma wd2_proper {a a' b b'} : qleq a a' -> qleq b b' -> wd2 a b == wd2 a' b'.
Proof. intros Ha; revert b b'; induction Ha as [|x x' a a' Ex Ha IH]; intros b b' Hb; unfold wd2 in *.
  - destruct Hb; reflexivity.
  - destruct Hb as [|y y' b b' Ey Hb]. reflexivity. cbn [map2 qsum]. rewrite (IH b b' Hb), Ex, Ey. reflexivity. Qed.

Lemma qsum_map_affine (F G : nat -> Q) (hd : Q) l :
  qsum (map (fun i => F i - G i - hd) l) == qsum (map F l) - qsum (map G l) - qn (length l) * hd.
Proof. induction l as [|i l IH]; cbn [map qsum length]. change (qn 0) with (0#1). lra. rewrite IH, qn_S. lra. Qed.

(* monotonicity: set and map (the bias is not constrained and not moved) *)
Definition sign_ok (m : Z) (x : Q) : Prop := if (m =? 1)%Z then 0 <= x else x <= 0.
Lemma sign_ok_signed : sign_ok = signed. Proof. reflexivity. Qed.
Definition CMv (m : Z) (n : nat) (f : nat -> Q) : Prop := forall i, (i < n)%nat -> sign_ok m (f (S i)).
Definition PMv (m : Z) (n : nat) (f : nat -> Q) : nat -> Q := vof (f 0%nat :: project_monotonicity m (hts n f)).

Lemma PMv_0 m n f : PMv m n f 0%nat = f 0%nat. Proof. reflexivity. Qed.
Lemma PMv_S m n f i : m <> 0%Z -> (i < n)%nat ->
  PMv m n f (S i) = if (m =? 1)%Z then qmax (f (S i)) 0 else qmin (f (S i)) 0.
Proof. intros Hm Hi. unfold PMv, vof, project_monotonicity. cbn [nth].
  rewrite (eqb0_false Hm).
  destruct (m =? 1)%Z; rewrite (nth_map_lt _ _ _ 0 0) by (rewrite hts_length; exact Hi); rewrite nth_hts by exact Hi; reflexivity. Qed.

Theorem mono_is_proj m n : m <> 0%Z -> is_proj (pI n) (CMv m n) (PMv m n).
Proof. intros Hm y. split.
  - intros i Hi. rewrite PMv_S by assumption. unfold sign_ok. destruct (m =? 1)%Z. apply qmax_r. apply qmin_r.
  - intros z Hz. rewrite ip_pI. unfold vsub. rewrite PMv_0.
    assert (T : qsum (map (fun i => (y (S i) - PMv m n y (S i)) * (z (S i) - PMv m n y (S i))) (seq 0 n)) <= 0).
    { apply qsum_map_nonpos. intros i Hi. cbv beta. apply in_seq in Hi. rewrite PMv_S by (try assumption; lia).
      specialize (Hz i ltac:(lia)). unfold sign_ok in Hz. destruct (m =? 1)%Z; qcases; nra. }
    nra. Qed.

Definition CBv (c : pwl_cfg) (n : nat) (f : nat -> Q) : Prop :=
  bounds_set (p_mono c) (p_min c) (p_max c) (p_cmin c) (p_cmax c) (f 0%nat) (qsum (hts n f)).
Definition PBv (c : pwl_cfg) (n : nat) (f : nat -> Q) : nat -> Q :=
  let r := bounds_mono (p_mono c) (f 0%nat) (hts n f) (p_min c) (p_max c) (p_cmin c) (p_cmax c) in
  vof (fst r :: snd r).

Theorem bounds_is_proj c n : (1 <= n)%nat -> is_proj (pI n) (CBv c n) (PBv c n).
Proof. intros Hn y.
  destruct (bm_spec (p_mono c) (y 0%nat) (hts n y) (p_min c) (p_max c) (p_cmin c) (p_cmax c)) as (bq & hd & E1 & E2 & S1 & V).
  { rewrite hts_length. exact Hn. }
  rewrite hts_length in S1, V.
  assert (P0 : PBv c n y 0%nat == bq) by exact E1.
  assert (PS : forall i, (i < n)%nat -> PBv c n y (S i) == y (S i) + hd).
  { intros i Hi. unfold PBv, vof. cbn [nth]. rewrite (qleq_nth _ _ i E2).
    rewrite (nth_map_lt (fun x => x + hd) (hts n y) i 0 0) by (rewrite hts_length; exact Hi).
    rewrite nth_hts by exact Hi. reflexivity. }
  assert (SP : qsum (hts n (PBv c n y)) == qsum (hts n y) + qn n * hd).
  { unfold hts at 1. rewrite (qsum_map_ext _ (fun i => y (S i) - 0 - (- hd))) by (intros i Hi; apply in_seq in Hi; rewrite PS by lia; ring).
    rewrite qsum_map_affine, seq_length. fold (hts n y).
    rewrite (qsum_map_zero (fun _ : nat => 0) (seq 0 n) (fun _ _ => Qeq_refl 0)). lra. }
  split.
  - unfold CBv. eapply bounds_set_proper; [symmetry; exact P0|symmetry; exact SP|exact S1].
  - intros z Hz. specialize (V (z 0%nat) (qsum (hts n z)) Hz).
    rewrite ip_pI. unfold vsub.
    rewrite (qsum_map_ext _ (fun i => (- hd) * (z (S i) - y (S i) - hd))).
    2:{ intros i Hi. apply in_seq in Hi. rewrite PS by lia. ring. }
    rewrite qsum_map_scale, qsum_map_affine, seq_length. fold (hts n z). fold (hts n y). rewrite P0.
    lra. Qed.

(* both maps respect pointwise == *)
Lemma bmi_out_proper N b s b' s' omin omax cmin cmax : b == b' -> s == s' ->
  fst (bmi_out N b s omin omax cmin cmax) == fst (bmi_out N b' s' omin omax cmin cmax) /\
  snd (bmi_out N b s omin omax cmin cmax) == snd (bmi_out N b' s' omin omax cmin cmax).
Proof. intros Eb Es. unfold bmi_out.
  destruct cmax; destruct cmin; cbn [bct_eqb fst snd]; cbv beta iota zeta; cbn [fst snd]; rewrite ?Eb, ?Es; split; reflexivity. Qed.
Lemma bmi_proper b h b' h' omin omax cmin cmax : b == b' -> qleq h h' ->
  fst (bounds_mono_inc b h omin omax cmin cmax) == fst (bounds_mono_inc b' h' omin omax cmin cmax) /\
  qleq (snd (bounds_mono_inc b h omin omax cmin cmax)) (snd (bounds_mono_inc b' h' omin omax cmin cmax)).
Proof. intros Eb Eh.
  destruct (bmi_shape b h omin omax cmin cmax) as [A1 A2]. destruct (bmi_shape b' h' omin omax cmin cmax) as [B1 B2].
  cbv zeta in *. rewrite <- (qleq_length _ _ Eh) in B1, B2.
  destruct (bmi_out_proper (qn (length h)) b (qsum h) b' (qsum h') omin omax cmin cmax Eb (qleq_qsum _ _ Eh)) as [P1 P2].
  split. rewrite A1, B1. exact P1.
  eapply qleq_trans. exact A2. eapply qleq_trans; [|apply qleq_sym; exact B2].
  apply qleq_map2; [|exact Eh]. intros x y E. rewrite E, P2. reflexivity. Qed.
Lemma bounds_mono_proper m b h b' h' omin omax cmin cmax : b == b' -> qleq h h' ->
  fst (bounds_mono m b h omin omax cmin cmax) == fst (bounds_mono m b' h' omin omax cmin cmax) /\
  qleq (snd (bounds_mono m b h omin omax cmin cmax)) (snd (bounds_mono m b' h' omin omax cmin cmax)).
Proof. intros Eb Eh. unfold bounds_mono. destruct (m =? -1)%Z.
  - destruct (bmi_proper (- b) (qneg_list h) (- b') (qneg_list h') (- omax) (- omin) cmax cmin) as [P1 P2].
    rewrite Eb; reflexivity. apply qneg_qleq; exact Eh.
    destruct (bounds_mono_inc (- b) _ _ _ _ _) as [b1 h1]. destruct (bounds_mono_inc (- b') _ _ _ _ _) as [b2 h2].
    cbn [fst snd] in *. split. rewrite P1; reflexivity. apply qneg_qleq; exact P2.
  - apply bmi_proper; assumption. Qed.
Lemma project_monotonicity_proper m h h' : qleq h h' -> qleq (project_monotonicity m h) (project_monotonicity m h').
Proof. intros E. unfold project_monotonicity. destruct (m =? 0)%Z; [exact E|].
  destruct (m =? 1)%Z; (apply qleq_map2; [|exact E]); intros x y Exy; rewrite Exy; reflexivity. Qed.

Lemma lv_qleq n b h b' h' : length h = n -> b == b' -> qleq h h' -> lv n b h (vof (b' :: h')).
Proof. intros HL Eb Eh. split. exact Eb. rewrite hts_vof by (rewrite <- (qleq_length _ _ Eh); exact HL). exact Eh. Qed.
Lemma lv_PB c n {b h f} : lv n b h f ->
  let r := bounds_mono (p_mono c) b h (p_min c) (p_max c) (p_cmin c) (p_cmax c) in
  lv n (fst r) (snd r) (PBv c n f).
Proof. intros L. cbv zeta. unfold PBv.
  destruct (bounds_mono_proper (p_mono c) b h (f 0%nat) (hts n f) (p_min c) (p_max c) (p_cmin c) (p_cmax c) (proj1 L) (proj2 L)) as [P1 P2].
  apply lv_qleq; [rewrite bounds_mono_length; exact (lv_length L)|exact P1|exact P2]. Qed.
Lemma lv_PM m n {b h f} : lv n b h f -> lv n b (project_monotonicity m h) (PMv m n f).
Proof. intros L. unfold PMv.
  apply lv_qleq; [rewrite project_monotonicity_length; exact (lv_length L)|exact (proj1 L)|].
  apply project_monotonicity_proper. exact (proj2 L). Qed.
Lemma lv_of_veq n b h f : length h = n -> lv n b h f <-> veq (pI n) (vof (b :: h)) f.
Proof. intros HL. split. apply lv_veq. apply veq_lv; exact HL. Qed.

Lemma lv_hts n f g : veq (pI n) f g -> lv n (f 0%nat) (hts n f) g.
Proof. intros E. split. apply veq_pI in E. apply E. apply hts_qleq. exact E. Qed.
Lemma PBv_proper c n f g : veq (pI n) f g -> veq (pI n) (PBv c n f) (PBv c n g).
Proof. intros E. exact (lv_veq (lv_PB c n (lv_hts n f g E))). Qed.
Lemma PMv_proper m n f g : veq (pI n) f g -> veq (pI n) (PMv m n f) (PMv m n g).
Proof. intros E. exact (lv_veq (lv_PM m n (lv_hts n f g E))). Qed.
Lemma CBv_proper c n f g : veq (pI n) f g -> CBv c n f -> CBv c n g.
Proof. intros E. unfold CBv. apply bounds_set_proper. apply veq_pI in E; apply E. apply qleq_qsum. apply hts_qleq. exact E. Qed.
Lemma CMv_proper m n f g : veq (pI n) f g -> CMv m n f -> CMv m n g.
Proof. intros E H i Hi. apply veq_pI in E. destruct E as [_ E]. specialize (H i Hi). unfold sign_ok in *.
  destruct (m =? 1)%Z; rewrite <- (E i Hi); exact H. Qed.

Section Proper.
Context {A : Type}.
Variable I : list A.
Notation vec := (A -> Q).
Definition seqv (s s' : slot (A:=A)) : Prop := s_C s = s_C s' /\ s_P s = s_P s' /\ veq I (s_e s) (s_e s').
Definition pproper (s : slot (A:=A)) : Prop := forall f g, veq I f g -> veq I (s_P s f) (s_P s g).

Lemma seqv_refl s : seqv s s.
Proof. split; [|split]; try reflexivity. apply veq_refl. Qed.
Lemma seqv_list_trans (l1 l2 l3 : list (slot (A:=A))) : Forall2 seqv l1 l2 -> Forall2 seqv l2 l3 -> Forall2 seqv l1 l3.
Proof. intros H; revert l3; induction H; intros l3 H3; inversion H3; subst; constructor.
  - destruct H as (a1 & a2 & a3). destruct H4 as (b1 & b2 & b3). split; [congruence|]. split; [congruence|].
    eapply veq_trans; eassumption.
  - apply IHForall2. assumption. Qed.
Lemma seqv_list_sym (l1 l2 : list (slot (A:=A))) : Forall2 seqv l1 l2 -> Forall2 seqv l2 l1.
Proof. induction 1; constructor; [|assumption]. destruct H as (a1 & a2 & a3). split; [congruence|]. split; [congruence|].
  apply veq_sym; assumption. Qed.

(* a sweep respects == in its result, in the changes it stores and in its movement *)
Lemma asweep_proper sl : forall sl' x x', (forall s, In s sl -> pproper s) -> veq I x x' -> Forall2 seqv sl sl' ->
  veq I (fst (asweep sl x)) (fst (asweep sl' x')) /\ Forall2 seqv (snd (asweep sl x)) (snd (asweep sl' x')) /\
  amoves I sl x == amoves I sl' x'.
Proof. induction sl as [|s r IH]; intros sl' x x' Hp Hx HF; inversion HF as [|a b l l' Hs HF']; subst; cbn [asweep amoves].
  - split. exact Hx. split. constructor. reflexivity.
  - destruct Hs as (E1 & E2 & E3).
    assert (Hr : veq I (vsub x (s_e s)) (vsub x' (s_e b))) by (apply vsub_veq; assumption).
    assert (Hx1 : veq I (s_P s (vsub x (s_e s))) (s_P b (vsub x' (s_e b)))).
    { rewrite <- E2. apply (Hp s (or_introl eq_refl)). exact Hr. }
    specialize (IH l' _ _ (fun s0 H0 => Hp s0 (or_intror H0)) Hx1 HF').
    destruct (asweep r (s_P s (vsub x (s_e s)))) as [xf r1]. destruct (asweep l' (s_P b (vsub x' (s_e b)))) as [xf' r1'].
    cbn [fst snd] in *. destruct IH as (IH1 & IH2 & IH3). split. exact IH1. split.
    + constructor; [|exact IH2]. split; [exact E1|]. split; [exact E2|]. cbn [s_e]. apply vsub_veq; assumption.
    + rewrite IH3, (d2_ext I _ _ _ _ Hx1 Hx). reflexivity. Qed.

Lemma amoves_proper sl sl' x x' : (forall s, In s sl -> pproper s) -> veq I x x' -> Forall2 seqv sl sl' ->
  amoves I sl x == amoves I sl' x'.
Proof. intros Hp Hx HF. destruct (asweep_proper sl sl' x x' Hp Hx HF) as (_ & _ & E). exact E. Qed.

Lemma asweep_pproper sl x : (forall s, In s sl -> pproper s) -> forall s, In s (snd (asweep sl x)) -> pproper s.
Proof. revert x; induction sl as [|s r IH]; intros x Hp s0 H0; cbn [asweep] in H0. destruct H0.
  specialize (IH (s_P s (vsub x (s_e s))) (fun s1 H1 => Hp s1 (or_intror H1))).
  destruct (asweep r (s_P s (vsub x (s_e s)))) as [xf r1]. cbn [snd] in *. destruct H0 as [<-|H0].
  - exact (Hp s (or_introl eq_refl)).
  - apply IH. exact H0. Qed.

(* increment-sum invariant over the loop *)
Lemma aloop_increment_sum x0 n : forall st, veq I (fst st) (vadd x0 (vsum (map s_e (snd st)))) ->
  veq I (fst (aloop n st)) (vadd x0 (vsum (map s_e (snd (aloop n st))))).
Proof. induction n as [|n IH]; intros st H; cbn [aloop]. exact H. apply IH. apply asweep_increment_sum. exact H. Qed.
End Proper.

(* the configurations of this file: bounds present, monotonicity +1 / -1, no convexity *)
Definition pwl_mb (c : pwl_cfg) : Prop :=
  has_bounds c = true /\ (p_mono c = 1%Z \/ p_mono c = (-1)%Z) /\ p_conv c = 0%Z.

Definition vx (st : dyk) : nat -> Q := vof (d_bias st :: d_h st).
Definition veB (st : dyk) : nat -> Q := vof (d_lb_bounds st :: d_lh_bounds st).
Definition veM (st : dyk) : nat -> Q := vof (0 :: d_lh_mono st).
Definition pslots (c : pwl_cfg) (n : nat) (eB eM : nat -> Q) : list (slot (A:=nat)) :=
  [mkSlot (CBv c n) (PBv c n) eB; mkSlot (CMv (p_mono c) n) (PMv (p_mono c) n) eM].

Lemma pwl_mb_mono c : pwl_mb c -> p_mono c <> 0%Z /\ (p_mono c =? 0)%Z = false.
Proof. intros (_ & [H|H] & _); rewrite H; split; try discriminate; reflexivity. Qed.

Lemma pslots_pproper c n eB eM : forall s, In s (pslots c n eB eM) -> pproper (pI n) s.
Proof. intros s [<-|[<-|[]]] f g E; cbn [s_P]. apply PBv_proper; exact E. apply PMv_proper; exact E. Qed.

(* the two steps of one iteration in vector terms: x1 after BOUNDS, x2 after
   MONOTONICITY, and the changes stored for the next iteration *)
Lemma body_lv c n st : pwl_mb c -> dyk_wf n st ->
  let st' := fst (dyk_body c st) in
  let r := vsub (vx st) (veB st) in let x1 := PBv c n r in
  let rm := vsub x1 (veM st) in let x2 := PMv (p_mono c) n rm in
  lv n (s1_bias c st) (s1_h c st) x1 /\ lv n (s1_bias c st) (s2_h c st) x2 /\
  d_bias st' = s1_bias c st /\ d_h st' = s2_h c st /\
  lv n (d_lb_bounds st') (d_lh_bounds st') (vsub x1 r) /\ lv n 0 (d_lh_mono st') (vsub x2 rm).
Proof. intros Hc WF. cbv zeta. destruct (pwl_mb_mono c Hc) as [Hm Hm0]. destruct Hc as (Hb & _ & Hconv).
  destruct WF as (W1 & W2 & W3 & _).
  rewrite body_state. cbn [d_bias d_h d_lb_bounds d_lh_bounds d_lh_mono]. rewrite (body_mono_noconv c st Hconv).
  unfold vx, veB, veM, st_m, roll, s1_lbb, s1_lhb, s2_h, mono_rh, s1_bias, s1_h, bnd_res. rewrite Hb, Hm0. cbn [negb snd].
  set (X := vof (d_bias st :: d_h st)). set (EB := vof (d_lb_bounds st :: d_lh_bounds st)).
  set (EM := vof (0 :: d_lh_mono st)).
  set (res := bounds_mono (p_mono c) (bnd_rb st) (bnd_rh st) (p_min c) (p_max c) (p_cmin c) (p_cmax c)).
  set (x1 := PBv c n (vsub X EB)). set (x2 := PMv (p_mono c) n (vsub x1 EM)).
  assert (Lx : lv n (d_bias st) (d_h st) X) by (apply lv_vof; exact W1).
  assert (LeB : lv n (d_lb_bounds st) (d_lh_bounds st) EB) by (apply lv_vof; exact W2).
  assert (LeM : lv n 0 (d_lh_mono st) EM) by (apply lv_vof; exact W3).
  assert (LrB : lv n (bnd_rb st) (bnd_rh st) (vsub X EB)) by (apply lv_sub; assumption).
  assert (Lx1 : lv n (fst res) (snd res) x1) by (apply lv_PB; exact LrB).
  assert (LrM : lv n (fst res) (lsub (snd res) (d_lh_mono st)) (vsub x1 EM)).
  { pose proof (lv_sub Lx1 LeM) as [_ T]. split; [|exact T]. destruct Lx1 as [T0 _]. rewrite T0. unfold vsub, EM, vof. cbn [nth]. ring. }
  assert (Lx2 : lv n (fst res) (project_monotonicity (p_mono c) (lsub (snd res) (d_lh_mono st))) x2) by (apply lv_PM; exact LrM).
  split; [exact Lx1|]. split; [exact Lx2|]. split; [reflexivity|]. split; [reflexivity|]. split.
  - apply lv_sub; assumption.
  - pose proof (lv_sub Lx2 LrM) as [_ T]. split; [|exact T]. unfold vsub, x2. rewrite PMv_0. unfold vsub. ring. Qed.

Lemma body_asweep c n st : pwl_mb c -> dyk_wf n st ->
  let st' := fst (dyk_body c st) in
  let r := asweep (pslots c n (veB st) (veM st)) (vx st) in
  veq (pI n) (vx st') (fst r) /\ Forall2 (seqv (pI n)) (pslots c n (veB st') (veM st')) (snd r).
Proof. intros Hc WF. destruct (body_lv c n st Hc WF) as (_ & L2 & Eb & Eh & LB & LM). cbv zeta in *.
  cbn [asweep pslots s_e s_P s_C fst snd]. split.
  - unfold vx. rewrite Eb, Eh. apply lv_veq. exact L2.
  - constructor; [|constructor; [|constructor]]; (split; [reflexivity|]; split; [reflexivity|]; cbn [s_e]; apply lv_veq; assumption). Qed.

(* simulation relation between the model state and an abstract state *)
Definition sim (c : pwl_cfg) (n : nat) (st : dyk) (a : (nat -> Q) * list (slot (A:=nat))) : Prop :=
  veq (pI n) (vx st) (fst a) /\ Forall2 (seqv (pI n)) (pslots c n (veB st) (veM st)) (snd a).

Lemma sim_pproper c n st a : sim c n st a -> forall s, In s (snd a) -> pproper (pI n) s.
Proof. intros [_ HF] s Hs. remember (pslots c n (veB st) (veM st)) as sl eqn:Esl.
  assert (Hp : forall s0, In s0 sl -> pproper (pI n) s0) by (subst sl; apply pslots_pproper).
  clear Esl. induction HF as [|s1 s2 l1 l2 H12 HF IH]. destruct Hs.
  destruct Hs as [<-|Hs].
  - destruct H12 as (_ & E2 & _). intros f g E. rewrite <- E2. apply (Hp s1 (or_introl eq_refl)). exact E.
  - apply IH. exact Hs. intros s0 H0. apply Hp. right; exact H0. Qed.

Lemma sim_step c n st a : pwl_mb c -> dyk_wf n st -> sim c n st a ->
  sim c n (fst (dyk_body c st)) (asweep (snd a) (fst a)).
Proof. intros Hc WF [S1 S2]. destruct (body_asweep c n st Hc WF) as [B1 B2].
  destruct (asweep_proper (pI n) (pslots c n (veB st) (veM st)) (snd a) (vx st) (fst a) (pslots_pproper c n _ _) S1 S2) as (P1 & P2 & _).
  split. eapply veq_trans; eassumption. eapply seqv_list_trans; eassumption. Qed.

Lemma sim_iter c n k : forall st a, pwl_mb c -> dyk_wf n st -> sim c n st a -> sim c n (dyk_iter c k st) (aloop k a).
Proof. induction k as [|k IH]; intros st a Hc WF S; cbn [dyk_iter aloop]. exact S.
  apply IH. exact Hc. apply dyk_body_wf; exact WF. apply sim_step; assumption. Qed.

Definition pslots0 (c : pwl_cfg) (n : nat) : list (slot (A:=nat)) := pslots c n vzero vzero.
Lemma sim_init c b h : sim c (length h) (dyk_init b h) (vof (b :: h), pslots0 c (length h)).
Proof. split; cbn [fst snd]. apply veq_refl. unfold pslots0, pslots, dyk_init, veB, veM. cbn [d_lb_bounds d_lh_bounds d_lh_mono].
  assert (Z : veq (pI (length h)) (vof (0 :: map (fun _ : Q => 0) h)) vzero).
  { intros i _. unfold vof, vzero. destruct i as [|i]; cbn [nth]. reflexivity. change (map (fun _ : Q => 0) h) with (zeros_like h). rewrite nth_zeros_like. reflexivity. }
  constructor; [|constructor; [|constructor]]; (split; [reflexivity|]; split; [reflexivity|]; exact Z). Qed.

Lemma pslots0_zero c n : forall s, In s (pslots0 c n) -> veq (pI n) (s_e s) vzero.
Proof. intros s [<-|[<-|[]]]; apply veq_refl. Qed.
Lemma pslots_is_proj c n eB eM : pwl_mb c -> (1 <= n)%nat ->
  forall s, In s (pslots c n eB eM) -> is_proj (pI n) (s_C s) (s_P s).
Proof. intros Hc Hn s [<-|[<-|[]]]; cbn [s_C s_P]. apply bounds_is_proj; exact Hn.
  apply mono_is_proj. apply (pwl_mb_mono c Hc). Qed.

Definition in_sets (c : pwl_cfg) (b : Q) (h : list Q) : Prop :=
  Forall (sign_ok (p_mono c)) h /\
  bounds_set (p_mono c) (p_min c) (p_max c) (p_cmin c) (p_cmax c) b (qsum h).

Lemma feasible_iff_sets {c b h} : pwl_mb c -> (feasible c b h <-> in_sets c b h).
Proof. intros (Hb & Hm & Hconv). unfold in_sets, bounds_set. rewrite sign_ok_signed. split.
  - intros F. unfold signed. pose proof (feasible_lo c b h F) as Flo. pose proof (feasible_hi c b h F) as Fhi.
    destruct F as (F1 & F2 & _ & _ & _ & F6 & F7).
    destruct Hm as [Hm|Hm]; rewrite Hm in *; cbn [Z.eqb Pos.eqb].
    + split. apply F1; reflexivity. split.
      * destruct (p_cmin c) eqn:E; cbn; auto. apply Flo; discriminate. apply F6; reflexivity.
      * destruct (p_cmax c) eqn:E; cbn; auto. apply Fhi; discriminate. apply F7; reflexivity.
    + split. apply F2; reflexivity. split.
      * destruct (p_cmax c) eqn:E; cbn; auto. apply Fhi; discriminate. apply F7; reflexivity.
      * destruct (p_cmin c) eqn:E; cbn; auto. apply Flo; discriminate. apply F6; reflexivity.
  - intros [S B]. unfold feasible, keypoint_outputs, cumsum. cbn [cumsum_from].
    destruct Hm as [Hm|Hm]; rewrite Hm in *; cbn [Z.eqb Pos.eqb] in *; destruct B as [B1 B2].
    + pose proof (cumsum_from_signed 1 h (0 + b) S) as CS. unfold signed in CS, S. cbn [Z.eqb Pos.eqb] in CS, S.
      split; [intros _; exact S|]. split; [discriminate|]. split; [|split; [|split; [|split]]].
      * intros G. assert (L : p_min c <= b) by (destruct (p_cmin c); cbn in B1; [contradiction|lra|lra]).
        eapply Forall_impl; [|exact CS]. cbv beta. intros s Hs. lra.
      * intros G. assert (L : b + qsum h <= p_max c) by (destruct (p_cmax c); cbn in B2; [contradiction|lra|lra]).
        eapply Forall_impl; [|exact CS]. cbv beta. intros s Hs. lra.
      * intros G; contradiction.
      * intros G. rewrite G in B1. cbn in B1. split. intros _; exact B1. discriminate.
      * intros G. rewrite G in B2. cbn in B2. split. intros _; exact B2. discriminate.
    + pose proof (cumsum_from_signed (-1) h (0 + b) S) as CS. unfold signed in CS, S. cbn [Z.eqb] in CS, S.
      split; [discriminate|]. split; [intros _; exact S|]. split; [|split; [|split; [|split]]].
      * intros G. assert (L : p_min c <= b + qsum h) by (destruct (p_cmin c); cbn in B2; [contradiction|lra|lra]).
        eapply Forall_impl; [|exact CS]. cbv beta. intros s Hs. lra.
      * intros G. assert (L : b <= p_max c) by (destruct (p_cmax c); cbn in B1; [contradiction|lra|lra]).
        eapply Forall_impl; [|exact CS]. cbv beta. intros s Hs. lra.
      * intros G; contradiction.
      * intros G. rewrite G in B2. cbn in B2. split. discriminate. intros _; exact B2.
      * intros G. rewrite G in B1. cbn in B1. split. discriminate. intros _; exact B1. Qed.

(* in_sets of a weight list = membership of its vector in both sets *)
Lemma in_sets_vec {c n b h} : length h = n ->
  (in_sets c b h <-> (CBv c n (vof (b :: h)) /\ CMv (p_mono c) n (vof (b :: h)))).
Proof. intros HL. unfold in_sets, CBv, CMv. rewrite hts_vof by exact HL. unfold vof. cbn [nth]. split.
  - intros [S B]. split. exact B. intros i Hi. rewrite Forall_nth0 in S. apply S. lia.
  - intros [B S]. split; [|exact B]. apply Forall_nth0. intros i Hi. apply S. lia. Qed.
(* feasibility = membership of the weight vector in both sets *)
Lemma feasible_iff_vec c n b h : pwl_mb c -> length h = n ->
  (feasible c b h <-> (CBv c n (vof (b :: h)) /\ CMv (p_mono c) n (vof (b :: h)))).
Proof. intros Hc HL. rewrite (feasible_iff_sets Hc). apply in_sets_vec. exact HL. Qed.

Definition wl (st : dyk) : list Q := d_bias st :: d_h st.
(* squared movement of the BOUNDS step plus squared movement of the MONOTONICITY step *)
Definition pwl_moves (c : pwl_cfg) (st : dyk) : Q :=
  wd2 (s1_bias c st :: s1_h c st) (wl st) + wd2 (s1_bias c st :: s2_h c st) (s1_bias c st :: s1_h c st).
Fixpoint pwl_loop_moves (c : pwl_cfg) (k : nat) (st : dyk) : list Q :=
  match k with O => [] | S k' => pwl_moves c st :: pwl_loop_moves c k' (fst (dyk_body c st)) end.

Lemma sim_slots {c n st a} : sim c n st a ->
  exists eB eM, snd a = pslots c n eB eM /\ veq (pI n) (veB st) eB /\ veq (pI n) (veM st) eM.
Proof. destruct a as [xa sl]. intros [_ S2]. cbn [snd] in *. unfold pslots in S2.
  inversion S2 as [|? a1 ? l1 H1 T1]; subst. inversion T1 as [|? a2 ? l2 H2 T2]; subst. inversion T2; subst.
  destruct a1 as [C1 P1 e1], a2 as [C2 P2 e2]. destruct H1 as (A1 & A2 & A3), H2 as (B1 & B2 & B3). cbn [s_C s_P s_e] in *. subst.
  exists e1, e2. split. reflexivity. split; assumption. Qed.

Lemma d2_lv {n b h f b' h' g} : lv n b h f -> lv n b' h' g -> d2 (pI n) f g == wd2 (b :: h) (b' :: h').
Proof. intros L1 L2. rewrite <- (d2_vof n) by (cbn [length]; rewrite (lv_length L1) || rewrite (lv_length L2); reflexivity).
  apply d2_ext; apply veq_sym; apply lv_veq; assumption. Qed.

Lemma pwl_moves_amoves c n st : pwl_mb c -> dyk_wf n st ->
  amoves (pI n) (pslots c n (veB st) (veM st)) (vx st) == pwl_moves c st.
Proof. intros Hc WF. destruct (body_lv c n st Hc WF) as (L1 & L2 & _). cbv zeta in L1, L2.
  assert (Lx : lv n (d_bias st) (d_h st) (vx st)) by (apply lv_vof; apply WF).
  unfold pwl_moves, pslots. cbn [amoves s_e s_P].
  rewrite (d2_lv L1 Lx), (d2_lv L2 L1). unfold wl. lra. Qed.

Lemma sim_moves c n st a : pwl_mb c -> dyk_wf n st -> sim c n st a -> amoves (pI n) (snd a) (fst a) == pwl_moves c st.
Proof. intros Hc WF S. rewrite <- (pwl_moves_amoves c n st Hc WF). destruct S as [S1 S2].
  symmetry. apply (amoves_proper (pI n)). apply pslots_pproper. exact S1. exact S2. Qed.

Lemma sim_loop_moves c n k : forall st a, pwl_mb c -> dyk_wf n st -> sim c n st a ->
  qleq (aloop_moves (pI n) k a) (pwl_loop_moves c k st).
Proof. induction k as [|k IH]; intros st a Hc WF S; cbn [aloop_moves pwl_loop_moves]. constructor.
  constructor. apply (sim_moves c n); assumption.
  apply IH. exact Hc. apply dyk_body_wf; exact WF. apply sim_step; assumption. Qed.

Lemma pwl_loop_moves_nth c k : forall st j, (j < k)%nat ->
  nth j (pwl_loop_moves c k st) 0 = pwl_moves c (dyk_iter c j st).
Proof. induction k as [|k IH]; intros st j Hj. lia. destruct j as [|j]; cbn [pwl_loop_moves nth dyk_iter]. reflexivity.
  apply IH. lia. Qed.

Lemma Forall2_cons_iff {A B} (R : A -> B -> Prop) x y l l' : Forall2 R (x :: l) (y :: l') <-> R x y /\ Forall2 R l l'.
Proof. split. intros H; inversion H; auto. intros [H1 H2]; constructor; assumption. Qed.

Lemma veq_iff {A} {I : list A} {f f' g g'} : veq I f f' -> veq I g g' -> (veq I f g <-> veq I f' g').
Proof. intros Ef Eg. split; intros H.
  - eapply veq_trans; [apply veq_sym; exact Ef|]. eapply veq_trans; eassumption.
  - eapply veq_trans; [exact Ef|]. eapply veq_trans; [exact H|]. apply veq_sym; exact Eg. Qed.

(* lists of equal length are == pointwise iff their vectors are *)
Lemma vof_veq_qleq n l l' : length l = S n -> length l' = S n -> (veq (pI n) (vof l) (vof l') <-> qleq l l').
Proof. intros L L'. split.
  - intros E. apply (Forall2_nth_intro Qeq 0 0). lia. intros i Hi. apply E. apply in_seq. lia.
  - intros E i _. apply qleq_nth. exact E. Qed.

Section PwlLoop.
Variables (c : pwl_cfg) (n : nat) (b : Q) (h : list Q).
Hypothesis Hc : pwl_mb c.
Hypothesis Hn : (1 <= n)%nat.
Hypothesis HL : length h = n.

Let x0 : nat -> Q := vof (b :: h).
Let a0 : (nat -> Q) * list (slot (A:=nat)) := (x0, pslots0 c n).
Let st0 : dyk := dyk_init b h.

Lemma loop_sim k : sim c n (dyk_iter c k st0) (aloop k a0).
Proof. apply sim_iter. exact Hc. subst st0. rewrite <- HL. apply dyk_init_wf.
  subst st0 a0 x0. rewrite <- HL. apply sim_init. Qed.
Lemma loop_wf k : dyk_wf n (dyk_iter c k st0).
Proof. apply dyk_iter_wf. subst st0. rewrite <- HL. apply dyk_init_wf. Qed.

Lemma feasible_good bz hz : length hz = n -> feasible c bz hz -> forall s, In s (pslots0 c n) -> sgood (pI n) (vof (bz :: hz)) s.
Proof. intros Hz F. apply (feasible_iff_sets Hc) in F. apply (in_sets_vec Hz) in F. destruct F as [F1 F2].
  intros s Hs. split. apply (pslots_is_proj c n vzero vzero Hc Hn s Hs).
  destruct Hs as [<-|[<-|[]]]; cbn [s_C]; assumption. Qed.

Lemma wl_lv st : dyk_wf n st -> lv n (d_bias st) (d_h st) (vx st).
Proof. intros WF. apply lv_vof. apply WF. Qed.

Theorem pwl_moves_summable bz hz k : length hz = n -> feasible c bz hz ->
  wd2 (wl (dyk_iter c k st0)) (bz :: hz) + qsum (pwl_loop_moves c k st0) <= wd2 (b :: h) (bz :: hz).
Proof. intros Hz F.
  pose proof (aloop_moves_summable (pI n) (vof (bz :: hz)) x0 (pslots0 c n) (feasible_good bz hz Hz F) (pslots0_zero c n) k) as B.
  fold a0 in B. pose proof (loop_sim k) as S. pose proof (loop_wf k) as WF.
  assert (Lz : lv n bz hz (vof (bz :: hz))) by (apply lv_vof; exact Hz).
  assert (E1 : d2 (pI n) (fst (aloop k a0)) (vof (bz :: hz)) == wd2 (wl (dyk_iter c k st0)) (bz :: hz)).
  { unfold wl. rewrite <- (d2_lv (wl_lv _ WF) Lz). apply d2_ext. apply veq_sym. apply S. apply veq_refl. }
  assert (E2 : d2 (pI n) x0 (vof (bz :: hz)) == wd2 (b :: h) (bz :: hz)).
  { apply d2_lv. apply lv_vof; exact HL. exact Lz. }
  assert (E3 : qsum (aloop_moves (pI n) k a0) == qsum (pwl_loop_moves c k st0)).
  { apply qleq_qsum. apply (sim_loop_moves c n). exact Hc. apply (loop_wf 0). apply (loop_sim 0). }
  rewrite <- E1, <- E2, <- E3. exact B. Qed.

Lemma pwl_moves_nonneg st : 0 <= pwl_moves c st.
Proof. unfold pwl_moves. pose proof (wd2_nonneg (s1_bias c st :: s1_h c st) (wl st)).
  pose proof (wd2_nonneg (s1_bias c st :: s2_h c st) (s1_bias c st :: s1_h c st)). lra. Qed.
Lemma pwl_loop_moves_nonneg k : forall st, 0 <= qsum (pwl_loop_moves c k st).
Proof. induction k as [|k IH]; intros st; cbn [pwl_loop_moves qsum]. lra.
  pose proof (pwl_moves_nonneg st). specialize (IH (fst (dyk_body c st))). lra. Qed.

(* Fejer-type bound *)
Theorem pwl_never_farther bz hz k : length hz = n -> feasible c bz hz ->
  wd2 (wl (dyk_iter c k st0)) (bz :: hz) <= wd2 (b :: h) (bz :: hz).
Proof. intros Hz F. pose proof (pwl_moves_summable bz hz k Hz F). pose proof (pwl_loop_moves_nonneg k st0). lra. Qed.

Theorem pwl_stalls bz hz k : length hz = n -> feasible c bz hz -> (1 <= k)%nat ->
  exists j, (j < k)%nat /\ pwl_moves c (dyk_iter c j st0) * qnat k <= wd2 (b :: h) (bz :: hz).
Proof. intros Hz F Hk.
  assert (Hne : pwl_loop_moves c k st0 <> []) by (destruct k; [lia|cbn [pwl_loop_moves]; discriminate]).
  assert (Hlen : forall k' st, length (pwl_loop_moves c k' st) = k').
  { induction k' as [|k' IH]; intros st; cbn [pwl_loop_moves length]. reflexivity. rewrite IH. reflexivity. }
  destruct (qsum_pigeonhole (pwl_loop_moves c k st0) (wd2 (b :: h) (bz :: hz)) Hne) as [j [Hj Hle]].
  - pose proof (pwl_moves_summable bz hz k Hz F). pose proof (wd2_nonneg (wl (dyk_iter c k st0)) (bz :: hz)). lra.
  - rewrite Hlen in Hj, Hle. exists j. split. exact Hj. rewrite <- (pwl_loop_moves_nth c k st0 j Hj). exact Hle. Qed.

Definition reproduces (st : dyk) : Prop :=
  let st' := fst (dyk_body c st) in
  d_lb_bounds st' == d_lb_bounds st /\ qleq (d_lh_bounds st') (d_lh_bounds st) /\ qleq (d_lh_mono st') (d_lh_mono st).

(* the state reproduces its stored changes iff the abstract sweep reproduces those of its slots *)
Lemma reproduces_slots k : let a := aloop k a0 in
  reproduces (dyk_iter c k st0) <->
  Forall2 (fun s s' => veq (pI n) (s_e s') (s_e s)) (snd a) (snd (asweep (snd a) (fst a))).
Proof. cbv zeta. pose proof (loop_sim k) as S. pose proof (loop_wf k) as WF.
  set (st := dyk_iter c k st0) in *. set (a := aloop k a0) in *.
  pose proof (sim_step c n st a Hc WF S) as S'. pose proof (dyk_body_wf c n st WF) as WF'.
  destruct (sim_slots S) as (eB & eM & Esl & EB & EM).
  destruct (sim_slots S') as (eB' & eM' & Esl' & EB' & EM'). cbn [fst snd] in Esl'. rewrite Esl', Esl.
  destruct WF as (_ & W2 & W3 & _). destruct WF' as (_ & W2' & W3' & _).
  set (st' := fst (dyk_body c st)) in *.
  assert (KB : veq (pI n) eB' eB <-> d_lb_bounds st' == d_lb_bounds st /\ qleq (d_lh_bounds st') (d_lh_bounds st)).
  { rewrite <- (veq_iff EB' EB). unfold veB. rewrite (vof_veq_qleq n) by (cbn [length]; congruence). apply Forall2_cons_iff. }
  assert (KM : veq (pI n) eM' eM <-> 0 == 0 /\ qleq (d_lh_mono st') (d_lh_mono st)).
  { rewrite <- (veq_iff EM' EM). unfold veM. rewrite (vof_veq_qleq n) by (cbn [length]; congruence). apply Forall2_cons_iff. }
  unfold pslots, reproduces. fold st st'. rewrite !Forall2_cons_iff. cbn [s_e]. rewrite KB, KM.
  intuition (try reflexivity; constructor). Qed.

Theorem pwl_fixpoint_nearest k :
  let st := dyk_iter c k st0 in
  reproduces st ->
  qleq (wl (fst (dyk_body c st))) (wl st) /\
  feasible c (d_bias st) (d_h st) /\
  forall bz hz, length hz = n -> feasible c bz hz ->
    wd2 (b :: h) (wl st) + wd2 (wl st) (bz :: hz) <= wd2 (b :: h) (bz :: hz).
Proof. cbv zeta. intros R. apply reproduces_slots in R.
  pose proof (loop_sim k) as S. pose proof (loop_wf k) as WF.
  set (st := dyk_iter c k st0) in *. set (a := aloop k a0) in *.
  destruct (sim_step c n st a Hc WF S) as [S' _]. pose proof (dyk_body_wf c n st WF) as WF'.
  destruct (sim_slots S) as (eB & eM & Esl & _).
  destruct (asweep_fixpoint_nearest (pI n) (snd a) x0 (fst a)) as (F1 & F2 & F3).
  - rewrite Esl. apply pslots_is_proj; assumption.
  - rewrite Esl. intros s [<-|[<-|[]]] f g E; cbn [s_C]. apply CBv_proper; exact E. apply CMv_proper; exact E.
  - rewrite Esl. apply pslots_pproper.
  - subst a. apply aloop_increment_sum. subst a0. cbn [fst snd pslots0 pslots map s_e]. intros i _. unfold vadd, vsum, vzero. cbn [map qsum]. ring.
  - exact R.
  - assert (Ex : veq (pI n) (vx st) (fst a)) by apply S.
    split; [|split].
    + apply (vof_veq_qleq n); [cbn [wl length]; f_equal; apply WF'|cbn [wl length]; f_equal; apply WF|].
      eapply veq_trans. exact S'. eapply veq_trans. exact F1. apply veq_sym. exact Ex.
    + apply (feasible_iff_sets Hc). apply (in_sets_vec (proj1 WF)). fold (vx st). split.
      * apply (CBv_proper c n (fst a)). apply veq_sym; exact Ex. apply (F2 (mkSlot (CBv c n) (PBv c n) eB)). rewrite Esl. left; reflexivity.
      * apply (CMv_proper _ n (fst a)). apply veq_sym; exact Ex.
        apply (F2 (mkSlot (CMv (p_mono c) n) (PMv (p_mono c) n) eM)). rewrite Esl. right; left; reflexivity.
    + intros bz hz Hz F. apply (feasible_iff_sets Hc) in F. apply (in_sets_vec Hz) in F. destruct F as [G1 G2].
      destruct (F3 (vof (bz :: hz))) as [V _].
      { rewrite Esl. intros s [<-|[<-|[]]]; cbn [s_C]; assumption. }
      pose proof (vi_nearest_dist (pI n) x0 (fst a) (vof (bz :: hz)) V) as D.
      assert (Lz : lv n bz hz (vof (bz :: hz))) by (apply lv_vof; exact Hz).
      assert (L0 : lv n b h x0) by (apply lv_vof; exact HL).
      assert (La : lv n (d_bias st) (d_h st) (fst a)) by (eapply lv_ext; [apply wl_lv; exact WF|exact Ex]).
      fold (d2 (pI n) x0 (fst a)) in D. fold (d2 (pI n) (fst a) (vof (bz :: hz))) in D. fold (d2 (pI n) x0 (vof (bz :: hz))) in D.
      rewrite (d2_lv L0 La), (d2_lv La Lz), (d2_lv L0 Lz) in D. exact D. Qed.

(* an iteration that does not move reproduces the stored changes *)
Theorem pwl_stalled_reproduces k : pwl_moves c (dyk_iter c k st0) <= 0 -> reproduces (dyk_iter c k st0).
Proof. intros M. apply reproduces_slots. apply amoves_zero_fixpoint.
  rewrite (sim_moves c n _ _ Hc (loop_wf k) (loop_sim k)). exact M. Qed.

End PwlLoop.

(* a stalled iteration: the state is feasible and the nearest feasible point *)
Theorem pwl_stalled_nearest c n b h k : pwl_mb c -> (1 <= n)%nat -> length h = n ->
  let st := dyk_iter c k (dyk_init b h) in
  pwl_moves c st <= 0 ->
  feasible c (d_bias st) (d_h st) /\
  forall bz hz, length hz = n -> feasible c bz hz ->
    wd2 (b :: h) (wl st) + wd2 (wl st) (bz :: hz) <= wd2 (b :: h) (bz :: hz).
Proof. intros Hc Hn HL. cbv zeta. intros M.
  pose proof (pwl_stalled_reproduces c n b h Hc HL k M) as R.
  destruct (pwl_fixpoint_nearest c n b h Hc Hn HL k R) as (_ & F & N). split; assumption. Qed.

(* if the loop of project_all_constraints (p_iters c iterations) has reached a
   fixpoint, _finalize_constraints does nothing and the returned column is the
   nearest feasible column *)
Theorem pwl_converged_result c n b h : pwl_valid c n -> pwl_mb c -> length h = n ->
  let st := dyk_iter c (p_iters c) (dyk_init b h) in
  reproduces c st ->
  qleq (pwl_project_col c (b :: h)) (wl st) /\
  feasible c (d_bias st) (d_h st) /\
  forall bz hz, length hz = n -> feasible c bz hz ->
    wd2 (b :: h) (pwl_project_col c (b :: h)) + wd2 (pwl_project_col c (b :: h)) (bz :: hz) <= wd2 (b :: h) (bz :: hz).
Proof. intros V Hc HL. cbv zeta. intros R. pose proof V as (Hn & _).
  destruct (pwl_fixpoint_nearest c n b h Hc Hn HL (p_iters c) R) as (_ & F & N).
  set (st := dyk_iter c (p_iters c) (dyk_init b h)) in *.
  assert (WF : dyk_wf n st) by (apply dyk_iter_wf; rewrite <- HL; apply dyk_init_wf).
  assert (E : qleq (pwl_project_col c (b :: h)) (wl st)).
  { rewrite pwl_project_col_loop by (try apply Hc; apply (pwl_mb_mono c Hc)). fold st.
    destruct (finalize_fixed c n (d_bias st) (d_h st) V (proj1 WF) F) as [G1 G2]. constructor; assumption. }
  split; [exact E|]. split; [exact F|]. intros bz hz Hz Fz.
  rewrite (wd2_proper (qleq_refl (b :: h)) E), (wd2_proper E (qleq_refl (bz :: hz))). apply N; assumption. Qed.

(* three pieces, increasing, 0 <= output <= 10 (BOUND / BOUND); start
   bias -1, heights (1/2, 1/2, -1): both steps move, and after one iteration
   the state is a fixpoint:  bias 0, heights (1/2, 1/2, 0). *)
Definition pwl_ex_c : pwl_cfg := mkPwl 1 0 0 10 BBound BBound [1; 1; 1] 3.
Definition pwl_ex_b : Q := -1.
Definition pwl_ex_h : list Q := [1#2; 1#2; -1].
Lemma pwl_ex_mb : pwl_mb pwl_ex_c. Proof. repeat split. left; reflexivity. Qed.
Lemma pwl_ex_valid : pwl_valid pwl_ex_c 3.
Proof. apply pwl_validb_ok. reflexivity. Qed.
Ltac qle_compute := apply Qle_bool_iff; vm_compute; reflexivity.
Lemma pwl_ex_feasible : feasible pwl_ex_c 0 [1; 1; 1].
Proof. apply (feasible_iff_sets pwl_ex_mb). split.
  - repeat constructor; unfold sign_ok; cbn; lra.
  - unfold bounds_set, pwl_ex_c; cbn. split; qle_compute. Qed.

Example pwl_fixpoint_nearest_hyps :
  pwl_mb pwl_ex_c /\ (1 <= 3)%nat /\ length pwl_ex_h = 3%nat /\
  reproduces pwl_ex_c (dyk_iter pwl_ex_c 1 (dyk_init pwl_ex_b pwl_ex_h)) /\
  reproduces pwl_ex_c (dyk_iter pwl_ex_c (p_iters pwl_ex_c) (dyk_init pwl_ex_b pwl_ex_h)) /\
  qleq (wl (dyk_iter pwl_ex_c 1 (dyk_init pwl_ex_b pwl_ex_h))) [0; 1#2; 1#2; 0] /\
  ~ reproduces pwl_ex_c (dyk_init pwl_ex_b pwl_ex_h) /\
  pwl_moves pwl_ex_c (dyk_iter pwl_ex_c 1 (dyk_init pwl_ex_b pwl_ex_h)) <= 0 /\
  0 < pwl_moves pwl_ex_c (dyk_init pwl_ex_b pwl_ex_h) /\
  pwl_valid pwl_ex_c 3 /\ feasible pwl_ex_c 0 [1; 1; 1].
Proof. split; [exact pwl_ex_mb|]. split; [lia|]. split; [reflexivity|].
  assert (R : forall k, k = 1%nat \/ k = 3%nat -> reproduces pwl_ex_c (dyk_iter pwl_ex_c k (dyk_init pwl_ex_b pwl_ex_h))).
  { intros k [-> | ->]; vm_compute; repeat constructor. }
  split; [apply R; auto|]. split; [apply R; auto|]. split.
  { vm_compute. repeat constructor. }
  split. { vm_compute. intros (H & _). discriminate H. }
  split. { qle_compute. }
  split. { vm_compute. reflexivity. }
  split. exact pwl_ex_valid. exact pwl_ex_feasible. Qed.

(* the movement bound: strict for Y = (0; 1, 1, 1), tight for the nearest point
   Y = (0; 1/2, 1/2, 0) *)
Example pwl_never_farther_hyps :
  feasible pwl_ex_c 0 [1; 1; 1] /\ feasible pwl_ex_c 0 [1#2; 1#2; 0] /\
  wd2 (wl (dyk_iter pwl_ex_c 2 (dyk_init pwl_ex_b pwl_ex_h))) [0; 1; 1; 1] + qsum (pwl_loop_moves pwl_ex_c 2 (dyk_init pwl_ex_b pwl_ex_h))
    < wd2 (pwl_ex_b :: pwl_ex_h) [0; 1; 1; 1] /\
  wd2 (wl (dyk_iter pwl_ex_c 2 (dyk_init pwl_ex_b pwl_ex_h))) [0; 1#2; 1#2; 0] + qsum (pwl_loop_moves pwl_ex_c 2 (dyk_init pwl_ex_b pwl_ex_h))
    == wd2 (pwl_ex_b :: pwl_ex_h) [0; 1#2; 1#2; 0].
Proof. split; [exact pwl_ex_feasible|]. split.
  - apply (feasible_iff_sets pwl_ex_mb). split.
    + repeat constructor; unfold sign_ok; cbn; lra.
    + unfold bounds_set, pwl_ex_c; cbn. split; qle_compute.
  - split. vm_compute. reflexivity. apply Qeq_bool_eq. vm_compute. reflexivity. Qed.

(* decreasing, CLAMPED maximum at the left end and BOUND minimum: the set is
   bias == 4 /\ 0 <= bias + sum heights; the map lands in the set and the
   hypotheses of the theorems hold *)
Definition pwl_ex_c2 : pwl_cfg := mkPwl (-1) 0 0 4 BBound BClamped [1; 1; 1] 2.
Example pwl_dec_clamped_hyps :
  pwl_mb pwl_ex_c2 /\ pwl_valid pwl_ex_c2 3 /\ feasible pwl_ex_c2 4 [-1; -1; -1] /\
  reproduces pwl_ex_c2 (dyk_iter pwl_ex_c2 1 (dyk_init 5 [-1; 1; -1])) /\
  qleq (wl (dyk_iter pwl_ex_c2 1 (dyk_init 5 [-1; 1; -1]))) [4; -1; 0; -1].
Proof. assert (M : pwl_mb pwl_ex_c2) by (repeat split; right; reflexivity).
  split; [exact M|]. split.
  { apply pwl_validb_ok. reflexivity. }
  split.
  { apply (feasible_iff_sets M). split.
    - repeat constructor; unfold sign_ok; cbn; lra.
    - unfold bounds_set, pwl_ex_c2; cbn. split. reflexivity. qle_compute. }
  split.
  { vm_compute. repeat constructor. }
  vm_compute. repeat constructor. Qed.

(* the loop does not in general reach a fixpoint after finitely many iterations:
   same configuration, start (5; -3, 1, -3); the nearest feasible column is
   (4; -2, 0, -2) *)
Example pwl_not_finite_example :
  qleq (wl (dyk_iter pwl_ex_c2 2 (dyk_init 5 [-3; 1; -3]))) [4; -20#9; 0; -20#9] /\
  ~ reproduces pwl_ex_c2 (dyk_iter pwl_ex_c2 2 (dyk_init 5 [-3; 1; -3])) /\
  feasible pwl_ex_c2 4 [-2; 0; -2].
Proof. split. vm_compute. repeat constructor. split.
  - intros (_ & H & _). apply (qleq_nth _ _ 0%nat) in H. vm_compute in H. discriminate H.
  - apply feasible_iff_sets. repeat split; right; reflexivity. split.
    + repeat constructor; unfold sign_ok; cbn; lra.
    + unfold bounds_set, pwl_ex_c2; cbn. split. reflexivity. qle_compute. Qed.
