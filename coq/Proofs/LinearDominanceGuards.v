(* C20: the guard "the dominant input is not clipped" of the monotonic-dominance
   effect clause (mdom_effect_unclipped, Proofs/LinearComposed.v) is necessary:
   a saturated dominant input does not move the output at all.  Without the
   guard only mdom_effect_general (Proofs/LinearEval.v) holds. *)
From TFL Require Import Model.LinearLayer Proofs.LinearEval Proofs.TopoSort Proofs.LinearProject Proofs.LinearComposed.
Open Scope Q_scope.

(* Known finding D73, reproduced on the real layer: Linear(num_input_dims=2, monotonicities=[1, 1],
   monotonic_dominances=[(0, 1)], input_min=[0.0, None], input_max=[1.0, None]), raw kernel
   (1, 1) (a fixed point of the constraint), no bias, x = (1, 0), d = 1: the dominant
   input is saturated at its upper bound, its step moves the output by 0, the weak
   input's step by 1. *)
Definition sat_cfg : lin_cfg := mkLin [1; 1]%Z [(0%nat, 1%nat)] [] [Some 0; None] [Some 1; None] 0.
Lemma sat_cfg_valid : lin_valid sat_cfg 2.
Proof. constructor; cbn; try reflexivity; try congruence.
  - intros i. unfold mono. cbn. destruct i as [|[|[|i]]]; auto.
  - intros d k [E|[]]. inversion E; subst. unfold mono; cbn. repeat split; lia.
  - intros d k [].
  - intros i _ [x [[]|[]]].
  - apply (acyclic_rank _ (fun x => 10 - x)%nat). intros a b H. cbn in H. destruct H as [E|[]]. inversion E; subst. lia.
  - apply (acyclic_rank _ (fun x => x)). intros a b []. Qed.

Theorem mdom_effect_clipped_refuted :
  exists rt c n w r b x dom weak d,
    lin_valid c n /\ length w = n /\ lin_project_col rt c w = Some r /\ length x = n /\
    In (dom, weak) (lc_mdom c) /\ 0 <= d /\
    unclipped (nth dom (layer_bounds c n) nob) (nth dom x 0) /\
    ~ unclipped (nth dom (layer_bounds c n) nob) (nth dom x 0 + d) /\
    ~ (lin_unit r b (layer_bounds c n) (set_nth weak (nth weak x 0 + d) x) - lin_unit r b (layer_bounds c n) x <=
       lin_unit r b (layer_bounds c n) (set_nth dom (nth dom x 0 + d) x) - lin_unit r b (layer_bounds c n) x).
Proof. exists qsqrt, sat_cfg, 2%nat, [1; 1], [1; 1], 0, [1; 0], 0%nat, 1%nat, 1.
  split; [exact sat_cfg_valid|]. split; [reflexivity|]. split; [vm_compute; reflexivity|]. split; [reflexivity|].
  split; [left; reflexivity|]. split; [lra|]. split; [vm_compute; reflexivity|].
  split; vm_compute; intros H; first [discriminate H | apply H; reflexivity]. Qed.

(* kernel (2, 1), dominant input 0 bounded to [0, 4], weak input 1 bounded to [0, 1]; x = (1, 1/2), d = 1:
   dominant unclipped at 1 and 2; the weak input is clipped at 3/2 -> 1 *)
Example mdom_unclipped_applies :
  let k := [2; 1] in let bs := [(Some 0, Some 4); (Some 0, Some 1)] in let x := [1; 1#2] in
  nth 1 k 0 <= nth 0 k 0 /\ 0 <= nth 0 k 0 /\
  unclipped (nth 0 bs nob) (nth 0 x 0) /\ unclipped (nth 0 bs nob) (nth 0 x 0 + 1) /\
  lin_unit k 0 bs (set_nth 1 (nth 1 x 0 + 1) x) - lin_unit k 0 bs x == 1#2 /\
  lin_unit k 0 bs (set_nth 0 (nth 0 x 0 + 1) x) - lin_unit k 0 bs x == 2.
Proof. cbv zeta. repeat split; vm_compute; try reflexivity; discriminate. Qed.
(* decreasing pair: kernel (-2, -1), ranges [0, 1] and [0, 1] *)
Example rdom_decreasing_applies :
  let k := [-(2); -(1)] in let bs := [(Some 0, Some 1); (Some 0, Some 1)] in
  (1 - 0) * nth 0 k 0 <= (1 - 0) * nth 1 k 0 /\
  qabs (nth 1 k 0) * (1 - 0) <= qabs (nth 0 k 0) * (1 - 0) /\
  lin_unit k 0 bs (set_nth 1 0 [0; 0]) - lin_unit k 0 bs (set_nth 1 1 [0; 0]) == 1 /\
  lin_unit k 0 bs (set_nth 0 0 [0; 0]) - lin_unit k 0 bs (set_nth 0 1 [0; 0]) == 2.
Proof. cbv zeta. repeat split; vm_compute; try reflexivity; discriminate. Qed.
