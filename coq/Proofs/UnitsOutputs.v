(* C09, third clause, for Linear, CategoricalCalibration, PWLCalibration and
   Lattice: "the layer output of unit u depends only on unit u's parameters and
   inputs".  Two layers of the same shape whose parameters agree ON UNIT u (and
   may differ arbitrarily elsewhere), evaluated on inputs that agree on unit
   u's input, give the same output for unit u.  (KroneckerFactoredLattice:
   Proofs/UnitsKFL.v.) *)
From TFL Require Import Model.LinearEval Proofs.LinearEval.
From TFL Require Model.PWLEval Model.CategoricalEval Model.LatticeInterp Proofs.LatticeInterp.
Open Scope Q_scope.

Theorem linear_unit_local units units' K K' bias bias' bs xs xs' u : (u < units)%nat -> (u < units')%nat ->
  column u K = column u K' -> nth u bias 0 = nth u bias' 0 -> nth u xs [] = nth u xs' [] ->
  nth u (linear_eval units K bias bs xs) 0 = nth u (linear_eval units' K' bias' bs xs') 0.
Proof. intros Hu Hu' EK Eb Ex. rewrite !linear_eval_unit by assumption. rewrite EK, Eb, Ex. reflexivity. Qed.

Lemma nth_map_agree {B} (g : Q -> B) d {row row' j} : length row = length row' -> nth j row 0 = nth j row' 0 ->
  nth j (map g row) d = nth j (map g row') d.
Proof. intros L E. destruct (Nat.lt_ge_cases j (length row)) as [H|H].
  - rewrite !(nth_map_lt g _ j d 0), E by lia. reflexivity.
  - rewrite !nth_overflow by (rewrite map_length; lia). reflexivity. Qed.

Section Cat.
Import Model.PWLEval Model.CategoricalEval.

(* which input column unit u reads: column u, or the only column *)
Definition in_col (cols u : nat) : nat := if (cols =? 1)%nat then 0%nat else u.

Theorem cat_unit_local (L L' : cat_layer) row row' u :
  c_buckets L = c_buckets L' -> c_units L = c_units L' -> c_default L = c_default L' ->
  column u (c_kernel L) = column u (c_kernel L') -> (u < c_units L)%nat ->
  length row = length row' -> nth (in_col (length row) u) row 0 = nth (in_col (length row) u) row' 0 ->
  nth u (cat_row L row) 0 = nth u (cat_row L' row') 0.
Proof. intros Eb Eu Ed Ek Hu Ll Ex. unfold cat_row. rewrite <- Eu, <- Eb.
  assert (Er : forall i, replace_default L i = replace_default L' i) by (intros i; unfold replace_default; rewrite Ed, Eb; reflexivity).
  rewrite (map_ext (fun x => replace_default L' (cast_int x)) (fun x => replace_default L (cast_int x))) by (intros; symmetry; apply Er).
  destruct (Nat.eqb_spec (c_units L) 1) as [E1|N1].
  - assert (u = 0%nat) by lia. subst u. cbn [nth]. rewrite Ek.
    assert (E0 : in_col (length row) 0 = 0%nat) by (unfold in_col; destruct (length row =? 1)%nat; reflexivity).
    rewrite E0 in Ex. rewrite (nth_map_agree (fun x => replace_default L (cast_int x)) 0%Z Ll Ex). reflexivity.
  - rewrite !nth_map_seq by exact Hu.
    rewrite Ek, <- Ll. fold (in_col (length row) u).
    rewrite (nth_map_agree (fun x => replace_default L (cast_int x)) 0%Z Ll Ex). reflexivity. Qed.
End Cat.

Section PWL.
Import Model.PWLEval.

Definition pwl_same_shape (L L' : pwl_layer) : Prop :=
  p_units L = p_units L' /\ p_learned L = p_learned L' /\ p_cyclic L = p_cyclic L' /\
  p_impute L = p_impute L' /\ p_missing_input L = p_missing_input L'.
(* unit u's parameters: its kernel column (bias and heights), its keypoint
   tables (shared row when the keypoints are fixed), its missing output *)
Definition pwl_agree_unit (L L' : pwl_layer) (u : nat) : Prop :=
  column u (p_kernel L) = column u (p_kernel L') /\ unit_lefts L u = unit_lefts L' u /\
  unit_lens L u = unit_lens L' u /\ nth u (p_missing_output L) 0 = nth u (p_missing_output L') 0.

Lemma column_bias_and_heights L u : (u < p_units L)%nat ->
  column u (bias_and_heights L) =
  if p_cyclic L then column u (p_kernel L) ++ [- qsum (tl (column u (p_kernel L)))] else column u (p_kernel L).
Proof. intros Hu. unfold bias_and_heights. destruct (p_cyclic L); [|reflexivity].
  rewrite column_app. f_equal. unfold column at 1. cbn [map]. unfold closing_row.
  rewrite nth_map_seq by exact Hu. rewrite column_tl. reflexivity. Qed.

Lemma unit_row0 {learned units} tbl {u} : (u < units)%nat -> (learned && (1 <? units)%nat) = false ->
  nth 0 tbl [] = unit_row learned tbl u.
Proof. intros Hu H. unfold unit_row. destruct learned; [|reflexivity]. rewrite Bool.andb_true_l in H. apply Nat.ltb_ge in H.
  assert (u = 0%nat) by lia. subst u. reflexivity. Qed.

(* unit u's calibration value as a function of unit u's data only *)
Definition calib_unit (L : pwl_layer) (row : list Q) (u : nat) : Q :=
  dot (interpolation_weights (nth (if (length row =? 1)%nat then 0%nat else u) row 0) (unit_lefts L u) (unit_lens L u))
      (column u (bias_and_heights L)).

Lemma calib_row_unit L row u : (u < p_units L)%nat -> nth u (calib_row L row) 0 = calib_unit L row u.
Proof. intros Hu. unfold calib_row, calib_unit. cbv zeta. destruct (expands L (length row)) eqn:Ex.
  - rewrite nth_map_seq by exact Hu. reflexivity.
  - rewrite nth_map_seq by exact Hu.
    unfold expands in Ex. apply Bool.orb_false_iff in Ex. destruct Ex as [E1 E2].
    unfold unit_lefts, unit_lens. rewrite <- (unit_row0 (p_lefts L) Hu E2).
    rewrite <- (unit_row0 (p_lens L) Hu E2).
    assert (Ei : nth (if (length row =? 1)%nat then 0%nat else u) row 0 = nth 0 row 0).
    { destruct (Nat.eqb_spec (length row) 1); [reflexivity|]. apply Nat.ltb_ge in E1.
      assert (length row = 0%nat) by lia. destruct row; [|discriminate]. destruct u; reflexivity. }
    rewrite Ei. reflexivity. Qed.

Lemma calib_unit_local L L' row u : pwl_same_shape L L' -> pwl_agree_unit L L' u -> (u < p_units L)%nat ->
  calib_unit L row u = calib_unit L' row u.
Proof. intros (Eu & El & Ec & _) (Ek & Elf & Eln & _) Hu. unfold calib_unit.
  rewrite (column_bias_and_heights L u Hu). rewrite (column_bias_and_heights L' u) by (rewrite <- Eu; exact Hu).
  rewrite Ek, Elf, Eln, Ec. reflexivity. Qed.

Lemma mix_row_unit L m res u : (u < p_units L)%nat ->
  nth u (mix_row L m res) 0 =
  nth (if (length m =? 1)%nat then 0%nat else u) m 0 * nth u (p_missing_output L) 0 +
  (1 - nth (if (length m =? 1)%nat then 0%nat else u) m 0) * nth u res 0.
Proof. intros Hu. unfold mix_row. rewrite nth_map_seq by exact Hu. reflexivity. Qed.

Theorem pwl_unit_local (L L' : pwl_layer) u row given :
  pwl_same_shape L L' -> pwl_agree_unit L L' u -> (u < p_units L)%nat ->
  nth u (call_row L row given) 0 = nth u (call_row L' row given) 0.
Proof. intros S A Hu. pose proof S as (Eu & El & Ec & Ei & Em). pose proof A as (_ & _ & _ & Eo).
  assert (Hu' : (u < p_units L')%nat) by (rewrite <- Eu; exact Hu).
  assert (Ecal : nth u (calib_row L row) 0 = nth u (calib_row L' row) 0).
  { rewrite (calib_row_unit L row u Hu), (calib_row_unit L' row u Hu'). apply calib_unit_local; assumption. }
  unfold call_row. cbv zeta. rewrite <- Ei, <- Em. destruct (p_impute L); [|exact Ecal].
  destruct given as [m|]; [|destruct (p_missing_input L) as [v|]; [|exact Ecal]];
    rewrite (mix_row_unit L _ _ u Hu), (mix_row_unit L' _ _ u Hu'), Ecal, Eo; reflexivity. Qed.

(* ... and on unit u's input only: rows of equal width that agree in the column unit u reads *)
Theorem pwl_unit_input_local (L : pwl_layer) u row row' :
  (u < p_units L)%nat -> length row = length row' ->
  nth (if (length row =? 1)%nat then 0%nat else u) row 0 = nth (if (length row =? 1)%nat then 0%nat else u) row' 0 ->
  nth u (call_row L row None) 0 = nth u (call_row L row' None) 0.
Proof. intros Hu Ll Ex.
  assert (Ecal : nth u (calib_row L row) 0 = nth u (calib_row L row') 0).
  { rewrite !calib_row_unit by exact Hu. unfold calib_unit. rewrite <- Ll, Ex. reflexivity. }
  unfold call_row. cbv zeta. destruct (p_impute L); [|exact Ecal].
  destruct (p_missing_input L) as [v|]; [|exact Ecal].
  rewrite !mix_row_unit by exact Hu. rewrite Ecal. unfold equal_flags. rewrite !map_length, <- Ll.
  set (j := if (length row =? 1)%nat then 0%nat else u) in *.
  rewrite (nth_map_agree (fun x => if Qeq_bool x v then 1 else 0) 0 Ll Ex). reflexivity. Qed.
End PWL.

Section Lat.
Import Model.LatticeInterp Proofs.LatticeInterp.

Lemma simplex_unit_ext clip sizes (g g' : Z -> Q) x : (forall i, g i = g' i) ->
  simplex_unit clip sizes g x = simplex_unit clip sizes g' x.
Proof. intros H. unfold simplex_unit. cbv zeta. rewrite (map_ext g g' H). reflexivity. Qed.

Lemma nthZ_neg i l : (i < 0)%Z -> nthZ i l = 0.
Proof. intros H. unfold nthZ. apply Z.ltb_lt in H. rewrite H. reflexivity. Qed.

(* what the simplex gather reads for unit u is column u of the kernel matrix *)
Lemma gather_of_column units (K : list (list Q)) u : wfK units K u ->
  forall i, gather_of units K u i = if (i <? 0)%Z then 0 else nth (Z.to_nat i) (column u K) 0.
Proof. intros [Hu HF] i. unfold gather_of. destruct (Z.ltb_spec i 0) as [Hneg|Hpos].
  - destruct (units =? 1)%nat; apply nthZ_neg; nia.
  - rewrite <- (Z2Nat.id i Hpos) at 1. set (n := Z.to_nat i). rewrite nth_column.
    destruct (Nat.eqb_spec units 1) as [E|NE].
    + subst units. assert (u = 0%nat) by lia. subst u. rewrite nthZ_nat.
      rewrite <- (nth_concat 1 0 ltac:(lia) K n HF). rewrite Nat.mul_1_r, Nat.add_0_r. reflexivity.
    + rewrite <- Nat2Z.inj_mul, <- Nat2Z.inj_add, nthZ_nat. apply (nth_concat units u Hu K n HF). Qed.

(* both interpolation schemes: unit u's function is determined by column u
   (wfK units K u: u < units and every kernel row has one entry per unit) *)
Theorem lattice_unit_local sc tensor clip units sizes (K K' : list (list Q)) u x :
  wfK units K u -> wfK units K' u -> column u K = column u K' ->
  unit_fn sc tensor clip units sizes K u x = unit_fn sc tensor clip units sizes K' u x.
Proof. intros W W' E. destruct sc.
  - unfold unit_fn. rewrite E. reflexivity.
  - rewrite !unit_fn_simplex. apply simplex_unit_ext. intros i.
    rewrite (gather_of_column units K u W i), (gather_of_column units K' u W' i), E. reflexivity. Qed.

(* the batch model: output (p, u) is unit u's function of point p's row u *)
Theorem lattice_eval_local sc tensor clip units sizes (K K' : list (list Q)) pts pts' p u :
  (p < length pts)%nat -> (p < length pts')%nat -> wfK units K u -> wfK units K' u -> column u K = column u K' ->
  nth u (nth p pts []) [] = nth u (nth p pts' []) [] ->
  (u < length (nth p pts []))%nat -> (u < length (nth p pts' []))%nat ->
  nth u (nth p (lattice_eval sc tensor clip units sizes K pts) []) 0 =
  nth u (nth p (lattice_eval sc tensor clip units sizes K' pts') []) 0.
Proof. intros Hp Hp' W W' E Ex Hl Hl'. pose proof W as [Hu _].
  rewrite (lattice_eval_unit sc tensor clip units sizes K pts p u Hp Hu Hl).
  rewrite (lattice_eval_unit sc tensor clip units sizes K' pts' p u Hp' Hu Hl').
  rewrite Ex. apply lattice_unit_local; assumption. Qed.
End Lat.

(* examples: layers that agree on unit 0 and differ on unit 1 *)
Example exo_linear :
  nth 0 (linear_eval 2 [[1; 2]; [3; 4]] [5; 6] [(Some 0, None); (None, None)] [[7; 8]; [1; 1]]) 0 =
  nth 0 (linear_eval 3 [[1; 9; 0]; [3; -(4); 0]] [5; 0; 0] [(Some 0, None); (None, None)] [[7; 8]; [2; 2]; [0; 0]]) 0.
Proof. apply linear_unit_local; try lia; reflexivity. Qed.

Example exo_pwl_L : PWLEval.pwl_layer :=
  PWLEval.mkPWL 2 false [[0; 1]] [[1; 1]] true [[0; 5]; [1; 6]; [2; 7]] true (Some (-(1))) [3; 4] false.
Example exo_pwl_L' : PWLEval.pwl_layer :=
  PWLEval.mkPWL 2 false [[0; 1]] [[1; 1]] true [[0; -(5)]; [1; 0]; [2; 70]] true (Some (-(1))) [3; 40] false.
Example exo_pwl : pwl_same_shape exo_pwl_L exo_pwl_L' /\ pwl_agree_unit exo_pwl_L exo_pwl_L' 0 /\
  nth 1 (PWLEval.call_row exo_pwl_L [1 # 2; 1 # 2] None) 0 <> nth 1 (PWLEval.call_row exo_pwl_L' [1 # 2; 1 # 2] None) 0.
Proof. split; [repeat split|split; [repeat split|vm_compute; discriminate]]. Qed.

Example exo_cat_L : CategoricalEval.cat_layer := CategoricalEval.mkCat 3 2 [[1; 2]; [3; 4]; [5; 6]] (Some (-1)%Z) false.
Example exo_cat_L' : CategoricalEval.cat_layer := CategoricalEval.mkCat 3 2 [[1; 0]; [3; 0]; [5; 9]] (Some (-1)%Z) false.
Example exo_cat : nth 0 (CategoricalEval.cat_row exo_cat_L [2; 0]) 0 = nth 0 (CategoricalEval.cat_row exo_cat_L' [2; 1]) 0.
Proof. apply cat_unit_local; try reflexivity. cbn. lia. Qed.

Example exo_lattice : LatticeInterp.wfK 2 [[1; 2]; [3; 4]] 0 /\ LatticeInterp.wfK 2 [[1; 9]; [3; 8]] 0 /\
  column 0 [[1; 2]; [3; 4]] = column 0 [[1; 9]; [3; 8]].
Proof. split; [|split]; [split; [lia|repeat constructor]|split; [lia|repeat constructor]|reflexivity]. Qed.
