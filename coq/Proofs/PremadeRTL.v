(* Premade ensembles with an RTL structure: lemmas for section E of Props/C03.v.
   Composes the wiring theorems of property C17 (Props/C17.v over
   Model/RTLStructure.v: position p of a lattice carries monotonicity flag 1
   exactly when the input wired to it was supplied under 'increasing') with the
   ensemble theorem of Proofs/PremadeKFL.v (members are all-vertices lattices or
   KFL units and may read an input at several positions: RTL tiles its inputs). *)
From TFL Require Import Model.PremadeKFL Proofs.Premade Proofs.PremadeKFL.
From TFL Require Import Proofs.LatticeInterp.
From TFL Require Model.RTLStructure Proofs.RTLStructure Props.C17 Model.PremadeCheck Proofs.PremadeCheck.
Module MR := TFL.Model.RTLStructure.
Module PR := TFL.Proofs.RTLStructure.
Open Scope Q_scope.

(* the lattices of an RTL structure, each with the monotonicity tuple of its
   entry, in RTL.call order (entry by entry, unit by unit) *)
Definition rtl_units (s : MR.structure) : list (list nat * list nat) :=
  flat_map (fun e => map (fun lat => (fst e, lat)) (snd e)) s.

(* member m realises the lattice (mo, lat): it reads the flattened RTL inputs lat,
   input j through ITS calibrator nth j cals (premade_lib feeds the RTL layer the
   calibrated features: 'increasing' list first, then 'unconstrained'), and its
   layer was built with monotonicities = mo, i.e. it is constrained
   non-decreasing along every position that mo flags *)
Definition rtl_member_of (cals : list calib) (ml : list nat * list nat) (m : member2) : Prop :=
  member2_idx m = snd ml /\ member2_cals m = map (fun j => nth j cals dcal) (snd ml) /\
  forall q, (q < length (snd ml))%nat -> nth q (fst ml) 0%nat = 1%nat -> member2_mono_dim m q.
Definition rtl_wired (s : MR.structure) (cals : list calib) (ms : list member2) : Prop :=
  Forall2 (rtl_member_of cals) (rtl_units s) ms.

Lemma Forall2_In_r {A B} (R : A -> B -> Prop) l1 l2 b : Forall2 R l1 l2 -> In b l2 -> exists a, In a l1 /\ R a b.
Proof. induction 1 as [|a b' l1 l2 H _ IH]; intros Hin; cbn in Hin. contradiction.
  destruct Hin as [<-|Hin]. exists a. split. left; reflexivity. exact H.
  destruct (IH Hin) as [a' [Ha' Hr]]. exists a'. split. right; exact Ha'. exact Hr. Qed.

Lemma rtl_units_in s ml : In ml (rtl_units s) -> exists ls, In (fst ml, ls) s /\ In (snd ml) ls.
Proof. unfold rtl_units. intros H. apply in_flat_map in H. destruct H as [[mo ls] [He Hm]].
  apply in_map_iff in Hm. destruct Hm as [lat [<- Hl]]. exists ls. cbn [fst snd]. split; assumption. Qed.

(* every member of an RTL-wired ensemble is monotone in every input that was
   supplied under 'increasing' *)
Lemma rtl_member_monotone_in sh1 sh2 cfg s cals ms m i xi v :
  PR.perm_oracle sh1 -> PR.perm_oracle sh2 -> MR.rtl_structure cfg sh1 sh2 = Some s ->
  rtl_wired s cals ms -> In m ms ->
  MR.input_mono (MR.c_input cfg) i = 1%nat ->
  calib_eval (nth i cals dcal) xi <= calib_eval (nth i cals dcal) v ->
  member2_monotone_in m i xi v.
Proof. intros P1 P2 Hs Hw Hin Hmono Hle.
  destruct (Forall2_In_r _ _ _ m Hw Hin) as [[mo lat] [Hml (Eidx & Ecals & Hdim)]]. cbn [fst snd] in *.
  destruct (rtl_units_in s _ Hml) as [ls [He Hl]]. cbn [fst snd] in *.
  destruct (C17.C17_rtl_monotone_wiring sh1 sh2 P1 P2 cfg s Hs mo ls lat He Hl) as [Hwire _].
  destruct (C17.C17_rtl_rank sh1 sh2 P1 P2 cfg s Hs) as [_ Hrank].
  destruct (Hrank mo ls He) as [_ Hrl]. specialize (Hrl lat Hl).
  unfold member2_monotone_in, reads_monotone. rewrite Eidx, Ecals. intros q Hq Eq. split.
  - apply Hdim. exact Hq. rewrite (Hwire q ltac:(lia)). rewrite Eq. exact Hmono.
  - rewrite (nth_indep _ dcal (nth (0%nat) cals dcal)) by (rewrite map_length; exact Hq).
    rewrite (map_nth (fun j => nth j cals dcal) lat 0%nat q). rewrite Eq. exact Hle. Qed.

Theorem rtl_ensemble_monotone sh1 sh2 cfg s cals ms c oc x i v :
  PR.perm_oracle sh1 -> PR.perm_oracle sh2 -> MR.rtl_structure cfg sh1 sh2 = Some s ->
  rtl_wired s cals ms -> (forall m, In m ms -> member2_ok m) ->
  comb_monotone c -> out_monotone oc -> (i < length x)%nat ->
  MR.input_mono (MR.c_input cfg) i = 1%nat ->
  calib_eval (nth i cals dcal) (nth i x 0) <= calib_eval (nth i cals dcal) v ->
  ensemble2_eval ms c oc x <= ensemble2_eval ms c oc (set_nth i v x).
Proof. intros P1 P2 Hs Hw Hok Hc Ho Hi Hmono Hle. apply ensemble2_compose_monotone; try assumption.
  intros m Hm. split. apply Hok; exact Hm.
  exact (rtl_member_monotone_in sh1 sh2 cfg s cals ms m i _ v P1 P2 Hs Hw Hm Hmono Hle). Qed.

Lemma rtl_ensemble_follows sh1 sh2 cfg s cals ms c oc n i :
  PR.perm_oracle sh1 -> PR.perm_oracle sh2 -> MR.rtl_structure cfg sh1 sh2 = Some s ->
  rtl_wired s cals ms -> (forall m, In m ms -> member2_ok m) ->
  comb_monotone c -> out_monotone oc -> (i < n)%nat -> MR.input_mono (MR.c_input cfg) i = 1%nat ->
  follows (ensemble2_eval ms c oc) n i (eq (nth i cals dcal)).
Proof. intros P1 P2 Hs Hw Hok Hc Ho Hi Hmono x v Hx Hle.
  apply (rtl_ensemble_monotone sh1 sh2 cfg s cals); try assumption. lia. apply Hle. reflexivity. Qed.

(* numeric feature behind RTL input i: increasing calibrator => non-decreasing
   output, decreasing calibrator => non-increasing output, for every pair of
   non-missing inputs *)
Theorem rtl_ensemble_monotone_numeric sh1 sh2 cfg s cals ms c oc x i v kps lens col miss :
  PR.perm_oracle sh1 -> PR.perm_oracle sh2 -> MR.rtl_structure cfg sh1 sh2 = Some s ->
  rtl_wired s cals ms -> (forall m, In m ms -> member2_ok m) ->
  comb_monotone c -> out_monotone oc -> (i < length x)%nat ->
  MR.input_mono (MR.c_input cfg) i = 1%nat ->
  nth i cals dcal = CPwl kps lens col miss -> Forall (fun l => 0 < l) lens ->
  regular_input (nth i cals dcal) (nth i x 0) -> regular_input (nth i cals dcal) v -> nth i x 0 <= v ->
  (outs_nondecr col -> ensemble2_eval ms c oc x <= ensemble2_eval ms c oc (set_nth i v x)) /\
  (outs_nonincr col -> ensemble2_eval ms c oc (set_nth i v x) <= ensemble2_eval ms c oc x).
Proof. intros P1 P2 Hs Hw Hok Hc Ho Hi Hmono E Hl Rx Rv Hle. rewrite E in Rx, Rv.
  apply (follows_numeric _ (length x) i kps lens col miss); try assumption; try reflexivity.
  rewrite <- E. apply (rtl_ensemble_follows sh1 sh2 cfg s cals ms); assumption. Qed.

(* categorical feature behind RTL input i, ordering pair (a, b) *)
Theorem rtl_ensemble_monotone_categorical sh1 sh2 cfg s cals ms c oc x i vals d a b :
  PR.perm_oracle sh1 -> PR.perm_oracle sh2 -> MR.rtl_structure cfg sh1 sh2 = Some s ->
  rtl_wired s cals ms -> (forall m, In m ms -> member2_ok m) ->
  comb_monotone c -> out_monotone oc -> (i < length x)%nat ->
  MR.input_mono (MR.c_input cfg) i = 1%nat ->
  nth i cals dcal = CCat vals d -> (a < length vals)%nat -> (b < length vals)%nat ->
  d <> Some (Z.of_nat a) -> d <> Some (Z.of_nat b) -> nth a vals 0 <= nth b vals 0 ->
  ensemble2_eval ms c oc (set_nth i (qn a) x) <= ensemble2_eval ms c oc (set_nth i (qn b) x).
Proof. intros P1 P2 Hs Hw Hok Hc Ho Hi Hmono E Ha Hb Da Db Hab.
  apply (follows_categorical _ (length x) i vals d); try assumption; try reflexivity.
  rewrite <- E. apply (rtl_ensemble_follows sh1 sh2 cfg s cals ms); assumption. Qed.

(* Non-vacuity: the structure of C17_rtl_example, 3 lattices of rank 2 over 4 inputs
   (0, 1 'increasing'; 2, 3 'unconstrained'):
     [([0;1], [[2;1]; [3;0]]); ([1;1], [[0;1]])]
   realised by two all-vertices 2x2 lattices (monotone along position 1) and one KFL unit
   (monotonicities [1;1]); every input through the calibrator 0, 1 -> 0, 1. *)
Definition exr_cfg : MR.rtl_cfg :=
  MR.mkcfg 3 2 true 10 (MR.mkin (Some (MR.Multi [2%nat])) (Some (MR.Single 2))).
Definition exr_s : MR.structure := [([0; 1], [[2; 1]; [3; 0]]); ([1; 1], [[0; 1]])]%nat.
Definition exr_cals : list calib := [exk_cal; exk_cal; exk_cal; exk_cal].
Definition exr_K : list (list Q) := [[1]; [2]; [0]; [3]].       (* rows (0,0) (0,1) (1,0) (1,1) *)
Definition exr_lat (idx : list nat) : member2 :=
  MLat (mkMember idx [exk_cal; exk_cal] Hypercube [2; 2]%nat exr_K).
Definition exr_kcfg : MK.config := MK.mkCfg 2 (Some [true; true]) (Some (-(1))) (Some 1) false.
Definition exr_kpar : MK.params := MK.mkPar [[ [[0; 1]; [1#2; 1]] ]] [[ 1 ]] [0].
Definition exr_ms : list member2 :=
  [exr_lat [2; 1]%nat; exr_lat [3; 0]%nat; MKfl [0; 1]%nat [exk_cal; exk_cal] exr_kcfg exr_kpar 0].

Example exr_structure : PR.perm_oracle (fun l => l) /\ MR.rtl_structure exr_cfg (fun l => l) (fun l => l) = Some exr_s.
Proof. split. exact PR.perm_oracle_id. vm_compute. reflexivity. Qed.

Example exr_knondecr : knondecr [2; 2]%nat (kern [2; 2]%nat exr_K 0) 1.
Proof. intros i Hi Hb; all_valid i Hi; cbn in Hb; try lia; apply Qle_bool_iff; vm_compute; reflexivity. Qed.

Example exr_cals2_in_range : cals_in_range [2; 2]%nat [exk_cal; exk_cal].
Proof. intros j Hj. cbn in Hj. assert (E : nth j [exk_cal; exk_cal] dcal = exk_cal) by (destruct j as [|[|j]]; try reflexivity; lia).
  assert (E2 : nth j [2; 2]%nat 0%nat = 2%nat) by (destruct j as [|[|j]]; try reflexivity; lia). rewrite E, E2.
  exact (exk_in_range 0%nat ltac:(cbn; lia)). Qed.

Example exr_wired : rtl_wired exr_s exr_cals exr_ms.
Proof. unfold rtl_wired, exr_s, exr_ms, rtl_units. cbn [flat_map map fst snd app].
  constructor; [|constructor; [|constructor; [|constructor]]]; (split; [reflexivity|split; [reflexivity|]]);
    cbn [fst snd length]; intros q Hq Eq.
  - destruct q as [|[|q]]; cbn in Eq; try discriminate; try lia. exact exr_knondecr.
  - destruct q as [|[|q]]; cbn in Eq; try discriminate; try lia. exact exr_knondecr.
  - exists [true; true]. split. reflexivity. destruct q as [|[|q]]; try reflexivity; lia. Qed.

(* by the exact check of Model/PremadeCheck.v, sound by Proofs/PremadeCheck.v *)
Example exr_kfl_feasible : PK.cfg_ok exr_kcfg 2 /\ kfl_feasible exr_kcfg 2 exr_kpar.
Proof. assert (H : Model.PremadeCheck.kfl_layer_ok 0 (Some (-(1))) (Some 1) exr_kcfg exr_kpar 2 = true) by (vm_compute; reflexivity).
  split. apply (Proofs.PremadeCheck.kfl_layer_ok_cfg H). exact (Proofs.PremadeCheck.kfl_layer_ok_feasible _ _ _ _ _ H). Qed.

Example exr_members_ok : forall m, In m exr_ms -> member2_ok m.
Proof. intros m [<-|[<-|[<-|[]]]].
  - cbn. repeat split; try discriminate; try reflexivity; try lia. repeat constructor. repeat constructor. exact exr_cals2_in_range.
  - cbn. repeat split; try discriminate; try reflexivity; try lia. repeat constructor. repeat constructor. exact exr_cals2_in_range.
  - cbn [member2_ok]. exists 2%nat. destruct exr_kfl_feasible as [H1 H2]. split. exact H1. split. exact H2.
    split. reflexivity. split. reflexivity. exact exr_cals2_in_range. Qed.

(* inputs 0 and 1 were supplied under 'increasing'; the ensemble evaluated: raising
   input 1 (read by the first lattice AND by the KFL unit) raises the output *)
Example exr_values :
  MR.input_mono (MR.c_input exr_cfg) 0 = 1%nat /\ MR.input_mono (MR.c_input exr_cfg) 1 = 1%nat /\
  ensemble2_eval exr_ms Average None [1#2; 0; 1; 0] == 7#12 /\
  ensemble2_eval exr_ms Average None [1#2; 1; 1; 0] == 5#3.
Proof. repeat split; vm_compute; reflexivity. Qed.
