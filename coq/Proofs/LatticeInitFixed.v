(* C10: the Lattice weight constraint leaves a fresh kernel unchanged, for
   configurations with monotonicity and bound constraints only.  Built on
   C01's constraint_feasible_fixed (Proofs/LatticeFinalize.v). *)
From TFL Require Export Proofs.LatticeInit Proofs.LatticeMono Proofs.LatticeFinalize.
From Coq Require Import Permutation.
Open Scope Q_scope.

(* [dyk] stands for the Dykstra stage (lattice_lib.project_by_dykstra with the
   layer's constraints).  That it returns a feasible kernel unchanged is C08's
   theorem about the abstract scheme; here it is the explicit hypothesis
   [teq sh (dyk W) W]. *)
Lemma constraint_fixes_feasible c (dyk : tens -> tens) W ran : cfg_valid c -> feasible_kernel c W ->
  teq (l_shape c) (dyk W) W -> teq (l_shape c) (lattice_constraint_after_dykstra c ran (dyk W)) W.
Proof. intros Hc Hf Hd.
  assert (Hf' : feasible_kernel c (dyk W)) by (apply (feasible_kernel_teq c W); [apply teq_sym; exact Hd|exact Hf]).
  eapply teq_trans; [|exact Hd]. apply (constraint_feasible_fixed c Hc ran (dyk W) Hf'). Qed.

Definition mono_bounds_only (c : lat_cfg) : Prop := l_edge c = [] /\ l_trap c = [].

(* a kernel inside the default initialisation range respects the configured bounds: a
   configured bound is the corresponding end of that range *)
Lemma mono_bounds_feasible c W : mono_bounds_only c -> monotone_kernel c W ->
  (forall i, valid (l_shape c) i -> fst (default_init_params (l_min c) (l_max c)) <= W i /\
                                   W i <= snd (default_init_params (l_min c) (l_max c))) -> feasible_kernel c W.
Proof. intros [He Ht] Hm Hr. unfold feasible_kernel. rewrite He, Ht. unfold default_init_params in Hr.
  repeat split; [exact Hm|intros t []|intros t []| |].
  - destruct (l_min c); [|exact I]. intros i Hv. apply (Hr i Hv).
  - destruct (l_max c); [|exact I]. intros i Hv. apply (Hr i Hv). Qed.

Lemma linear_init_feasible c : cfg_valid c -> mono_bounds_only c -> l_sizes c <> [] ->
  let imin := fst (default_init_params (l_min c) (l_max c)) in
  let imax := snd (default_init_params (l_min c) (l_max c)) in
  imin <= imax ->
  feasible_kernel c (linear_init (l_sizes c) imin imax (Some (l_monos c)) None (l_units c)).
Proof. intros Hc Hmb Hne imin imax Hr.
  pose proof Hc as (Hs & Hu & Hlm & Hm01 & _).
  apply mono_bounds_feasible; [exact Hmb| |].
  - intros d Hd. apply mono_dims_spec in Hd. destruct Hd as [Hd Hnz].
    apply linear_mono_dim. exact Hr. lia.
    apply configured_mono_dim. cbn [zeros_if_none]. unfold nz. apply negb_true_iff. apply Z.eqb_neq. exact Hnz.
  - assert (Hlen : (1 <= length (l_sizes c))%nat) by (destruct (l_sizes c); [congruence|cbn; lia]).
    apply (linear_range (l_sizes c) imin imax (Some (l_monos c)) None (l_units c) Hs Hu Hlen); cbn [zeros_if_none]; try assumption.
    apply repeat_length. intros d. rewrite nth_repeat. apply andb_false_r. Qed.

Lemma random_init_feasible c order samples : cfg_valid c -> mono_bounds_only c ->
  let imin := fst (default_init_params (l_min c) (l_max c)) in
  let imax := snd (default_init_params (l_min c) (l_max c)) in
  Forall2 (@Permutation idx) order (levels (l_sizes c)) ->
  (forall a b, (a <= b)%nat -> (b < length samples)%nat -> nth a samples 0 <= nth b samples 0) ->
  length samples = length (concat order) ->
  (forall x, In x samples -> imin <= x /\ x <= imax) ->
  feasible_kernel c (random_mono_init (l_sizes c) (l_units c) order samples).
Proof. intros Hc Hmb imin imax Ho Hs Hl Hr.
  apply mono_bounds_feasible; [exact Hmb| |].
  - intros d Hd. apply (random_mono_all_dims (l_sizes c) (l_units c) order samples Ho Hs Hl).
    exact (cfg_mono_dims_lt c d Hc Hd).
  - apply (random_mono_in_range (l_sizes c) (l_units c) order samples imin imax Ho Hl Hr). Qed.
