(* Exact characterisation of finding D2 (C04): monotonicity AND convexity with
   bounds.  _finalize_constraints then ends with _squeeze_by_scaling, which
   never moves the bias and rescales the heights only when
       delta = output_max - bias > 0.001        (increasing)
       delta = bias - output_min > 0.001        (decreasing, mirrored call).
   The bias that reaches the squeeze is the bias of the Dykstra state (the
   approximate monotonicity / convexity projections of _finalize_constraints
   only touch the heights).  If that bias lies within the near bound and has
   room > 0.001 to the bound the function runs towards, every keypoint output of
   the result is within the bounds; hence a bounds failure of a monotone +
   convex configuration implies that the squeeze had no room. *)
From TFL Require Import Model.PWLProject Proofs.PWLProject.
Open Scope Q_scope.

(* the state that enters _finalize_constraints and its bias *)
Definition pwl_loop_state (c : pwl_cfg) (bias : Q) (hs : list Q) : dyk :=
  dyk_iter c (p_iters c) (dyk_init bias hs).
Definition pwl_loop_bias (c : pwl_cfg) (bias : Q) (hs : list Q) : Q := d_bias (pwl_loop_state c bias hs).

(* the bias is inside the near bound and the squeeze's own test succeeds *)
Definition squeeze_bias_has_room (c : pwl_cfg) (b : Q) : Prop :=
  (p_mono c = 1%Z ->
     (p_cmin c <> BNone -> p_min c <= b) /\ (p_cmax c <> BNone -> qlt (1 # 1000) (p_max c - b) = true)) /\
  (p_mono c = (-1)%Z ->
     (p_cmax c <> BNone -> b <= p_max c) /\ (p_cmin c <> BNone -> qlt (1 # 1000) (- p_min c - - b) = true)).

(* the same in plain inequalities *)
Lemma squeeze_bias_has_room_iff c b : squeeze_bias_has_room c b <->
  (p_mono c = 1%Z ->
     (p_cmin c <> BNone -> p_min c <= b) /\ (p_cmax c <> BNone -> 1 # 1000 < p_max c - b)) /\
  (p_mono c = (-1)%Z ->
     (p_cmax c <> BNone -> b <= p_max c) /\ (p_cmin c <> BNone -> 1 # 1000 < b - p_min c)).
Proof.
  unfold squeeze_bias_has_room. rewrite !qlt_true.
  assert (E : - p_min c - - b == b - p_min c) by ring. rewrite E. reflexivity.
Qed.

(* explicit negation: outside the near bound, or no room towards the far bound *)
Definition squeeze_bias_no_room (c : pwl_cfg) (b : Q) : Prop :=
  (p_mono c = 1%Z /\ ((p_cmin c <> BNone /\ b < p_min c) \/ (p_cmax c <> BNone /\ p_max c - b <= 1 # 1000))) \/
  (p_mono c = (-1)%Z /\ ((p_cmax c <> BNone /\ p_max c < b) \/ (p_cmin c <> BNone /\ b - p_min c <= 1 # 1000))).

Lemma no_room_not_has_room c b : squeeze_bias_no_room c b -> ~ squeeze_bias_has_room c b.
Proof.
  intros N H. apply squeeze_bias_has_room_iff in H. destruct H as [H1 H2].
  destruct N as [[Hm [[G L]|[G L]]]|[Hm [[G L]|[G L]]]].
  - destruct (H1 Hm) as [A _]. specialize (A G). lra.
  - destruct (H1 Hm) as [_ B]. specialize (B G). lra.
  - destruct (H2 Hm) as [A _]. specialize (A G). lra.
  - destruct (H2 Hm) as [_ B]. specialize (B G). lra.
Qed.

Lemma qsum_map_div d l : ~ d == 0 -> qsum (map (fun h => Qred (h / d)) l) == qsum l / d.
Proof. intros Hd. induction l as [|x l IH]; cbn [map qsum]. field; exact Hd.
  rewrite IH, Qred_correct. field; exact Hd. Qed.

Lemma squeeze_inc_bias b h omax cmax : fst (squeeze_inc b h omax cmax) = b.
Proof. destruct (squeeze_inc_cases b h omax cmax) as [[_ ->]|[_ ->]]; reflexivity. Qed.

(* with room, the squeezed heights fit under the upper bound *)
Lemma squeeze_inc_fits b h omax cmax : cmax <> BNone -> qlt (1 # 1000) (omax - b) = true ->
  b + qsum (snd (squeeze_inc b h omax cmax)) <= omax.
Proof.
  intros Hc Hr. apply qlt_true in Hr as Hlt.
  destruct (squeeze_inc_cases b h omax cmax) as [[E _]|[_ ->]]; [congruence|]. cbn [snd]. unfold squeeze_d. rewrite Hr.
  set (delta := omax - b) in *. set (S := qsum h).
  pose proof (squeeze_d_pos (S / delta)) as Hd. set (d := qmax (S / delta) 1) in *.
  rewrite qsum_map_div by lra. fold S.
  assert (Hdel : 0 < delta) by lra.
  assert (Hsf : S / delta <= d) by (unfold d; apply qmax_l).
  pose proof (qmul_div_cancel delta S Hdel) as E1.
  pose proof (qmul_div_cancel d S Hd) as E2.
  assert (Hprod : 0 <= (d - S / delta) * delta) by (apply qmul_nonneg; lra).
  assert (Hle : d * (S / d) <= d * delta) by lra.
  apply (proj1 (Qmult_le_l _ _ d Hd)) in Hle. unfold delta in Hle. lra.
Qed.

Lemma squeeze_dec_facts b h omin omax cmin cmax :
  fst (squeeze (-1) b h omin omax cmin cmax) == b /\
  (cmin <> BNone -> qlt (1 # 1000) (- omin - - b) = true ->
     omin <= b + qsum (snd (squeeze (-1) b h omin omax cmin cmax))).
Proof.
  destruct (squeeze_dec_cases b h omin omax cmin cmax) as [[Hc ->]|[Hc ->]]; cbn [fst snd].
  - split; [reflexivity|congruence].
  - rewrite squeeze_inc_bias. split; [lra|]. intros _ Hr.
    pose proof (squeeze_inc_fits (- b) (qneg_list h) (- omin) cmin Hc Hr). rewrite qsum_qneg. lra.
Qed.

Section Room.
Variables (c : pwl_cfg) (n : nat) (bias : Q) (hs : list Q).
Hypothesis V : pwl_valid c n.
Hypothesis Hconv : p_conv c <> 0%Z.
Let b := pwl_loop_bias c bias hs.
Let R := pwl_project_col c (bias :: hs).

Lemma room_result_eq : has_bounds c = true -> p_mono c <> 0%Z ->
  let st := pwl_loop_state c bias hs in
  R = fst (squeeze (p_mono c) b (fin_h2 c (d_h st)) (p_min c) (p_max c) (p_cmin c) (p_cmax c)) ::
      snd (squeeze (p_mono c) b (fin_h2 c (d_h st)) (p_min c) (p_max c) (p_cmin c) (p_cmax c)).
Proof.
  intros Hb Hm st. unfold R. rewrite (pwl_project_col_loop c bias hs Hb Hm). cbv zeta.
  rewrite pwl_finalize_eq, Hb.
  replace (negb (p_mono c =? 0)%Z && negb (p_conv c =? 0)%Z)%bool with true.
  2:{ destruct (Z.eqb_spec (p_mono c) 0); [contradiction|]. destruct (Z.eqb_spec (p_conv c) 0); [contradiction|]. reflexivity. }
  reflexivity.
Qed.

(* the heights that leave the squeeze have the configured sign, so every keypoint
   output lies between the first (the bias) and the last (bias + sum of heights) *)
Lemma room_outputs m : p_mono c = m -> m <> 0%Z -> has_bounds c = true ->
  let sq := squeeze m b (fin_h2 c (d_h (pwl_loop_state c bias hs))) (p_min c) (p_max c) (p_cmin c) (p_cmax c) in
  Forall (fun s => signed m (s - fst sq) /\ signed m (fst sq + qsum (snd sq) - s)) (keypoint_outputs R).
Proof.
  intros Hm Hm0 Hb sq. unfold keypoint_outputs. subst m. rewrite (room_result_eq Hb Hm0). cbv zeta. fold sq.
  assert (S : Forall (signed (p_mono c)) (snd sq)) by (apply squeeze_signed, (fin_h2_signed c n); assumption).
  pose proof (cumsum_from_signed (p_mono c) (snd sq) (0 + fst sq) S) as H. unfold cumsum. cbn [cumsum_from].
  eapply Forall_impl; [|exact H]. cbv beta. unfold signed. destruct (p_mono c =? 1)%Z; intros s [A B]; split; lra.
Qed.

(* increasing: the lower bound needs only  output_min <= bias *)
Lemma room_inc_lower : p_mono c = 1%Z -> p_cmin c <> BNone -> p_min c <= b ->
  Forall (fun s => p_min c <= s) (keypoint_outputs R).
Proof.
  intros Hm Hc Hlo. eapply Forall_impl; [|apply (room_outputs _ Hm ltac:(discriminate) (has_bounds_true c (or_introl Hc)))].
  cbv beta. unfold squeeze, signed. cbn [Z.eqb Pos.eqb]. rewrite squeeze_inc_bias. intros s [A _]. lra.
Qed.

(* increasing: the upper bound needs room for the squeeze *)
Lemma room_inc_upper : p_mono c = 1%Z -> p_cmax c <> BNone -> qlt (1 # 1000) (p_max c - b) = true ->
  Forall (fun s => s <= p_max c) (keypoint_outputs R).
Proof.
  intros Hm Hc Hr. eapply Forall_impl; [|apply (room_outputs _ Hm ltac:(discriminate) (has_bounds_true c (or_intror Hc)))].
  cbv beta. unfold squeeze, signed. cbn [Z.eqb Pos.eqb]. rewrite squeeze_inc_bias.
  pose proof (squeeze_inc_fits b (fin_h2 c (d_h (pwl_loop_state c bias hs))) (p_max c) (p_cmax c) Hc Hr). intros s [_ B]. lra.
Qed.

(* decreasing: the upper bound needs only  bias <= output_max *)
Lemma room_dec_upper : p_mono c = (-1)%Z -> p_cmax c <> BNone -> b <= p_max c ->
  Forall (fun s => s <= p_max c) (keypoint_outputs R).
Proof.
  intros Hm Hc Hhi. eapply Forall_impl; [|apply (room_outputs _ Hm ltac:(discriminate) (has_bounds_true c (or_intror Hc)))].
  cbv beta. unfold signed. cbn [Z.eqb Pos.eqb].
  destruct (squeeze_dec_facts b (fin_h2 c (d_h (pwl_loop_state c bias hs))) (p_min c) (p_max c) (p_cmin c) (p_cmax c)) as [E _].
  intros s [A _]. lra.
Qed.

(* decreasing: the lower bound needs room for the (mirrored) squeeze *)
Lemma room_dec_lower : p_mono c = (-1)%Z -> p_cmin c <> BNone -> qlt (1 # 1000) (- p_min c - - b) = true ->
  Forall (fun s => p_min c <= s) (keypoint_outputs R).
Proof.
  intros Hm Hc Hr. eapply Forall_impl; [|apply (room_outputs _ Hm ltac:(discriminate) (has_bounds_true c (or_introl Hc)))].
  cbv beta. unfold signed. cbn [Z.eqb Pos.eqb].
  destruct (squeeze_dec_facts b (fin_h2 c (d_h (pwl_loop_state c bias hs))) (p_min c) (p_max c) (p_cmin c) (p_cmax c)) as [E F].
  specialize (F Hc Hr). intros s [_ B]. lra.
Qed.

Theorem pwl_bounds_room : p_mono c <> 0%Z -> squeeze_bias_has_room c b ->
  (p_cmin c <> BNone -> Forall (fun s => p_min c <= s) (keypoint_outputs R)) /\
  (p_cmax c <> BNone -> Forall (fun s => s <= p_max c) (keypoint_outputs R)).
Proof.
  intros Hm0 [H1 H2]. destruct V as (_ & _ & _ & Hm & _).
  destruct Hm as [Hm|[Hm|Hm]]; [|contradiction|].
  - destruct (H2 Hm) as [A B]. split; intros G.
    + apply room_dec_lower; auto.
    + apply room_dec_upper; auto.
  - destruct (H1 Hm) as [A B]. split; intros G.
    + apply room_inc_lower; auto.
    + apply room_inc_upper; auto.
Qed.

Definition out_of_bounds (w : list Q) : Prop :=
  exists s, In s (keypoint_outputs w) /\ ((p_cmin c <> BNone /\ s < p_min c) \/ (p_cmax c <> BNone /\ p_max c < s)).

Theorem pwl_bounds_failure_no_room : p_mono c <> 0%Z -> out_of_bounds R -> ~ squeeze_bias_has_room c b.
Proof.
  intros Hm0 (s & Hin & Hs) Hroom. destruct (pwl_bounds_room Hm0 Hroom) as [Hlo Hhi].
  destruct Hs as [[G L]|[G L]].
  - specialize (Hlo G). rewrite Forall_forall in Hlo. specialize (Hlo s Hin). lra.
  - specialize (Hhi G). rewrite Forall_forall in Hhi. specialize (Hhi s Hin). lra.
Qed.

Lemma bct_none_dec (x : bct) : {x = BNone} + {x <> BNone}.
Proof. destruct x; [left; reflexivity|right; discriminate|right; discriminate]. Qed.

(* the explicit form: WHICH side had no room *)
Theorem pwl_bounds_failure_no_room_explicit : p_mono c <> 0%Z -> out_of_bounds R -> squeeze_bias_no_room c b.
Proof.
  intros Hm0 (s & Hin & Hs). pose proof V as (_ & _ & _ & Hm & _).
  unfold squeeze_bias_no_room.
  destruct Hm as [Hm|[Hm|Hm]]; [right|contradiction|left]; (split; [exact Hm|]).
  - (* decreasing *)
    destruct Hs as [[G L]|[G L]].
    + right. split; [exact G|]. destruct (Qlt_le_dec (1 # 1000) (b - p_min c)) as [Hlt|Hle]; [exfalso|exact Hle].
      assert (Hr : qlt (1 # 1000) (- p_min c - - b) = true) by (apply qlt_true; lra).
      pose proof (room_dec_lower Hm G Hr) as F. rewrite Forall_forall in F. specialize (F s Hin). lra.
    + left. split; [exact G|]. destruct (Qlt_le_dec (p_max c) b) as [Hlt|Hle]; [exact Hlt|exfalso].
      pose proof (room_dec_upper Hm G Hle) as F. rewrite Forall_forall in F. specialize (F s Hin). lra.
  - (* increasing *)
    destruct Hs as [[G L]|[G L]].
    + left. split; [exact G|]. destruct (Qlt_le_dec b (p_min c)) as [Hlt|Hle]; [exact Hlt|exfalso].
      pose proof (room_inc_lower Hm G Hle) as F. rewrite Forall_forall in F. specialize (F s Hin). lra.
    + right. split; [exact G|]. destruct (Qlt_le_dec (1 # 1000) (p_max c - b)) as [Hlt|Hle]; [exfalso|exact Hle].
      assert (Hr : qlt (1 # 1000) (p_max c - b) = true) by (apply qlt_true; exact Hlt).
      pose proof (room_inc_upper Hm G Hr) as F. rewrite Forall_forall in F. specialize (F s Hin). lra.
Qed.
End Room.

Print Assumptions pwl_bounds_room.
Print Assumptions pwl_bounds_failure_no_room.
Print Assumptions pwl_bounds_failure_no_room_explicit.

(* with at least one iteration the bias is inside the near bound (loop_bias_near):
   only the room towards the far bound matters *)
Definition squeeze_far_room (c : pwl_cfg) (b : Q) : Prop :=
  (p_mono c = 1%Z -> p_cmax c <> BNone -> 1 # 1000 < p_max c - b) /\
  (p_mono c = (-1)%Z -> p_cmin c <> BNone -> 1 # 1000 < b - p_min c).

Lemma far_room_has_room c bias hs : (1 <= p_iters c)%nat ->
  squeeze_far_room c (pwl_loop_bias c bias hs) -> squeeze_bias_has_room c (pwl_loop_bias c bias hs).
Proof.
  intros Hk [F1 F2]. apply squeeze_bias_has_room_iff. destruct (loop_bias_near c bias hs Hk) as [N1 N2].
  split; intros Hm.
  - destruct (N1 Hm) as [Near _]. split. exact Near. exact (F1 Hm).
  - destruct (N2 Hm) as [Near _]. split. exact Near. exact (F2 Hm).
Qed.

Theorem pwl_bounds_far_room c n bias hs : pwl_valid c n -> length hs = n ->
  p_mono c <> 0%Z -> p_conv c <> 0%Z -> (1 <= p_iters c)%nat ->
  squeeze_far_room c (pwl_loop_bias c bias hs) ->
  (p_cmin c <> BNone -> Forall (fun s => p_min c <= s) (keypoint_outputs (pwl_project_col c (bias :: hs)))) /\
  (p_cmax c <> BNone -> Forall (fun s => s <= p_max c) (keypoint_outputs (pwl_project_col c (bias :: hs)))).
Proof.
  intros V HL Hm Hc Hk Hr. apply (pwl_bounds_room c n bias hs V Hc Hm). apply far_room_has_room; assumption.
Qed.

(* C04_bounds and the room theorem in one statement: the bounds hold for EVERY
   accepted configuration unless (monotone and convex and) the squeeze has no room *)
Theorem pwl_bounds_unless_no_room c n bias hs : pwl_valid c n -> length hs = n ->
  (p_mono c <> 0%Z -> p_conv c <> 0%Z -> squeeze_bias_has_room c (pwl_loop_bias c bias hs)) ->
  (p_cmin c <> BNone -> Forall (fun s => p_min c <= s) (keypoint_outputs (pwl_project_col c (bias :: hs)))) /\
  (p_cmax c <> BNone -> Forall (fun s => s <= p_max c) (keypoint_outputs (pwl_project_col c (bias :: hs)))).
Proof.
  intros V HL Hr. destruct (Z.eq_dec (p_mono c) 0) as [Em|Em].
  - apply (pwl_bounds c n); auto. intros [H _]; auto.
  - destruct (Z.eq_dec (p_conv c) 0) as [Ec|Ec].
    + apply (pwl_bounds c n); auto. intros [_ H]; auto.
    + apply (pwl_bounds_room c n bias hs V Ec Em). apply Hr; assumption.
Qed.

(* increasing + convex in [0, 4]: the Dykstra bias is 1/3, room 11/3 > 0.001 *)
Definition room_cfg : pwl_cfg := mkPwl 1 1 0 4 BBound BBound [1; 1] 2.
Example room_example :
  pwl_valid room_cfg 2 /\ p_mono room_cfg <> 0%Z /\ p_conv room_cfg <> 0%Z /\
  squeeze_bias_has_room room_cfg (pwl_loop_bias room_cfg 1 [2; 3]).
Proof.
  split. { apply pwl_validb_ok. reflexivity. }
  split; [discriminate|]. split; [discriminate|].
  split; intros Hm; [|discriminate Hm]. split; intros _.
  - apply Qle_bool_iff. vm_compute. reflexivity.
  - vm_compute. reflexivity.
Qed.

(* the D2 witness of pwl_bounds_refuted_monotone_convex is out of bounds, so
   (theorem pwl_bounds_failure_no_room_explicit) its squeeze had no room *)
Definition d2_cfg : pwl_cfg := mkPwl (-1) 1 (-3) (-3) BBound BNone [1; 1] 1.
Example no_room_example :
  pwl_valid d2_cfg 2 /\ p_mono d2_cfg <> 0%Z /\ p_conv d2_cfg <> 0%Z /\
  out_of_bounds d2_cfg (pwl_project_col d2_cfg [-129#4; -10; 55#4]) /\
  squeeze_bias_no_room d2_cfg (pwl_loop_bias d2_cfg (-129#4) [-10; 55#4]).
Proof.
  assert (V : pwl_valid d2_cfg 2).
  { apply pwl_validb_ok. reflexivity. }
  assert (O : out_of_bounds d2_cfg (pwl_project_col d2_cfg [-129#4; -10; 55#4])).
  { exists (-95#4). split. vm_compute. left; reflexivity. left. split; [discriminate|reflexivity]. }
  split; [exact V|]. split; [discriminate|]. split; [discriminate|]. split; [exact O|].
  apply (pwl_bounds_failure_no_room_explicit d2_cfg 2 (-129#4) [-10; 55#4] V); [discriminate|discriminate|exact O].
Qed.

Print Assumptions pwl_bounds_far_room.
Print Assumptions pwl_bounds_unless_no_room.

Lemma pwl_bounds_monotone_convex_room c n bias hs : pwl_valid c n -> length hs = n ->
  p_mono c <> 0%Z -> p_conv c <> 0%Z ->
  squeeze_bias_has_room c (pwl_loop_bias c bias hs) ->
  (p_cmin c <> BNone -> Forall (fun s => p_min c <= s) (keypoint_outputs (pwl_project_col c (bias :: hs)))) /\
  (p_cmax c <> BNone -> Forall (fun s => s <= p_max c) (keypoint_outputs (pwl_project_col c (bias :: hs)))).
Proof. intros V _ Hm Hc. apply (pwl_bounds_room c n bias hs V Hc Hm). Qed.

Lemma pwl_bounds_monotone_convex_failure c n bias hs : pwl_valid c n -> length hs = n ->
  p_mono c <> 0%Z -> p_conv c <> 0%Z ->
  (exists s, In s (keypoint_outputs (pwl_project_col c (bias :: hs))) /\
             ((p_cmin c <> BNone /\ s < p_min c) \/ (p_cmax c <> BNone /\ p_max c < s))) ->
  ~ squeeze_bias_has_room c (pwl_loop_bias c bias hs) /\ squeeze_bias_no_room c (pwl_loop_bias c bias hs).
Proof. intros V _ Hm Hc O. split.
  - apply (pwl_bounds_failure_no_room c n bias hs V Hc Hm O).
  - apply (pwl_bounds_failure_no_room_explicit c n bias hs V Hc Hm O). Qed.
