(* Lemmas about the PWLCalibration kernel initialisers (Model/PWLInit.v), for C10. *)
From TFL Require Export Model.PWLInit.
Open Scope Q_scope.

Lemma qn_S n : qn (S n) == qn n + 1.
Proof. exact (qofnat_S n). Qed.
Lemma qn_nonneg n : 0 <= qn n.
Proof. exact (qofnat_nonneg n). Qed.
Lemma qn_pos n : (1 <= n)%nat -> 0 < qn n.
Proof. exact (qofnat_pos n). Qed.

Lemma qsum_repeat x n : qsum (repeat x n) == qn n * x.
Proof. induction n as [|n IH]; cbn [repeat qsum]. change (qn 0) with 0. lra. rewrite IH, qn_S. lra. Qed.

Lemma cumsum_from_length acc l : length (cumsum_from acc l) = length l.
Proof. revert acc. induction l as [|x l IH]; intros acc; cbn. reflexivity. rewrite IH. reflexivity. Qed.
Lemma cumsum_from_last l : forall acc, l <> [] -> nth (length l - 1) (cumsum_from acc l) 0 == acc + qsum l.
Proof. induction l as [|x l IH]; intros acc H. congruence.
  destruct l as [|y r]. cbn. lra.
  replace (length (x :: y :: r) - 1)%nat with (S (length (y :: r) - 1)) by (cbn [length]; lia).
  change (cumsum_from acc (x :: y :: r)) with ((acc + x) :: cumsum_from (acc + x) (y :: r)). cbn [nth].
  rewrite IH by congruence. cbn [qsum]. lra. Qed.
(* steps of one sign s (1: up, -1: down) keep every partial sum between the start and the total *)
Lemma cumsum_from_signed s l : forall acc, (forall x, In x l -> 0 <= s * x) ->
  0 <= s * qsum l /\ forall v, In v (cumsum_from acc l) -> s * acc <= s * v <= s * (acc + qsum l).
Proof. induction l as [|x l IH]; intros acc H; cbn [cumsum_from qsum]. split; [lra|intros v []].
  pose proof (H x (or_introl eq_refl)) as Hx.
  destruct (IH (acc + x) (fun z Hz => H z (or_intror Hz))) as [Hq Hv]. split; [lra|].
  intros v [<-|Hin]; [|specialize (Hv v Hin)]; lra. Qed.
Lemma cumsum_from_up l : forall acc, (forall x, In x l -> 0 <= x) ->
  forall v, In v (cumsum_from acc l) -> acc <= v /\ v <= acc + qsum l.
Proof. intros acc H v Hv. destruct (cumsum_from_signed 1 l acc) as [_ G]. intros x Hx; specialize (H x Hx); lra.
  specialize (G v Hv). lra. Qed.
Lemma cumsum_from_down l : forall acc, (forall x, In x l -> x <= 0) ->
  forall v, In v (cumsum_from acc l) -> acc + qsum l <= v /\ v <= acc.
Proof. intros acc H v Hv. destruct (cumsum_from_signed (- (1)) l acc) as [_ G]. intros x Hx; specialize (H x Hx); lra.
  specialize (G v Hv). lra. Qed.
Lemma qsum_opp l : qsum (map Qopp l) == - qsum l.
Proof. induction l as [|x l IH]; cbn [map qsum]. lra. rewrite IH. lra. Qed.

(* keypoints strictly increasing = every length positive *)
Definition kps_ok (nk : nat) (kps : option (list Q)) : Prop :=
  match kps with
  | None => True
  | Some k => length k = nk /\ forall l, In l (kp_lengths k) -> 0 < l
  end.

Lemma kp_lengths_length k : length (kp_lengths k) = (length k - 1)%nat.
Proof. unfold kp_lengths. rewrite map2_length. destruct k; cbn [tl length]; lia. Qed.

Lemma kp_lengths_sum_pos nk k : (2 <= nk)%nat -> kps_ok nk (Some k) -> 0 < qsum (kp_lengths k).
Proof. intros Hn [Hl Hp]. apply qsum_pos; [|exact Hp].
  intros E. pose proof (kp_lengths_length k) as HL. rewrite E in HL. cbn in HL. lia. Qed.

Lemma heights_length nk omin omax kps : kps_ok nk kps -> length (pwl_init_heights nk omin omax kps) = (nk - 1)%nat.
Proof. intros H. destruct kps as [k|]; cbn [pwl_init_heights]. rewrite map_length, kp_lengths_length. destruct H as [-> _]. reflexivity.
  apply repeat_length. Qed.

Lemma heights_nonneg nk omin omax kps : omin <= omax -> (2 <= nk)%nat -> kps_ok nk kps ->
  forall h, In h (pwl_init_heights nk omin omax kps) -> 0 <= h.
Proof. intros Hb Hn Hk h Hh. destruct kps as [k|]; cbn [pwl_init_heights] in Hh.
  - pose proof (kp_lengths_sum_pos nk k Hn Hk) as HS. destruct Hk as [Hl Hp].
    apply in_map_iff in Hh. destruct Hh as [l [<- Hl']]. rewrite Qred_correct. pose proof (Hp l Hl').
    apply qmul_nonneg. lra. apply Qle_shift_div_l. exact HS. lra.
  - apply repeat_spec in Hh. subst h. rewrite Qred_correct. apply Qle_shift_div_l. apply qn_pos. lia. lra. Qed.

Lemma heights_total nk omin omax kps : (2 <= nk)%nat -> kps_ok nk kps ->
  qsum (pwl_init_heights nk omin omax kps) == omax - omin.
Proof. intros Hn Hk. destruct kps as [k|]; cbn [pwl_init_heights].
  - pose proof (kp_lengths_sum_pos nk k Hn Hk) as HS.
    rewrite (qsum_map_ext _ (fun l => (omax - omin) / qsum (kp_lengths k) * (fun x => x) l)) by (intros; rewrite Qred_correct; lra).
    rewrite qsum_map_scale, map_id. field. lra.
  - rewrite qsum_repeat, Qred_correct. pose proof (qn_pos (nk - 1) ltac:(lia)). field. lra. Qed.

(* kps = None is 'equal_heights'; Some k is 'equal_slopes': heights proportional to the keypoint distances *)
Lemma heights_equal nk omin omax h h' :
  In h (pwl_init_heights nk omin omax None) -> In h' (pwl_init_heights nk omin omax None) -> h = h'.
Proof. cbn [pwl_init_heights]. intros H H'. apply repeat_spec in H. apply repeat_spec in H'. congruence. Qed.
Lemma heights_equal_slopes nk omin omax k i : (i < length (kp_lengths k))%nat ->
  nth i (pwl_init_heights nk omin omax (Some k)) 0 == nth i (kp_lengths k) 0 * ((omax - omin) / qsum (kp_lengths k)).
Proof. intros Hi. cbn [pwl_init_heights]. rewrite (nth_map_lt _ _ i 0 0 Hi). apply Qred_correct. Qed.

Section Column.
Variables (nk : nat) (omin omax : Q) (mono : Z) (kps : option (list Q)).
Hypothesis Hb : omin <= omax.
Hypothesis Hn : (2 <= nk)%nat.
Hypothesis Hk : kps_ok nk kps.
Let col := pwl_linear_init_col nk omin omax mono kps.
Let vals := pwl_keypoint_values col.
Let dec := (mono =? -1)%Z.

Lemma col_length : length col = nk.
Proof. unfold col, pwl_linear_init_col. destruct (mono =? -1)%Z; cbn [length]; rewrite ?map_length, heights_length by exact Hk; lia. Qed.

(* heights point in the configured direction *)
Lemma col_direction h : In h (tl col) -> if dec then h <= 0 else 0 <= h.
Proof. unfold col, pwl_linear_init_col, dec. destruct (mono =? -1)%Z; cbn [tl]; intros H.
  - apply in_map_iff in H. destruct H as [x [<- Hx]]. pose proof (heights_nonneg nk omin omax kps Hb Hn Hk x Hx). lra.
  - apply (heights_nonneg nk omin omax kps Hb Hn Hk). exact H. Qed.

Lemma vals_first : nth 0 vals 0 == (if dec then omax else omin).
Proof. unfold vals, pwl_keypoint_values, cumsum, col, pwl_linear_init_col, dec. destruct (mono =? -1)%Z; cbn; lra. Qed.
Lemma vals_last : nth (nk - 1) vals 0 == (if dec then omin else omax).
Proof. pose proof col_length as HL. unfold vals, pwl_keypoint_values, cumsum.
  rewrite <- HL. rewrite cumsum_from_last by (intros E; rewrite E in HL; cbn in HL; lia).
  unfold col, pwl_linear_init_col, dec. pose proof (heights_total nk omin omax kps Hn Hk) as HT.
  destruct (mono =? -1)%Z; cbn [qsum]; rewrite ?qsum_opp, HT; lra. Qed.
Lemma vals_range v : In v vals -> omin <= v /\ v <= omax.
Proof. unfold vals, pwl_keypoint_values, cumsum, col, pwl_linear_init_col.
  pose proof (heights_total nk omin omax kps Hn Hk) as HT.
  destruct (mono =? -1)%Z; cbn [cumsum_from]; intros [<-|H]; try lra.
  - apply cumsum_from_down in H. rewrite qsum_opp, HT in H. lra.
    intros x Hx. apply in_map_iff in Hx. destruct Hx as [y [<- Hy]].
    pose proof (heights_nonneg nk omin omax kps Hb Hn Hk y Hy). lra.
  - apply cumsum_from_up in H. rewrite HT in H. lra.
    apply (heights_nonneg nk omin omax kps Hb Hn Hk). Qed.
End Column.

(* the same for the heights of the column, which carry the configured direction *)
Lemma col_equal_heights nk omin omax mono h h' :
  In h (tl (pwl_linear_init_col nk omin omax mono None)) -> In h' (tl (pwl_linear_init_col nk omin omax mono None)) -> h = h'.
Proof. unfold pwl_linear_init_col. destruct (mono =? -1)%Z; cbn [tl]; intros H H'.
  - apply in_map_iff in H. apply in_map_iff in H'. destruct H as [x [<- Hx]]. destruct H' as [y [<- Hy]].
    f_equal. eapply heights_equal; eassumption.
  - eapply heights_equal; eassumption. Qed.
Lemma col_equal_slopes nk omin omax mono k i : (i < length (kp_lengths k))%nat ->
  let c := (if (mono =? -1)%Z then -1 else 1) * ((omax - omin) / qsum (kp_lengths k)) in
  nth i (tl (pwl_linear_init_col nk omin omax mono (Some k))) 0 == nth i (kp_lengths k) 0 * c.
Proof. intros Hi c. unfold c, pwl_linear_init_col. destruct (mono =? -1)%Z; cbn [tl].
  - assert (Hl : (i < length (pwl_init_heights nk omin omax (Some k)))%nat) by (cbn [pwl_init_heights]; rewrite map_length; exact Hi).
    rewrite (nth_map_lt Qopp _ i 0 0 Hl).
    rewrite heights_equal_slopes by exact Hi. lra.
  - rewrite heights_equal_slopes by exact Hi. lra. Qed.

(* every unit gets the same column *)
Lemma pwl_init_units nk units omin omax mono kps u : (u < units)%nat ->
  column u (pwl_linear_init nk units omin omax mono kps) = pwl_linear_init_col nk omin omax mono kps.
Proof. intros Hu. unfold column, pwl_linear_init. rewrite map_map.
  rewrite <- (map_id (pwl_linear_init_col nk omin omax mono kps)) at 2. apply map_ext. intros x.
  rewrite nth_indep with (d' := x) by (rewrite repeat_length; exact Hu). apply nth_repeat. Qed.

(* convert_all_constraints: the init range is non-empty and inside the output bounds *)
Lemma convert_range omin omax cmn cmx :
  (forall a b, omin = Some a -> omax = Some b -> a <= b) ->
  let '(imin, imax, _, _) := convert_all_constraints omin omax cmn cmx in
  imin <= imax /\ (forall a, omin = Some a -> a <= imin) /\ (forall b, omax = Some b -> imax <= b).
Proof. intros H. unfold convert_all_constraints, convert_constraints.
  destruct omin as [a|], omax as [b|]; cbn.
  - split; [exact (H a b eq_refl eq_refl)|split; intros ? [= <-]; lra].
  - split; [lra|split; [intros ? [= <-]; lra|intros ? [=]]].
  - split; [lra|split; [intros ? [=]|intros ? [= <-]; lra]].
  - split; [lra|split; intros ? [=]]. Qed.

Example kps_ok_ex : kps_ok 4 (Some [0; 1; 3; 7#2]).
Proof. split. reflexivity. cbn. intros l H. repeat (destruct H as [<-|H]; [lra|]). destruct H. Qed.
Example pwl_init_slopes_ex :
  pwl_linear_init_col 4 (-3) (-1) (-1) (Some [0; 1; 3; 7#2]) = [-1; -4#7; -8#7; -2#7].
Proof. vm_compute. reflexivity. Qed.
Example pwl_init_heights_ex : pwl_linear_init_col 3 (1#2) (3#2) 0 None = [1#2; 1#2; 1#2].
Proof. vm_compute. reflexivity. Qed.
Example pwl_layer_one_sided_ex :   (* only output_max given: constant start at the bound *)
  pwl_layer_init [0; 1; 2] 2 None (Some 5) false false 1 false false = [[5; 5]; [0; 0]; [0; 0]].
Proof. vm_compute. reflexivity. Qed.
