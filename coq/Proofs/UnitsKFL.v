(* C09 for KroneckerFactoredLattice (Model/KFL.v): the kernel constraint, the
   scale constraint, finalize_constraints and every history of them act on
   unit u of multi-unit parameters exactly as they act on unit u's parameters
   alone; the output of unit u reads unit u's parameters and unit u's input row
   only.

   Layout.  The implementation's kernel (L, units*dims, terms) is reshaped to
   (L, units, dims, terms), unit-major on the third axis; the model's [unpack]
   does that.  [unpack_unit] below: unpacking the dims rows u*dims ..
   u*dims+dims-1 of the implementation kernel as a ONE-unit kernel gives unit u
   of the unpacked multi-unit kernel, so the single-unit model that the tie
   runs on that slice (Harness/H_C09.v, CKfl) is the unit_params of the
   theorems. *)
From TFL Require Import Model.KFL Model.KFLUnits Proofs.KFL.
Open Scope Q_scope.

(* unit u exists in kernel and scale *)
Definition has_unit (p : params) (u : nat) : Prop :=
  (u < length (p_kern p))%nat /\ (u < length (p_scale p))%nat.

Lemma nth_map_nil {A B} (g : list A -> list B) (l : list (list A)) u : g [] = [] -> nth u (map g l) [] = g (nth u l []).
Proof. intros H. rewrite <- H at 1. apply map_nth. Qed.

Lemma finalize_weights_unit root ms omin omax scale k u : (u < length scale)%nat -> (u < length k)%nat ->
  [nth u (finalize_weights root ms omin omax scale k) []] =
  finalize_weights root ms omin omax [nth u scale []] [nth u k []].
Proof. intros Hs Hk. unfold finalize_weights. cbn [map2].
  rewrite (nth_map2 _ scale k u [] [] []) by assumption. reflexivity. Qed.

Lemma finalize_weights_length root ms omin omax scale k :
  length (finalize_weights root ms omin omax scale k) = Nat.min (length scale) (length k).
Proof. unfold finalize_weights. apply map2_length. Qed.

Lemma kfl_constraints_call_unit root c scale k u : (u < length scale)%nat -> (u < length k)%nat ->
  [nth u (kfl_constraints_call root c scale k) []] = kfl_constraints_call root c [nth u scale []] [nth u k []].
Proof. intros Hs Hk. unfold kfl_constraints_call. cbv zeta.
  destruct ((0 <? num_constraint_dims (canon_monos (c_monos c)))%nat || is_some (c_min c) || is_some (c_max c)).
  - apply finalize_weights_unit; assumption.
  - reflexivity. Qed.
Lemma kfl_constraints_call_length root c scale k : (length k <= length scale)%nat ->
  length (kfl_constraints_call root c scale k) = length k.
Proof. intros H. unfold kfl_constraints_call. cbv zeta. destruct (_ || _ || _); [|reflexivity].
  rewrite finalize_weights_length. lia. Qed.
Lemma kfl_constraints_call_has root c scale k u : (u < length scale)%nat -> (u < length k)%nat ->
  (u < length (kfl_constraints_call root c scale k))%nat.
Proof. intros Hs Hk. unfold kfl_constraints_call. cbv zeta. destruct (_ || _ || _); [|exact Hk].
  rewrite finalize_weights_length. lia. Qed.

Lemma kernel_variable_constraint_unit root c scale k u : (u < length scale)%nat -> (u < length k)%nat ->
  [nth u (kernel_variable_constraint root c scale k) []] = kernel_variable_constraint root c [nth u scale []] [nth u k []].
Proof. intros Hs Hk. unfold kernel_variable_constraint. destruct (_ || _); [apply kfl_constraints_call_unit; assumption|reflexivity]. Qed.
Lemma kernel_variable_constraint_has root c scale k u : (u < length scale)%nat -> (u < length k)%nat ->
  (u < length (kernel_variable_constraint root c scale k))%nat.
Proof. intros Hs Hk. unfold kernel_variable_constraint. destruct (_ || _); [apply kfl_constraints_call_has; assumption|exact Hk]. Qed.

Lemma scale_constraints_call_unit c scale u :
  [nth u (scale_constraints_call c scale) []] = scale_constraints_call c [nth u scale []].
Proof. unfold scale_constraints_call. destruct (has_bounds c); [|reflexivity]. cbn [map].
  rewrite (nth_map_nil (map (finalize_scale1 (c_min c) (c_max c))) scale u eq_refl). reflexivity. Qed.
Lemma scale_constraints_call_length c scale : length (scale_constraints_call c scale) = length scale.
Proof. unfold scale_constraints_call. destruct (has_bounds c); [apply map_length|reflexivity]. Qed.
Lemma scale_variable_constraint_unit c scale u :
  [nth u (scale_variable_constraint c scale) []] = scale_variable_constraint c [nth u scale []].
Proof. unfold scale_variable_constraint. destruct (has_bounds c); [apply scale_constraints_call_unit|reflexivity]. Qed.
Lemma scale_variable_constraint_length c scale : length (scale_variable_constraint c scale) = length scale.
Proof. unfold scale_variable_constraint. destruct (has_bounds c); [apply scale_constraints_call_length|reflexivity]. Qed.

Lemma scale_constraints_unit c scale u :
  [nth u (scale_variable_constraint c scale) []] = scale_variable_constraint c [nth u scale []] /\
  [nth u (scale_constraints_call c scale) []] = scale_constraints_call c [nth u scale []].
Proof. split; [apply scale_variable_constraint_unit|apply scale_constraints_call_unit]. Qed.

Theorem apply_step_unit root c p st u : has_unit p u ->
  unit_params (apply_step root c p st) u = apply_step root c (unit_params p u) st /\ has_unit (apply_step root c p st) u.
Proof. intros [Hk Hs]. destruct st; unfold apply_step, unit_params, has_unit; cbn [p_kern p_scale p_bias].
  - rewrite kernel_variable_constraint_unit by assumption. split; [reflexivity|].
    split; [apply kernel_variable_constraint_has; assumption|exact Hs].
  - rewrite scale_variable_constraint_unit. split; [reflexivity|].
    split; [exact Hk|rewrite scale_variable_constraint_length; exact Hs].
  - rewrite kfl_constraints_call_unit by assumption. rewrite scale_constraints_call_unit. split; [reflexivity|].
    split; [apply kfl_constraints_call_has; assumption|rewrite scale_constraints_call_length; exact Hs]. Qed.

Theorem run_unit root c steps : forall p u, has_unit p u ->
  unit_params (run root c steps p) u = run root c steps (unit_params p u).
Proof. unfold run. induction steps as [|st steps IH]; intros p u H; cbn [fold_left]. reflexivity.
  destruct (apply_step_unit root c p st u H) as [E H']. rewrite IH by exact H'. rewrite E. reflexivity. Qed.

Lemma run_has_unit root c steps : forall p u, has_unit p u -> has_unit (run root c steps p) u.
Proof. unfold run. induction steps as [|st steps IH]; intros p u H; cbn [fold_left]. exact H.
  apply IH. apply (apply_step_unit root c p st u H). Qed.

Lemma select_units_unit s n p u : (u < n)%nat -> unit_params (select_units s n p) u = unit_params p (s u).
Proof. intros Hu. unfold unit_params, select_units. cbn [p_kern p_scale p_bias].
  rewrite !nth_map_seq by exact Hu. reflexivity. Qed.
Lemma select_units_has s n p u : (u < n)%nat -> has_unit (select_units s n p) u.
Proof. intros Hu. unfold has_unit, select_units. cbn [p_kern p_scale]. rewrite !map_length, seq_length. split; exact Hu. Qed.

(* s need not be a bijection: any selection / duplication / reordering of units *)
Theorem run_select_units root c steps p s n u : (u < n)%nat -> has_unit p (s u) ->
  unit_params (run root c steps (select_units s n p)) u = unit_params (run root c steps p) (s u).
Proof. intros Hu Hs. rewrite run_unit by (apply select_units_has; exact Hu). rewrite run_unit by exact Hs.
  rewrite select_units_unit by exact Hu. reflexivity. Qed.

Theorem unit_out_local c p p' u xs :
  nth u (p_kern p) [] = nth u (p_kern p') [] -> nth u (p_scale p) [] = nth u (p_scale p') [] ->
  nth u (p_bias p) 0 = nth u (p_bias p') 0 -> unit_out c p u xs = unit_out c p' u xs.
Proof. intros Ek Es Eb. unfold unit_out. rewrite Ek, Es, Eb. reflexivity. Qed.

Theorem unit_out_unit_params c p u xs : unit_out c p u xs = unit_out c (unit_params p u) 0 xs.
Proof. reflexivity. Qed.

(* the layer's output vector: entry u is the unit function of unit u on row u of the input *)
Theorem layer_out_unit c p xss u : (u < length (p_scale p))%nat ->
  nth u (layer_out c p xss) 0 = unit_out c p u (nth u xss []).
Proof. intros Hu. unfold layer_out. rewrite nth_map_seq by exact Hu. reflexivity. Qed.

(* constraints then output: unit u of the constrained multi-unit layer is the
   constrained single-unit layer made of unit u's parameters *)
Theorem constrained_unit_out root c steps p u xs : has_unit p u ->
  unit_out c (run root c steps p) u xs = unit_out c (run root c steps (unit_params p u)) 0 xs.
Proof. intros H. rewrite unit_out_unit_params. rewrite run_unit by exact H. reflexivity. Qed.

(* entry u of the constrained layer's output depends on unit u's initial
   parameters and on row u of the input only *)
Theorem constrained_layer_out_local root c steps p p' xss xss' u : has_unit p u -> has_unit p' u ->
  unit_params p u = unit_params p' u -> nth u xss [] = nth u xss' [] ->
  nth u (layer_out c (run root c steps p) xss) 0 = nth u (layer_out c (run root c steps p') xss') 0.
Proof. intros H H' E Ex.
  rewrite (layer_out_unit c (run root c steps p) xss u) by (apply (run_has_unit root c steps p u H)).
  rewrite (layer_out_unit c (run root c steps p') xss' u) by (apply (run_has_unit root c steps p' u H')).
  rewrite (constrained_unit_out root c steps p u _ H), (constrained_unit_out root c steps p' u _ H').
  rewrite E, Ex. reflexivity. Qed.

(* the layer is applied to every batch row (one list of unit rows per example)
   on its own; there is no other place where the batch enters the model *)
Theorem batch_out_row c p X i : (i < length X)%nat ->
  nth i (batch_out c p X) [] = layer_out c p (nth i X []).
Proof. intros Hi. unfold batch_out. rewrite nth_indep with (d' := layer_out c p []) by (rewrite map_length; exact Hi).
  apply map_nth. Qed.

(* any selection / permutation / sub-batch of rows: outputs are selected the same way *)
Theorem batch_out_select c p X (sel : list nat) : (forall i, In i sel -> (i < length X)%nat) ->
  batch_out c p (map (fun i => nth i X []) sel) = map (fun i => nth i (batch_out c p X) []) sel.
Proof. intros H. unfold batch_out at 1. rewrite map_map. apply map_ext_in. intros i Hi.
  rewrite batch_out_row by (apply H; exact Hi). reflexivity. Qed.

Theorem unpack_unit L units dims terms k u : (u < units)%nat ->
  [nth u (unpack L units dims terms k) []] = unpack L 1 dims terms (slice_unit dims u k).
Proof. intros Hu. unfold unpack at 1.
  rewrite nth_map_seq by exact Hu.
  unfold unpack. change (seq 0 1) with [0%nat]. cbn [map].
  f_equal. apply map_ext. intros t. apply map_ext_in. intros d Hd. apply in_seq in Hd. apply map_ext. intros i.
  cbn [Nat.mul Nat.add]. unfold slice_unit.
  rewrite (nth_map_nil (fun rows => firstn dims (skipn (u * dims) rows))) by (destruct (u * dims)%nat, dims; reflexivity).
  rewrite nth_firstn_lt by lia. rewrite nth_skipn_add. reflexivity. Qed.

(* the statement the tie executes: the single-unit model on the slice of the
   implementation kernel is unit u of the multi-unit model on the whole kernel *)
Theorem run_on_slice root c steps L units dims terms k s b u : (u < units)%nat -> (u < length s)%nat ->
  run root c steps (mkPar (unpack L 1 dims terms (slice_unit dims u k)) [nth u s []] [nth u b 0]) =
  unit_params (run root c steps (mkPar (unpack L units dims terms k) s b)) u.
Proof. intros Hu Hs. rewrite run_unit.
  - unfold unit_params at 1. cbn [p_kern p_scale p_bias]. rewrite unpack_unit by exact Hu. reflexivity.
  - split; cbn [p_kern p_scale]; [|exact Hs]. unfold unpack. rewrite map_length, seq_length. exact Hu. Qed.

Example exk_cfg : config := mkCfg 3 (Some [true; false]) (Some 0) (Some 2) true.
Example exk_par : params := mkPar
  [ [[[1; 3; 2]; [0; 4; 1]]; [[2; -(1); 5]; [1; 1; 1]]];
    [[[100; 300; 200]; [0; 400; 100]]; [[2; 1; 0]; [-(3); 2; 1]]];
    [[[1 # 8; 0; 1 # 4]; [1; 2; 3]]; [[0; 0; 1]; [1 # 2; 1 # 2; 1 # 2]]] ]
  [[1; -(2)]; [5; 1 # 2]; [-(1); 0]] [1; 1; 1].
Example exk_has : forall u, (u < 3)%nat -> has_unit exk_par u.
Proof. intros u Hu. split; cbn; exact Hu. Qed.
Example exk_units_differ :
  let r := run qroot exk_cfg [StepK; StepS; StepF] exk_par in
  nth 0 (p_kern r) [] <> nth 0 (p_kern exk_par) [] /\ nth 0 (p_kern r) [] <> nth 1 (p_kern r) [] /\
  unit_params r 1 = run qroot exk_cfg [StepK; StepS; StepF] (unit_params exk_par 1).
Proof. cbv zeta.
  eassert (E : run qroot exk_cfg [StepK; StepS; StepF] exk_par = _) by (vm_compute; reflexivity).
  split; [|split].
  - rewrite E. vm_compute. discriminate.
  - rewrite E. vm_compute. discriminate.
  - apply run_unit, exk_has. lia. Qed.
