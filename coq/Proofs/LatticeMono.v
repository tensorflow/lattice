(* _approximately_project_monotonicity (Model/LatticeFinalize.v: approx_mono):
   the result is monotone along every requested dimension, a monotone kernel is
   left unchanged, and the values at valid indices depend only on the values
   of the input at valid indices.  All ranks / sizes, no bounds. *)
From TFL Require Import Proofs.LatticeSpecFacts.
Open Scope Q_scope.

Lemma mono_dims_from_spec ms : forall k d,
  In d (mono_dims_from k ms) <-> exists e, d = (k + e)%nat /\ (e < length ms)%nat /\ nth e ms 0%Z <> 0%Z.
Proof. induction ms as [|m r IH]; intros k d; cbn [mono_dims_from].
  - split. intros []. intros (e & _ & H & _). cbn in H. lia.
  - assert (Hr : In d (mono_dims_from (S k) r) <->
                 exists e, d = (k + S e)%nat /\ (S e < length (m :: r))%nat /\ nth (S e) (m :: r) 0%Z <> 0%Z).
    { rewrite IH. cbn [length nth]. split; intros (e & -> & Hl & Hn); exists e.
      - split; [lia|]. split; [lia|exact Hn].
      - split; [lia|]. split; [lia|exact Hn]. }
    destruct (Z.eqb_spec m 0) as [E|E]; cbn [In]; rewrite Hr; split.
    + intros (e & H). exists (S e). exact H.
    + intros ([|e] & H1 & H2 & H3). contradiction. exists e. auto.
    + intros [<-|(e & H)]. exists 0%nat. cbn. repeat split; (lia || exact E). exists (S e). exact H.
    + intros ([|e] & -> & H). left. lia. right. exists e. auto. Qed.

Lemma mono_dims_spec ms d : In d (mono_dims ms) <-> (d < length ms)%nat /\ nth d ms 0%Z <> 0%Z.
Proof. unfold mono_dims. rewrite mono_dims_from_spec. split.
  intros (e & -> & H). exact H. intros H. exists d. auto. Qed.

Lemma sufmin_le f i d : forall n k j, (k <= j <= k + n)%nat -> sufmin f i d k n <= f (upd i d j).
Proof. induction n as [|n IH]; intros k j Hj; cbn [sufmin].
  - assert (j = k) by lia; subst. lra.
  - destruct (qmin_spec (f (upd i d k)) (sufmin f i d (S k) n)) as [[H ->]|[H ->]].
    + destruct (Nat.eq_dec j k) as [->|Hne]. lra. specialize (IH (S k) j ltac:(lia)). lra.
    + destruct (Nat.eq_dec j k) as [->|Hne]. lra. apply IH; lia.
Qed.
Lemma sufmin_glb f i d c : forall n k,
  (forall j, (k <= j <= k + n)%nat -> c <= f (upd i d j)) -> c <= sufmin f i d k n.
Proof. induction n as [|n IH]; intros k H; cbn [sufmin]. apply H; lia.
  destruct (qmin_spec (f (upd i d k)) (sufmin f i d (S k) n)) as [[_ ->]|[_ ->]].
  apply H; lia. apply IH. intros j Hj. apply H; lia. Qed.
Lemma sufmin_ext f g i d : forall n k,
  (forall j, (k <= j <= k + n)%nat -> f (upd i d j) == g (upd i d j)) -> sufmin f i d k n == sufmin g i d k n.
Proof. induction n as [|n IH]; intros k H; cbn [sufmin]. apply H; lia.
  rewrite (H k) by lia. rewrite (IH (S k)). reflexivity. intros j Hj. apply H; lia. Qed.

Lemma prefmax_ge f i d : forall k j, (j <= k)%nat -> f (upd i d j) <= prefmax f i d k.
Proof. induction k as [|k IH]; intros j Hj; cbn [prefmax].
  - assert (j = 0%nat) by lia; subst. lra.
  - destruct (Nat.eq_dec j (S k)) as [->|Hne]. apply qmax_l.
    eapply Qle_trans. apply IH; lia. apply qmax_r. Qed.
Lemma prefmax_lub f i d c : forall k,
  (forall j, (j <= k)%nat -> f (upd i d j) <= c) -> prefmax f i d k <= c.
Proof. induction k as [|k IH]; intros H; cbn [prefmax]. apply H; lia.
  apply qmax_lub. apply H; lia. apply IH. intros j Hj. apply H; lia. Qed.
Lemma prefmax_ext f g i d : forall k,
  (forall j, (j <= k)%nat -> f (upd i d j) == g (upd i d j)) -> prefmax f i d k == prefmax g i d k.
Proof. induction k as [|k IH]; intros H; cbn [prefmax]. apply H; lia.
  rewrite (H (S k)) by lia. rewrite IH. reflexivity. intros j Hj. apply H; lia. Qed.

Lemma cummin_val sh d f i : valid sh i ->
  cummin sh d f i = sufmin f i d (nth d i 0%nat) (nth d sh 0%nat - 1 - nth d i 0%nat).
Proof. intros; unfold cummin; rewrite memo_ok by assumption; reflexivity. Qed.
Lemma cummax_val sh d f i : valid sh i -> cummax sh d f i = prefmax f i d (nth d i 0%nat).
Proof. intros; unfold cummax; rewrite memo_ok by assumption; reflexivity. Qed.

Lemma cummin_mono_self sh d f : (d < length sh)%nat -> mono_along sh d (cummin sh d f).
Proof. intros Hd i Hv Hs. set (x := nth d i 0%nat) in *.
  assert (Hl : length i = length sh) by (apply valid_length; assumption).
  assert (Hv' : valid sh (upd i d (S x))) by (apply upd_valid; assumption).
  rewrite !cummin_val by assumption. rewrite nth_upd_same by lia. fold x.
  apply sufmin_glb. intros j Hj. rewrite upd_upd. apply sufmin_le. lia. Qed.

Lemma cummin_mono_other sh d d' f : d <> d' -> (d < length sh)%nat ->
  mono_along sh d' f -> mono_along sh d' (cummin sh d f).
Proof. intros Hne Hd Hm i Hv Hs. set (y := nth d' i 0%nat) in *.
  assert (Hl : length i = length sh) by (apply valid_length; assumption).
  assert (Hv' : valid sh (upd i d' (S y))) by (apply upd_valid; assumption).
  rewrite !cummin_val by assumption. rewrite nth_upd_other by auto.
  set (x := nth d i 0%nat). assert (Hx : (x < nth d sh 0%nat)%nat) by (apply valid_nth; assumption).
  apply sufmin_glb. intros j Hj.
  eapply Qle_trans. apply (sufmin_le f i d _ _ j). lia.
  rewrite upd_comm by auto.
  assert (Hvj : valid sh (upd i d j)) by (apply upd_valid; [assumption|lia]).
  specialize (Hm (upd i d j) Hvj). rewrite nth_upd_other in Hm by auto. fold y in Hm. apply Hm. assumption. Qed.

Lemma approx_mono_monotone sh monos w d : (forall d, In d monos -> (d < length sh)%nat) ->
  In d monos -> mono_along sh d (approx_mono sh monos w).
Proof. intros Hb Hin. unfold approx_mono.
  apply (fold_left_establishes (fun acc d => cummin sh d acc) (fun f d => mono_along sh d f)
           (fun _ _ => True) (fun d => (d < length sh)%nat)).
  - intros g e He. apply cummin_mono_self; assumption.
  - intros g e e' He He' _ H. destruct (Nat.eq_dec e e') as [<-|Hne].
    apply cummin_mono_self; assumption. apply cummin_mono_other; assumption.
  - apply Forall_forall. exact Hb.
  - apply SS_total. auto.
  - apply Hb; exact Hin.
  - left; exact Hin. Qed.

(* cummin_mono_self / cummin_mono_other for cummax (not needed for
   approx_mono_monotone, but they say that either pass alone is already a
   feasible projection) *)
Lemma cummax_mono_self sh d f : (d < length sh)%nat -> mono_along sh d (cummax sh d f).
Proof. intros Hd i Hv Hs. set (x := nth d i 0%nat) in *.
  assert (Hl : length i = length sh) by (apply valid_length; assumption).
  assert (Hv' : valid sh (upd i d (S x))) by (apply upd_valid; assumption).
  rewrite !cummax_val by assumption. rewrite nth_upd_same by lia. fold x.
  apply prefmax_lub. intros j Hj. rewrite <- (upd_upd i d (S x) j). apply prefmax_ge. lia. Qed.

Lemma cummax_mono_other sh d d' f : d <> d' -> (d < length sh)%nat -> (d' < length sh)%nat ->
  mono_along sh d' f -> mono_along sh d' (cummax sh d f).
Proof. intros Hne Hd _ Hm i Hv Hs. set (y := nth d' i 0%nat) in *.
  assert (Hl : length i = length sh) by (apply valid_length; assumption).
  assert (Hv' : valid sh (upd i d' (S y))) by (apply upd_valid; assumption).
  rewrite !cummax_val by assumption. rewrite nth_upd_other by auto.
  set (x := nth d i 0%nat). assert (Hx : (x < nth d sh 0%nat)%nat) by (apply valid_nth; assumption).
  apply prefmax_lub. intros j Hj.
  eapply Qle_trans; [|apply (prefmax_ge f (upd i d' (S y)) d x j); lia].
  rewrite (upd_comm i d' d (S y) j) by auto.
  assert (Hvj : valid sh (upd i d j)) by (apply upd_valid; [assumption|lia]).
  specialize (Hm (upd i d j) Hvj). rewrite nth_upd_other in Hm by auto. fold y in Hm. apply Hm. assumption. Qed.

Lemma cummax_teq sh d f g : teq sh f g -> teq sh (cummax sh d f) (cummax sh d g).
Proof. intros E i Hv. rewrite !cummax_val by assumption. apply prefmax_ext. intros j Hj.
  apply E. apply upd_valid_gen. assumption. intros Hd. pose proof (valid_nth sh i d Hv Hd). lia. Qed.
Lemma cummin_teq sh d f g : teq sh f g -> teq sh (cummin sh d f) (cummin sh d g).
Proof. intros E i Hv. rewrite !cummin_val by assumption. apply sufmin_ext. intros j Hj.
  apply E. apply upd_valid_gen. assumption. intros Hd. pose proof (valid_nth sh i d Hv Hd). lia. Qed.

Lemma fold_teq sh (F : nat -> tens -> tens) :
  (forall d f g, teq sh f g -> teq sh (F d f) (F d g)) ->
  forall l a b, teq sh a b -> teq sh (fold_left (fun acc d => F d acc) l a) (fold_left (fun acc d => F d acc) l b).
Proof. intros HF. induction l as [|d l IH]; intros a b E; cbn [fold_left]. exact E. apply IH. apply HF. exact E. Qed.

Lemma cummax_fixed sh d f : (d < length sh)%nat -> mono_along sh d f -> teq sh (cummax sh d f) f.
Proof. intros Hd Hm i Hv. rewrite cummax_val by assumption. set (x := nth d i 0%nat).
  assert (Hx : (x < nth d sh 0)%nat) by (apply valid_nth; assumption).
  apply Qle_antisym.
  - apply prefmax_lub. intros j Hj. rewrite <- (upd_self i d) at 2. fold x.
    apply (mono_along_le sh d f i Hm Hv); lia.
  - rewrite <- (upd_self i d) at 1. fold x. apply prefmax_ge. lia. Qed.
Lemma cummin_fixed sh d f : (d < length sh)%nat -> mono_along sh d f -> teq sh (cummin sh d f) f.
Proof. intros Hd Hm i Hv. rewrite cummin_val by assumption. set (x := nth d i 0%nat).
  assert (Hx : (x < nth d sh 0)%nat) by (apply valid_nth; assumption).
  apply Qle_antisym.
  - rewrite <- (upd_self i d) at 2. fold x. apply sufmin_le. lia.
  - apply sufmin_glb. intros j Hj. rewrite <- (upd_self i d) at 1. fold x.
    apply (mono_along_le sh d f i Hm Hv); lia. Qed.

Lemma approx_mono_valid_only sh monos w w' :
  teq sh w w' -> teq sh (approx_mono sh monos w) (approx_mono sh monos w').
Proof. intros E. unfold approx_mono.
  apply (fold_teq sh (cummin sh)). intros; apply cummin_teq; assumption.
  apply memo_teq_ext. intros i Hv. rewrite !Qred_correct.
  pose proof (fold_teq sh (cummax sh) ltac:(intros; apply cummax_teq; assumption) monos w w' E i Hv) as Hmx.
  cbv beta in Hmx. rewrite Hmx. rewrite (E i Hv). reflexivity. Qed.

Lemma approx_mono_fixed sh monos w : (forall d, In d monos -> (d < length sh)%nat) ->
  (forall d, In d monos -> mono_along sh d w) -> teq sh (approx_mono sh monos w) w.
Proof. intros Hb Hm. unfold approx_mono.
  assert (Hmx : teq sh (fold_left (fun acc d => cummax sh d acc) monos w) w).
  { apply (fold_left_inv _ (fun a => teq sh a w)); [apply teq_refl|]. intros a d Hd E.
    eapply teq_trans. apply cummax_teq; exact E. apply cummax_fixed; auto. }
  apply (fold_left_inv _ (fun a => teq sh a w)).
  { apply memo_teq_l. intros i Hv. rewrite Qred_correct. rewrite (Hmx i Hv). lra. }
  intros a d Hd E. eapply teq_trans. apply cummin_teq; exact E. apply cummin_fixed; auto. Qed.

(* the result never leaves the range of the input: every value lies between
   the smallest and the largest input value (so bounds that held before the
   projection still hold) *)
Lemma cummax_range sh d f lo hi : (forall i, valid sh i -> lo <= f i <= hi) ->
  forall i, valid sh i -> lo <= cummax sh d f i <= hi.
Proof. intros H i Hv. rewrite cummax_val by assumption.
  assert (V : forall j, (j <= nth d i 0)%nat -> valid sh (upd i d j)).
  { intros j Hj. apply upd_valid_gen. assumption. intros Hd. pose proof (valid_nth sh i d Hv Hd). lia. }
  split.
  - eapply Qle_trans; [|apply (prefmax_ge f i d _ 0%nat); lia]. apply H. apply V. lia.
  - apply prefmax_lub. intros j Hj. apply H. apply V. exact Hj. Qed.
Lemma cummin_range sh d f lo hi : (forall i, valid sh i -> lo <= f i <= hi) ->
  forall i, valid sh i -> lo <= cummin sh d f i <= hi.
Proof. intros H i Hv. rewrite cummin_val by assumption.
  assert (V : forall j, (nth d i 0 <= j <= nth d i 0 + (nth d sh 0 - 1 - nth d i 0))%nat -> valid sh (upd i d j)).
  { intros j Hj. apply upd_valid_gen. assumption. intros Hd. pose proof (valid_nth sh i d Hv Hd). lia. }
  split.
  - apply sufmin_glb. intros j Hj. apply H. apply V. exact Hj.
  - eapply Qle_trans; [apply (sufmin_le f i d _ _ (nth d i 0%nat)); lia|]. apply H. apply V. lia. Qed.

Lemma approx_mono_range sh monos w lo hi : (forall i, valid sh i -> lo <= w i <= hi) ->
  forall i, valid sh i -> lo <= approx_mono sh monos w i <= hi.
Proof. intros H. unfold approx_mono.
  apply (fold_left_inv _ (fun a => forall i, valid sh i -> lo <= a i <= hi)); [|intros a d _; apply cummin_range].
  intros i Hv. rewrite memo_ok by assumption. rewrite Qred_correct.
  pose proof (fold_left_inv (fun acc d => cummax sh d acc) (fun a => forall i, valid sh i -> lo <= a i <= hi) monos w H
                (fun a d _ => cummax_range sh d a lo hi) i Hv) as Hmx.
  cbv beta in Hmx. pose proof (H i Hv). lra. Qed.

Lemma cfg_mono_dims_lt c d : cfg_valid c -> In d (mono_dims (l_monos c)) -> (d < l_ud c)%nat.
Proof. intros (_ & _ & Hlen & _) Hd. apply mono_dims_spec in Hd. unfold l_ud. lia. Qed.
Lemma cfg_mono_dims_shape c d : cfg_valid c -> In d (mono_dims (l_monos c)) -> (d < length (l_shape c))%nat.
Proof. intros Hc Hd. pose proof (cfg_mono_dims_lt c d Hc Hd). pose proof (l_ud_lt c). lia. Qed.

Lemma approx_mono_monotone_kernel c W : cfg_valid c ->
  monotone_kernel c (approx_mono (l_shape c) (mono_dims (l_monos c)) W).
Proof. intros Hc d Hd. apply approx_mono_monotone; [|exact Hd]. intros e He. apply cfg_mono_dims_shape; assumption. Qed.
Lemma approx_mono_kernel_fixed c W : cfg_valid c -> monotone_kernel c W ->
  teq (l_shape c) (approx_mono (l_shape c) (mono_dims (l_monos c)) W) W.
Proof. intros Hc Hm. apply approx_mono_fixed. intros e He. apply cfg_mono_dims_shape; assumption. exact Hm. Qed.

(* the hypotheses are satisfiable: a 2 x 3 lattice with 2 units *)
Definition ex_sh : list nat := [2; 3; 2]%nat.
(* monotone along dims 0 and 1, both units *)
Definition ex_w_mono : tens := of_list ex_sh [0; 1; 1; 1; 2; 3;  1; 2; 2#1; 5#2; 4; 3].
(* violates monotonicity along both dims *)
Definition ex_w_bad : tens := of_list ex_sh [3; 0; 1; 5; 2; -1;  1; 4; 0; 2; -2; 7].

Example approx_mono_fixed_hyps :
  (forall d, In d [0; 1]%nat -> (d < length ex_sh)%nat) /\
  (forall d, In d [0; 1]%nat -> mono_along ex_sh d ex_w_mono).
Proof. split; intros d [<-|[<-|[]]]; try (cbn; lia); apply mono_alongb_ok; vm_compute; reflexivity. Qed.

Example approx_mono_fixed_ex : teq ex_sh (approx_mono ex_sh [0; 1]%nat ex_w_mono) ex_w_mono.
Proof. destruct approx_mono_fixed_hyps. apply approx_mono_fixed; assumption. Qed.

Example approx_mono_bad_not_mono : ~ mono_along ex_sh 0%nat ex_w_bad.
Proof. intros H. specialize (H [0; 0; 0]%nat).
  assert (V : valid ex_sh [0; 0; 0]%nat) by (repeat constructor).
  specialize (H V ltac:(cbn; lia)). vm_compute in H. apply H. reflexivity. Qed.

Example approx_mono_bad_projected :
  mono_along ex_sh 0%nat (approx_mono ex_sh [0; 1]%nat ex_w_bad) /\
  mono_along ex_sh 1%nat (approx_mono ex_sh [0; 1]%nat ex_w_bad).
Proof. split; apply approx_mono_monotone; cbn; intuition lia. Qed.

Example mono_dims_ex : mono_dims [1; 0; 1; 1]%Z = [0; 2; 3]%nat.
Proof. reflexivity. Qed.

Print Assumptions mono_dims_spec.
Print Assumptions approx_mono_monotone.
Print Assumptions approx_mono_fixed.
Print Assumptions approx_mono_valid_only.
Print Assumptions approx_mono_range.
