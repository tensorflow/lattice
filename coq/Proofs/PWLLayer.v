(* "Hence monotone / bounded at every input" for the LAYER call forms of
   PWLCalibration (one input column or one per unit, cyclic closing height,
   missing-value imputation included) and for CategoricalCalibration, and the
   output structure of CategoricalCalibration (split_outputs). *)
From TFL Require Import Model.PWLEval Model.CategoricalEval Proofs.PWLEval.
Open Scope Q_scope.

(* row forms accepted by call(): one column, or one column per unit *)
Definition row_ok (L : pwl_layer) (row : list Q) : Prop := length row = 1%nat \/ length row = p_units L.

Lemma col_of_lt L row u : (u < p_units L)%nat -> row_ok L row -> (col_of (length row) u < length row)%nat.
Proof. intros Hu [H|H]; unfold col_of; rewrite H. cbn. lia. destruct (p_units L =? 1)%nat; lia. Qed.

(* whichever form, unit u's output is its function at the entry it reads *)
Lemma calib_row_unit L row u : (u < p_units L)%nat -> row_ok L row ->
  nth u (calib_row L row) 0 = unit_fn L u (nth (col_of (length row) u) row 0).
Proof. intros Hu [H|H].
  - destruct row as [|x [|? ?]]; cbn in H; try lia. cbn [length]. unfold col_of. cbn [Nat.eqb nth].
    apply calib_row_single. exact Hu.
  - rewrite calib_row_per_unit by assumption. unfold col_of. rewrite H.
    destruct (Nat.eqb_spec (p_units L) 1) as [E|E]; [|reflexivity]. assert (u = 0%nat) by lia. subst u. reflexivity. Qed.

(* keypoint outputs of unit u, closing height of a cyclic layer included *)
Definition unit_outs (L : pwl_layer) (u : nat) : list Q := kp_outs (column u (bias_and_heights L)).

Definition nondecr (l : list Q) : Prop := forall j, (S j < length l)%nat -> nth j l 0 <= nth (S j) l 0.
Definition nonincr (l : list Q) : Prop := forall j, (S j < length l)%nat -> nth (S j) l 0 <= nth j l 0.

Lemma kp_outs_length col : length (kp_outs col) = length col.
Proof. unfold kp_outs. apply cumsum_incl_length. Qed.

(* without cyclic closing the keypoint outputs are what keypoints_outputs() reports *)
Lemma unit_outs_reported L u : p_cyclic L = false -> unit_outs L u = keypoints_outputs_col L u.
Proof. intros Hc. unfold unit_outs, keypoints_outputs_col, kp_outs. rewrite column_bh_plain by exact Hc. rewrite Hc. reflexivity. Qed.

(* unit u's entry is not treated as missing by call_row L row given *)
Definition not_missing (L : pwl_layer) (row : list Q) (given : option (list Q)) (u : nat) : Prop :=
  if p_impute L then
    match given with
    | Some m => nth (col_of (length m) u) m 0 == 0
    | None => match p_missing_input L with
              | Some v => ~ nth (col_of (length row) u) row 0 == v
              | None => True
              end
    end
  else True.

Lemma call_row_not_missing L row given u : (u < p_units L)%nat -> row_ok L row -> not_missing L row given u ->
  nth u (call_row L row given) 0 == nth u (calib_row L row) 0.
Proof. intros Hu Hr Hn. unfold not_missing in Hn. destruct (p_impute L) eqn:Hi.
  - destruct given as [m|].
    + apply (missing_flag_given L row m u Hi Hu). exact Hn.
    + destruct (p_missing_input L) as [v|] eqn:Hv.
      * apply (missing_by_value L row v u Hi Hv Hu (col_of_lt L row u Hu Hr)). exact Hn.
      * unfold call_row. rewrite Hi, Hv. reflexivity.
  - unfold call_row. rewrite Hi. reflexivity. Qed.

(* monotone keypoint outputs => the LAYER output of unit u (call_row: imputation switched on or off, flags
   given or derived from missing_input_value) is monotone in the entry unit u reads, over every pair of
   non-missing inputs of the same accepted form *)
Theorem layer_call_monotone L u row row' given given' : (u < p_units L)%nat -> row_ok L row -> length row' = length row ->
  Forall (fun l => 0 < l) (unit_lens L u) ->
  not_missing L row given u -> not_missing L row' given' u ->
  nth (col_of (length row) u) row 0 <= nth (col_of (length row) u) row' 0 ->
  (nondecr (unit_outs L u) -> nth u (call_row L row given) 0 <= nth u (call_row L row' given') 0) /\
  (nonincr (unit_outs L u) -> nth u (call_row L row' given') 0 <= nth u (call_row L row given) 0).
Proof. intros Hu Hr Hl Hp Hn Hn' Hxy. assert (Hr' : row_ok L row') by (unfold row_ok; rewrite Hl; exact Hr).
  rewrite (call_row_not_missing L row given u Hu Hr Hn), (call_row_not_missing L row' given' u Hu Hr' Hn').
  rewrite !calib_row_unit by assumption. rewrite Hl. unfold unit_fn, nondecr, nonincr, unit_outs.
  rewrite kp_outs_length. split; intros Hs.
  - apply pwl_monotone_function; assumption.
  - apply pwl_antitone_function; assumption. Qed.

(* bounded keypoint outputs => bounded calibration output; when the missing output of the unit lies in the same
   interval, bounded LAYER output at EVERY input of an accepted form, missing ones included (is_missing flags
   anywhere in [0, 1]: the code mixes linearly) *)
Theorem layer_call_bounded L u row given e lo hi : (u < p_units L)%nat -> row_ok L row ->
  segments (unit_lefts L u) (unit_lens L u) e ->
  length (column u (bias_and_heights L)) = S (length (unit_lefts L u)) ->
  (forall y, In y (unit_outs L u) -> lo <= y <= hi) ->
  (p_impute L = true -> lo <= nth u (p_missing_output L) 0 <= hi) ->
  (forall m, given = Some m -> 0 <= nth (col_of (length m) u) m 0 <= 1) ->
  lo <= nth u (call_row L row given) 0 <= hi.
Proof. intros Hu Hr Hs Hc Hb Hm Hf.
  assert (B : lo <= nth u (calib_row L row) 0 <= hi).
  { rewrite calib_row_unit by assumption. unfold unit_fn. apply (pwl_bounded_function _ _ e); assumption. }
  unfold call_row. destruct (p_impute L); [|exact B]. specialize (Hm eq_refl).
  assert (Mix : forall t, 0 <= t <= 1 ->
    lo <= t * nth u (p_missing_output L) 0 + (1 - t) * nth u (calib_row L row) 0 <= hi).
  { intros t Ht. pose proof (between_bounds lo hi t _ _ Ht B Hm). lra. }
  destruct given as [m|].
  - rewrite nth_mix_row by assumption. apply Mix, Hf. reflexivity.
  - destruct (p_missing_input L) as [v|]; [|exact B].
    rewrite nth_mix_row by assumption. apply Mix. rewrite equal_flags_length. fold (col_of (length row) u).
    rewrite nth_equal_flags by (apply (col_of_lt L); assumption). destruct (Qeq_bool _ v); lra. Qed.

Definition cat_row_ok (L : cat_layer) (row : list Q) : Prop :=
  (length row = 1%nat \/ length row = c_units L) .

Lemma cat_col_of_lt L row u : (u < c_units L)%nat -> cat_row_ok L row ->
  (col_of (length row) u < length row)%nat /\ (c_units L = 1%nat -> length row = 1%nat).
Proof. intros Hu [H|H]; unfold col_of; rewrite H.
  - split; [cbn; lia|reflexivity].
  - split; [destruct (c_units L =? 1)%nat; lia|exact (fun E => E)]. Qed.

(* the output of unit u is the bucket value of the (default-replaced) index it reads, when that is a bucket *)
Lemma cat_row_value L row u : (u < c_units L)%nat -> cat_row_ok L row ->
  (0 <= cat_index L row u < Z.of_nat (c_buckets L))%Z ->
  nth u (cat_row L row) 0 == nth (Z.to_nat (cat_index L row u)) (column u (c_kernel L)) 0.
Proof. intros Hu Hr Hi. destruct (cat_col_of_lt L row u Hu Hr) as [Hc H1].
  rewrite cat_row_unit by assumption. apply dot_one_hot_in. exact Hi. Qed.

(* the index is a bucket when the category is in range or is default_input_value *)
Lemma cat_index_in_range L row u : (0 < c_buckets L)%nat ->
  (0 <= cast_int (nth (col_of (length row) u) row 0%Q) < Z.of_nat (c_buckets L))%Z \/
  c_default L = Some (cast_int (nth (col_of (length row) u) row 0%Q)) ->
  (0 <= cat_index L row u < Z.of_nat (c_buckets L))%Z.
Proof. intros Hb H. unfold cat_index, replace_default. destruct (c_default L) as [d|].
  - destruct (Z.eqb_spec (cast_int (nth (col_of (length row) u) row 0%Q)) d) as [E|E]. lia.
    destruct H as [H|H]. exact H. congruence.
  - destruct H as [H|H]. exact H. discriminate. Qed.

(* category values ordered along a pair (a, b) => the function is ordered on every pair of inputs selecting
   a and b (default_input_value selects the last bucket) *)
Theorem categorical_monotone L u row row' a b : (u < c_units L)%nat -> cat_row_ok L row -> cat_row_ok L row' ->
  (a < c_buckets L)%nat -> (b < c_buckets L)%nat ->
  cat_index L row u = Z.of_nat a -> cat_index L row' u = Z.of_nat b ->
  nth u (nth a (c_kernel L) []) 0 <= nth u (nth b (c_kernel L) []) 0 ->
  nth u (cat_row L row) 0 <= nth u (cat_row L row') 0.
Proof. intros Hu Hr Hr' Ha Hb Ia Ib Hk.
  rewrite (cat_row_value L row u Hu Hr) by (rewrite Ia; lia). rewrite (cat_row_value L row' u Hu Hr') by (rewrite Ib; lia).
  rewrite Ia, Ib, !Nat2Z.id, !nth_column. exact Hk. Qed.

(* bucket values of unit u all in [lo, hi] => the function is in [lo, hi] on every in-range or default input *)
Theorem categorical_bounded L u row lo hi : (u < c_units L)%nat -> cat_row_ok L row -> (0 < c_buckets L)%nat ->
  (forall k, (k < c_buckets L)%nat -> lo <= nth u (nth k (c_kernel L) []) 0 <= hi) ->
  (0 <= cast_int (nth (col_of (length row) u) row 0%Q) < Z.of_nat (c_buckets L))%Z \/
  c_default L = Some (cast_int (nth (col_of (length row) u) row 0%Q)) ->
  lo <= nth u (cat_row L row) 0 <= hi.
Proof. intros Hu Hr Hb Hk Hi. pose proof (cat_index_in_range L row u Hb Hi) as Hin.
  rewrite (cat_row_value L row u Hu Hr Hin). rewrite nth_column. apply Hk. lia. Qed.

(* output structure of call(): one [batch, units] matrix, or - units > 1 and split_outputs - one [batch, 1]
   matrix per unit holding that unit's column; the units == 1 branch returns before split_outputs is read *)
Theorem cat_call_structure L inputs :
  let res := map (cat_row L) inputs in
  (c_units L = 1%nat -> cat_call L inputs = [res]) /\
  (c_units L <> 1%nat -> c_split L = false -> cat_call L inputs = [res]) /\
  (c_units L <> 1%nat -> c_split L = true ->
     length (cat_call L inputs) = c_units L /\
     forall u, (u < c_units L)%nat ->
       nth u (cat_call L inputs) [] = map (fun r => [nth u r 0]) res /\
       forall p, (p < length inputs)%nat ->
         nth p (nth u (cat_call L inputs) []) [] = [nth u (cat_row L (nth p inputs [])) 0]).
Proof. intros res. unfold cat_call. fold res. split; [|split].
  - intros E. rewrite E. reflexivity.
  - intros E Hs. apply Nat.eqb_neq in E. rewrite E, Hs. reflexivity.
  - intros E Hs. apply Nat.eqb_neq in E. rewrite E, Hs. split. rewrite map_length, seq_length. reflexivity.
    intros u Hu. rewrite (nth_map_seq (fun u0 => map (fun r => [nth u0 r 0]) res) (c_units L) u [] Hu).
    split. reflexivity. intros p Hp. unfold res. rewrite map_map. apply (nth_map_lt (fun r => [nth u (cat_row L r) 0])). exact Hp. Qed.

(* a two-unit layer with imputation whose unit-1 keypoint outputs 0, 2, 3 are non-decreasing and in [0, 6],
   missing output 6 *)
Definition mono_layer : pwl_layer :=
  build_fixed 2 [0; 1; 3] false [[1#2; 0]; [1; 2]; [-(2); 1]] true (Some (-(1))) None [5; 6] false.
Example mono_layer_hyps :
  row_ok mono_layer [1#2] /\ row_ok mono_layer [1#2; 2] /\
  Forall (fun l => 0 < l) (unit_lens mono_layer 1) /\ nondecr (unit_outs mono_layer 1) /\
  segments (unit_lefts mono_layer 1) (unit_lens mono_layer 1) 3 /\
  length (column 1 (bias_and_heights mono_layer)) = S (length (unit_lefts mono_layer 1)) /\
  (forall y, In y (unit_outs mono_layer 1) -> 0 <= y <= 6) /\
  0 <= nth 1 (p_missing_output mono_layer) 0 <= 6 /\
  not_missing mono_layer [1#2] None 1 /\ not_missing mono_layer [5; 1#2] (Some [1; 0]) 1.
Proof. unfold row_ok. cbn. split; [left; reflexivity|]. split; [right; reflexivity|].
  split; [repeat constructor; lra|].
  split. { intros [|[|j]] H; cbn in *; try lia; lra. }
  split; [lra|]. split; [reflexivity|].
  split. { intros y [<-|[<-|[<-|[]]]]; lra. }
  repeat split; lra. Qed.
Example mono_layer_values :
  map Qred (call_row mono_layer [1#2] None) = [1; 1] /\ map Qred (call_row mono_layer [2] None) = [1#2; 5#2] /\
  map Qred (call_row mono_layer [-(1)] None) = [5; 6].
Proof. vm_compute. repeat split. Qed.

(* example_cat: buckets 3, units 2, kernel [[1;2];[3;4];[5;6]], default -1 *)
Example cat_mono_hyps :
  cat_row_ok example_cat [1] /\ cat_row_ok example_cat [0; -(1)] /\
  cat_index example_cat [1] 1 = Z.of_nat 1 /\ cat_index example_cat [0; -(1)] 1 = Z.of_nat 2 /\
  nth 1 (nth 1 (c_kernel example_cat) []) 0 <= nth 1 (nth 2 (c_kernel example_cat) []) 0 /\
  (forall k, (k < c_buckets example_cat)%nat -> 1 <= nth 1 (nth k (c_kernel example_cat) []) 0 <= 6).
Proof. unfold cat_row_ok. split; [left; reflexivity|]. split; [right; reflexivity|].
  split; [reflexivity|]. split; [reflexivity|]. split; [cbn; lra|].
  intros [|[|[|k]]] H; cbn in *; try lia; lra. Qed.
Example cat_split_example :
  map (map (map Qred)) (cat_call (mkCat 3 2 [[1; 2]; [3; 4]; [5; 6]] (Some (-1)%Z) true) [[1]; [-(1)]]) = [[[3]; [5]]; [[4]; [6]]].
Proof. vm_compute. reflexivity. Qed.
