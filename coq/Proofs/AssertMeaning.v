(* What a passing assert_constraints MEANS for the layer FUNCTION (property C12,
   "closing the loop"): the weights accepted by the assert models of
   Model/Asserts.v, fed to the forward-pass models of the other properties
     Lattice                   Model/LatticeInterp.v  (C02: hypercube and simplex)
     KroneckerFactoredLattice  Model/KFL.v            (C07)
     Linear                    Model/LinearEval.v     (C20)
     PWLCalibration            Model/PWLEval.v        (C05)
     CategoricalCalibration    Model/CategoricalEval.v (C05)
   give a monotone / bounded / dominance-respecting function.  The other
   developments are referred to through module aliases (their vocabularies
   overlap: unit_fn, interp_w, dot, qprod, kfl_feasible ...). *)
From TFL Require Import Model.Asserts Proofs.Asserts Proofs.LatticeMono.
From TFL Require Proofs.LatticeInterp Proofs.KFL Proofs.Premade Proofs.PremadeKFL.
From TFL Require Proofs.LinearEval Proofs.PWLEval Model.CategoricalEval.
Module MLI := TFL.Model.LatticeInterp.
Module PLH := TFL.Proofs.LatticeHyper.
Module PLI := TFL.Proofs.LatticeInterp.
Module MK := TFL.Model.KFL.
Module PK := TFL.Proofs.KFL.
Module PMK := TFL.Proofs.PremadeKFL.
Module PM := TFL.Proofs.Premade.
Module MLE := TFL.Model.LinearEval.
Module PLE := TFL.Proofs.LinearEval.
Module MPE := TFL.Model.PWLEval.
Module PPE := TFL.Proofs.PWLEval.
Module MCE := TFL.Model.CategoricalEval.
Open Scope Q_scope.

(* The layer stores the kernel as a matrix Kmat[vertex][unit]; the assert
   reshapes its row-major flattening [concat Kmat] to sizes ++ [units]. *)
Lemma kmat_represents sizes units Kmat : Forall (fun r => length r = units) Kmat ->
  PM.represents sizes units Kmat (of_list (sizes ++ [units]) (concat Kmat)).
Proof. intros HF i u Hi Hu. unfold PLI.kern, of_list. rewrite memo_ok by exact Hi.
  rewrite memo_ok by (apply valid_snoc; assumption). rewrite flat_snoc by exact Hi.
  rewrite nth_column. rewrite (nth_concat units u Hu Kmat _ HF). reflexivity. Qed.

(* both interpolation schemes: bounds of the kernel column are bounds of the output *)
Lemma unit_fn_bounds sc tensor clip units sizes Kmat u x lo hi : sizes <> [] -> PLH.sizes_ok sizes ->
  PLI.wfK units Kmat u -> PLH.ok_input clip sizes x ->
  (forall i, valid sizes i -> lo <= PLI.kern sizes Kmat u i /\ PLI.kern sizes Kmat u i <= hi) ->
  lo <= MLI.unit_fn sc tensor clip units sizes Kmat u x /\ MLI.unit_fn sc tensor clip units sizes Kmat u x <= hi.
Proof. intros Hne Hs Hw Hx HK. destruct sc.
  - rewrite PLI.unit_fn_hyper by (try assumption; apply Hx). apply PLH.hyper_bounds; assumption.
  - rewrite PLI.unit_fn_simplex.
    exact (PLI.simplex_bounds clip sizes _ _ x lo hi Hs (PLI.gather_gk units sizes Kmat u Hw) Hx HK). Qed.

Lemma unit_fn_monotone sc tensor clip units sizes Kmat u x d yd : PLH.sizes_ok sizes ->
  PLI.wfK units Kmat u -> (d < length sizes)%nat ->
  PLH.ok_input clip sizes x -> PLH.ok_input clip sizes (set_nth d yd x) -> nth d x 0 <= yd ->
  PLH.knondecr sizes (PLI.kern sizes Kmat u) d ->
  MLI.unit_fn sc tensor clip units sizes Kmat u x <= MLI.unit_fn sc tensor clip units sizes Kmat u (set_nth d yd x).
Proof. intros Hs Hw Hd Hx Hy Hle HK. destruct sc.
  - apply PLI.L_hyper_monotone; assumption.
  - apply PLI.L_simplex_monotone; assumption. Qed.

Section LatticeAssert.
Variable c : la_cfg.
Variable Kmat : list (list Q).
Variable eps : Q.
Variable u : nat.
Hypothesis Hok : la_ok c.
Hypothesis Hrows : Forall (fun r => length r = a_units c) Kmat.
Hypothesis Hu : (u < a_units c)%nat.
Hypothesis Hpass : assert_lattice_flat c (concat Kmat) eps = true.

Let W := of_list (a_shape c) (concat Kmat).
Lemma am_slack : forall q, covered c q -> - eps <= slack c W q.
Proof. apply (lattice_passes_iff c W eps Hok). exact Hpass. Qed.

Lemma am_kern i : valid (a_sizes c) i -> PLI.kern (a_sizes c) Kmat u i == W (i ++ [u]).
Proof. intros Hi. exact (kmat_represents (a_sizes c) (a_units c) Kmat Hrows i u Hi Hu). Qed.

Lemma assert_kern_step d i : (d < length (a_monos c))%nat -> nth d (a_monos c) 0%Z = 1%Z ->
  valid (a_sizes c) i -> (S (nth d i 0%nat) < nth d (a_sizes c) 0%nat)%nat ->
  PLI.kern (a_sizes c) Kmat u i - eps <= PLI.kern (a_sizes c) Kmat u (upd i d (S (nth d i 0%nat))).
Proof. intros Hd Em Hi Hb. destruct Hok as (_ & Hlen & _).
  pose proof (valid_length _ _ Hi) as Li.
  rewrite (am_kern i Hi). rewrite (am_kern _ (upd_valid _ _ _ _ Hi Hb)).
  assert (Hcov : covered c (IMono d (i ++ [u]))).
  { cbn [covered]. split; [exact Hd|]. split; [exact Em|]. split.
    - apply valid_snoc; assumption.
    - unfold a_shape. rewrite !app_nth1 by lia. exact Hb. }
  pose proof (am_slack _ Hcov) as G. cbn [slack] in G. rewrite app_nth1 in G by lia.
  rewrite upd_app_l in G by lia. lra. Qed.

Lemma assert_kern_lower i lo : a_min c = Some lo -> valid (a_sizes c) i ->
  lo - eps <= PLI.kern (a_sizes c) Kmat u i.
Proof. intros El Hi. rewrite (am_kern i Hi).
  assert (Hcov : covered c (ILower (i ++ [u]))).
  { cbn [covered]. split; [rewrite El; discriminate|]. apply valid_snoc; assumption. }
  pose proof (am_slack _ Hcov) as G. cbn [slack] in G. rewrite El in G. lra. Qed.
Lemma assert_kern_upper i hi : a_max c = Some hi -> valid (a_sizes c) i ->
  PLI.kern (a_sizes c) Kmat u i <= hi + eps.
Proof. intros El Hi. rewrite (am_kern i Hi).
  assert (Hcov : covered c (IUpper (i ++ [u]))).
  { cbn [covered]. split; [rewrite El; discriminate|]. apply valid_snoc; assumption. }
  pose proof (am_slack _ Hcov) as G. cbn [slack] in G. rewrite El in G. lra. Qed.

(* Edgeworth trust (main m, conditional cd, direction +): the kernel's slope along
   m is non-decreasing in cd (up to eps), for every unit: PLH.kedge when eps = 0 *)
Lemma assert_kern_edge m cd i : In (m, cd, 1%Z) (a_edge c) -> valid (a_sizes c) i ->
  (S (nth m i 0%nat) < nth m (a_sizes c) 0%nat)%nat -> (S (nth cd i 0%nat) < nth cd (a_sizes c) 0%nat)%nat ->
  PLI.kern (a_sizes c) Kmat u (upd i m (S (nth m i 0%nat))) - PLI.kern (a_sizes c) Kmat u i - eps <=
  PLI.kern (a_sizes c) Kmat u (upd (upd i cd (S (nth cd i 0%nat))) m (S (nth m i 0%nat))) -
  PLI.kern (a_sizes c) Kmat u (upd i cd (S (nth cd i 0%nat))).
Proof. intros Hin Hi Hbm Hbc. pose proof (valid_length _ _ Hi) as Li.
  pose proof (nth_pos_lt _ _ _ Hbm) as Hm. pose proof (nth_pos_lt _ _ _ Hbc) as Hc.
  pose proof (proj1 (la_ok_trust c m cd 1%Z Hok (or_introl Hin))) as Hne.
  set (im := nth m i 0%nat) in *. set (ic := nth cd i 0%nat) in *.
  (* the four corners of the square at i, in the kernel matrix and in the tensor *)
  assert (A : forall a b, (a < nth m (a_sizes c) 0)%nat -> (b < nth cd (a_sizes c) 0)%nat ->
            W (at2 (i ++ [u]) m cd a b) == PLI.kern (a_sizes c) Kmat u (at2 i m cd a b)).
  { intros a b Ha Hb. rewrite (am_kern _ (at2_valid _ _ _ _ _ _ Hi Ha Hb)). unfold at2.
    rewrite !upd_app_l by (rewrite ?upd_length; lia). reflexivity. }
  assert (E00 : at2 i m cd im ic = i) by apply at2_self.
  assert (E10 : at2 i m cd (S im) ic = upd i m (S im)).
  { unfold at2. subst ic. rewrite <- (nth_upd_other i m cd (S im) Hne). apply upd_self. }
  assert (E01 : at2 i m cd im (S ic) = upd i cd (S ic)) by (unfold at2; subst im; rewrite upd_self; reflexivity).
  assert (E11 : at2 i m cd (S im) (S ic) = upd (upd i cd (S ic)) m (S im)) by (apply upd_comm; exact Hne).
  assert (Hcov : covered c (IEdge (m, cd, 1%Z) (i ++ [u]) im ic)).
  { cbn [covered fst snd]. split; [exact Hin|]. split; [apply valid_snoc; assumption|].
    unfold a_shape. rewrite !app_nth1 by lia. split; assumption. }
  pose proof (am_slack _ Hcov) as G. cbn [slack] in G. unfold tsign in G. cbn in G. unfold esq in G.
  rewrite !A in G by lia. rewrite E00, E10, E01, E11 in G. lra. Qed.
End LatticeAssert.

(* any eps >= 0: the bounds hold up to eps *)
Theorem lattice_assert_eps_bounded c Kmat eps sc tensor clip u x :
  la_ok c -> PLH.sizes_ok (a_sizes c) -> a_sizes c <> [] -> length Kmat = MLI.prodn (a_sizes c) ->
  Forall (fun r => length r = a_units c) Kmat -> (u < a_units c)%nat -> 0 <= eps ->
  assert_lattice_flat c (concat Kmat) eps = true -> PLH.ok_input clip (a_sizes c) x ->
  (forall lo, a_min c = Some lo -> lo - eps <= MLI.unit_fn sc tensor clip (a_units c) (a_sizes c) Kmat u x) /\
  (forall hi, a_max c = Some hi -> MLI.unit_fn sc tensor clip (a_units c) (a_sizes c) Kmat u x <= hi + eps).
Proof. intros Hok Hs Hne Hl Hrows Hu _ Hpass Hx. assert (Hw : PLI.wfK (a_units c) Kmat u) by (split; assumption).
  pose proof (PLI.kern_minmax (a_sizes c) Kmat u Hl) as Hmm. split.
  - intros lo El.
    apply (unit_fn_bounds sc tensor clip (a_units c) (a_sizes c) Kmat u x (lo - eps) (qmaxl (column u Kmat)) Hne Hs Hw Hx).
    intros i Hi. split; [exact (assert_kern_lower c Kmat eps u Hok Hrows Hu Hpass i lo El Hi)|apply Hmm; exact Hi].
  - intros hi Eh.
    apply (unit_fn_bounds sc tensor clip (a_units c) (a_sizes c) Kmat u x (qminl (column u Kmat)) (hi + eps) Hne Hs Hw Hx).
    intros i Hi. split; [apply Hmm; exact Hi|exact (assert_kern_upper c Kmat eps u Hok Hrows Hu Hpass i hi Eh Hi)]. Qed.

(* eps = 0: monotone along every monotone input, every pair of admissible
   points, both schemes, every unit; and inside [output_min, output_max] *)
Theorem lattice_assert_meaning c Kmat sc tensor clip u :
  la_ok c -> PLH.sizes_ok (a_sizes c) -> length Kmat = MLI.prodn (a_sizes c) ->
  Forall (fun r => length r = a_units c) Kmat -> (u < a_units c)%nat ->
  assert_lattice_flat c (concat Kmat) 0 = true ->
  (forall d x yd, (d < length (a_monos c))%nat -> nth d (a_monos c) 0%Z = 1%Z ->
     PLH.ok_input clip (a_sizes c) x -> PLH.ok_input clip (a_sizes c) (set_nth d yd x) -> nth d x 0 <= yd ->
     MLI.unit_fn sc tensor clip (a_units c) (a_sizes c) Kmat u x <=
     MLI.unit_fn sc tensor clip (a_units c) (a_sizes c) Kmat u (set_nth d yd x)) /\
  (a_sizes c <> [] -> forall x, PLH.ok_input clip (a_sizes c) x ->
     (forall lo, a_min c = Some lo -> lo <= MLI.unit_fn sc tensor clip (a_units c) (a_sizes c) Kmat u x) /\
     (forall hi, a_max c = Some hi -> MLI.unit_fn sc tensor clip (a_units c) (a_sizes c) Kmat u x <= hi)).
Proof. intros Hok Hs Hl Hrows Hu Hpass. split.
  - intros d x yd Hd Em Hx Hy Hle. pose proof Hok as (_ & Hlen & _).
    apply unit_fn_monotone; try assumption. split; assumption. lia.
    intros i Hi Hb. pose proof (assert_kern_step c Kmat 0 u Hok Hrows Hu Hpass d i Hd Em Hi Hb). lra.
  - intros Hne x Hx.
    destruct (lattice_assert_eps_bounded c Kmat 0 sc tensor clip u x Hok Hs Hne Hl Hrows Hu (Qle_refl 0) Hpass Hx) as [A B].
    split; [intros lo El; specialize (A lo El)|intros hi Eh; specialize (B hi Eh)]; lra. Qed.

(* Edgeworth trust with direction + (eps = 0): the effect of raising the main
   input m is non-decreasing in the conditional input cd (hypercube
   interpolation; conclusion of C02_hyper_edgeworth_effect) *)
Theorem lattice_assert_edgeworth_effect c Kmat tensor clip u m cd x ym yc :
  la_ok c -> PLH.sizes_ok (a_sizes c) -> Forall (fun r => length r = a_units c) Kmat -> (u < a_units c)%nat ->
  assert_lattice_flat c (concat Kmat) 0 = true -> In (m, cd, 1%Z) (a_edge c) ->
  (m < length (a_sizes c))%nat -> (cd < length (a_sizes c))%nat ->
  PLH.ok_input clip (a_sizes c) x -> PLH.ok_input clip (a_sizes c) (set_nth m ym x) ->
  PLH.ok_input clip (a_sizes c) (set_nth cd yc x) -> PLH.ok_input clip (a_sizes c) (set_nth m ym (set_nth cd yc x)) ->
  nth m x 0 <= ym -> nth cd x 0 <= yc ->
  MLI.unit_fn MLI.Hypercube tensor clip (a_units c) (a_sizes c) Kmat u (set_nth m ym x) -
  MLI.unit_fn MLI.Hypercube tensor clip (a_units c) (a_sizes c) Kmat u x <=
  MLI.unit_fn MLI.Hypercube tensor clip (a_units c) (a_sizes c) Kmat u (set_nth m ym (set_nth cd yc x)) -
  MLI.unit_fn MLI.Hypercube tensor clip (a_units c) (a_sizes c) Kmat u (set_nth cd yc x).
Proof. intros Hok Hs Hrows Hu Hpass Hin Hm Hc Hx Hxm Hxc Hxmc Lm Lc.
  pose proof (proj1 (la_ok_trust c m cd 1%Z Hok (or_introl Hin))) as Hne.
  apply PLI.L_hyper_edgeworth; try assumption.
  intros i Hi Hbm Hbc. pose proof (assert_kern_edge c Kmat 0 u Hok Hrows Hu Hpass m cd i Hin Hi Hbm Hbc). lra. Qed.

Lemma cfg_valid_sizes_ok c : cfg_valid c -> PLH.sizes_ok (l_sizes c).
Proof. intros (Hs & _). apply Forall_forall. exact Hs. Qed.

(* the C01 configuration record: passing = C01-feasible kernel tensor, and the
   function consequences in the C01 vocabulary (mono_dims) *)
Theorem lattice_assert_la_of_meaning c Kmat sc tensor clip u :
  cfg_valid c -> length Kmat = MLI.prodn (l_sizes c) ->
  Forall (fun r => length r = l_units c) Kmat -> (u < l_units c)%nat ->
  assert_lattice (la_of c) (of_list (l_shape c) (concat Kmat)) 0 = true ->
  feasible_kernel c (of_list (l_shape c) (concat Kmat)) /\
  (forall d x yd, In d (mono_dims (l_monos c)) ->
     PLH.ok_input clip (l_sizes c) x -> PLH.ok_input clip (l_sizes c) (set_nth d yd x) -> nth d x 0 <= yd ->
     MLI.unit_fn sc tensor clip (l_units c) (l_sizes c) Kmat u x <=
     MLI.unit_fn sc tensor clip (l_units c) (l_sizes c) Kmat u (set_nth d yd x)) /\
  (l_sizes c <> [] -> forall x, PLH.ok_input clip (l_sizes c) x ->
     (forall lo, l_min c = Some lo -> lo <= MLI.unit_fn sc tensor clip (l_units c) (l_sizes c) Kmat u x) /\
     (forall hi, l_max c = Some hi -> MLI.unit_fn sc tensor clip (l_units c) (l_sizes c) Kmat u x <= hi)).
Proof. intros Hc Hl Hrows Hu Hpass. split.
  - apply (assert_zero_iff_feasible c _ Hc). exact Hpass.
  - pose proof (lattice_assert_meaning (la_of c) Kmat sc tensor clip u (la_of_ok c Hc) (cfg_valid_sizes_ok c Hc) Hl Hrows Hu Hpass)
      as [A B]. split; [|exact B].
    intros d x yd Hd. apply mono_dims_spec in Hd. destruct Hd as [Hdl Hne]. apply A. exact Hdl.
    destruct Hc as (_ & _ & _ & Hm & _). destruct (Hm _ (nth_In (l_monos c) 0%Z Hdl)) as [E|E]; [|exact E].
    cbn [la_of a_monos]. congruence. Qed.

(* non-vacuity: 2 x 3 lattice, 2 units, both inputs monotone, bounds [0, 9] *)
Definition am_lat : lat_cfg := mkLat [2%nat; 3%nat] 2 [1%Z; 1%Z] [] [] (Some 0) (Some 9).
Definition am_K : list (list Q) := [[0; 5]; [1; 5]; [3; 6]; [1; 6]; [2; 7]; [9#2; 9]].
Example am_lat_valid : cfg_valid am_lat.
Proof. apply cfg_validb_ok. reflexivity. Qed.
Example am_lat_hyps : cfg_valid am_lat /\ length am_K = MLI.prodn (l_sizes am_lat) /\
  Forall (fun r => length r = l_units am_lat) am_K /\ (1 < l_units am_lat)%nat /\
  assert_lattice (la_of am_lat) (of_list (l_shape am_lat) (concat am_K)) 0 = true /\
  In 1%nat (mono_dims (l_monos am_lat)) /\
  PLH.ok_input false (l_sizes am_lat) [1#2; 1#2] /\ PLH.ok_input false (l_sizes am_lat) (set_nth 1 (3#2) [1#2; 1#2]) /\
  PLH.ok_input true (l_sizes am_lat) [5; -(1)].
Proof. split; [exact am_lat_valid|]. split; [reflexivity|]. split; [repeat constructor|]. split; [cbn; lia|].
  split; [vm_compute; reflexivity|]. split; [cbn; auto|].
  assert (R : forall a b, 0 <= a /\ a <= 1 -> 0 <= b /\ b <= 2 -> PLH.inr (l_sizes am_lat) [a; b]).
  { intros a b Ha Hb. constructor; [unfold TFL.Model.Interp1D.qn, inject_Z; cbn; lra|]. constructor; [unfold TFL.Model.Interp1D.qn, inject_Z; cbn; lra|constructor]. }
  split; [split; [reflexivity|right; apply R; lra]|]. split; [split; [reflexivity|right; apply R; lra]|].
  split; [reflexivity|left; reflexivity]. Qed.

(* The assert's view (kernel tensor K [keypoint; unit; dim; term] of shape
   k_shape, scale Sc[unit][term]) as the parameters of the C07 model
   (kernel[u][t][d][i]); [MK.unpack] is the same map from the nested list. *)
Definition kfl_mono_flags (c : kfl_acfg) : list bool := map (fun m => negb (m =? 0)%Z) (k_monos c).
Definition kfl_cfg_of (c : kfl_acfg) (clip : bool) : MK.config :=
  MK.mkCfg (k_L c) (match k_monos c with [] => None | _ => Some (kfl_mono_flags c) end) (k_min c) (k_max c) clip.
Definition kfl_term_of (c : kfl_acfg) (K : tens) (u t : nat) : MK.term :=
  map (fun d => map (fun i => K [i; u; d; t]) (seq 0 (k_L c))) (seq 0 (k_dims c)).
Definition kfl_kernel_of (c : kfl_acfg) (K : tens) : MK.kernel :=
  map (fun u => map (fun t => kfl_term_of c K u t) (seq 0 (k_terms c))) (seq 0 (k_units c)).
Definition kfl_scale_of (c : kfl_acfg) (Sc : list (list Q)) : list (list Q) :=
  map (fun u => map (fun t => sc_at Sc u t) (seq 0 (k_terms c))) (seq 0 (k_units c)).
Definition kfl_params_of (c : kfl_acfg) (Sc : list (list Q)) (K : tens) (bias : list Q) : MK.params :=
  MK.mkPar (kfl_kernel_of c K) (kfl_scale_of c Sc) bias.

Lemma kfl_kernel_of_unpack c (k : list (list (list Q))) :
  kfl_kernel_of c (fun i => match i with [i; u; d; t] => nth t (nth (u * k_dims c + d) (nth i k []) []) 0 | _ => 0 end) =
  MK.unpack (k_L c) (k_units c) (k_dims c) (k_terms c) k.
Proof. reflexivity. Qed.

Lemma kfl_scale_of_id c Sc : length Sc = k_units c -> Forall (fun r => length r = k_terms c) Sc -> kfl_scale_of c Sc = Sc.
Proof. intros Hl HF. unfold kfl_scale_of, sc_at. rewrite <- Hl. rewrite <- (map_nth_seq Sc []) at 2.
  apply map_ext_in. intros u Hu. apply in_seq in Hu. rewrite Forall_forall in HF.
  rewrite <- (HF (nth u Sc [])) by (apply nth_In; lia). apply map_nth_seq. Qed.

(* what verify_hyperparameters / build guarantee *)
Definition kfl_cfg_ok (c : kfl_acfg) : Prop :=
  (2 <= k_L c)%nat /\ (1 <= k_dims c)%nat /\ (k_monos c = [] \/ length (k_monos c) = k_dims c) /\
  (forall lo hi, k_min c = Some lo -> k_max c = Some hi -> lo < hi).
(* exactly one bound: the assert itself requires weights >= 0 *)
Definition kfl_one_sided (c : kfl_acfg) : Prop :=
  (k_min c <> None /\ k_max c = None) \/ (k_min c = None /\ k_max c <> None).
(* NOT checked by the assert with no bound or two bounds: the 1-D factors of
   every term with a non-zero scale are non-negative (the projection
   establishes it by clipping at 0 before sorting) *)
Definition kfl_weights_nonneg (c : kfl_acfg) (Sc : list (list Q)) (K : tens) : Prop :=
  forall u t d i, (u < k_units c)%nat -> (t < k_terms c)%nat -> (d < k_dims c)%nat -> (i < k_L c)%nat ->
    ~ sc_at Sc u t == 0 -> 0 <= K [i; u; d; t].
(* NOT checked by the assert: the bias of a bounded layer has its fixed value *)
Definition kfl_bias_fixed (c : kfl_acfg) (bias : list Q) : Prop :=
  (k_min c <> None \/ k_max c <> None) -> Forall (fun b => b == MK.bias_init1 (k_min c) (k_max c)) bias.

Lemma am_qprod_eq l : qprod l = MK.qprod l.
Proof. induction l as [|x l IH]; cbn [qprod MK.qprod]; congruence. Qed.
(* the monotonicity flags the C07 model sees are those of the assert, one per input *)
Lemma kfl_canon_flags c clip ms : kfl_cfg_ok c -> MK.canon_monos (MK.c_monos (kfl_cfg_of c clip)) = Some ms ->
  ms = kfl_mono_flags c /\ length (k_monos c) = k_dims c.
Proof. intros (_ & _ & Hm & _). cbn [kfl_cfg_of MK.c_monos]. unfold kfl_mono_flags.
  destruct (k_monos c) as [|m0 mr]; [discriminate|]. destruct Hm as [Hm|Hm]; [discriminate|].
  cbn. intros E. injection E as <-. split; [reflexivity|exact Hm]. Qed.

Lemma kfl_cfg_of_ok c clip : kfl_cfg_ok c -> PK.cfg_ok (kfl_cfg_of c clip) (k_dims c).
Proof. intros Hcfg. pose proof Hcfg as (HL & Hd & _ & Hb). split; [exact HL|]. split; [exact Hd|]. split.
  - intros lo hi. cbn [kfl_cfg_of MK.c_min MK.c_max]. apply Hb.
  - intros ms Em. destruct (kfl_canon_flags c clip ms Hcfg Em) as [-> Hl]. unfold kfl_mono_flags. rewrite map_length. exact Hl. Qed.

Section KflAssert.
Variable c : kfl_acfg.
Variable Sc : list (list Q).
Variable K : tens.
Variable clip : bool.
Hypothesis Hcfg : kfl_cfg_ok c.
Hypothesis Hpass : assert_kfl c Sc K 0 = true.

Lemma am_kfl_L : (1 <= k_L c)%nat. Proof. destruct Hcfg as (H & _). lia. Qed.
Lemma am_kfl_F : kfl_feasible c Sc K 0.
Proof. apply (kfl_exact c Sc K 0 am_kfl_L ltac:(lra)). exact Hpass. Qed.

Section Term.
Variables u t : nat.
Hypothesis Hu : (u < k_units c)%nat.
Hypothesis Ht : (t < k_terms c)%nat.

Lemma am_term_shape : PK.tshape (k_L c) (k_dims c) (kfl_term_of c K u t).
Proof. split. unfold kfl_term_of. rewrite map_length, seq_length. reflexivity.
  apply Forall_forall. intros v Hv. apply in_map_iff in Hv. destruct Hv as [d [<- _]].
  rewrite map_length, seq_length. reflexivity. Qed.

Lemma am_tnonneg : (forall d i, (d < k_dims c)%nat -> (i < k_L c)%nat -> 0 <= K [i; u; d; t]) ->
  PK.tnonneg (kfl_term_of c K u t).
Proof. intros H. apply Forall_forall. intros v Hv. apply in_map_iff in Hv. destruct Hv as [d [<- Hd]]. apply in_seq in Hd.
  apply Forall_forall. intros w Hw. apply in_map_iff in Hw. destruct Hw as [i [<- Hi]]. apply in_seq in Hi.
  apply H; lia. Qed.

Lemma am_sgood : PK.sgood (kfl_cfg_of c clip) (sc_at Sc u t).
Proof. destruct am_kfl_F as [_ FB]. unfold PK.sgood. cbn [kfl_cfg_of MK.c_min MK.c_max].
  destruct (k_min c) as [lo|], (k_max c) as [hi|]; try exact I; destruct FB as [_ Hs]; exact (Hs u t Hu Ht). Qed.

(* with exactly one bound the assert itself checks the sign of every weight *)
Lemma am_one_sided : kfl_one_sided c -> PK.tnonneg (kfl_term_of c K u t).
Proof. intros Hos. apply am_tnonneg. intros d i Hd Hi. destruct am_kfl_F as [_ FB].
  destruct Hos as [[H1 H2]|[H1 H2]]; destruct (k_min c), (k_max c); try congruence;
    apply (proj1 FB); unfold k_shape; repeat constructor; assumption. Qed.

(* the flagged 1-D factors of a term are ordered as soon as their steps are *)
Lemma am_flags_term (srt : list Q -> Prop) : length (k_monos c) = k_dims c ->
  (forall d, (d < k_dims c)%nat -> nth d (k_monos c) 0%Z <> 0%Z -> srt (map (fun i => K [i; u; d; t]) (seq 0 (k_L c)))) ->
  Forall2 (fun (m : bool) v => m = true -> srt v) (kfl_mono_flags c) (kfl_term_of c K u t).
Proof. intros Hlen H. unfold kfl_mono_flags, kfl_term_of. apply (Forall2_nth_intro _ false []).
  { rewrite !map_length, seq_length. exact Hlen. }
  intros d Hd. rewrite map_length in Hd. change false with ((fun m => negb (m =? 0)%Z) 0%Z). rewrite map_nth, nth_map_seq by lia.
  intros Hm. apply negb_true_iff, Z.eqb_neq in Hm. apply H; [lia|exact Hm]. Qed.

(* the part of the invariant that does not look at the scale *)
Lemma am_kbnd : PK.kbnd (kfl_cfg_of c clip) (kfl_term_of c K u t).
Proof. destruct am_kfl_F as [_ FB]. split.
  - cbn [kfl_cfg_of MK.c_min MK.c_max]. intros H1 H2. destruct (k_min c) as [lo|], (k_max c) as [hi|]; try discriminate.
    destruct FB as [Hp _].
    assert (G : kfl_max_product c K u t <= 1 + 0).
    { apply (kfl_max_product_spec c K u t 0 am_kfl_L). intros v Hv. apply Hp; assumption. }
    assert (E : PK.prodmax (kfl_term_of c K u t) = kfl_max_product c K u t).
    { unfold PK.prodmax, kfl_max_product, kfl_term_of. rewrite map_map, <- am_qprod_eq. f_equal.
      apply map_ext. intros d. unfold MK.maxabs. rewrite map_map. reflexivity. }
    rewrite E. lra.
  - cbn [kfl_cfg_of MK.c_min MK.c_max]. intros Hne. apply am_one_sided. unfold kfl_one_sided.
    destruct (k_min c), (k_max c); cbn in Hne; try congruence; [left|right]; split; congruence. Qed.

Lemma am_kgood : (k_monos c = [] \/ kfl_one_sided c \/ kfl_weights_nonneg c Sc K) ->
  PK.kgood (kfl_cfg_of c clip) (sc_at Sc u t) (kfl_term_of c K u t).
Proof. intros Hgap. pose proof am_kfl_F as [FM FB]. set (s := sc_at Sc u t) in *. split.
  - intros ms Em _. destruct (kfl_canon_flags c clip ms Hcfg Em) as [-> Hlen]. cbn [kfl_cfg_of MK.c_monos] in Em.
    destruct Hgap as [Hnil|Hgap]; [rewrite Hnil in Em; discriminate|].
    assert (Hnn : ~ s == 0 -> PK.tnonneg (kfl_term_of c K u t)).
    { intros Hs. destruct Hgap as [Hos|Hnn]; [apply am_one_sided, Hos|].
      apply am_tnonneg. intros d i Hd Hi. apply (Hnn u t d i); assumption. }
    (* the assert orders the factors in the direction of the sign of the scale *)
    assert (Hstep : forall d j, (d < k_dims c)%nat -> nth d (k_monos c) 0%Z <> 0%Z -> (S j < k_L c)%nat ->
              0 <= qsign s * K [S j; u; d; t] - qsign s * K [j; u; d; t]).
    { intros d j Hd Hm Hj. pose proof (FM d j u t ltac:(lia) Hm Hj Hu Ht) as G. fold s in G. lra. }
    destruct (Qlt_le_dec 0 s) as [Hp|Hp]; [|destruct (Qlt_le_dec s 0) as [Hn|Hn]; [|left; lra]].
    + right; left. split; [exact Hp|]. split; [apply Hnn; lra|]. apply am_flags_term; [exact Hlen|].
      intros d Hd Hm. apply PK.sorted_of_nth. intros j Hj. rewrite map_length, seq_length in Hj. rewrite !nth_map_seq by lia.
      specialize (Hstep d j Hd Hm Hj). rewrite (qsign_pos s Hp) in Hstep. lra.
    + right; right. split; [exact Hn|]. split; [apply Hnn; lra|]. apply am_flags_term; [exact Hlen|].
      intros d Hd Hm. apply PK.rsorted_of_nth. intros j Hj. rewrite map_length, seq_length in Hj. rewrite !nth_map_seq by lia.
      specialize (Hstep d j Hd Hm Hj). rewrite (qsign_neg s Hn) in Hstep. lra.
  - apply am_kbnd. Qed.
End Term.

(* the per-(unit, term) invariant of Proofs/PremadeKFL.v *)
Lemma kfl_assert_core : (k_monos c = [] \/ kfl_one_sided c \/ kfl_weights_nonneg c Sc K) ->
  Forall2 (Forall2 (fun s vs => PK.tshape (k_L c) (k_dims c) vs /\ PK.kgood (kfl_cfg_of c clip) s vs /\ PK.sgood (kfl_cfg_of c clip) s))
          (kfl_scale_of c Sc) (kfl_kernel_of c K).
Proof. intros Hgap. apply Forall2_map_seq. intros u [_ Hu]. apply Forall2_map_seq. intros t [_ Ht].
  split; [apply am_term_shape|]. split; [apply am_kgood; assumption|apply am_sgood; assumption]. Qed.
End KflAssert.

(* passing assert (+ what it does not check) = feasible in the sense of C03 *)
Theorem kfl_assert_premade_feasible c Sc K bias clip : kfl_cfg_ok c -> assert_kfl c Sc K 0 = true ->
  (k_monos c = [] \/ kfl_one_sided c \/ kfl_weights_nonneg c Sc K) -> kfl_bias_fixed c bias ->
  PMK.kfl_feasible (kfl_cfg_of c clip) (k_dims c) (kfl_params_of c Sc K bias).
Proof. intros Hcfg Hpass Hgap Hb. split.
  - exact (kfl_assert_core c Sc K clip Hcfg Hpass Hgap).
  - unfold MK.has_bounds. cbn [kfl_cfg_of MK.c_min MK.c_max kfl_params_of MK.p_bias]. intros H. apply Hb.
    destruct (k_min c), (k_max c); cbn in H; try discriminate; [left|left|right]; discriminate. Qed.

(* monotone: every pair of points ordered along the monotone inputs and equal
   elsewhere (PK.coords_le), in range or clipped; the bias plays no role *)
Theorem kfl_assert_monotone c Sc K bias clip u xs ys : kfl_cfg_ok c -> assert_kfl c Sc K 0 = true ->
  kfl_one_sided c \/ kfl_weights_nonneg c Sc K -> k_monos c <> [] ->
  PK.coords_le (kfl_mono_flags c) xs ys ->
  clip = true \/ (PK.in_range (k_L c) xs /\ PK.in_range (k_L c) ys) ->
  MK.unit_out (kfl_cfg_of c clip) (kfl_params_of c Sc K bias) u xs <=
  MK.unit_out (kfl_cfg_of c clip) (kfl_params_of c Sc K bias) u ys.
Proof. intros Hcfg Hpass Hgap Hne Hle Hr.
  apply (PK.units_monotone _ (k_dims c) _ (kfl_mono_flags c)); try assumption.
  - apply kfl_cfg_of_ok, Hcfg.
  - refine (Forall2_impl2 _ _ _ _ (kfl_assert_core c Sc K clip Hcfg Hpass (or_intror Hgap)) _).
    intros s vs (H1 & H2 & _). split; assumption.
  - cbn [kfl_cfg_of MK.c_monos]. unfold kfl_mono_flags. destruct (k_monos c); [congruence|reflexivity]. Qed.

(* one monotone coordinate moved, the others fixed *)
Theorem kfl_assert_monotone_coordinate c Sc K bias clip u xs d y : kfl_cfg_ok c -> assert_kfl c Sc K 0 = true ->
  kfl_one_sided c \/ kfl_weights_nonneg c Sc K ->
  (d < length (k_monos c))%nat -> nth d (k_monos c) 0%Z <> 0%Z -> length xs = k_dims c -> nth d xs 0 <= y ->
  clip = true \/ (PK.in_range (k_L c) xs /\ PK.in_range (k_L c) (set_nth d y xs)) ->
  MK.unit_out (kfl_cfg_of c clip) (kfl_params_of c Sc K bias) u xs <=
  MK.unit_out (kfl_cfg_of c clip) (kfl_params_of c Sc K bias) u (set_nth d y xs).
Proof. intros Hcfg Hpass Hgap Hd Hm Hlen Hy Hr.
  assert (Hne : k_monos c <> []) by (destruct (k_monos c); [cbn in Hd; lia|discriminate]).
  apply kfl_assert_monotone; try assumption. apply PK.coords_le_set_nth.
  - destruct Hcfg as (_ & _ & [Hn|Hn] & _); [congruence|]. unfold kfl_mono_flags. rewrite map_length. lia.
  - unfold kfl_mono_flags. change false with ((fun m => negb (m =? 0)%Z) 0%Z). rewrite map_nth.
    apply negb_true_iff, Z.eqb_neq. exact Hm.
  - exact Hy. Qed.

(* bounded: needs nothing about signs of the weights beyond the assert, but the
   fixed bias (which the assert does not look at) *)
Theorem kfl_assert_bounded c Sc K bias clip u xs : kfl_cfg_ok c -> assert_kfl c Sc K 0 = true ->
  kfl_bias_fixed c bias -> length bias = k_units c -> (u < k_units c)%nat ->
  length xs = k_dims c -> clip = true \/ PK.in_range (k_L c) xs ->
  (forall lo, k_min c = Some lo -> lo <= MK.unit_out (kfl_cfg_of c clip) (kfl_params_of c Sc K bias) u xs) /\
  (forall hi, k_max c = Some hi -> MK.unit_out (kfl_cfg_of c clip) (kfl_params_of c Sc K bias) u xs <= hi).
Proof. intros Hcfg Hpass Hb Hlb Hu Hlen Hr.
  assert (Hbd : k_min c = None /\ k_max c = None \/ (k_min c <> None \/ k_max c <> None)).
  { destruct (k_min c), (k_max c); auto; right; ((left; discriminate) || (right; discriminate)). }
  destruct Hbd as [[E1 E2]|Hbd]; [rewrite E1, E2; split; intros ? E; discriminate|].
  apply (PK.units_bounded (kfl_cfg_of c clip) (k_dims c) (kfl_params_of c Sc K bias)); try assumption.
  - apply kfl_cfg_of_ok, Hcfg.
  - cbn [kfl_params_of MK.p_scale MK.p_kern]. apply Forall2_map_seq. intros u' [_ Hu']. apply Forall2_map_seq. intros t [_ Ht].
    split; [apply am_term_shape|]. split; [apply (am_kbnd c Sc K clip Hcfg Hpass)|apply (am_sgood c Sc K clip Hcfg Hpass)]; assumption.
  - cbn [kfl_params_of MK.p_bias kfl_cfg_of MK.c_min MK.c_max]. specialize (Hb Hbd). rewrite Forall_forall in Hb.
    apply Hb, nth_In. lia. Qed.

Lemma am_in_range2 a b : 0 <= a <= 1 -> 0 <= b <= 1 -> PK.in_range 2 [a; b].
Proof. intros Ha Hb. constructor; [change (MK.qn 2) with 2; lra|]. constructor; [change (MK.qn 2) with 2; lra|constructor]. Qed.

(* FINDING: with no bound or two bounds the assert checks the ORDER of the
   1-D factors but not their SIGN, and a product of increasing NEGATIVE factors
   is decreasing: lattice_sizes = 2, two monotone inputs, one term with scale 1,
   factors (-1, 0) and (-1, 0): f(x0, x1) = (x0 - 1)(x1 - 1), the assert passes
   (eps = 0) and f(0, 0) = 1 > 0 = f(1, 0).  Reproduced on the implementation. *)
Definition am_kfl_bad (omin omax : option Q) : kfl_acfg := mkKA 2 1 2 1 [1%Z; 1%Z] omin omax.
Definition am_kfl_bad_K : tens := of_list [2; 1; 2; 1]%nat [-(1); -(1); 0; 0].
Theorem kfl_assert_not_monotone_refuted : forall b, b = (None, None) \/ b = (Some (-(1)), Some 1) ->
  let c := am_kfl_bad (fst b) (snd b) in
  kfl_cfg_ok c /\ assert_kfl c [[1]] am_kfl_bad_K 0 = true /\ kfl_bias_fixed c [0] /\
  PK.coords_le (kfl_mono_flags c) [0; 0] [1; 0] /\ PK.in_range (k_L c) [0; 0] /\ PK.in_range (k_L c) [1; 0] /\
  MK.unit_out (kfl_cfg_of c false) (kfl_params_of c [[1]] am_kfl_bad_K [0]) 0 [1; 0] <
  MK.unit_out (kfl_cfg_of c false) (kfl_params_of c [[1]] am_kfl_bad_K [0]) 0 [0; 0].
Proof. intros b [-> | ->]; cbv zeta; cbn [fst snd].
  - split. { split; [cbn; lia|]. split; [cbn; lia|]. split; [right; reflexivity|]. intros lo hi H; discriminate. }
    split; [vm_compute; reflexivity|]. split. { intros [H|H]; cbn in H; congruence. }
    split. { cbn. split; [lra|]. split; [lra|exact I]. }
    split. { apply am_in_range2; lra. } split. { apply am_in_range2; lra. }
    vm_compute. reflexivity.
  - split. { split; [cbn; lia|]. split; [cbn; lia|]. split; [right; reflexivity|]. intros lo hi H1 H2. cbn in H1, H2. injection H1 as <-. injection H2 as <-. lra. }
    split; [vm_compute; reflexivity|]. split. { intros _. constructor; [vm_compute; reflexivity|constructor]. }
    split. { cbn. split; [lra|]. split; [lra|exact I]. }
    split. { apply am_in_range2; lra. } split. { apply am_in_range2; lra. }
    vm_compute. reflexivity. Qed.

(* non-vacuity of the positive statements: ex_kfl of Proofs/Asserts.v (L = 2,
   two monotone inputs, terms with scales +1 / -1, bounds [0, 2]) *)
Definition am_kfl_K : tens := of_list (k_shape ex_kfl) [0; 1;  (1#2); 1;   1; 0;  1; (1#2)].
Example am_kfl_hyps : kfl_cfg_ok ex_kfl /\ assert_kfl ex_kfl [[1; - (1)]] am_kfl_K 0 = true /\
  kfl_weights_nonneg ex_kfl [[1; - (1)]] am_kfl_K /\ kfl_bias_fixed ex_kfl [1] /\
  PK.coords_le (kfl_mono_flags ex_kfl) [0; 1#2] [1#2; 1] /\ PK.in_range (k_L ex_kfl) [0; 1#2] /\ PK.in_range (k_L ex_kfl) [1#2; 1].
Proof. split. { split; [cbn; lia|]. split; [cbn; lia|]. split; [right; reflexivity|].
    intros lo hi H1 H2. cbn in H1, H2. injection H1 as <-. injection H2 as <-. lra. }
  split; [vm_compute; reflexivity|]. split.
  { intros u t d i Hu Ht Hd Hi _. cbn in Hu, Ht, Hd, Hi.
    destruct u as [|u]; [|lia]. destruct t as [|[|t]]; [| |lia]; (destruct d as [|[|d]]; [| |lia]); (destruct i as [|[|i]]; [| |lia]);
      apply Qle_bool_iff; vm_compute; reflexivity. }
  split. { intros _. constructor; [vm_compute; reflexivity|constructor]. }
  split. { cbn. split; [lra|]. split; [lra|exact I]. }
  split; apply am_in_range2; lra. Qed.

(* y is above x in every increasing input, below in every decreasing input,
   equal in the unconstrained ones (monotonicities None = [] = all unconstrained) *)
Definition lin_dir_le (ms : list Z) (n : nat) (x y : list Q) : Prop :=
  forall i, (i < n)%nat ->
    if (nth i ms 0 =? 1)%Z then nth i x 0 <= nth i y 0
    else if (nth i ms 0 =? -1)%Z then nth i y 0 <= nth i x 0 else nth i x 0 == nth i y 0.

Lemma coords_ok_of_nth : forall ms k x y, length k = length ms -> length x = length ms -> length y = length ms ->
  (forall i, (i < length ms)%nat -> PLE.coord_ok (nth i ms 0%Z) (nth i k 0) (nth i x 0) (nth i y 0)) ->
  PLE.coords_ok ms k x y.
Proof. induction ms as [|m ms IH]; intros [|kq k] [|xq x] [|yq y] Hk Hx Hy H; cbn [length] in *; try discriminate; cbn [PLE.coords_ok]; [exact I|].
  split. exact (H 0%nat ltac:(lia)). apply IH; try lia. intros i Hi. exact (H (S i) ltac:(lia)). Qed.

(* sweeping input i across its own bounds [l, h] moves the unit by weight * (h - l) *)
Lemma lin_unit_sweep k b bs x i l h : (i < length k)%nat -> length bs = length k -> length x = length k ->
  nth i bs PLE.nob = (Some l, Some h) -> l <= h ->
  MLE.lin_unit k b bs (set_nth i h x) - MLE.lin_unit k b bs (set_nth i l x) == nth i k 0 * (h - l).
Proof. intros Hi Hb Hx E Hlh. unfold MLE.lin_unit.
  pose proof (PLE.lin_sum_set k bs x i h ltac:(lia) ltac:(lia) ltac:(lia)) as H1.
  pose proof (PLE.lin_sum_set k bs x i l ltac:(lia) ltac:(lia) ltac:(lia)) as H2.
  rewrite E in H1, H2. cbn [fst snd] in *.
  rewrite (PLE.clip_opt_at_hi l h Hlh) in H1. rewrite (PLE.clip_opt_at_lo l h Hlh) in H2. lra. Qed.

(* unit u of the layer is  lin_unit (column u K) b bs  (C20_formula) *)
Section LinearAssert.
Variable c : lin_acfg.
Variable K : list (list Q).
Variable u : nat.
Hypothesis Hu : (u < li_units c)%nat.
Hypothesis Hpass : assert_linear c K 0 = true.

Lemma am_lin_F : lin_feasible c K 0.
Proof. apply (lin_exact c K 0 ltac:(lra)). exact Hpass. Qed.

(* the sign hypotheses of C20_monotone *)
Lemma lin_assert_signs i : (i < length K)%nat ->
  (nth i (li_monos c) 0%Z = 1%Z -> 0 <= kat K i u) /\ (nth i (li_monos c) 0%Z = (-1)%Z -> kat K i u <= 0).
Proof. intros Hi. destruct am_lin_F as (H & _). specialize (H i u Hi Hu). split; intros E; rewrite E in H.
  - change (inject_Z 1) with 1 in H. lra.
  - change (inject_Z (-1)) with (-(1)) in H. lra. Qed.

Theorem lin_assert_monotone b bs x y : length x = length K -> length y = length K ->
  lin_dir_le (li_monos c) (length K) x y ->
  MLE.lin_unit (column u K) b bs x <= MLE.lin_unit (column u K) b bs y.
Proof. intros Hx Hy Hd. set (ms := map (fun i => nth i (li_monos c) 0%Z) (seq 0 (length K))).
  assert (Hl : length ms = length K) by (subst ms; rewrite map_length, seq_length; reflexivity).
  apply (PLE.lin_unit_monotone ms); rewrite ?column_length; try congruence.
  apply coords_ok_of_nth; rewrite ?column_length; try congruence.
  intros i Hi. rewrite Hl in Hi. subst ms. rewrite nth_map_seq by exact Hi. rewrite nth_column_kat.
  specialize (Hd i Hi). destruct (lin_assert_signs i Hi) as [S1 S2]. unfold PLE.coord_ok.
  destruct (Z.eqb_spec (nth i (li_monos c) 0%Z) 1) as [E|E]; [split; [apply S1; exact E|exact Hd]|].
  destruct (Z.eqb_spec (nth i (li_monos c) 0%Z) (-1)) as [E'|E']; [split; [apply S2; exact E'|exact Hd]|exact Hd]. Qed.

(* one constrained input moved, the others fixed: every pair v <= v' *)
Theorem lin_assert_monotone_coordinate b bs x i v v' : length x = length K -> (i < length K)%nat -> v <= v' ->
  (nth i (li_monos c) 0%Z = 1%Z ->
     MLE.lin_unit (column u K) b bs (set_nth i v x) <= MLE.lin_unit (column u K) b bs (set_nth i v' x)) /\
  (nth i (li_monos c) 0%Z = (-1)%Z ->
     MLE.lin_unit (column u K) b bs (set_nth i v' x) <= MLE.lin_unit (column u K) b bs (set_nth i v x)).
Proof. intros Hx Hi Hv. split; intros E; apply lin_assert_monotone; rewrite ?set_nth_length; try exact Hx;
  intros j Hj; (destruct (Nat.eq_dec i j) as [<-|Hne];
    [rewrite E, !nth_set_nth_same by lia; cbn; exact Hv
    |rewrite !(nth_set_nth_other i j) by exact Hne;
     destruct (nth j (li_monos c) 0 =? 1)%Z; [lra|destruct (nth j (li_monos c) 0 =? -1)%Z; [lra|reflexivity]]]). Qed.

(* monotonic dominance: the hypothesis of C20_monotonic_dominance_effect, hence its conclusion *)
Theorem lin_assert_mdom_effect b bs x dom weak d : In (dom, weak) (li_mdom c) ->
  (dom < length K)%nat -> (weak < length K)%nat -> length bs = length K -> length x = length K ->
  nth dom bs PLE.nob = (None, None) -> nth weak bs PLE.nob = (None, None) -> 0 <= d ->
  kat K weak u <= kat K dom u /\
  MLE.lin_unit (column u K) b bs (set_nth weak (nth weak x 0 + d) x) - MLE.lin_unit (column u K) b bs x <=
  MLE.lin_unit (column u K) b bs (set_nth dom (nth dom x 0 + d) x) - MLE.lin_unit (column u K) b bs x.
Proof. intros Hin Hd Hw Hb Hx Ed Ew Hpos. destruct am_lin_F as (_ & H & _). specialize (H dom weak u Hin Hu).
  assert (G : kat K weak u <= kat K dom u) by lra. split; [exact G|].
  apply PLE.lin_dominance_effect; rewrite ?column_length, ?nth_column_kat; assumption. Qed.

(* range dominance: with the layer's own input bounds [ld, hd], [lw, hw] (the
   ones the assert scales by), sweeping the dominant input across its range
   moves the output at least as much as sweeping the weak one, signed by the
   direction of each input; for two increasing inputs this is the hypothesis
   and the conclusion of C20_range_dominance_effect *)
Definition lin_sign (c : lin_acfg) (i : nat) : Q := if (nth i (li_monos c) 0 =? -1)%Z then - (1) else 1.
Theorem lin_assert_rdom_effect b bs x dom weak ld hd lw hw : In (dom, weak) (li_rdom c) ->
  (dom < length K)%nat -> (weak < length K)%nat -> length bs = length K -> length x = length K ->
  nth dom (zip_bounds (li_min c) (li_max c)) (None, None) = (Some ld, Some hd) ->
  nth weak (zip_bounds (li_min c) (li_max c)) (None, None) = (Some lw, Some hw) ->
  nth dom bs PLE.nob = (Some ld, Some hd) -> nth weak bs PLE.nob = (Some lw, Some hw) -> ld <= hd -> lw <= hw ->
  lin_sign c weak * ((hw - lw) * kat K weak u) <= lin_sign c dom * ((hd - ld) * kat K dom u) /\
  lin_sign c weak * (MLE.lin_unit (column u K) b bs (set_nth weak hw x) - MLE.lin_unit (column u K) b bs (set_nth weak lw x)) <=
  lin_sign c dom * (MLE.lin_unit (column u K) b bs (set_nth dom hd x) - MLE.lin_unit (column u K) b bs (set_nth dom ld x)).
Proof. intros Hin Hd Hw Hb Hx Zd Zw Ed Ew Hdr Hwr. destruct am_lin_F as (_ & _ & H & _). specialize (H dom weak u Hin Hu).
  unfold lin_scaling in H. rewrite Zd, Zw in H. fold (lin_sign c dom) in H. fold (lin_sign c weak) in H.
  assert (G : lin_sign c weak * ((hw - lw) * kat K weak u) <= lin_sign c dom * ((hd - ld) * kat K dom u)) by lra.
  split; [exact G|].
  rewrite (lin_unit_sweep (column u K) b bs x weak lw hw), (lin_unit_sweep (column u K) b bs x dom ld hd)
    by (rewrite ?column_length; assumption).
  rewrite !nth_column_kat. lra. Qed.

(* the norm test is STRICT (< eps): at eps = 0 a normalised layer passes only
   through the numerically-zero-column escape *)
Theorem lin_assert_zero_eps_norm_escape ord : li_norm c = Some ord ->
  (ord = 1%nat -> qsum (map qabs (unit_col K u)) < norm_eps) /\
  (ord <> 1%nat -> qsum (map (fun w => w * w) (unit_col K u)) < norm_eps * norm_eps).
Proof. intros En. destruct am_lin_F as (_ & _ & _ & H). specialize (H ord u En Hu). split.
  - intros ->. cbn [norm_spec] in H. destruct H as [H|H]; revert H; qcases; lra.
  - intros Hne. destruct ord as [|[|ord]]; [| congruence |]; cbn [norm_spec] in H; cbv zeta in H; destruct H as [[H1 [H2|H2]]|H]; lra. Qed.
End LinearAssert.

(* normalization order 1, all inputs increasing.  The sign test needs eps = 0
   to give weights >= 0 and the strict norm test needs eps > 0 to give anything
   but the zero-column escape, so: the checks other than the norm pass at 0
   ([lin_without_norm]) and the whole assert passes at eps.  Then the weights
   are >= 0, their sum s is within eps of 1 - or below 1e-8, the zero-column
   escape (known finding D32) - and output - bias lies in [lo * s, hi * s];
   with s == 1 this is C20_weighted_average. *)
Definition lin_without_norm (c : lin_acfg) : lin_acfg :=
  mkLinA (li_units c) (li_monos c) (li_mdom c) (li_rdom c) (li_min c) (li_max c) None.
Lemma lin_assert_without_norm c K eps : assert_linear c K eps = true -> assert_linear (lin_without_norm c) K eps = true.
Proof. unfold assert_linear. intros H. apply andb_prop in H. destruct H as [H _]. apply andb_true_intro. split; [exact H|reflexivity]. Qed.

Theorem lin_assert_weighted_average c K eps u b bs x lo hi : (u < li_units c)%nat -> 0 <= eps ->
  li_norm c = Some 1%nat -> (forall i, (i < length K)%nat -> nth i (li_monos c) 0%Z = 1%Z) ->
  assert_linear (lin_without_norm c) K 0 = true -> assert_linear c K eps = true ->
  length bs = length K -> length x = length K -> (forall v, In v (PLE.clipped bs x) -> lo <= v /\ v <= hi) ->
  let k := column u K in let s := qsum k in
  (forall q, In q k -> 0 <= q) /\ (qabs (s - 1) < eps \/ s < norm_eps) /\
  lo * s <= MLE.lin_unit k b bs x - b /\ MLE.lin_unit k b bs x - b <= hi * s /\
  (s == 1 -> lo <= MLE.lin_unit k b bs x - b /\ MLE.lin_unit k b bs x - b <= hi).
Proof. intros Hu He En Hm H0 Hp Hb Hx Hc k s.
  assert (Hnn : forall q, In q k -> 0 <= q).
  { intros q Hq. destruct (In_nth k q 0 Hq) as [i [Hi <-]]. subst k. rewrite column_length in Hi. rewrite nth_column_kat.
    apply (proj1 (lin_assert_signs (lin_without_norm c) K u Hu H0 i Hi)). cbn [lin_without_norm li_monos]. apply Hm. exact Hi. }
  split; [exact Hnn|].
  pose proof (proj1 (lin_exact c K eps He) Hp) as (_ & _ & _ & Hn). specialize (Hn 1%nat u En Hu). cbn [norm_spec] in Hn.
  change (unit_col K u) with k in Hn. pose proof (qsum_abs_nonneg k Hnn) as Ea. fold s in Ea.
  assert (Hs : qabs (s - 1) < eps \/ s < norm_eps).
  { destruct Hn as [Hn|Hn]; [left|right]; revert Hn; qcases; lra. }
  split; [exact Hs|].
  destruct (PLE.lin_sum_bounds k bs x lo hi ltac:(subst k; rewrite column_length; exact Hb)
              ltac:(subst k; rewrite column_length; exact Hx) Hnn Hc) as [A B]. fold s in A, B.
  unfold MLE.lin_unit. split; [lra|]. split; [lra|]. intros E. rewrite E in A, B. split; lra. Qed.

(* non-vacuity: 3 increasing inputs, 2 units, dominance pairs (0, 1), bounds on inputs 0 and 1, L1 norm *)
Definition am_lin : lin_acfg :=
  mkLinA 2 [1%Z; 1%Z; 1%Z] [(0%nat, 1%nat)] [(0%nat, 1%nat)] [Some 0; Some 0; None] [Some 2; Some 1; None] (Some 1%nat).
Definition am_lin_K : list (list Q) := [[(1#2); (1#2)]; [(1#4); (1#2)]; [(1#4); 0]].
Example am_lin_hyps : assert_linear (lin_without_norm am_lin) am_lin_K 0 = true /\ assert_linear am_lin am_lin_K (1#1000) = true /\
  (forall i, (i < length am_lin_K)%nat -> nth i (li_monos am_lin) 0%Z = 1%Z) /\
  lin_dir_le (li_monos am_lin) (length am_lin_K) [0; 3; 1] [1; 3; 2] /\
  nth 0 (zip_bounds (li_min am_lin) (li_max am_lin)) (None, None) = (Some 0, Some 2) /\
  nth 1 (zip_bounds (li_min am_lin) (li_max am_lin)) (None, None) = (Some 0, Some 1) /\
  qsum (column 1 am_lin_K) == 1.
Proof. split; [vm_compute; reflexivity|]. split; [vm_compute; reflexivity|]. split.
  { intros i Hi. cbn in Hi. destruct i as [|[|[|i]]]; try lia; reflexivity. }
  split. { intros i Hi. cbn in Hi. destruct i as [|[|[|i]]]; try lia; cbn; lra. }
  split; [reflexivity|]. split; [reflexivity|]. vm_compute. reflexivity. Qed.
(* at eps = 0 the same layer is rejected although its columns have L1 norm exactly 1 *)
Example am_lin_zero_eps_rejected : assert_linear am_lin am_lin_K 0 = false.
Proof. vm_compute. reflexivity. Qed.

(* the column unit u evaluates: the kernel column, plus the closing height when cyclic *)
Definition pwl_layer_col (cyclic : bool) (col : list Q) : list Q := if cyclic then col ++ [- qsum (tl col)] else col.

Lemma pwl_layer_col_length cyclic col : length (pwl_layer_col cyclic col) = (length col + if cyclic then 1 else 0)%nat.
Proof. destruct cyclic; cbn [pwl_layer_col]. rewrite app_length. reflexivity. lia. Qed.
(* keypoints_outputs() of the assert model = cumulative sums of the evaluated column (C05 vocabulary) *)
Lemma am_kp_outs_layer units cyclic kernel u j : (u < units)%nat -> kernel <> [] ->
  (j < length (pwl_keypoint_outputs units cyclic kernel))%nat ->
  nth j (PPE.kp_outs (pwl_layer_col cyclic (column u kernel))) 0 == out_at (pwl_keypoint_outputs units cyclic kernel) j u.
Proof. intros Hu Hne Hj. rewrite keypoint_outputs_length in Hj by exact Hne. unfold PPE.kp_outs.
  assert (Lc : length (column u kernel) = length kernel) by apply column_length.
  destruct (Nat.lt_ge_cases j (length kernel)) as [Hlt|Hge].
  - rewrite (keypoint_outputs_at units cyclic kernel j u Hlt Hu).
    rewrite PPE.nth_cumsum_incl by (rewrite pwl_layer_col_length; lia).
    destruct cyclic; cbn [pwl_layer_col]; [rewrite firstn_app_le by lia|]; lra.
  - destruct cyclic; [|lia]. assert (j = length kernel) by lia. subst j.
    rewrite (keypoint_outputs_cyclic_last units kernel u Hne Hu). cbn [pwl_layer_col].
    rewrite PPE.nth_cumsum_incl by (rewrite app_length; cbn; lia).
    rewrite firstn_all2 by (rewrite app_length; cbn; lia). rewrite qsum_app.
    destruct kernel as [|r rest]; [congruence|]. cbn. lra. Qed.

Section PwlAssert.
Variable c : pwl_layer_acfg.
Variable kernel : list (list Q).
Variable eps : Q.
Variable u : nat.
Variables kps lens : list Q.
Variable e : Q.
Hypothesis Hne : kernel <> [].
Hypothesis Hu : (u < pa_units (pl_cfg c))%nat.
Hypothesis He : 0 <= eps.
Hypothesis Hpass : assert_pwl_layer c kernel eps = true.
Hypothesis Hseg : PPE.segments kps lens e.
Let col := pwl_layer_col (pl_cyclic c) (column u kernel).
Hypothesis Hlen : length col = S (length kps).
Let outs := pwl_keypoint_outputs (pa_units (pl_cfg c)) (pl_cyclic c) kernel.

Lemma am_pwl_F : pwl_feasible (pl_cfg c) outs eps /\ missing_feasible c eps.
Proof. apply (pwl_layer_exact c kernel eps Hne He). exact Hpass. Qed.
Lemma am_outs_len : length outs = length col.
Proof. subst outs col. rewrite keypoint_outputs_length by exact Hne. rewrite pwl_layer_col_length, column_length. reflexivity. Qed.
Lemma am_kp_len : length (PPE.kp_outs col) = length col.
Proof. unfold PPE.kp_outs. apply PPE.cumsum_incl_length. Qed.
Lemma am_kp_nth j : (j < length col)%nat -> nth j (PPE.kp_outs col) 0 == out_at outs j u.
Proof. intros Hj. apply am_kp_outs_layer; try assumption. fold outs. rewrite am_outs_len. exact Hj. Qed.

(* the function stays inside [output_min - eps, output_max + eps] at EVERY input *)
Lemma pwl_assert_bounded x :
  (forall lo, pa_min (pl_cfg c) = Some lo -> lo - eps <= MPE.pwl_fn kps lens col x) /\
  (forall hi, pa_max (pl_cfg c) = Some hi -> MPE.pwl_fn kps lens col x <= hi + eps).
Proof. destruct am_pwl_F as [(Fl & Fh & _) _]. split.
  - intros lo El. destruct (Fl lo u El Hu) as [G _].
    apply (PPE.pwl_bounded_function kps lens e col (lo - eps) (qmaxl (PPE.kp_outs col)) x Hseg Hlen).
    intros y Hy. split; [|apply qmaxl_ge; exact Hy]. destruct (In_nth _ _ 0 Hy) as [j [Hj <-]]. rewrite am_kp_len in Hj.
    rewrite (am_kp_nth j Hj). apply G. rewrite am_outs_len. exact Hj.
  - intros hi Eh. destruct (Fh hi u Eh Hu) as [G _].
    apply (PPE.pwl_bounded_function kps lens e col (qminl (PPE.kp_outs col)) (hi + eps) x Hseg Hlen).
    intros y Hy. split; [apply qminl_le; exact Hy|]. destruct (In_nth _ _ 0 Hy) as [j [Hj <-]]. rewrite am_kp_len in Hj.
    rewrite (am_kp_nth j Hj). apply G. rewrite am_outs_len. exact Hj. Qed.

(* a clamp: the function REACHES the bound (up to eps) at one of its keypoints *)
Lemma pwl_assert_clamps :
  (forall lo, pa_min (pl_cfg c) = Some lo -> pa_clamp_min (pl_cfg c) = true ->
     exists j, (j <= length kps)%nat /\ MPE.pwl_fn kps lens col (nth j (kps ++ [e]) 0) <= lo + eps) /\
  (forall hi, pa_max (pl_cfg c) = Some hi -> pa_clamp_max (pl_cfg c) = true ->
     exists j, (j <= length kps)%nat /\ hi - eps <= MPE.pwl_fn kps lens col (nth j (kps ++ [e]) 0)).
Proof. destruct am_pwl_F as [(Fl & Fh & _) _].
  assert (At : forall j, (j <= length kps)%nat -> MPE.pwl_fn kps lens col (nth j (kps ++ [e]) 0) == out_at outs j u).
  { intros j Hj. rewrite <- (am_kp_nth j ltac:(lia)). destruct col as [|b hs] eqn:Ec; [cbn in Hlen; lia|].
    rewrite (PPE.pwl_at_keypoints kps lens e b hs _ j Hseg ltac:(cbn in Hlen; lia) Hj ltac:(reflexivity)).
    unfold PPE.kp_outs. rewrite PPE.nth_cumsum_incl by (cbn in *; lia).
    change (firstn (S j) (b :: hs)) with (b :: firstn j hs). cbn [qsum]. lra. }
  split.
  - intros lo El Hc. destruct (Fl lo u El Hu) as [_ G]. destruct (G Hc) as [k [Hk Hle]]. rewrite am_outs_len in Hk.
    exists k. split; [lia|]. rewrite At by lia. exact Hle.
  - intros hi Eh Hc. destruct (Fh hi u Eh Hu) as [_ G]. destruct (G Hc) as [k [Hk Hle]]. rewrite am_outs_len in Hk.
    exists k. split; [lia|]. rewrite At by lia. exact Hle. Qed.

(* the learned missing output (what the layer returns for a missing input, C05_missing) is in range *)
Lemma pwl_assert_missing mo : pl_missing c = Some mo ->
  (forall lo, pa_min (pl_cfg c) = Some lo -> lo - eps <= nth u mo 0) /\
  (forall hi, pa_max (pl_cfg c) = Some hi -> nth u mo 0 <= hi + eps).
Proof. intros Em. destruct am_pwl_F as [_ Fm]. exact (Fm mo u Em Hu). Qed.

Lemma pwl_assert_steps : pa_mono (pl_cfg c) <> 0%Z -> forall j, (S j < length col)%nat ->
  - eps <= (nth (S j) (PPE.kp_outs col) 0 - nth j (PPE.kp_outs col) 0) * inject_Z (pa_mono (pl_cfg c)).
Proof. intros Hm j Hj. destruct am_pwl_F as [(_ & _ & Fm) _]. rewrite (am_kp_nth j ltac:(lia)), (am_kp_nth (S j) Hj).
  apply Fm; try assumption. rewrite am_outs_len. exact Hj. Qed.
End PwlAssert.

(* the column the layer evaluates for unit u is the one the assert sums up *)
Lemma pwl_layer_column L u : (u < MPE.p_units L)%nat ->
  column u (MPE.bias_and_heights L) = pwl_layer_col (MPE.p_cyclic L) (column u (MPE.p_kernel L)).
Proof. intros Hu. destruct (MPE.p_cyclic L) eqn:Hc.
  - apply (PPE.column_bh_cyclic L u Hc Hu).
  - apply (PPE.column_bh_plain L u Hc). Qed.

(* the layer (fixed or learned keypoints, cyclic or not): unit u's function *)
Theorem pwl_assert_meaning c L e u : MPE.p_kernel L <> [] -> MPE.p_units L = pa_units (pl_cfg c) ->
  MPE.p_cyclic L = pl_cyclic c -> (u < MPE.p_units L)%nat ->
  PPE.segments (MPE.unit_lefts L u) (MPE.unit_lens L u) e ->
  length (column u (MPE.bias_and_heights L)) = S (length (MPE.unit_lefts L u)) ->
  assert_pwl_layer c (MPE.p_kernel L) 0 = true ->
  (pa_mono (pl_cfg c) = 1%Z -> forall x y, x <= y -> PPE.unit_fn L u x <= PPE.unit_fn L u y) /\
  (pa_mono (pl_cfg c) = (-1)%Z -> forall x y, x <= y -> PPE.unit_fn L u y <= PPE.unit_fn L u x) /\
  (forall x, (forall lo, pa_min (pl_cfg c) = Some lo -> lo <= PPE.unit_fn L u x) /\
             (forall hi, pa_max (pl_cfg c) = Some hi -> PPE.unit_fn L u x <= hi)) /\
  (forall x, (x <= hd e (MPE.unit_lefts L u) -> PPE.unit_fn L u x == PPE.unit_fn L u (hd e (MPE.unit_lefts L u))) /\
             (e <= x -> PPE.unit_fn L u x == PPE.unit_fn L u e)) /\
  (forall lo, pa_min (pl_cfg c) = Some lo -> pa_clamp_min (pl_cfg c) = true -> exists x, PPE.unit_fn L u x <= lo) /\
  (forall hi, pa_max (pl_cfg c) = Some hi -> pa_clamp_max (pl_cfg c) = true -> exists x, hi <= PPE.unit_fn L u x) /\
  (forall mo, pl_missing c = Some mo ->
     (forall lo, pa_min (pl_cfg c) = Some lo -> lo <= nth u mo 0) /\ (forall hi, pa_max (pl_cfg c) = Some hi -> nth u mo 0 <= hi)).
Proof. intros Hne Eu Ec Hu Hseg Hlen Hpass.
  pose proof (pwl_layer_column L u Hu) as Ecol. rewrite Ec in Ecol. rewrite Eu in Hu.
  unfold PPE.unit_fn. rewrite Ecol in *. set (kps := MPE.unit_lefts L u) in *. set (lens := MPE.unit_lens L u) in *.
  set (col := pwl_layer_col (pl_cyclic c) (column u (MPE.p_kernel L))) in *.
  assert (He : 0 <= 0) by lra. pose proof (PPE.segments_pos kps lens e Hseg) as Hpos.
  pose proof (pwl_assert_steps c (MPE.p_kernel L) 0 u kps Hne Hu He Hpass Hlen) as St. fold col in St.
  split; [|split; [|split; [|split; [|split; [|split]]]]].
  - intros Em x y Hxy. apply (PPE.pwl_monotone_function kps lens col x y Hpos); [|exact Hxy].
    intros j Hj. specialize (St ltac:(rewrite Em; discriminate) j Hj). rewrite Em in St. change (inject_Z 1) with 1 in St. lra.
  - intros Em x y Hxy. apply (PPE.pwl_antitone_function kps lens col x y Hpos); [|exact Hxy].
    intros j Hj. specialize (St ltac:(rewrite Em; discriminate) j Hj). rewrite Em in St. change (inject_Z (-1)) with (-(1)) in St. lra.
  - intros x. destruct (pwl_assert_bounded c (MPE.p_kernel L) 0 u kps lens e Hne Hu He Hpass Hseg Hlen x) as [A B]. fold col in A, B.
    split; [intros lo El; specialize (A lo El)|intros hi Eh; specialize (B hi Eh)]; lra.
  - intros x. destruct col as [|b hs] eqn:Ecl; [cbn in Hlen; lia|]. split; intros Hx.
    + rewrite (PPE.pwl_constant_left kps lens e b hs x Hseg Hx).
      rewrite (PPE.pwl_constant_left kps lens e b hs (hd e kps) Hseg (Qle_refl _)). reflexivity.
    + rewrite (PPE.pwl_constant_right kps lens e b hs x Hseg ltac:(cbn in Hlen; lia) Hx).
      rewrite (PPE.pwl_constant_right kps lens e b hs e Hseg ltac:(cbn in Hlen; lia) (Qle_refl _)). reflexivity.
  - intros lo El Hc. destruct (pwl_assert_clamps c (MPE.p_kernel L) 0 u kps lens e Hne Hu He Hpass Hseg Hlen) as [A _].
    destruct (A lo El Hc) as [j [_ G]]. fold col in G. exists (nth j (kps ++ [e]) 0). lra.
  - intros hi Eh Hc. destruct (pwl_assert_clamps c (MPE.p_kernel L) 0 u kps lens e Hne Hu He Hpass Hseg Hlen) as [_ B].
    destruct (B hi Eh Hc) as [j [_ G]]. fold col in G. exists (nth j (kps ++ [e]) 0). lra.
  - intros mo Em. destruct (pwl_assert_missing c (MPE.p_kernel L) 0 u Hne Hu He Hpass mo Em) as [A B].
    split; [intros lo El; specialize (A lo El)|intros hi Eh; specialize (B hi Eh)]; lra. Qed.

(* any eps >= 0: bounds (every input), clamps and missing output up to eps *)
Theorem pwl_assert_eps_bounded c L eps e u x : MPE.p_kernel L <> [] -> MPE.p_units L = pa_units (pl_cfg c) ->
  MPE.p_cyclic L = pl_cyclic c -> (u < MPE.p_units L)%nat -> 0 <= eps ->
  PPE.segments (MPE.unit_lefts L u) (MPE.unit_lens L u) e ->
  length (column u (MPE.bias_and_heights L)) = S (length (MPE.unit_lefts L u)) ->
  assert_pwl_layer c (MPE.p_kernel L) eps = true ->
  (forall lo, pa_min (pl_cfg c) = Some lo -> lo - eps <= PPE.unit_fn L u x) /\
  (forall hi, pa_max (pl_cfg c) = Some hi -> PPE.unit_fn L u x <= hi + eps).
Proof. intros Hne Eu Ec Hu He Hseg Hlen Hpass.
  pose proof (pwl_layer_column L u Hu) as Ecol. rewrite Ec in Ecol. rewrite Eu in Hu.
  unfold PPE.unit_fn. rewrite Ecol in *.
  exact (pwl_assert_bounded c (MPE.p_kernel L) eps u _ _ e Hne Hu He Hpass Hseg Hlen x). Qed.

(* non-vacuity: keypoints 0, 1, 3, two units, increasing, bounds [0, 2], clamped below *)
Definition am_pwl_cfg : pwl_layer_acfg := mkPL (mkPA 2 1 (Some 0) (Some 2) true false) false (Some [1; 2]).
Definition am_pwl_layer : MPE.pwl_layer :=
  MPE.build_fixed 2 [0; 1; 3] false [[0; 0]; [1; (1#2)]; [1; (1#2)]] true (Some (-(1))) None [1; 2] false.
Example am_pwl_hyps : MPE.p_kernel am_pwl_layer <> [] /\ MPE.p_units am_pwl_layer = pa_units (pl_cfg am_pwl_cfg) /\
  MPE.p_cyclic am_pwl_layer = pl_cyclic am_pwl_cfg /\ (1 < MPE.p_units am_pwl_layer)%nat /\
  PPE.segments (MPE.unit_lefts am_pwl_layer 1) (MPE.unit_lens am_pwl_layer 1) 3 /\
  length (column 1 (MPE.bias_and_heights am_pwl_layer)) = S (length (MPE.unit_lefts am_pwl_layer 1)) /\
  assert_pwl_layer am_pwl_cfg (MPE.p_kernel am_pwl_layer) 0 = true /\ pa_mono (pl_cfg am_pwl_cfg) = 1%Z.
Proof. split; [discriminate|]. split; [reflexivity|]. split; [reflexivity|]. split; [cbn; lia|].
  split. { cbn. repeat split; lra. } split; [reflexivity|]. split; [vm_compute; reflexivity|reflexivity]. Qed.

(* a row whose (default-replaced) category for unit u is bucket b outputs kernel[b][u] *)
Lemma cat_row_bucket L row u b : (u < MCE.c_units L)%nat -> (PPE.col_of (length row) u < length row)%nat ->
  (MCE.c_units L = 1%nat -> length row = 1%nat) -> PPE.cat_index L row u = Z.of_nat b -> (b < MCE.c_buckets L)%nat ->
  nth u (MCE.cat_row L row) 0 == kat (MCE.c_kernel L) b u.
Proof. intros Hu Hc H1 Hi Hb. rewrite (PPE.cat_row_unit L row u Hu Hc H1). rewrite Hi.
  rewrite PPE.dot_one_hot_in by lia. rewrite Nat2Z.id. rewrite nth_column. reflexivity. Qed.

Theorem cat_assert_meaning c L u : MCE.c_kernel L <> [] -> MCE.c_units L = ca_units c ->
  MCE.c_buckets L = length (MCE.c_kernel L) -> (u < ca_units c)%nat ->
  assert_categorical c (MCE.c_kernel L) 0 = true ->
  (* every bucket value in range *)
  (forall row b, (PPE.col_of (length row) u < length row)%nat -> (MCE.c_units L = 1%nat -> length row = 1%nat) ->
     PPE.cat_index L row u = Z.of_nat b -> (b < MCE.c_buckets L)%nat ->
     (forall lo, ca_min c = Some lo -> lo <= nth u (MCE.cat_row L row) 0) /\
     (forall hi, ca_max c = Some hi -> nth u (MCE.cat_row L row) 0 <= hi)) /\
  (* every configured pair (i, j): the output on category i is <= the output on category j *)
  (forall i j row row', In (i, j) (ca_pairs c) -> (i < MCE.c_buckets L)%nat -> (j < MCE.c_buckets L)%nat ->
     (PPE.col_of (length row) u < length row)%nat -> (MCE.c_units L = 1%nat -> length row = 1%nat) ->
     (PPE.col_of (length row') u < length row')%nat -> (MCE.c_units L = 1%nat -> length row' = 1%nat) ->
     PPE.cat_index L row u = Z.of_nat i -> PPE.cat_index L row' u = Z.of_nat j ->
     nth u (MCE.cat_row L row) 0 <= nth u (MCE.cat_row L row') 0).
Proof. intros Hne Eu Eb Hu Hpass. assert (Hu' : (u < MCE.c_units L)%nat) by (rewrite Eu; exact Hu).
  pose proof (proj1 (cat_exact c (MCE.c_kernel L) 0 Hne ltac:(lia) ltac:(lra)) Hpass) as (Fl & Fh & Fp). split.
  - intros row b Hc H1 Hi Hb. pose proof (cat_row_bucket L row u b Hu' Hc H1 Hi Hb) as E. rewrite Eb in Hb. split.
    + intros lo El. pose proof (Fl lo b u El Hb Hu). lra.
    + intros hi Eh. pose proof (Fh hi b u Eh Hb Hu). lra.
  - intros i j row row' Hin Hi Hj Hc H1 Hc' H1' Ei Ej.
    rewrite (cat_row_bucket L row u i Hu' Hc H1 Ei Hi), (cat_row_bucket L row' u j Hu' Hc' H1' Ej Hj).
    pose proof (Fp i j u Hin Hu). lra. Qed.

(* non-vacuity: 3 buckets, 1 unit, pairs (0, 1) and (1, 2), default value -1 -> last bucket *)
Definition am_cat_layer : MCE.cat_layer := MCE.mkCat 3 1 [[0]; [1]; [2]] (Some (-1)%Z) false.
Example am_cat_hyps : MCE.c_kernel am_cat_layer <> [] /\ MCE.c_units am_cat_layer = ca_units ex_cat /\
  MCE.c_buckets am_cat_layer = length (MCE.c_kernel am_cat_layer) /\ (0 < ca_units ex_cat)%nat /\
  assert_categorical ex_cat (MCE.c_kernel am_cat_layer) 0 = true /\ In (1%nat, 2%nat) (ca_pairs ex_cat) /\
  PPE.cat_index am_cat_layer [1] 0 = Z.of_nat 1 /\ PPE.cat_index am_cat_layer [-(1)] 0 = Z.of_nat 2.
Proof. split; [discriminate|]. split; [reflexivity|]. split; [reflexivity|]. split; [cbn; lia|].
  split; [vm_compute; reflexivity|]. split; [right; left; reflexivity|]. split; vm_compute; reflexivity. Qed.
