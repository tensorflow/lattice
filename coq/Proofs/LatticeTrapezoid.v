(* The trapezoid pass of finalize_constraints
   (lattice_lib._approximately_project_trapezoid with _trapezoid_violation_update,
   modelled by trap_step / trapezoid_one / approx_trapezoid in Model/LatticeFinalize.v).

   Two modes.  Elementwise (no Edgeworth trust configured, edge = []): along the
   (possibly reversed) conditional axis, slice 0 of the main axis becomes its
   running minimum and slice max its running maximum, separately at every behind
   position.  Scalar (edge <> []): the whole (0, j+1) / (max, j+1) column is
   shifted by the per-unit maximal violation, and by at least the previous
   shift (prior_update, carried in ts_l / ts_r) when the same (m, c, dir) is also
   an Edgeworth trust.

   The behind list is abstract in Section Trap (B_at / B_repr); the reversal of
   the conditional axis for dir < 0 is handled once by working in "logical"
   positions p <-> column cj rv sc p: the trust between two columns ([tpair],
   [cslope] for the matching Edgeworth trust) is taken at columns cj p, cj (S p),
   and T_cj_pairs turns "all p" into "all neighbours j, S j in the order given by
   dir" (T_trap_lpair / T_edge_ledge).  Order relations between neighbours
   (mono_along, the two halves of a trapezoid trust) are both instances of [pmono]
   (LatticeSpecFacts.v).  In scalar mode the pass is a rigid column move ([rigid],
   LatticeEdgeworth.v), which keeps every difference along a dimension other than
   m, c, ud; the trust on the same (m, c) needs [ledge].

   Size of the main dimension ([trap_ctx] asks for >= 2, as verify_hyperparameters /
   cfg_valid do): with nth m sh = 1 slices 0 and max coincide and the scalar mode
   does NOT establish the trust (the raise undoes the lowering at the non-maximal
   behind positions).

   The examples at the end show that the guards of approx_trapezoid_established
   (~ documented_exception) and approx_trapezoid_mono
   (~ trap_mono_cond_with_edgeworth) are needed already for a single pass. *)
From TFL Require Import Proofs.LatticeSpecFacts Proofs.LatticeMono Proofs.LatticeEdgeworth.
Open Scope Q_scope.

Lemma T_fold_seq_inv {A} (f : A -> nat -> A) (Inv : nat -> A -> Prop) : forall n s a,
  Inv s a -> (forall k a, (s <= k < s + n)%nat -> Inv k a -> Inv (S k) (f a k)) ->
  Inv (s + n)%nat (fold_left f (seq s n) a).
Proof. induction n as [|n IH]; intros s a H0 Hs; cbn [seq fold_left]. rewrite Nat.add_0_r; assumption.
  replace (s + S n)%nat with (S s + n)%nat by lia. apply IH. apply Hs; [lia|assumption].
  intros k a' Hk. apply Hs; lia. Qed.

Lemma T_cj_lt rv sc p : (p < sc)%nat -> (cj rv sc p < sc)%nat.
Proof. unfold cj; destruct rv; lia. Qed.
Lemma T_cj_adj rv sc p : (S p < sc)%nat -> cj rv sc (S p) = S (cj rv sc p) \/ cj rv sc p = S (cj rv sc (S p)).
Proof. unfold cj; destruct rv; lia. Qed.

Definition T_zeros (units : nat) : list Q := map (fun _ => 0) (seq 0 units).
Lemma T_zeros_length units : length (T_zeros units) = units.
Proof. unfold T_zeros. rewrite map_length, seq_length. reflexivity. Qed.
Lemma T_zeros_nth units u : nth u (T_zeros units) 0 = 0.
Proof. destruct (Nat.ltb_spec u units). unfold T_zeros. apply (nth_map_seq (fun _ => 0)); assumption.
  apply nth_overflow. rewrite T_zeros_length. assumption. Qed.

Section Trap.
Variables (sh : list nat) (ud units m c : nat) (rv : bool) (B : list idx).
Hypothesis Hmc : m <> c.
Hypothesis Hmu : m <> ud.
Hypothesis Hcu : c <> ud.
Hypothesis Hm : (m < length sh)%nat.
Hypothesis Hc : (c < length sh)%nat.
Hypothesis Hud : (ud < length sh)%nat.
Hypothesis Hun : nth ud sh 0%nat = units.
Hypothesis Hm2 : (2 <= nth m sh 0%nat)%nat.
Hypothesis B_at : forall b u i j, In b B -> (u < units)%nat -> (i < nth m sh 0%nat)%nat -> (j < nth c sh 0%nat)%nat ->
  valid sh (at2 (upd b ud u) m c i j).
Hypothesis B_repr : forall x, valid sh x ->
  exists b, In b B /\ forall i j, at2 (upd b ud (nth ud x 0%nat)) m c i j = at2 x m c i j.
Local Notation sc := (nth c sh 0%nat).
Local Notation sm := (nth m sh 0%nat).
Local Notation mx := (nth m sh 0%nat - 1)%nat.
Local Notation cjp := (cj rv (nth c sh 0%nat)).
Local Notation xm x := (nth m x 0%nat).
Local Notation xc x := (nth c x 0%nat).
Local Notation xu x := (nth ud x 0%nat).

Lemma T_updc_valid x j : valid sh x -> (j < sc)%nat -> valid sh (upd x c j).
Proof. intros; apply upd_valid; assumption. Qed.
Lemma T_updc_c x j : valid sh x -> xc (upd x c j) = j.
Proof. intros Hv. apply nth_upd_same. rewrite (valid_length sh x Hv). exact Hc. Qed.
Lemma T_updc_m x j : xm (upd x c j) = xm x.
Proof. apply nth_upd_other. auto. Qed.
Lemma T_updc_u x j : xu (upd x c j) = xu x.
Proof. apply nth_upd_other. auto. Qed.
Lemma T_xu_lt x : valid sh x -> (xu x < units)%nat.
Proof. exact (unit_lt sh ud units x Hud Hun). Qed.
Lemma T_xc_lt x : valid sh x -> (xc x < sc)%nat.
Proof. intros Hv. apply valid_nth; assumption. Qed.
Lemma T_xm_lt x : valid sh x -> (xm x < sm)%nat.
Proof. intros Hv. apply valid_nth; assumption. Qed.
Lemma T_cjp_ne p q : (p < sc)%nat -> (q < sc)%nat -> p <> q -> cjp p <> cjp q.
Proof. unfold cj; destruct rv; lia. Qed.

Definition T_lo_el (j0 j1 : nat) (W : tens) : tens :=
  memo sh (fun x => if (nth m x 0 =? 0)%nat && (nth c x 0 =? j1)%nat
                    then Qred (W x - qmax (W x - W (upd x c j0)) 0) else W x).
Definition T_hi_el (j0 j1 : nat) (W1 : tens) : tens :=
  memo sh (fun x => if (nth m x 0 =? mx)%nat && (nth c x 0 =? j1)%nat
                    then Qred (W1 x + qmax (W1 (upd x c j0) - W1 x) 0) else W1 x).
Definition T_lo_sc (j1 : nat) (lu : list Q) (W : tens) : tens :=
  memo sh (fun x => if (nth m x 0 =? 0)%nat && (nth c x 0 =? j1)%nat
                    then Qred (W x - nth (nth ud x 0%nat) lu 0) else W x).
Definition T_hi_sc (j1 : nat) (ru : list Q) (W1 : tens) : tens :=
  memo sh (fun x => if (nth m x 0 =? mx)%nat && (nth c x 0 =? j1)%nat
                    then Qred (W1 x + nth (nth ud x 0%nat) ru 0) else W1 x).
Definition T_raw (W : tens) (i0 ja jb : nat) : list Q :=
  unit_viols ud units B (fun b => W (at2 b m c i0 ja) - W (at2 b m c i0 jb)).

Definition is_hstep (i0 : nat) (op : Q -> Q -> Q) (j0 j1 : nat) (W W' : tens) : Prop :=
  forall x, valid sh x ->
    W' x == if (xm x =? i0)%nat && (xc x =? j1)%nat then op (W x) (W (upd x c j0)) else W x.
Definition is_shift (i0 j1 : nat) (dl : nat -> Q) (W W' : tens) : Prop :=
  forall x, valid sh x ->
    W' x == if (xm x =? i0)%nat && (xc x =? j1)%nat then W x + dl (xu x) else W x.

Lemma T_lo_el_hstep j0 j1 W : is_hstep 0 qmin j0 j1 W (T_lo_el j0 j1 W).
Proof. intros x Hv. unfold T_lo_el. rewrite memo_ok by assumption.
  destruct (_ && _); [|reflexivity]. rewrite Qred_correct. qcases; lra. Qed.
Lemma T_hi_el_hstep j0 j1 W : is_hstep mx qmax j0 j1 W (T_hi_el j0 j1 W).
Proof. intros x Hv. unfold T_hi_el. rewrite memo_ok by assumption.
  destruct (_ && _); [|reflexivity]. rewrite Qred_correct. qcases; lra. Qed.
Lemma T_lo_sc_shift j1 lu W : is_shift 0 j1 (fun u => - nth u lu 0) W (T_lo_sc j1 lu W).
Proof. intros x Hv. unfold T_lo_sc. rewrite memo_ok by assumption.
  destruct (_ && _); [|reflexivity]. rewrite Qred_correct. lra. Qed.
Lemma T_hi_sc_shift j1 ru W : is_shift mx j1 (fun u => nth u ru 0) W (T_hi_sc j1 ru W).
Proof. intros x Hv. unfold T_hi_sc. rewrite memo_ok by assumption.
  destruct (_ && _); [|reflexivity]. rewrite Qred_correct. lra. Qed.

Lemma T_raw_nonneg W i0 ja jb u : (u < units)%nat -> 0 <= nth u (T_raw W i0 ja jb) 0.
Proof. intros Hu. unfold T_raw. rewrite unit_viols_nth by assumption. apply maxl0_nonneg. Qed.
Lemma T_raw_ge (W : tens) i0 ja jb x : valid sh x -> xm x = i0 ->
  W (upd x c ja) - W (upd x c jb) <= nth (xu x) (T_raw W i0 ja jb) 0.
Proof. intros Hv Hx. unfold T_raw. rewrite unit_viols_nth by (apply T_xu_lt; assumption).
  destruct (B_repr x Hv) as [b [Hb He]]. apply maxl0_ge. apply in_map_iff. exists b. split; [|assumption].
  rewrite !He. unfold at2. rewrite (upd_eq_self x m i0 Hx). reflexivity. Qed.
Lemma T_raw_zero (W : tens) i0 ja jb u : (u < units)%nat -> (i0 < sm)%nat -> (ja < sc)%nat ->
  (forall x, valid sh x -> xm x = i0 -> W (upd x c ja) <= W (upd x c jb)) -> nth u (T_raw W i0 ja jb) 0 == 0.
Proof. intros Hu Hi Hja H. unfold T_raw. rewrite unit_viols_nth by assumption. apply maxl0_zero.
  intros v Hin. apply in_map_iff in Hin. destruct Hin as [b [<- Hb]].
  pose proof (B_at b u i0 ja Hb Hu Hi Hja) as Hv.
  assert (Hl : length (upd b ud u) = length sh) by (rewrite <- (valid_length _ _ Hv), at2_length; reflexivity).
  assert (Hxm : xm (at2 (upd b ud u) m c i0 ja) = i0) by (apply at2_nth_m; [assumption|lia]).
  specialize (H _ Hv Hxm). rewrite !at2_upd_c in H. lra. Qed.

(* what one iteration guarantees, independent of the mode *)
Definition step_spec (j0 j1 : nat) (W W' : tens) : Prop := forall x, valid sh x ->
  if (xc x =? j1)%nat then
    if (xm x =? 0)%nat then W' x <= W x /\ W' x <= W (upd x c j0)
    else if (xm x =? mx)%nat then W x <= W' x /\ W (upd x c j0) <= W' x
    else W' x == W x
  else W' x == W x.

Lemma T_ss_other {j0 j1 W W'} x : step_spec j0 j1 W W' -> valid sh x -> xc x <> j1 -> W' x == W x.
Proof. intros H Hv Hne. specialize (H x Hv). destruct (Nat.eqb_spec (xc x) j1); [contradiction|assumption]. Qed.
Lemma T_ss_lo {j0 j1 W W'} x : step_spec j0 j1 W W' -> valid sh x -> xc x = j1 -> xm x = 0%nat ->
  W' x <= W x /\ W' x <= W (upd x c j0).
Proof. intros H Hv E1 E2. specialize (H x Hv). rewrite E1, E2, Nat.eqb_refl in H. exact H. Qed.
Lemma T_ss_hi {j0 j1 W W'} x : step_spec j0 j1 W W' -> valid sh x -> xc x = j1 -> xm x = mx ->
  W x <= W' x /\ W (upd x c j0) <= W' x.
Proof. intros H Hv E1 E2. specialize (H x Hv). rewrite E1, E2, !Nat.eqb_refl in H.
  destruct (Nat.eqb_spec mx 0); [lia|exact H]. Qed.
Lemma T_ss_mid {j0 j1 W W'} x : step_spec j0 j1 W W' -> valid sh x -> xm x <> 0%nat -> xm x <> mx -> W' x == W x.
Proof. intros H Hv E1 E2. specialize (H x Hv). destruct (xc x =? j1)%nat; [|exact H].
  destruct (Nat.eqb_spec (xm x) 0); [contradiction|]. destruct (Nat.eqb_spec (xm x) mx); [contradiction|exact H]. Qed.

Lemma T_el_step_spec j0 j1 W W1 W2 : j0 <> j1 -> (j0 < sc)%nat ->
  is_hstep 0 qmin j0 j1 W W1 -> is_hstep mx qmax j0 j1 W1 W2 -> step_spec j0 j1 W W2.
Proof. intros Hne Hj0 H1 H2 x Hv.
  pose proof (H1 x Hv) as E1. pose proof (H2 x Hv) as E2.
  pose proof (H1 _ (T_updc_valid x j0 Hv Hj0)) as E3. rewrite T_updc_c, T_updc_m in E3 by assumption.
  replace (j0 =? j1)%nat with false in E3 by (symmetry; apply Nat.eqb_neq; assumption).
  rewrite andb_false_r in E3.
  destruct (Nat.eqb_spec (xc x) j1) as [Ec|Ec]; destruct (Nat.eqb_spec (xm x) 0) as [E0|E0];
    destruct (Nat.eqb_spec (xm x) mx) as [Ex|Ex]; cbn [andb] in *; try lia; qcases; try split; lra. Qed.

Lemma T_sc_step_spec j0 j1 dl dr W W1 W2 : j0 <> j1 -> (j0 < sc)%nat ->
  is_shift 0 j1 dl W W1 -> is_shift mx j1 dr W1 W2 ->
  (forall u, (u < units)%nat -> dl u <= 0 /\ 0 <= dr u) ->
  (forall x, valid sh x -> xm x = 0%nat -> W (upd x c j1) - W (upd x c j0) <= - dl (xu x)) ->
  (forall x, valid sh x -> xm x = mx -> W1 (upd x c j0) - W1 (upd x c j1) <= dr (xu x)) ->
  step_spec j0 j1 W W2.
Proof. intros Hne Hj0 H1 H2 Hs Hl Hr x Hv.
  pose proof (H1 x Hv) as E1. pose proof (H2 x Hv) as E2.
  pose proof (H1 _ (T_updc_valid x j0 Hv Hj0)) as E3. rewrite T_updc_c, T_updc_m in E3 by assumption.
  replace (j0 =? j1)%nat with false in E3 by (symmetry; apply Nat.eqb_neq; assumption).
  rewrite andb_false_r in E3.
  destruct (Hs (xu x) (T_xu_lt x Hv)) as [Hs1 Hs2].
  specialize (Hl x Hv). specialize (Hr x Hv).
  destruct (Nat.eqb_spec (xc x) j1) as [Ec|Ec]; [rewrite (upd_eq_self x c j1 Ec) in Hl, Hr|];
    destruct (Nat.eqb_spec (xm x) 0) as [E0|E0]; destruct (Nat.eqb_spec (xm x) mx) as [Ex|Ex];
    cbn [andb] in *; try lia; try split; try specialize (Hl E0); try specialize (Hr Ex); lra. Qed.

Variables (any_e same_e : bool).
Definition st_ok (st : trap_state) : Prop := length (ts_l st) = units /\ length (ts_r st) = units.
Local Notation stepf := (trap_step sh ud units B m c rv any_e same_e).

(* the amount by which one half of a scalar-mode iteration moves column ja of slice i0 towards
   column jb: the per-unit maximal violation, and at least [prev] with the matching Edgeworth trust *)
Definition T_amt (W : tens) (i0 ja jb : nat) (prev : list Q) : list Q :=
  if same_e then map2 qmax (T_raw W i0 ja jb) prev else T_raw W i0 ja jb.

Lemma T_step_el st j :
  trap_step sh ud units B m c rv false same_e st j =
  mkTS (T_hi_el (cjp j) (cjp (S j)) (T_lo_el (cjp j) (cjp (S j)) (ts_W st))) (ts_l st) (ts_r st).
Proof. reflexivity. Qed.
Lemma T_step_sc st j :
  trap_step sh ud units B m c rv true same_e st j =
  let lu := T_amt (ts_W st) 0 (cjp (S j)) (cjp j) (ts_l st) in
  let W1 := T_lo_sc (cjp (S j)) lu (ts_W st) in
  let ru := T_amt W1 mx (cjp j) (cjp (S j)) (ts_r st) in
  mkTS (T_hi_sc (cjp (S j)) ru W1) lu ru.
Proof. reflexivity. Qed.

Lemma T_amt_length W i0 ja jb prev : length prev = units -> length (T_amt W i0 ja jb prev) = units.
Proof. intros Hp. unfold T_amt, T_raw. destruct same_e; [rewrite map2_length|]; rewrite unit_viols_length; lia. Qed.
Lemma T_amt_nth W i0 ja jb prev u : length prev = units -> (u < units)%nat ->
  nth u (T_amt W i0 ja jb prev) 0 =
  if same_e then qmax (nth u (T_raw W i0 ja jb) 0) (nth u prev 0) else nth u (T_raw W i0 ja jb) 0.
Proof. intros Hp Hu. unfold T_amt. destruct same_e; [|reflexivity].
  apply nth_map2; [unfold T_raw; rewrite unit_viols_length|]; lia. Qed.

Lemma T_amt_nonneg W i0 ja jb prev u : length prev = units -> (u < units)%nat -> 0 <= nth u (T_amt W i0 ja jb prev) 0.
Proof. intros Hp Hu. rewrite T_amt_nth by assumption. pose proof (T_raw_nonneg W i0 ja jb u Hu).
  destruct same_e; qcases; lra. Qed.
Lemma T_amt_ge W i0 ja jb prev x : length prev = units -> valid sh x -> xm x = i0 ->
  W (upd x c ja) - W (upd x c jb) <= nth (xu x) (T_amt W i0 ja jb prev) 0.
Proof. intros Hp Hv Hx. rewrite T_amt_nth by (try apply T_xu_lt; assumption). pose proof (T_raw_ge W i0 ja jb x Hv Hx).
  destruct same_e; qcases; lra. Qed.
Lemma T_amt_prev {W i0 ja jb prev u} : length prev = units -> same_e = true -> (u < units)%nat ->
  nth u prev 0 <= nth u (T_amt W i0 ja jb prev) 0.
Proof. intros Hp E Hu. rewrite T_amt_nth, E by assumption. apply qmax_r. Qed.
Lemma T_amt_zero W i0 ja jb prev u : length prev = units -> (i0 < sm)%nat -> (ja < sc)%nat ->
  (forall x, valid sh x -> xm x = i0 -> W (upd x c ja) <= W (upd x c jb)) ->
  (u < units)%nat -> nth u prev 0 == 0 -> nth u (T_amt W i0 ja jb prev) 0 == 0.
Proof. intros Hp Hi Hja H Hu Hz. rewrite T_amt_nth by assumption. pose proof (T_raw_zero W i0 ja jb u Hu Hi Hja H).
  destruct same_e; qcases; lra. Qed.

Lemma T_step_ok st k : st_ok st -> st_ok (stepf st k).
Proof. intros [H1 H2]. destruct any_e.
  - rewrite T_step_sc. split; apply T_amt_length; assumption.
  - rewrite T_step_el. exact (conj H1 H2). Qed.

Lemma T_trap_step_spec st k : (S k < sc)%nat -> st_ok st ->
  step_spec (cjp k) (cjp (S k)) (ts_W st) (ts_W (stepf st k)).
Proof. intros Hk [Hl Hr].
  assert (Hj0 : (cjp k < sc)%nat) by (apply T_cj_lt; lia).
  assert (Hne : cjp k <> cjp (S k)) by (apply T_cjp_ne; lia).
  destruct any_e.
  - rewrite T_step_sc. cbv zeta. cbn [ts_W].
    eapply T_sc_step_spec; [exact Hne|exact Hj0|apply T_lo_sc_shift|apply T_hi_sc_shift| | |].
    + intros u Hu. cbv beta. split; [|apply T_amt_nonneg; assumption].
      pose proof (T_amt_nonneg (ts_W st) 0%nat (cjp (S k)) (cjp k) (ts_l st) u Hl Hu). lra.
    + intros x Hv Hx. cbv beta. pose proof (T_amt_ge (ts_W st) 0%nat (cjp (S k)) (cjp k) (ts_l st) x Hl Hv Hx). lra.
    + intros x Hv Hx. apply T_amt_ge; assumption.
  - rewrite T_step_el. cbn [ts_W].
    eapply T_el_step_spec; [exact Hne|exact Hj0|apply T_lo_el_hstep|apply T_hi_el_hstep]. Qed.

(* the trust between two columns: from j0 to j1 slice 0 does not increase and slice mx does
   not decrease.  The pass works in "logical" positions: position p is column cjp p. *)
Definition tpair (f : tens) (j0 j1 : nat) : Prop :=
  (forall x, valid sh x -> xm x = 0%nat -> f (upd x c j1) <= f (upd x c j0)) /\
  (forall x, valid sh x -> xm x = mx -> f (upd x c j0) <= f (upd x c j1)).
Local Notation lpair f p := (tpair f (cjp p) (cjp (S p))).

Lemma T_lpair_teq f g p : (S p < sc)%nat -> teq sh f g -> lpair f p -> lpair g p.
Proof. intros Hp E [H1 H2].
  assert (Hj0 : (cjp p < sc)%nat) by (apply T_cj_lt; lia). assert (Hj1 : (cjp (S p) < sc)%nat) by (apply T_cj_lt; lia).
  split; intros x Hv Hxm; rewrite <- (E _ (T_updc_valid x _ Hv Hj0)), <- (E _ (T_updc_valid x _ Hv Hj1)); auto. Qed.

Lemma T_ss_col {j0 j1 W W'} x j : step_spec j0 j1 W W' -> valid sh x -> (j < sc)%nat -> j <> j1 ->
  W' (upd x c j) == W (upd x c j).
Proof. intros H Hv Hj Hne. apply (T_ss_other _ H); [apply T_updc_valid; assumption|].
  rewrite T_updc_c; assumption. Qed.

Lemma T_ss_fix W W' k : (S k < sc)%nat -> step_spec (cjp k) (cjp (S k)) W W' -> lpair W' k.
Proof. intros Hk H. assert (Hj1 : (cjp (S k) < sc)%nat) by (apply T_cj_lt; lia).
  split; intros x Hv Hxm;
    pose proof (T_ss_col x (cjp k) H Hv ltac:(apply T_cj_lt; lia) ltac:(apply T_cjp_ne; lia)) as E;
    pose proof (T_updc_valid x _ Hv Hj1) as V1.
  - destruct (T_ss_lo _ H V1 (T_updc_c x _ Hv) (eq_trans (T_updc_m x _) Hxm)) as [_ G].
    rewrite upd_upd in G. lra.
  - destruct (T_ss_hi _ H V1 (T_updc_c x _ Hv) (eq_trans (T_updc_m x _) Hxm)) as [_ G].
    rewrite upd_upd in G. lra. Qed.

Lemma T_ss_keep W W' k p : (S k < sc)%nat -> (p < k)%nat ->
  step_spec (cjp k) (cjp (S k)) W W' -> lpair W p -> lpair W' p.
Proof. intros Hk Hp H [H1 H2].
  split; intros x Hv Hxm;
    rewrite (T_ss_col x (cjp p) H Hv), (T_ss_col x (cjp (S p)) H Hv)
      by (apply T_cj_lt || apply T_cjp_ne; lia); auto. Qed.

(* slice 0 only lowered, slice mx only raised, the rest untouched *)
Definition lr_rel (W W' : tens) : Prop := forall x, valid sh x ->
  (xm x = 0%nat -> W' x <= W x) /\ (xm x = mx -> W x <= W' x) /\ (xm x <> 0%nat -> xm x <> mx -> W' x == W x).
Lemma T_lr_refl W : lr_rel W W.
Proof. intros x Hv. repeat split; intros; lra. Qed.
Lemma T_lr_trans W1 W2 W3 : lr_rel W1 W2 -> lr_rel W2 W3 -> lr_rel W1 W3.
Proof. intros A A' x Hv. destruct (A x Hv) as (A1 & A2 & A3), (A' x Hv) as (B1 & B2 & B3). repeat split.
  - intros H. specialize (A1 H); specialize (B1 H); lra.
  - intros H. specialize (A2 H); specialize (B2 H); lra.
  - intros H H'. specialize (A3 H H'); specialize (B3 H H'); lra. Qed.
Lemma T_ss_lr j0 j1 W W' : step_spec j0 j1 W W' -> lr_rel W W'.
Proof. intros H x Hv. destruct (Nat.eq_dec (xc x) j1) as [E|E].
  - repeat split; intros.
    + apply (T_ss_lo x H Hv E); assumption.
    + apply (T_ss_hi x H Hv E); assumption.
    + apply (T_ss_mid x H Hv); assumption.
  - pose proof (T_ss_other x H Hv E). repeat split; intros; lra. Qed.
Lemma T_lr_mono_main W W' : lr_rel W W' -> mono_along sh m W -> mono_along sh m W'.
Proof. intros R Hmo x Hv Hs. specialize (Hmo x Hv Hs).
  set (y := upd x m (S (xm x))) in *. assert (Hvy : valid sh y) by (apply upd_valid; assumption).
  assert (Hym : xm y = S (xm x)) by (apply nth_upd_same; rewrite (valid_length sh x Hv); exact Hm).
  destruct (R x Hv) as (A1 & A2 & A3), (R y Hvy) as (B1 & B2 & B3).
  destruct (Nat.eq_dec (xm x) 0) as [E0|E0].
  - specialize (A1 E0). destruct (Nat.eq_dec (xm y) mx) as [Ey|Ey].
    + specialize (B2 Ey). lra.
    + specialize (B3 ltac:(lia) Ey). lra.
  - specialize (A3 E0 ltac:(lia)). destruct (Nat.eq_dec (xm y) mx) as [Ey|Ey].
    + specialize (B2 Ey); lra.
    + specialize (B3 ltac:(lia) Ey); lra. Qed.

Definition T_run (W : tens) : trap_state :=
  fold_left stepf (seq 0 (sc - 1)) (mkTS W (T_zeros units) (T_zeros units)).
(* induction over the iterations; the carried lists keep their length *)
Lemma T_run_inv (Inv : nat -> trap_state -> Prop) W :
  Inv 0%nat (mkTS W (T_zeros units) (T_zeros units)) ->
  (forall k st, (S k < sc)%nat -> st_ok st -> Inv k st -> Inv (S k) (stepf st k)) -> Inv (sc - 1)%nat (T_run W).
Proof. intros H0 Hs. unfold T_run.
  apply (T_fold_seq_inv stepf (fun k st => st_ok st /\ Inv k st) (sc - 1) 0%nat).
  - split; [split; apply T_zeros_length|exact H0].
  - intros k st Hk [Hok H]. split. apply T_step_ok; assumption. apply Hs; [lia|assumption|assumption]. Qed.

Lemma T_run_established W p : (S p < sc)%nat -> lpair (ts_W (T_run W)) p.
Proof. intros Hp.
  apply (T_run_inv (fun k st => forall p, (p < k)%nat -> lpair (ts_W st) p) W); [| |lia].
  - intros q Hq; lia.
  - intros k st Hk Hok Hq q Hlt. pose proof (T_trap_step_spec st k Hk Hok) as SS.
    destruct (Nat.eq_dec q k) as [->|Hne]. apply (T_ss_fix (ts_W st)); assumption.
    apply (T_ss_keep (ts_W st) _ k q); try assumption. lia. apply Hq; lia. Qed.

Lemma T_run_lr W : lr_rel W (ts_W (T_run W)).
Proof. apply (T_run_inv (fun _ st => lr_rel W (ts_W st))). apply T_lr_refl.
  intros k st Hk Hok Hq. eapply T_lr_trans. exact Hq. eapply T_ss_lr. apply T_trap_step_spec; assumption. Qed.
Lemma T_run_mono_main W : mono_along sh m W -> mono_along sh m (ts_W (T_run W)).
Proof. apply T_lr_mono_main. apply T_run_lr. Qed.

(* elementwise mode: order relations between neighbours survive.  This is the
   "square" argument of the docstring: the new value of a point is the min / max
   of itself and its predecessor along c, which is monotone in both and always
   equal to one of them. *)
Section Op.
Variable op : Q -> Q -> Q.
Hypothesis op_mono : forall a a' b b', a <= a' -> b <= b' -> op a b <= op a' b'.
Hypothesis op_sel : forall a b, op a b = a \/ op a b = b.

Lemma T_hstep_pmono_other i0 j0 j1 W W' P d up : is_hstep i0 op j0 j1 W W' -> (j0 < sc)%nat ->
  d <> m -> d <> c -> stable_along c P -> pmono sh P d up W -> pmono sh P d up W'.
Proof. intros H Hj0 Hdm Hdc Pc Hp x Hv Px Hs.
  set (y := upd x d (S (nth d x 0%nat))).
  assert (Hvy : valid sh y) by (apply upd_valid; assumption).
  pose proof (H x Hv) as Ex. pose proof (H y Hvy) as Ey.
  assert (Eym : xm y = xm x) by (apply nth_upd_other; auto).
  assert (Eyc : xc y = xc x) by (apply nth_upd_other; auto).
  rewrite Eym, Eyc in Ey.
  pose proof (Hp x Hv Px Hs) as G1. fold y in G1.
  set (z := upd x c j0) in *. assert (Hvz : valid sh z) by (apply T_updc_valid; assumption).
  assert (Ezd : nth d z 0%nat = nth d x 0%nat) by (apply nth_upd_other; auto).
  pose proof (Hp z Hvz (Pc x j0 Px)) as G2. rewrite Ezd in G2. specialize (G2 Hs).
  assert (Eyz : upd y c j0 = upd z d (S (nth d x 0%nat))) by (unfold y, z; apply upd_comm; auto).
  rewrite Eyz in Ey.
  destruct ((xm x =? i0)%nat && (xc x =? j1)%nat).
  - destruct up; rewrite Ex, Ey; apply op_mono; assumption.
  - destruct up; rewrite Ex, Ey; assumption. Qed.

Lemma T_hstep_pmono_cond i0 j0 j1 W W' P up : is_hstep i0 op j0 j1 W W' -> (j0 < sc)%nat ->
  (j0 = S j1 \/ j1 = S j0) -> stable_along c P -> pmono sh P c up W -> pmono sh P c up W'.
Proof. intros H Hj0 Hadj Pc Hp x Hv Px Hs.
  pose proof (H x Hv) as Ex. pose proof (H _ (T_updc_valid x _ Hv Hs)) as Ey.
  rewrite T_updc_m, T_updc_c, upd_upd in Ey by assumption.
  (* W is ordered between any two columns of the line through x; the predecessor column j0
     lies beyond whichever of the two neighbours is not updated, or is that neighbour *)
  assert (L : forall k1 k2, (k1 <= k2)%nat -> (k2 < sc)%nat ->
            if up then W (upd x c k1) <= W (upd x c k2) else W (upd x c k2) <= W (upd x c k1))
    by (intros; apply (pmono_le sh P c up W x Hp Pc Hv Px); assumption).
  pose proof (L (xc x) (S (xc x)) ltac:(lia) Hs) as G1. rewrite upd_self in G1.
  destruct (Nat.eqb_spec (xm x) i0) as [Ei|Ei]; cbn [andb] in Ex, Ey;
    [|destruct up; rewrite Ex, Ey; exact G1].
  destruct (Nat.eqb_spec (xc x) j1) as [Ea|Ea]; destruct (Nat.eqb_spec (S (xc x)) j1) as [Eb|Eb]; try lia.
  - pose proof (L j0 (S (xc x)) ltac:(lia) Hs) as G2.
    destruct (op_sel (W x) (W (upd x c j0))) as [S|S]; rewrite S in Ex; destruct up; lra.
  - pose proof (L (xc x) j0 ltac:(lia) Hj0) as G2. rewrite upd_self in G2.
    destruct (op_sel (W (upd x c (S (xc x)))) (W (upd x c j0))) as [S|S]; rewrite S in Ey; destruct up; lra.
  - destruct up; rewrite Ex, Ey; exact G1. Qed.
End Op.

Lemma T_run_el_pmono_other W P d up : any_e = false -> d <> m -> d <> c -> stable_along c P ->
  pmono sh P d up W -> pmono sh P d up (ts_W (T_run W)).
Proof. intros E ? ? Pc Hp. apply (T_run_inv (fun _ st => pmono sh P d up (ts_W st))). exact Hp.
  intros k st Hk _ Hq. destruct any_e; [discriminate|]. rewrite T_step_el. cbn [ts_W].
  assert (cjp k < sc)%nat by (apply T_cj_lt; lia).
  eapply (T_hstep_pmono_other qmax (fun a a' b b' => qmax_mono a b a' b')); [apply T_hi_el_hstep| | | | |]; try assumption.
  eapply (T_hstep_pmono_other qmin (fun a a' b b' => qmin_mono a b a' b')); [apply T_lo_el_hstep| | | | |]; assumption. Qed.
Lemma T_run_el_pmono_cond W P up : any_e = false -> stable_along c P ->
  pmono sh P c up W -> pmono sh P c up (ts_W (T_run W)).
Proof. intros E Pc Hp. apply (T_run_inv (fun _ st => pmono sh P c up (ts_W st))). exact Hp.
  intros k st Hk _ Hq. destruct any_e; [discriminate|]. rewrite T_step_el. cbn [ts_W].
  assert (cjp k < sc)%nat by (apply T_cj_lt; lia).
  assert (cjp k = S (cjp (S k)) \/ cjp (S k) = S (cjp k)) by (destruct (T_cj_adj rv sc k Hk); auto).
  eapply (T_hstep_pmono_cond qmax qmax_either); [apply T_hi_el_hstep| | | |]; try assumption.
  eapply (T_hstep_pmono_cond qmin qmin_either); [apply T_lo_el_hstep| | | |]; assumption. Qed.

(* scalar mode: every (m, c, unit) column moves rigidly *)
Lemma T_shift_rigid i0 j1 dl W W' : is_shift i0 j1 dl W W' -> rigid sh ud m c W W'.
Proof. intros H x y Hx Hy E1 E2 E3. rewrite (H x Hx), (H y Hy), E1, E2, E3. destruct (_ && _); lra. Qed.
Lemma T_run_rigid W : any_e = true -> rigid sh ud m c W (ts_W (T_run W)).
Proof. intros E. apply (T_run_inv (fun _ st => rigid sh ud m c W (ts_W st))). apply rigid_refl.
  intros k st Hk Hok Hq. destruct any_e; [|discriminate]. rewrite T_step_sc.
  eapply rigid_trans; [exact Hq|]. eapply rigid_trans; eapply T_shift_rigid; [apply T_lo_sc_shift|apply T_hi_sc_shift]. Qed.

(* scalar mode with the matching Edgeworth trust: the updates of consecutive
   columns are non-decreasing (that is what prior_update is for) *)
Definition cslope (f : tens) (i j : nat) (b : idx) : Q := f (at2 b m c (S i) j) - f (at2 b m c i j).
Local Notation lslope f i p b := (cslope f i (cjp p) b).
Definition ledge (f : tens) : Prop := forall p, (S p < sc)%nat -> forall i b, valid sh b -> (S i < sm)%nat ->
  lslope f i p b <= lslope f i (S p) b.
Definition slack (l r : nat -> Q) (i u : nat) : Q :=
  (if (i =? 0)%nat then l u else 0) + (if (S i =? mx)%nat then r u else 0).
Lemma T_slack_le l r l' r' i u : l u <= l' u -> r u <= r' u -> slack l r i u <= slack l' r' i u.
Proof. intros. unfold slack. destruct (i =? 0)%nat, (S i =? mx)%nat; lra. Qed.

Lemma T_cjp_eqb p q : (p < sc)%nat -> (q < sc)%nat -> (cjp p =? cjp q)%nat = (p =? q)%nat.
Proof. intros Hp Hq. destruct (Nat.eqb_spec p q) as [->|Hne]. apply Nat.eqb_refl.
  apply Nat.eqb_neq. apply T_cjp_ne; assumption. Qed.

Lemma T_sc_lslope W W1 W2 k lu ru i p b : (S k < sc)%nat ->
  is_shift 0 (cjp (S k)) (fun u => - lu u) W W1 -> is_shift mx (cjp (S k)) ru W1 W2 ->
  valid sh b -> (S i < sm)%nat -> (p < sc)%nat ->
  lslope W2 i p b == lslope W i p b + (if (p =? S k)%nat then slack lu ru i (xu b) else 0).
Proof. intros Hk S1 S2 Hv Hi Hp.
  assert (Hl : length b = length sh) by (apply valid_length; assumption).
  assert (Hjp : (cjp p < sc)%nat) by (apply T_cj_lt; assumption).
  assert (V0 : valid sh (at2 b m c i (cjp p))) by (apply at2_valid; [assumption|lia|assumption]).
  assert (V1 : valid sh (at2 b m c (S i) (cjp p))) by (apply at2_valid; [assumption|lia|assumption]).
  pose proof (S1 _ V0) as A0. pose proof (S1 _ V1) as A1. pose proof (S2 _ V0) as B0. pose proof (S2 _ V1) as B1.
  rewrite at2_nth_m, at2_nth_c, at2_nth_other in A0, A1, B0, B1 by lia.
  rewrite T_cjp_eqb in A0, A1, B0, B1 by lia.
  unfold cslope, slack.
  (* S i is not slice 0 and i is not slice mx *)
  replace (i =? mx)%nat with false in * by (symmetry; apply Nat.eqb_neq; lia).
  change (S i =? 0)%nat with false in *.
  destruct (p =? S k)%nat, (i =? 0)%nat, (S i =? mx)%nat; cbn [andb] in *; lra. Qed.

Definition ledge_inv (k : nat) (st : trap_state) : Prop :=
  (forall i p b, valid sh b -> (S i < sm)%nat -> (S p < sc)%nat -> p <> k ->
     lslope (ts_W st) i p b <= lslope (ts_W st) i (S p) b) /\
  (forall i b, valid sh b -> (S i < sm)%nat -> (S k < sc)%nat ->
     lslope (ts_W st) i k b - slack (fun u => nth u (ts_l st) 0) (fun u => nth u (ts_r st) 0) i (xu b)
     <= lslope (ts_W st) i (S k) b).

Lemma T_sc_step_ledge st k : same_e = true -> (S k < sc)%nat -> st_ok st -> ledge_inv k st ->
  ledge_inv (S k) (trap_step sh ud units B m c rv true same_e st k).
Proof. intros Es Hk [Hl Hr] (Hb & Hc'). rewrite T_step_sc. cbv zeta.
  set (lu := T_amt (ts_W st) 0 (cjp (S k)) (cjp k) (ts_l st)).
  set (W1 := T_lo_sc (cjp (S k)) lu (ts_W st)).
  set (ru := T_amt W1 mx (cjp k) (cjp (S k)) (ts_r st)).
  assert (L : forall i p b, valid sh b -> (S i < sm)%nat -> (p < sc)%nat ->
            lslope (T_hi_sc (cjp (S k)) ru W1) i p b == lslope (ts_W st) i p b +
              (if (p =? S k)%nat then slack (fun u => nth u lu 0) (fun u => nth u ru 0) i (xu b) else 0))
    by (intros; apply (T_sc_lslope (ts_W st) W1 _ k); [assumption|apply T_lo_sc_shift|apply T_hi_sc_shift|assumption..]).
  unfold ledge_inv. cbn [ts_W ts_l ts_r]. split.
  - intros i p b Hv Hi Hp Hne. rewrite !L by (assumption || lia).
    destruct (Nat.eqb_spec p (S k)); [lia|]. destruct (Nat.eqb_spec (S p) (S k)) as [E|E].
    + assert (p = k) by lia. subst p. specialize (Hc' i b Hv Hi Hk).
      pose proof (T_slack_le (fun u => nth u (ts_l st) 0) (fun u => nth u (ts_r st) 0)
                    (fun u => nth u lu 0) (fun u => nth u ru 0) i (xu b)
                    (T_amt_prev Hl Es (T_xu_lt b Hv)) (T_amt_prev Hr Es (T_xu_lt b Hv))). lra.
    + specialize (Hb i p b Hv Hi Hp ltac:(lia)). lra.
  - intros i b Hv Hi Hk2. rewrite !L by (assumption || lia). rewrite Nat.eqb_refl.
    destruct (Nat.eqb_spec (S (S k)) (S k)); [lia|].
    specialize (Hb i (S k) b Hv Hi Hk2 ltac:(lia)). lra. Qed.

Lemma T_run_keeps_matching W : any_e = true -> same_e = true -> ledge W -> ledge (ts_W (T_run W)).
Proof. intros Ea Es HW.
  assert (H : ledge_inv (sc - 1) (T_run W)).
  { apply T_run_inv.
    - split; cbn [ts_W ts_l ts_r].
      + intros; apply HW; assumption.
      + intros i b Hv Hi Hk. unfold slack. rewrite !T_zeros_nth. specialize (HW 0%nat Hk i b Hv Hi).
        destruct (i =? 0)%nat, (S i =? mx)%nat; lra.
    - intros k st Hk Hok Hinv. destruct any_e; [|discriminate]. apply T_sc_step_ledge; assumption. }
  intros p Hp i b Hv Hi. destruct H as (Hb & _). apply Hb; try assumption. lia. Qed.

Lemma T_hstep_id {i0 op j0 j1 W W'} : is_hstep i0 op j0 j1 W W' ->
  (forall x, valid sh x -> xm x = i0 -> xc x = j1 -> op (W x) (W (upd x c j0)) == W x) -> teq sh W' W.
Proof. intros H Hid x Hv. rewrite (H x Hv).
  destruct (Nat.eqb_spec (xm x) i0), (Nat.eqb_spec (xc x) j1); cbn [andb]; try reflexivity. apply Hid; assumption. Qed.
Lemma T_shift_id {i0 j1 dl W W'} : is_shift i0 j1 dl W W' -> (forall u, (u < units)%nat -> dl u == 0) -> teq sh W' W.
Proof. intros H Hz x Hv. rewrite (H x Hv). destruct (_ && _); [|reflexivity]. rewrite (Hz _ (T_xu_lt x Hv)). lra. Qed.

Definition zero_lr (st : trap_state) : Prop :=
  forall u, (u < units)%nat -> nth u (ts_l st) 0 == 0 /\ nth u (ts_r st) 0 == 0.

Lemma T_step_fixed st k : (S k < sc)%nat -> st_ok st -> lpair (ts_W st) k -> zero_lr st ->
  teq sh (ts_W (stepf st k)) (ts_W st) /\ zero_lr (stepf st k).
Proof. intros Hk [Hl Hr] Hp Hz.
  assert (Hj0 : (cjp k < sc)%nat) by (apply T_cj_lt; lia). assert (Hj1 : (cjp (S k) < sc)%nat) by (apply T_cj_lt; lia).
  destruct any_e.
  - rewrite T_step_sc. cbv zeta. cbn [ts_W].
    set (lu := T_amt (ts_W st) 0 (cjp (S k)) (cjp k) (ts_l st)).
    set (W1 := T_lo_sc (cjp (S k)) lu (ts_W st)).
    set (ru := T_amt W1 mx (cjp k) (cjp (S k)) (ts_r st)).
    assert (Z1 : forall u, (u < units)%nat -> nth u lu 0 == 0)
      by (intros u Hu; apply T_amt_zero; try assumption; [lia|apply Hp|apply Hz; assumption]).
    assert (E1 : teq sh W1 (ts_W st)).
    { apply (T_shift_id (T_lo_sc_shift _ lu _)). intros u Hu. cbv beta. rewrite (Z1 u Hu). lra. }
    assert (Z2 : forall u, (u < units)%nat -> nth u ru 0 == 0).
    { intros u Hu. apply T_amt_zero; try assumption; [lia| |apply Hz; assumption].
      apply (T_lpair_teq (ts_W st)); [assumption|apply teq_sym; exact E1|exact Hp]. }
    split. eapply teq_trans; [|exact E1]. apply (T_shift_id (T_hi_sc_shift _ ru _)). exact Z2.
    intros u Hu. split; auto.
  - rewrite T_step_el. cbn [ts_W ts_l ts_r]. split; [|exact Hz].
    destruct Hp as [P1 P2].
    assert (E1 : teq sh (T_lo_el (cjp k) (cjp (S k)) (ts_W st)) (ts_W st)).
    { apply (T_hstep_id (T_lo_el_hstep _ _ _)). intros x Hv E0 Ec.
      specialize (P1 x Hv E0). rewrite (upd_eq_self x c _ Ec) in P1. qcases; lra. }
    eapply teq_trans; [|exact E1].
    apply (T_hstep_id (T_hi_el_hstep _ _ _)). intros x Hv E0 Ec.
    specialize (P2 x Hv E0). rewrite (upd_eq_self x c _ Ec) in P2.
    rewrite (E1 x Hv), (E1 _ (T_updc_valid x _ Hv Hj0)). qcases; lra. Qed.

Lemma T_run_fixed W : (forall p, (S p < sc)%nat -> lpair W p) -> teq sh (ts_W (T_run W)) W.
Proof. intros HW.
  assert (H : teq sh (ts_W (T_run W)) W /\ zero_lr (T_run W)).
  { apply (T_run_inv (fun _ st => teq sh (ts_W st) W /\ zero_lr st)).
    - split. apply teq_refl. intros u Hu. cbn [ts_l ts_r]. rewrite !T_zeros_nth. split; reflexivity.
    - intros k st Hk Hok (Ht & Hz).
      assert (Hp : lpair (ts_W st) k) by (apply (T_lpair_teq W); [assumption|apply teq_sym; exact Ht|apply HW; assumption]).
      destruct (T_step_fixed st k Hk Hok Hp Hz) as [E Z]. split; [|exact Z]. eapply teq_trans; eassumption. }
  apply H. Qed.
End Trap.

Definition trap_ctx (sh : list nat) (ud units m c : nat) : Prop :=
  m <> c /\ m <> ud /\ c <> ud /\ (m < length sh)%nat /\ (c < length sh)%nat /\ (ud < length sh)%nat /\
  nth ud sh 0%nat = units /\ (2 <= nth m sh 0%nat)%nat.

Lemma T_behind_at sh ud units m c : trap_ctx sh ud units m c ->
  forall b u i j, In b (behind sh [m; c; ud]) -> (u < units)%nat -> (i < nth m sh 0%nat)%nat -> (j < nth c sh 0%nat)%nat ->
  valid sh (at2 (upd b ud u) m c i j).
Proof. intros (Hmc & Hmu & Hcu & Hm & Hc & Hud & Hun & Hm2) b u i j Hb Hu Hi Hj. subst units.
  apply at2_valid; try assumption. apply upd_valid; [|assumption].
  apply (behind_valid sh [m; c; ud]); [|assumption].
  intros d [<-|[<-|[<-|[]]]] _; lia. Qed.

Definition T_any (edge : list trust) : bool := match edge with [] => false | _ => true end.
Lemma T_trapezoid_one_run sh ud units edge W m c dir :
  trapezoid_one sh ud units edge W (m, c, dir) =
  ts_W (T_run sh ud units m c (dir <? 0)%Z (behind sh [m; c; ud]) (T_any edge)
              (existsb (trust_eqb (m, c, dir)) edge) W).
Proof. reflexivity. Qed.

Lemma T_dir_cases dir : dir <> 0%Z ->
  ((dir <? 0)%Z = false /\ (0 <? dir)%Z = true) \/ ((dir <? 0)%Z = true /\ (0 <? dir)%Z = false).
Proof. intros. destruct (Z.ltb_spec dir 0), (Z.ltb_spec 0 dir); try lia; auto. Qed.

Lemma T_trap_tpair sh m c dir f : m <> c -> (m < length sh)%nat -> (c < length sh)%nat -> (1 <= nth m sh 0%nat)%nat ->
  (trapezoid_holds sh (m, c, dir) f <-> forall j, (S j < nth c sh 0%nat)%nat ->
     if (0 <? dir)%Z then tpair sh m c f j (S j) else tpair sh m c f (S j) j).
Proof. intros Hmc Hm Hc H1. unfold trapezoid_holds, tpair. cbv zeta. split.
  - intros H j Hj. destruct (0 <? dir)%Z; split; intros x Hv Hx; destruct (H x j Hv Hj) as [G1 G2];
      unfold at2 in G1, G2; rewrite (upd_eq_self x m _ Hx) in *; assumption.
  - intros H b j Hv Hj. specialize (H j Hj).
    assert (V : forall i, (i < nth m sh 0)%nat -> valid sh (upd b m i) /\ nth m (upd b m i) 0%nat = i).
    { intros i Hi. split; [apply upd_valid; assumption|]. apply nth_upd_same. rewrite (valid_length sh b Hv). exact Hm. }
    destruct (V 0%nat ltac:(lia)) as [V0 M0]. destruct (V (nth m sh 0 - 1)%nat ltac:(lia)) as [Vx Mx].
    unfold at2. destruct (0 <? dir)%Z; destruct H as [G1 G2]; split; (apply G1 || apply G2); assumption. Qed.

Lemma T_cj_pairs rv sc (Q : nat -> nat -> Prop) :
  (forall p, (S p < sc)%nat -> Q (cj rv sc p) (cj rv sc (S p))) <->
  (forall j, (S j < sc)%nat -> if rv then Q (S j) j else Q j (S j)).
Proof. unfold cj. destruct rv; [|reflexivity]. split; intros H k Hk; specialize (H (sc - 2 - k)%nat ltac:(lia)).
  - replace (sc - 1 - (sc - 2 - k))%nat with (S k) in H by lia.
    replace (sc - 1 - S (sc - 2 - k))%nat with k in H by lia. exact H.
  - replace (S (sc - 2 - k)) with (sc - 1 - k)%nat in H by lia.
    replace (sc - 2 - k)%nat with (sc - 1 - S k)%nat in H by lia. exact H. Qed.

Lemma T_trap_lpair sh m c dir f : m <> c -> (m < length sh)%nat -> (c < length sh)%nat -> (1 <= nth m sh 0%nat)%nat ->
  dir <> 0%Z ->
  (trapezoid_holds sh (m, c, dir) f <->
   forall p, (S p < nth c sh 0%nat)%nat ->
     tpair sh m c f (cj (dir <? 0)%Z (nth c sh 0%nat) p) (cj (dir <? 0)%Z (nth c sh 0%nat) (S p))).
Proof. intros Hmc Hm Hc H1 Hd. rewrite (T_cj_pairs _ _ (tpair sh m c f)), T_trap_tpair by assumption.
  destruct (T_dir_cases dir Hd) as [[-> ->]|[-> ->]]; reflexivity. Qed.

Lemma T_edge_ledge sh m c dir f : dir <> 0%Z ->
  (edgeworth_holds sh (m, c, dir) f <-> ledge sh m c (dir <? 0)%Z f).
Proof. intros Hd. unfold ledge.
  rewrite (T_cj_pairs _ _ (fun j j' => forall i b, valid sh b -> (S i < nth m sh 0)%nat ->
                                        cslope m c f i j b <= cslope m c f i j' b)).
  unfold edgeworth_holds, esq, cslope.
  destruct (T_dir_cases dir Hd) as [[-> ->]|[-> ->]]; split; intros H.
  - intros j Hj i b Hv Hi. specialize (H b i j Hv Hi Hj). lra.
  - intros b i j Hv Hi Hj. specialize (H j Hj i b Hv Hi). lra.
  - intros j Hj i b Hv Hi. specialize (H b i j Hv Hi Hj). lra.
  - intros b i j Hv Hi Hj. specialize (H j Hj i b Hv Hi). lra. Qed.

Lemma T_same_in t edge : In t edge -> existsb (trust_eqb t) edge = true.
Proof. intros H. apply existsb_exists. exists t. split; [assumption|]. destruct t as [[m c] d].
  unfold trust_eqb. rewrite !Nat.eqb_refl, Z.eqb_refl. reflexivity. Qed.
Lemma T_any_true edge : edge <> [] -> T_any edge = true.
Proof. destruct edge; [congruence|reflexivity]. Qed.

Section One.
Variables (sh : list nat) (ud units m c : nat) (dir : Z) (edge : list trust).
Hypothesis Hctx : trap_ctx sh ud units m c.
Local Notation T W := (trapezoid_one sh ud units edge W (m, c, dir)).
Local Notation BH := (behind sh [m; c; ud]).

Let Hmc : m <> c. Proof. apply Hctx. Qed.
Let Hmu : m <> ud. Proof. apply Hctx. Qed.
Let Hcu : c <> ud. Proof. apply Hctx. Qed.
Let Hm : (m < length sh)%nat. Proof. apply Hctx. Qed.
Let Hc : (c < length sh)%nat. Proof. apply Hctx. Qed.
Let Hud : (ud < length sh)%nat. Proof. apply Hctx. Qed.
Let Hun : nth ud sh 0%nat = units. Proof. apply Hctx. Qed.
Let Hm2 : (2 <= nth m sh 0%nat)%nat. Proof. apply Hctx. Qed.
(* the behind list meets the two hypotheses of Section Trap: its entries give valid indices
   (B_at, used where the pass is shown to do nothing) and every column has a representative
   in it (B_repr, used where a violation has to be seen by the per-unit maximum) *)
Let BA := T_behind_at sh ud units m c Hctx.
Let BR x := behind3_repr sh m c ud x Hmc Hmu Hcu.

Theorem trapezoid_one_established W : dir <> 0%Z -> trapezoid_holds sh (m, c, dir) (T W).
Proof. intros Hd. apply T_trap_lpair; try assumption. lia. intros p Hp. rewrite T_trapezoid_one_run.
  apply (T_run_established sh ud units m c _ BH Hmc Hmu Hcu Hm Hc Hud Hun Hm2 BR). exact Hp. Qed.

Theorem trapezoid_one_fixed W : dir <> 0%Z -> trapezoid_holds sh (m, c, dir) W -> teq sh (T W) W.
Proof. intros Hd H. rewrite T_trapezoid_one_run.
  apply (T_run_fixed sh ud units m c _ BH Hmc Hmu Hcu Hm Hc Hud Hun Hm2 BA).
  apply T_trap_lpair; try assumption. lia. Qed.

Theorem trapezoid_one_mono_main W : mono_along sh m W -> mono_along sh m (T W).
Proof. rewrite T_trapezoid_one_run.
  apply (T_run_mono_main sh ud units m c _ BH Hmc Hmu Hcu Hm Hc Hud Hun Hm2 BR). Qed.

Theorem trapezoid_one_pmono_other W P d up : d <> m -> d <> c -> d <> ud ->
  stable_along c P -> pmono sh P d up W -> pmono sh P d up (T W).
Proof. intros H1 H2 H3 Pc Hp. rewrite T_trapezoid_one_run. destruct edge as [|e0 er].
  - apply (T_run_el_pmono_other sh ud units m c _ BH Hmc Hmu Hcu Hm Hc Hud Hun Hm2); [reflexivity|exact H1|exact H2|exact Pc|exact Hp].
  - apply (rigid_pmono sh ud m c W); [|exact (conj H1 (conj H2 H3))|exact Hp].
    apply (T_run_rigid sh ud units m c _ BH Hmc Hmu Hcu Hm Hc Hud Hun Hm2). reflexivity. Qed.

Theorem trapezoid_one_pmono_cond_elementwise W P up : edge = [] ->
  stable_along c P -> pmono sh P c up W -> pmono sh P c up (T W).
Proof. intros -> Pc Hp. rewrite T_trapezoid_one_run.
  apply (T_run_el_pmono_cond sh ud units m c _ BH Hmc Hmu Hcu Hm Hc Hud Hun Hm2); [reflexivity|exact Pc|exact Hp]. Qed.

Theorem trapezoid_one_mono_other W d : d <> m -> d <> c -> d <> ud -> (d < length sh)%nat ->
  mono_along sh d W -> mono_along sh d (T W).
Proof. intros H1 H2 H3 _ H. apply mono_along_pmono. apply trapezoid_one_pmono_other; try assumption.
  intros x j _; exact I. apply mono_along_pmono; assumption. Qed.

Theorem trapezoid_one_mono_cond_elementwise W : edge = [] -> mono_along sh c W -> mono_along sh c (T W).
Proof. intros He H. apply mono_along_pmono. apply trapezoid_one_pmono_cond_elementwise; try assumption.
  intros x j _; exact I. apply mono_along_pmono; assumption. Qed.

Theorem trapezoid_one_keeps_trapezoid_other W m2 c2 d2 :
  m2 <> c2 -> (m2 < length sh)%nat -> (c2 < length sh)%nat -> (1 <= nth m2 sh 0%nat)%nat ->
  m2 <> c -> c2 <> m -> c2 <> c -> c2 <> ud ->
  trapezoid_holds sh (m2, c2, d2) W -> trapezoid_holds sh (m2, c2, d2) (T W).
Proof. intros Hne H1 H2 H3 Hx1 Hx2 Hx3 Hx4 H.
  apply trapezoid_pmono in H; try assumption. destruct H as [A1 A2].
  apply trapezoid_pmono; try assumption.
  split; apply trapezoid_one_pmono_other; try assumption; apply slice_stable; assumption. Qed.

(* an earlier trapezoid trust with the SAME conditional dimension: elementwise mode
   (the claim of the docstring of _approximately_project_trapezoid) *)
Theorem trapezoid_one_keeps_trapezoid_shared_cond_elementwise W m2 d2 : edge = [] ->
  m2 <> c -> (m2 < length sh)%nat -> (1 <= nth m2 sh 0%nat)%nat ->
  trapezoid_holds sh (m2, c, d2) W -> trapezoid_holds sh (m2, c, d2) (T W).
Proof. intros He Hne H1 H3 H.
  apply trapezoid_pmono in H; try assumption. destruct H as [A1 A2].
  apply trapezoid_pmono; try assumption.
  split; apply trapezoid_one_pmono_cond_elementwise; try assumption; apply slice_stable; assumption. Qed.

(* scalar mode keeps Edgeworth trusts; the trust on the same (m, c) pair needs prior_update *)
Theorem trapezoid_one_keeps_edgeworth W m2 c2 d2 : edge <> [] ->
  m2 <> c2 -> m2 <> ud -> c2 <> ud -> m2 <> c -> c2 <> m -> (m2 < length sh)%nat -> (c2 < length sh)%nat ->
  (m2 = m -> c2 = c -> d2 = dir /\ dir <> 0%Z /\ In (m, c, dir) edge) ->
  edgeworth_holds sh (m2, c2, d2) W -> edgeworth_holds sh (m2, c2, d2) (T W).
Proof. intros He Hne Hu1 Hu2 Hx1 Hx2 _ _ Hsame H.
  pose proof (T_run_rigid sh ud units m c (dir <? 0)%Z BH Hmc Hmu Hcu Hm Hc Hud Hun Hm2
                (T_any edge) (existsb (trust_eqb (m, c, dir)) edge) W (T_any_true edge He)) as R.
  rewrite <- T_trapezoid_one_run in R.
  destruct (Nat.eq_dec m2 m) as [E1|E1]; [destruct (Nat.eq_dec c2 c) as [E2|E2]|].
  - destruct (Hsame E1 E2) as (-> & Hd & Hin). subst m2 c2.
    apply T_edge_ledge; [assumption|]. apply T_edge_ledge in H; [|assumption].
    rewrite T_trapezoid_one_run.
    apply (T_run_keeps_matching sh ud units m c _ BH Hmc Hmu Hcu Hm Hc Hud Hun Hm2); try assumption.
    apply T_any_true; assumption. apply T_same_in; assumption.
  - apply (rigid_edgeworth sh ud m c W); try assumption. right. unfold inner. auto.
  - apply (rigid_edgeworth sh ud m c W); try assumption. left. unfold inner. auto. Qed.
End One.

Section ListLevel.
Variable cf : lat_cfg.
Hypothesis Hcv : cfg_valid cf.
Local Notation sh := (l_shape cf).
Local Notation ud := (l_ud cf).
Local Notation units := (l_units cf).
Local Notation TT := (trapezoid_one (l_shape cf) (l_ud cf) (l_units cf) (l_edge cf)).

Lemma T_cfg_trust m c dir : In (m, c, dir) (all_trusts cf) ->
  trap_ctx sh ud units m c /\ dir <> 0%Z /\ (m < ud)%nat /\ (c < ud)%nat /\ nth m (l_monos cf) 0%Z = 1%Z.
Proof. intros Hin. destruct Hcv as (Hs & Hu & Hl & Hmon & Hok & Hdis & Hdir & _).
  destruct (Hok _ Hin) as (H1 & H2 & H3 & H4).
  pose proof (Hdis _ _ Hin Hin) as Hne. cbn [fst snd] in Hne.
  assert (Hctx : trap_ctx sh ud units m c).
  { unfold trap_ctx. rewrite l_shape_length. unfold l_ud.
    split; [exact Hne|]. split; [lia|]. split; [lia|]. split; [lia|]. split; [lia|]. split; [lia|].
    split. apply l_ud_units. unfold l_shape. rewrite size_axis_nth by assumption. apply Hs. apply nth_In; assumption. }
  split; [exact Hctx|]. split; [destruct H4; lia|]. unfold l_ud. auto. Qed.

Lemma T_ud_sh : (ud < length sh)%nat /\ length sh = S ud.
Proof. split. apply l_ud_lt. apply l_shape_length. Qed.

(* one pass keeps the order along a monotone dimension d unless (scalar mode and) d is its
   conditional dimension: the rigid shift of a whole column can only break the order along c *)
Lemma T_pass_mono_dim t W d : In t (l_trap cf) -> In d (mono_dims (l_monos cf)) ->
  (l_edge cf = [] \/ snd (fst t) <> d) -> mono_along sh d W -> mono_along sh d (TT W t).
Proof. intros Hin Hd Hg HW. destruct t as [[m c] dir]. cbn [fst snd] in Hg.
  destruct (T_cfg_trust m c dir (trap_in_all _ _ Hin)) as (Hctx & Hdir & Hmu & Hcu & _).
  pose proof (cfg_mono_dims_lt cf d Hcv Hd) as Hdl. destruct T_ud_sh as [_ Hlen].
  destruct (Nat.eq_dec d m) as [->|Hdm]. { apply trapezoid_one_mono_main; auto. }
  destruct (Nat.eq_dec d c) as [->|Hdc].
  - destruct Hg as [He|Hne]; [|congruence]. apply trapezoid_one_mono_cond_elementwise; auto.
  - apply trapezoid_one_mono_other; auto; lia. Qed.

Theorem approx_trapezoid_mono_dim W d : In d (mono_dims (l_monos cf)) ->
  (l_edge cf = [] \/ forall t, In t (l_trap cf) -> snd (fst t) <> d) ->
  mono_along sh d W -> mono_along sh d (approx_trapezoid sh ud units (l_trap cf) (l_edge cf) W).
Proof. intros Hd Hg HW. unfold approx_trapezoid. apply (fold_left_inv TT (mono_along sh d)); [exact HW|].
  intros W' t Hin H. apply T_pass_mono_dim; try assumption.
  destruct Hg as [He|Hg]; [left; exact He|right; apply Hg; exact Hin]. Qed.

(* unless a trapezoid trust has a monotone conditional feature while Edgeworth trusts are
   present, no monotone dimension is excluded *)
Lemma T_not_d1 d : ~ trap_mono_cond_with_edgeworth cf -> In d (mono_dims (l_monos cf)) ->
  l_edge cf = [] \/ forall t, In t (l_trap cf) -> snd (fst t) <> d.
Proof. intros Hg Hd. destruct (l_edge cf) as [|e er] eqn:Ee; [left; reflexivity|right].
  intros t Hin E. apply Hg. split; [rewrite Ee; discriminate|]. exists t. split; [exact Hin|]. rewrite E.
  destruct Hcv as (_ & _ & _ & Hmon & _). apply mono_dims_spec in Hd. destruct Hd as [Hdl Hdn].
  destruct (Hmon (nth d (l_monos cf) 0%Z)) as [E0|E1]; [apply nth_In; exact Hdl|congruence|exact E1]. Qed.

Theorem approx_trapezoid_mono W : ~ trap_mono_cond_with_edgeworth cf ->
  monotone_kernel cf W -> monotone_kernel cf (approx_trapezoid sh ud units (l_trap cf) (l_edge cf) W).
Proof. intros Hg HW d Hd. apply approx_trapezoid_mono_dim; [exact Hd|apply T_not_d1; assumption|apply HW; exact Hd]. Qed.

Lemma T_pass_edgeworth t W : In t (l_trap cf) ->
  (forall te, In te (l_edge cf) -> edgeworth_holds sh te W) ->
  forall te, In te (l_edge cf) -> edgeworth_holds sh te (TT W t).
Proof. intros Hin HW te Hte. destruct t as [[m c] dir]. destruct te as [[m2 c2] d2].
  destruct (T_cfg_trust m c dir (trap_in_all _ _ Hin)) as (Hctx & Hdir & Hmu & Hcu & _).
  destruct (T_cfg_trust m2 c2 d2 (edge_in_all _ _ Hte)) as (Hctx2 & Hdir2 & Hmu2 & Hcu2 & _).
  pose proof (cfg_trust_cross cf _ _ Hcv (edge_in_all _ _ Hte) (trap_in_all _ _ Hin)) as X1. cbn [fst snd] in X1.
  pose proof (cfg_trust_cross cf _ _ Hcv (trap_in_all _ _ Hin) (edge_in_all _ _ Hte)) as X2. cbn [fst snd] in X2.
  destruct Hctx2 as (Hne2 & _). destruct T_ud_sh as [_ Hlen].
  apply trapezoid_one_keeps_edgeworth; auto; try lia.
  - intro E. rewrite E in Hte. exact Hte.
  - intros -> ->. pose proof (cfg_trust_dir cf _ _ Hcv (edge_in_all _ _ Hte) (trap_in_all _ _ Hin) eq_refl) as E. cbn [snd] in E.
    subst d2. auto. Qed.

Theorem approx_trapezoid_keeps_edgeworth W :
  (forall te, In te (l_edge cf) -> edgeworth_holds sh te W) ->
  forall te, In te (l_edge cf) ->
    edgeworth_holds sh te (approx_trapezoid sh ud units (l_trap cf) (l_edge cf) W).
Proof. intros HW. unfold approx_trapezoid.
  apply (fold_left_inv TT (fun W' => forall te, In te (l_edge cf) -> edgeworth_holds sh te W')); [exact HW|].
  intros W' t Hin H. apply T_pass_edgeworth; assumption. Qed.

Theorem approx_trapezoid_fixed W : (forall t, In t (l_trap cf) -> trapezoid_holds sh t W) ->
  teq sh (approx_trapezoid sh ud units (l_trap cf) (l_edge cf) W) W.
Proof. intros HW. unfold approx_trapezoid.
  apply (fold_left_inv TT (fun W' => teq sh W' W)); [apply teq_refl|].
  intros W' t Hin E. destruct t as [[m c] dir].
  destruct (T_cfg_trust m c dir (trap_in_all _ _ Hin)) as (Hctx & Hdir & _).
  eapply teq_trans; [|exact E]. apply trapezoid_one_fixed; try assumption.
  apply (trapezoid_holds_teq sh _ W W'). apply teq_sym; exact E. apply HW; assumption. Qed.

Lemma T_pass_keeps_trapezoid t0 t W : In t0 (l_trap cf) -> In t (l_trap cf) ->
  (l_edge cf <> [] -> snd (fst t) <> snd (fst t0)) ->
  trapezoid_holds sh t W -> trapezoid_holds sh t (TT W t0).
Proof. intros Hin0 Hin Hdist H. destruct t0 as [[m c] dir]. destruct t as [[m2 c2] d2]. cbn [fst snd] in Hdist.
  destruct (T_cfg_trust m c dir (trap_in_all _ _ Hin0)) as (Hctx & Hdir & Hmu & Hcu & _).
  destruct (T_cfg_trust m2 c2 d2 (trap_in_all _ _ Hin)) as (Hctx2 & Hdir2 & Hmu2 & Hcu2 & _).
  pose proof (cfg_trust_cross cf _ _ Hcv (trap_in_all _ _ Hin) (trap_in_all _ _ Hin0)) as X1. cbn [fst snd] in X1.
  pose proof (cfg_trust_cross cf _ _ Hcv (trap_in_all _ _ Hin0) (trap_in_all _ _ Hin)) as X2. cbn [fst snd] in X2.
  destruct Hctx2 as (Hne2 & _ & _ & Hl1 & Hl2 & _ & _ & Hs2).
  destruct (Nat.eq_dec c2 c) as [->|Hcc].
  - destruct (l_edge cf) as [|e0 er] eqn:Ee.
    + apply trapezoid_one_keeps_trapezoid_shared_cond_elementwise; auto. lia.
    + exfalso. apply Hdist; [discriminate|reflexivity].
  - apply trapezoid_one_keeps_trapezoid_other; auto; lia. Qed.

Theorem approx_trapezoid_established W : ~ documented_exception cf ->
  forall t, In t (l_trap cf) ->
    trapezoid_holds sh t (approx_trapezoid sh ud units (l_trap cf) (l_edge cf) W).
Proof. intros Hg t Hin. unfold approx_trapezoid.
  apply (fold_left_establishes TT (fun W t => trapezoid_holds sh t W)
           (fun t1 t2 => l_edge cf <> [] -> snd (fst t1) <> snd (fst t2)) (fun t => In t (l_trap cf))).
  - intros W' [[m c] dir] Hp. destruct (T_cfg_trust m c dir (trap_in_all _ _ Hp)) as (Hctx & Hdir & _).
    apply trapezoid_one_established; assumption.
  - intros W' p q Hp Hq HR. apply T_pass_keeps_trapezoid; assumption.
  - apply Forall_forall. auto.
  - apply StronglySorted_splits. intros l1 t1 l2 t2 l3 E He Hc. apply Hg. split; [exact He|]. exists t1, t2, l1, l2, l3. auto.
  - exact Hin.
  - left; exact Hin. Qed.
End ListLevel.

(* the hypotheses are satisfiable; the guards are needed *)
Example T_cfg_example :
  let cf := mkLat [2; 3]%nat 2 [1; 0]%Z [(0, 1, 1%Z)]%nat [(0, 1, 1%Z)]%nat None None in
  cfg_valid cf /\ ~ documented_exception cf /\ ~ trap_mono_cond_with_edgeworth cf.
Proof. cbv zeta. split; [|split].
  - apply cfg_validb_ok. reflexivity.
  - intros (_ & t1 & t2 & l1 & l2 & l3 & E & _). cbn [l_trap] in E.
    apply (f_equal (@length trust)) in E. rewrite app_length in E. cbn [length] in E.
    rewrite app_length in E. cbn [length] in E. lia.
  - intros (_ & t & [<-|[]] & E). cbn in E. discriminate. Qed.

(* scalar mode (Edgeworth trusts present) with a monotone conditional feature:
   the rigid shift of a whole column breaks monotonicity along c (finding D1) *)
Example T_scalar_breaks_mono_cond :
  let sh := [2; 2; 2; 1]%nat in
  let W := of_list sh [0; 0; 5; 0; 10; 10; 10; 10] in
  trap_ctx sh 3 1 0 1 /\ mono_along sh 1 W /\
  ~ mono_along sh 1 (trapezoid_one sh 3 1 [(0, 1, 1%Z)]%nat W (0, 1, 1%Z)%nat).
Proof. cbv zeta. split; [|split].
  - unfold trap_ctx. cbn. repeat split; lia.
  - apply mono_alongb_ok. vm_compute. reflexivity.
  - intros H. specialize (H [0; 0; 1; 0]%nat).
    assert (Hv : valid [2; 2; 2; 1]%nat [0; 0; 1; 0]%nat) by (repeat constructor).
    specialize (H Hv ltac:(cbn; lia)). apply Qle_bool_iff in H. vm_compute in H. discriminate. Qed.

(* scalar mode with two trapezoid trusts sharing the conditional feature (the
   documented exception): the later pass breaks the earlier trust *)
Example T_scalar_breaks_shared_cond_trapezoid :
  let sh := [2; 2; 2; 2; 1]%nat in
  let W := of_list sh [0; 0; 5; 0; 0; 0; 0; 0; 0; 0; 0; 0; 0; 0; 0; 0] in
  trap_ctx sh 4 1 2 1 /\ trapezoid_holds sh (0, 1, 1%Z)%nat W /\
  ~ trapezoid_holds sh (0, 1, 1%Z)%nat (trapezoid_one sh 4 1 [(0, 1, 1%Z)]%nat W (2, 1, 1%Z)%nat) /\
  (* ... while the elementwise mode keeps it *)
  trapezoid_holds sh (0, 1, 1%Z)%nat (trapezoid_one sh 4 1 [] W (2, 1, 1%Z)%nat).
Proof. cbv zeta.
  assert (Hctx : trap_ctx [2; 2; 2; 2; 1]%nat 4 1 2 1) by (unfold trap_ctx; cbn; repeat split; lia).
  assert (H0 : trapezoid_holds [2; 2; 2; 2; 1]%nat (0, 1, 1%Z)%nat
                 (of_list [2; 2; 2; 2; 1]%nat [0; 0; 5; 0; 0; 0; 0; 0; 0; 0; 0; 0; 0; 0; 0; 0])).
  { apply trapezoid_holdsb_ok. vm_compute. reflexivity. }
  split; [exact Hctx|]. split; [exact H0|]. split.
  - intros H. specialize (H [0; 0; 1; 1; 0]%nat 0%nat).
    assert (Hv : valid [2; 2; 2; 2; 1]%nat [0; 0; 1; 1; 0]%nat) by (repeat constructor).
    specialize (H Hv ltac:(cbn; lia)). destruct H as [H _]. apply Qle_bool_iff in H. vm_compute in H. discriminate.
  - apply trapezoid_one_keeps_trapezoid_shared_cond_elementwise; try assumption; try reflexivity; cbn; lia. Qed.

Print Assumptions trapezoid_one_established.
Print Assumptions trapezoid_one_fixed.
Print Assumptions trapezoid_one_mono_main.
Print Assumptions trapezoid_one_mono_other.
Print Assumptions trapezoid_one_mono_cond_elementwise.
Print Assumptions trapezoid_one_keeps_edgeworth.
Print Assumptions trapezoid_one_keeps_trapezoid_other.
Print Assumptions trapezoid_one_keeps_trapezoid_shared_cond_elementwise.
Print Assumptions approx_trapezoid_established.
Print Assumptions approx_trapezoid_mono.
Print Assumptions approx_trapezoid_keeps_edgeworth.
Print Assumptions approx_trapezoid_fixed.
