(* C20 closed over C06: the Linear layer evaluated with the weights that its own
   kernel constraint (linear_lib.project, Model/LinearProject.v) returns.  The
   weight conditions that Proofs/LinearEval.v takes as hypotheses are discharged
   here from the theorems of Proofs/LinearProject.v, for every kernel column and
   every valid configuration (lin_valid = what verify_hyperparameters checks,
   plus acyclic dominance graphs).  The bounds the layer clips by are the bounds
   of the same configuration (layer_bounds). *)
From TFL Require Import Model.LinearLayer Proofs.LinearEval Proofs.PartialOrder Proofs.TopoSort Proofs.LinearProject.
Open Scope Q_scope.

Lemma layer_bounds_length c n : length (layer_bounds c n) = n.
Proof. unfold layer_bounds. rewrite map_length, seq_length. reflexivity. Qed.
Lemma layer_bounds_nth c n i : (i < n)%nat ->
  nth i (layer_bounds c n) nob = (nth i (lc_min c) None, nth i (lc_max c) None).
Proof. intros H. unfold layer_bounds.
  exact (nth_map_seq (fun i => (nth i (lc_min c) None, nth i (lc_max c) None)) n i nob H). Qed.

Lemma proj_length {rt c n w r} : lin_valid c n -> length w = n -> lin_project_col rt c w = Some r -> length r = n.
Proof. intros V L E. destruct (lin_defined rt c n w V L) as [r' [E' L']]. congruence. Qed.

(* y is at or above x in every increasing input, at or below in every
   decreasing input, and equal in every unconstrained input *)
Definition dir_le (c : lin_cfg) (x y : list Q) : Prop := forall i,
  (mono c i = 1%Z -> nth i x 0 <= nth i y 0) /\ (mono c i = (-1)%Z -> nth i y 0 <= nth i x 0) /\
  (mono c i = 0%Z -> nth i x 0 == nth i y 0).

Lemma coords_ok_nth : forall ms k x y,
  (forall i, (i < length ms)%nat -> coord_ok (nth i ms 0%Z) (nth i k 0) (nth i x 0) (nth i y 0)) -> coords_ok ms k x y.
Proof. induction ms as [|m ms IH]; intros [|kq k] [|xq x] [|yq y] H; cbn in *; auto.
  split. apply (H 0%nat); lia. apply IH. intros i Hi. apply (H (S i)). lia. Qed.

Theorem projected_monotone rt c n w r b x y :
  lin_valid c n -> length w = n -> lin_project_col rt c w = Some r ->
  length x = n -> length y = n -> dir_le c x y ->
  lin_unit r b (layer_bounds c n) x <= lin_unit r b (layer_bounds c n) y.
Proof. intros V L E Lx Ly D. pose proof (proj_length V L E) as Lr.
  pose proof (lin_signs rt c n w r V L E) as S. pose proof (lv_monos_len c n V) as Lm.
  apply (lin_unit_monotone (lc_monos c)); try congruence.
  apply coords_ok_nth. intros i Hi. unfold coord_ok.
  destruct (S i) as [S1 S2]. destruct (D i) as [D1 [D2 D3]]. unfold mono in *.
  destruct (Z.eqb_spec (nth i (lc_monos c) 0%Z) 1) as [e|ne]; [split; auto|].
  destruct (Z.eqb_spec (nth i (lc_monos c) 0%Z) (-1)) as [e'|ne']; [split; auto|].
  apply D3. destruct (lv_monos_val c n V i) as [A|[A|A]]; unfold mono in A; congruence. Qed.

(* one constrained input moved, all others fixed: EVERY pair of values v <= v' *)
Theorem projected_monotone_coordinate rt c n w r b x i v v' :
  lin_valid c n -> length w = n -> lin_project_col rt c w = Some r -> length x = n -> (i < n)%nat -> v <= v' ->
  (mono c i = 1%Z -> lin_unit r b (layer_bounds c n) (set_nth i v x) <= lin_unit r b (layer_bounds c n) (set_nth i v' x)) /\
  (mono c i = (-1)%Z -> lin_unit r b (layer_bounds c n) (set_nth i v' x) <= lin_unit r b (layer_bounds c n) (set_nth i v x)).
Proof. intros V L E Lx Hi Hv. pose proof (proj_length V L E) as Lr.
  pose proof (lin_unit_set_diff r b (layer_bounds c n) x i ltac:(lia) ltac:(rewrite layer_bounds_length; lia) ltac:(lia) v v') as H.
  set (lo := fst (nth i (layer_bounds c n) nob)) in *. set (hi := snd (nth i (layer_bounds c n) nob)) in *.
  pose proof (clip_opt_mono lo hi v v' Hv) as Hc. destruct (lin_signs rt c n w r V L E i) as [S1 S2]. unfold mono.
  split; intros Hm.
  - specialize (S1 Hm). pose proof (qmul_nonneg (nth i r 0) (clip_opt lo hi v' - clip_opt lo hi v) S1 ltac:(lra)). lra.
  - specialize (S2 Hm). pose proof (qmul_nonneg (- nth i r 0) (clip_opt lo hi v' - clip_opt lo hi v) ltac:(lra) ltac:(lra)). lra. Qed.

(* "v is not clipped by the bound pair b" *)
Definition unclipped (b : bound) (v : Q) : Prop := clip_opt (fst b) (snd b) v == v.

(* moving the weak input by d >= 0 changes the output at most as much as
   moving the dominant input by d, wherever the dominant input is not clipped
   (the weak input may be clipped or not): for ANY weights with
   k_weak <= k_dom, 0 <= k_dom and ANY bounds *)
Theorem mdom_effect_unclipped k b bs x dom weak d :
  (dom < length k)%nat -> (weak < length k)%nat -> length bs = length k -> length x = length k ->
  0 <= d -> nth weak k 0 <= nth dom k 0 -> 0 <= nth dom k 0 ->
  unclipped (nth dom bs nob) (nth dom x 0) -> unclipped (nth dom bs nob) (nth dom x 0 + d) ->
  lin_unit k b bs (set_nth weak (nth weak x 0 + d) x) - lin_unit k b bs x <=
  lin_unit k b bs (set_nth dom (nth dom x 0 + d) x) - lin_unit k b bs x.
Proof. intros Hdn Hwn Lb Lx Hd Hle Hk0 U1 U2.
  destruct (mdom_effect_general k b bs x dom weak d Hdn Hwn Lb Lx Hd Hle Hk0) as (A & B & _).
  unfold unclipped in U1, U2. rewrite U1, U2 in B. rewrite B. lra. Qed.

(* and so for the weights the projection returns *)
Theorem projected_mdom_effect rt c n w r b x dom weak d :
  lin_valid c n -> length w = n -> lin_project_col rt c w = Some r -> length x = n ->
  In (dom, weak) (lc_mdom c) -> 0 <= d ->
  unclipped (nth dom (layer_bounds c n) nob) (nth dom x 0) ->
  unclipped (nth dom (layer_bounds c n) nob) (nth dom x 0 + d) ->
  lin_unit r b (layer_bounds c n) (set_nth weak (nth weak x 0 + d) x) - lin_unit r b (layer_bounds c n) x <=
  lin_unit r b (layer_bounds c n) (set_nth dom (nth dom x 0 + d) x) - lin_unit r b (layer_bounds c n) x.
Proof. intros V L E Lx Hin Hd U1 U2. pose proof (proj_length V L E) as Lr.
  destruct (lv_mdom c n V dom weak Hin) as [Hdn [Hwn [Md _]]].
  apply mdom_effect_unclipped; try assumption; [lia|lia|rewrite layer_bounds_length; lia|lia| |].
  - exact (lin_mdom rt c n w r V L E dom weak Hin).
  - exact (proj1 (lin_signs rt c n w r V L E dom) Md). Qed.

(* sweeping the dominant input across its whole range [ld, hd] changes the
   output at least as much as sweeping the weak input across [lw, hw], from
   every base point x; the ranges are the layer's own input_min/input_max *)
Theorem projected_rdom_effect rt c n w r b x dom weak :
  lin_valid c n -> length w = n -> lin_project_col rt c w = Some r -> length x = n ->
  In (dom, weak) (lc_rdom c) ->
  exists ld hd lw hw,
    nth dom (layer_bounds c n) nob = (Some ld, Some hd) /\ nth weak (layer_bounds c n) nob = (Some lw, Some hw) /\
    ld < hd /\ lw < hw /\
    (mono c dom = 1%Z ->
       lin_unit r b (layer_bounds c n) (set_nth weak hw x) - lin_unit r b (layer_bounds c n) (set_nth weak lw x) <=
       lin_unit r b (layer_bounds c n) (set_nth dom hd x) - lin_unit r b (layer_bounds c n) (set_nth dom ld x)) /\
    (mono c dom = (-1)%Z ->
       lin_unit r b (layer_bounds c n) (set_nth weak lw x) - lin_unit r b (layer_bounds c n) (set_nth weak hw x) <=
       lin_unit r b (layer_bounds c n) (set_nth dom ld x) - lin_unit r b (layer_bounds c n) (set_nth dom hd x)) /\
    qabs (lin_unit r b (layer_bounds c n) (set_nth weak hw x) - lin_unit r b (layer_bounds c n) (set_nth weak lw x)) <=
    qabs (lin_unit r b (layer_bounds c n) (set_nth dom hd x) - lin_unit r b (layer_bounds c n) (set_nth dom ld x)).
Proof. intros V L E Lx Hin. pose proof (proj_length V L E) as Lr.
  destruct (lin_rdom_explicit rt c n w r V L E dom weak Hin) as [ld [hd [lw [hw [A1 [A2 [A3 [B1 [B2 [B3 [Hinc Hdec]]]]]]]]]]].
  destruct (lv_rdom c n V dom weak Hin) as [Hdn [Hwn [Mdw [Mnz _]]]].
  exists ld, hd, lw, hw.
  assert (Ed : nth dom (layer_bounds c n) nob = (Some ld, Some hd)) by (rewrite layer_bounds_nth by exact Hdn; congruence).
  assert (Ew : nth weak (layer_bounds c n) nob = (Some lw, Some hw)) by (rewrite layer_bounds_nth by exact Hwn; congruence).
  split; [exact Ed|]. split; [exact Ew|]. split; [exact A3|]. split; [exact B3|].
  assert (Lb : length (layer_bounds c n) = length r) by (rewrite layer_bounds_length, Lr; reflexivity).
  rewrite <- Lr in Hdn, Hwn, Lx. unfold mono in *.
  split; [|split].
  - intros Hm. specialize (Hinc Hm). apply (lin_range_dominance_effect r b _ x dom weak ld hd lw hw Hdn Hwn Lb Lx Ed Ew); lra.
  - intros Hm. specialize (Hdec Hm). apply (rdom_effect_decreasing r b _ x dom weak ld hd lw hw Hdn Hwn Lb Lx Ed Ew); lra.
  - apply (rdom_effect_abs r b _ x dom weak ld hd lw hw Hdn Hwn Lb Lx Ed Ew); [lra|lra|].
    (* both weights have the sign of the common monotonicity *)
    destruct (lin_signs rt c n w r V L E dom) as [Sd1 Sd2]. destruct (lin_signs rt c n w r V L E weak) as [Sw1 Sw2].
    rewrite <- Mdw in Sw1, Sw2. destruct (lv_monos_val c n V dom) as [M|[M|M]]; unfold mono in M.
    + contradiction.
    + specialize (Hinc M). specialize (Sd1 M). specialize (Sw1 M). qcases; lra.
    + specialize (Hdec M). rewrite !qabs_nonpos by auto. lra. Qed.

Definition all_increasing (c : lin_cfg) (n : nat) : Prop := forall i, (i < n)%nat -> mono c i = 1%Z.

Lemma all_increasing_nonneg {rt c n w r} : lin_valid c n -> length w = n -> lin_project_col rt c w = Some r ->
  all_increasing c n -> forall q, In q r -> 0 <= q.
Proof. intros V L E A q Hq. pose proof (proj_length V L E) as Lr.
  destruct (In_nth r q 0 Hq) as [i [Hi <-]]. rewrite Lr in Hi.
  destruct (lin_signs rt c n w r V L E i) as [S _]. apply S. apply (A i Hi). Qed.

(* the guard: the un-normalized projection w3 of the column has L1 norm of at
   least _NORMALIZATION_EPS (then tf.where keeps the norm and the division
   makes the weights sum to one) *)
Theorem projected_weighted_average rt c n w w3 r b x lo hi :
  lin_valid c n -> length w = n -> lc_norm c = 1%nat -> all_increasing c n ->
  lin_project_col rt c w = Some r -> lin_project_col rt (with_norm c 0) w = Some w3 ->
  norm_eps <= qsum (map qabs w3) -> length x = n ->
  (forall v, In v (clipped (layer_bounds c n) x) -> lo <= v /\ v <= hi) ->
  (forall q, In q r -> 0 <= q) /\ qsum r == 1 /\
  lo <= lin_unit r b (layer_bounds c n) x - b /\ lin_unit r b (layer_bounds c n) x - b <= hi.
Proof. intros V L N A E E3 G Lx Hc. pose proof (proj_length V L E) as Lr.
  pose proof (all_increasing_nonneg V L E A) as Hnn.
  destruct (lin_norm1 rt c n w r V L N E) as [w3' [E3' Hor]]. rewrite E3 in E3'. inversion E3'; subst w3'.
  assert (S1 : qsum r == 1).
  { rewrite <- (qsum_abs_nonneg r Hnn). destruct Hor as [H|[H _]]; [exact H|lra]. }
  split; [exact Hnn|]. split; [exact S1|].
  destruct (lin_weighted_average r (layer_bounds c n) x lo hi) as [P Q]; try assumption.
  - rewrite layer_bounds_length; congruence.
  - congruence.
  - unfold lin_unit in *. lra. Qed.

(* below the guard the constraint returns the (numerically zero) column as it
   is: the weights still are >= 0 but sum to s < eps, and the output minus the
   bias is only between lo * s and hi * s (for s = 0: the output IS the bias) *)
Theorem projected_weighted_average_degenerate rt c n w w3 r b x lo hi :
  lin_valid c n -> length w = n -> lc_norm c = 1%nat -> all_increasing c n ->
  lin_project_col rt c w = Some r -> lin_project_col rt (with_norm c 0) w = Some w3 ->
  qsum (map qabs w3) < norm_eps -> length x = n ->
  (forall v, In v (clipped (layer_bounds c n) x) -> lo <= v /\ v <= hi) ->
  peq r w3 /\ 0 <= qsum r /\ qsum r < norm_eps /\
  lo * qsum r <= lin_unit r b (layer_bounds c n) x - b /\ lin_unit r b (layer_bounds c n) x - b <= hi * qsum r.
Proof. intros V L N A E E3 G Lx Hc. pose proof (proj_length V L E) as Lr.
  pose proof (all_increasing_nonneg V L E A) as Hnn.
  assert (P : peq r w3).
  { destruct (lin_unnormalized E) as [w3' [E3' ->]]. rewrite E3 in E3'. inversion E3'; subst w3'.
    rewrite N. apply normalize_small. exact G. }
  split; [exact P|]. pose proof (qsum_abs_peq P) as Sabs.
  rewrite (qsum_abs_nonneg r Hnn) in Sabs.
  split. { rewrite <- (qsum_abs_nonneg r Hnn). apply qsum_map_nonneg. intros q _. qcases; lra. }
  split; [lra|].
  destruct (lin_sum_bounds r (layer_bounds c n) x lo hi) as [Plo Phi]; try assumption.
  - rewrite layer_bounds_length; congruence.
  - congruence.
  - unfold lin_unit. split; lra. Qed.

(* a guard on the RAW weights for configurations without dominances: one
   weight of at least eps is enough (the sign clip keeps it) *)
Lemma qsum_abs_ge_nth l : forall i, qabs (nth i l 0) <= qsum (map qabs l).
Proof. induction l as [|q l IH]; intros [|i]; cbn [map qsum nth]; try discriminate.
  - assert (0 <= qsum (map qabs l)) by (apply qsum_map_nonneg; intros; qcases; lra). lra.
  - pose proof (IH i). assert (0 <= qabs q) by (qcases; lra). lra. Qed.

Theorem projected_weighted_average_plain rt c n w r b x lo hi i :
  lin_valid c n -> length w = n -> lc_norm c = 1%nat -> all_increasing c n ->
  lc_mdom c = [] -> lc_rdom c = [] -> (i < n)%nat -> norm_eps <= nth i w 0 ->
  lin_project_col rt c w = Some r -> length x = n ->
  (forall v, In v (clipped (layer_bounds c n) x) -> lo <= v /\ v <= hi) ->
  (forall q, In q r -> 0 <= q) /\ qsum r == 1 /\
  lo <= lin_unit r b (layer_bounds c n) x - b /\ lin_unit r b (layer_bounds c n) x - b <= hi.
Proof. intros V L N A Em Er Hi Hw E Lx Hc.
  assert (E3 : lin_project_col rt (with_norm c 0) w = Some (sign_clip (lc_monos c) w)).
  { rewrite lin_pre_norm0. unfold lin_pre, stage_po, stage_range. rewrite Em, Er. reflexivity. }
  apply (projected_weighted_average rt c n w (sign_clip (lc_monos c) w) r b x lo hi); try assumption.
  pose proof (lv_monos_len c n V) as Lm.
  pose proof (qsum_abs_ge_nth (sign_clip (lc_monos c) w) i) as H. rewrite sign_clip_nth in H by lia.
  pose proof (A i Hi) as Mi. unfold mono in Mi. rewrite Mi in H. unfold sclip in H. cbn [Z.eqb Pos.eqb] in H.
  unfold norm_eps in *. revert H. qcases; intros; lra. Qed.

(* The zero column (known finding D32): without the guard the
   statement is false.  All-increasing layer, normalization order 1, raw weights
   all negative (one hostile gradient step): the sign clip gives the zero
   column, the normalization leaves it as it is, the output is 0 for the input
   (1, 2), which is not between 1 and 2. *)
Definition zero_cfg : lin_cfg := mkLin [1; 1]%Z [] [] [] [] 1.
Lemma zero_cfg_valid : lin_valid zero_cfg 2.
Proof. constructor; cbn; try reflexivity; try congruence.
  - intros i. unfold mono. cbn. destruct i as [|[|[|i]]]; auto.
  - intros d k [].
  - intros d k [].
  - intros i [x [[]|[]]].
  - apply (acyclic_rank _ (fun x => x)). intros a b [].
  - apply (acyclic_rank _ (fun x => x)). intros a b []. Qed.
Lemma zero_cfg_increasing : all_increasing zero_cfg 2.
Proof. intros i Hi. unfold mono. cbn. destruct i as [|[|i]]; [reflexivity|reflexivity|lia]. Qed.

Theorem weighted_average_zero_refuted :
  exists rt c n w r x lo hi,
    lin_valid c n /\ length w = n /\ lc_norm c = 1%nat /\ all_increasing c n /\
    lin_project_col rt c w = Some r /\ length x = n /\
    (forall v, In v (clipped (layer_bounds c n) x) -> lo <= v /\ v <= hi) /\
    ~ (lo <= lin_unit r 0 (layer_bounds c n) x).
Proof. exists qsqrt, zero_cfg, 2%nat, [-(1); -(2)], [0; 0], [1; 2], 1, 2.
  split; [exact zero_cfg_valid|]. split; [reflexivity|]. split; [reflexivity|]. split; [exact zero_cfg_increasing|].
  split; [vm_compute; reflexivity|]. split; [reflexivity|]. split.
  - intros v H. cbn in H. destruct H as [<-|[<-|[]]]; vm_compute; split; discriminate.
  - vm_compute. intros H. apply H. reflexivity. Qed.

Lemma dot_clip_lin_sum : forall k bs x, dot (clip_row bs x) k == lin_sum k bs x.
Proof. unfold dot, clip_row. induction k as [|kq k IH]; intros [|[lo hi] bs] [|xq x]; cbn [map2 qsum lin_sum fst snd]; try reflexivity.
  rewrite IH. lra. Qed.

Definition bias_of (bias : option (list Q)) (u : nat) : Q := match bias with Some b => nth u b 0 | None => 0 end.
Definition row_of (inp : lin_input) (u : nat) : list Q := match inp with In1 x => x | InN xs => nth u xs [] end.

(* Linear.call, both branches: whenever it is defined, the result has one
   entry per unit and entry u is the clipped affine function of column u *)
Theorem linear_call_spec units K bias bs inp out : linear_call units K bias bs inp = Some out ->
  length out = units /\
  forall u, (u < units)%nat -> nth u out 0 == lin_unit (column u K) (bias_of bias u) bs (row_of inp u).
Proof. unfold linear_call. destruct inp as [x|xs]; destruct (Nat.eqb_spec units 1) as [->|Hne]; intros E; inversion E; subst out; clear E.
  - split; [reflexivity|]. intros u Hu. assert (u = 0%nat) by lia. subst u. cbn [nth row_of]. unfold lin_unit.
    rewrite <- dot_clip_lin_sum. destruct bias; cbn [bias_of]; lra.
  - split; [rewrite map_length, seq_length; reflexivity|]. intros u Hu.
    rewrite (nth_map_seq (fun u => match bias with Some b => dot (clip_row bs (nth u xs [])) (nth u (transpose units K) []) + nth u b 0
                                   | None => dot (clip_row bs (nth u xs [])) (nth u (transpose units K) []) end) units u 0 Hu).
    unfold transpose. rewrite (nth_map_seq (fun u => column u K) units u [] Hu). cbn [row_of]. unfold lin_unit.
    rewrite <- dot_clip_lin_sum. destruct bias; cbn [bias_of]; lra. Qed.

Lemma linear_call_defined units K bias bs inp :
  linear_call units K bias bs inp <> None <-> (match inp with In1 _ => units = 1%nat | InN _ => units <> 1%nat end).
Proof. unfold linear_call. destruct inp; destruct (Nat.eqb_spec units 1); split; intros; try congruence; try discriminate. Qed.

(* the model of C20_formula and the two-branch model agree *)
Theorem linear_call_eval units K bias bs inp out : linear_call units K bias bs inp = Some out ->
  peq out (linear_eval units K (match bias with Some b => b | None => [] end) bs
             (match inp with In1 x => [x] | InN xs => xs end)).
Proof. intros E. destruct (linear_call_spec units K bias bs inp out E) as [L H]. split.
  - unfold linear_eval. rewrite map_length, seq_length. exact L.
  - intros u. destruct (Nat.lt_ge_cases u units) as [Hu|Hu].
    + rewrite (H u Hu). rewrite linear_eval_unit by exact Hu.
      assert (Eb : bias_of bias u = nth u (match bias with Some b => b | None => [] end) 0)
        by (destruct bias; cbn; [reflexivity|destruct u; reflexivity]).
      assert (Er : row_of inp u = nth u (match inp with In1 x => [x] | InN xs => xs end) []).
      { destruct inp as [x|xs]; cbn [row_of]; [|reflexivity]. unfold linear_call in E.
        destruct (Nat.eqb_spec units 1) as [->|]; [|discriminate]. assert (u = 0%nat) by lia. subst u. reflexivity. }
      rewrite Eb, Er. reflexivity.
    + rewrite !nth_overflow; [reflexivity| |lia]. unfold linear_eval. rewrite map_length, seq_length. exact Hu. Qed.

Definition oqeq (a b : option (list Q)) : Prop :=
  match a, b with Some x, Some y => peq x y | None, None => True | _, _ => False end.

(* use_bias = False is the layer with a zero bias *)
Theorem linear_call_no_bias units K bs inp zs : (forall u, nth u zs 0 == 0) ->
  oqeq (linear_call units K None bs inp) (linear_call units K (Some zs) bs inp).
Proof. intros Hz.
  destruct (linear_call units K None bs inp) as [a|] eqn:Ea; destruct (linear_call units K (Some zs) bs inp) as [b|] eqn:Eb; cbn.
  (* defined with one bias only: impossible, the bias is not looked at to decide that *)
  2, 3: exfalso; revert Ea Eb; unfold linear_call; destruct inp; destruct (units =? 1)%nat; discriminate.
  - destruct (linear_call_spec _ _ _ _ _ _ Ea) as [La Ha]. destruct (linear_call_spec _ _ _ _ _ _ Eb) as [Lb Hb].
    split; [congruence|]. intros u. destruct (Nat.lt_ge_cases u units) as [Hu|Hu].
    + rewrite (Ha u Hu), (Hb u Hu). unfold lin_unit. cbn [bias_of]. rewrite (Hz u). reflexivity.
    + rewrite !nth_overflow by lia. reflexivity.
  - exact I. Qed.

(* unit u of a layer with units > 1 (rows per unit, reduce_sum branch) is the
   layer with units = 1 (matmul branch) whose kernel is column u and whose bias
   is bias_u, applied to unit u's row *)
Definition col_matrix (k : list Q) : list (list Q) := map (fun q => [q]) k.
Lemma column_col_matrix k : column 0 (col_matrix k) = k.
Proof. unfold column, col_matrix. rewrite map_map. cbn. apply map_id. Qed.

Theorem linear_call_unit_forms units K bias bs xs out u : (u < units)%nat ->
  linear_call units K bias bs (InN xs) = Some out ->
  exists v, linear_call 1 (col_matrix (column u K)) (option_map (fun b => [nth u b 0]) bias) bs (In1 (nth u xs [])) = Some [v] /\
            nth u out 0 == v.
Proof. intros Hu E. destruct (linear_call_spec _ _ _ _ _ _ E) as [_ H].
  destruct (linear_call 1 (col_matrix (column u K)) (option_map (fun b => [nth u b 0]) bias) bs (In1 (nth u xs []))) as [o|] eqn:E1.
  - destruct (linear_call_spec _ _ _ _ _ _ E1) as [L1 H1]. destruct o as [|v [|? ?]]; cbn in L1; try lia.
    exists v. split; [reflexivity|]. rewrite (H u Hu). specialize (H1 0%nat ltac:(lia)). cbn [nth] in H1. rewrite H1.
    rewrite column_col_matrix. cbn [row_of]. destruct bias; cbn [bias_of option_map nth]; reflexivity.
  - discriminate. Qed.

(* every unit of the constrained layer is the clipped affine function of the
   PROJECTED column of that unit, clipped by the configuration's own bounds:
   the link that carries the column theorems above to every unit *)
Theorem projected_layer rt c units W bias inp out u :
  lin_valid c (length W) -> linear_constrained rt c units W bias inp = Some out -> (u < units)%nat ->
  exists r, lin_project_col rt c (column u W) = Some r /\
    nth u out 0 == lin_unit r (bias_of bias u) (layer_bounds c (length W)) (row_of inp u).
Proof. intros V E Hu. unfold linear_constrained in E. destruct (lin_project rt c units W) as [R|] eqn:ER; [|discriminate].
  destruct (lin_per_unit rt c units W R u V ER Hu) as [r [Er Ec]]. exists r. split; [exact Er|].
  destruct (linear_call_spec _ _ _ _ _ _ E) as [_ H]. rewrite (H u Hu), Ec. reflexivity. Qed.

(* and the constrained layer is defined for every kernel whenever the input form fits *)
Theorem projected_layer_defined rt c units W bias inp : lin_valid c (length W) ->
  (match inp with In1 _ => units = 1%nat | InN _ => units <> 1%nat end) ->
  exists out, linear_constrained rt c units W bias inp = Some out.
Proof. intros V F. unfold linear_constrained. destruct (lin_matrix_defined rt c units W V) as [R ->].
  destruct (linear_call units R bias (layer_bounds c (length W)) inp) as [o|] eqn:E; [exists o; reflexivity|].
  exfalso. apply (proj2 (linear_call_defined units R bias (layer_bounds c (length W)) inp) F). exact E. Qed.

(* end to end, monotonicity of unit u of the constrained layer in the batch-row form *)
Theorem projected_layer_monotone rt c units W bias inp inp' out out' u :
  lin_valid c (length W) -> (u < units)%nat ->
  linear_constrained rt c units W bias inp = Some out -> linear_constrained rt c units W bias inp' = Some out' ->
  length (row_of inp u) = length W -> length (row_of inp' u) = length W -> dir_le c (row_of inp u) (row_of inp' u) ->
  nth u out 0 <= nth u out' 0.
Proof. intros V Hu E E' Lx Ly D.
  destruct (projected_layer rt c units W bias inp out u V E Hu) as [r [Er H]].
  destruct (projected_layer rt c units W bias inp' out' u V E' Hu) as [r' [Er' H']].
  rewrite Er in Er'. inversion Er'; subst r'. rewrite H, H'.
  apply (projected_monotone rt c (length W) (column u W) r); try assumption. apply column_length. Qed.

(* ex_cfg (Proofs/LinearProject.v): inputs 0..3 increasing with a monotonic
   dominance diamond, inputs 4, 5 decreasing, bounded, range dominance (4 over 5),
   input 6 free; ex_w projects to ex_r (ex_run). *)
Example ex_r : list Q := [17 # 124; 17 # 124; 4 # 31; 4 # 31; -3 # 62; -3 # 31; 10 # 31].
Example ex_x : list Q := [0; 1; -2; 3; 1; -(1#2); 7].
Example ex_y : list Q := [1; 1; 5; 3; 0; -3; 7].
Example ex_dir_le : dir_le ex_cfg ex_x ex_y.
Proof. intros i. unfold mono. do 7 (destruct i as [|i]; [cbn; repeat split; intros; try discriminate; lra|]).
  destruct i; cbn; repeat split; intros; try discriminate; lra. Qed.
Example ex_monotone_applies : lin_unit ex_r 5 (layer_bounds ex_cfg 7) ex_x <= lin_unit ex_r 5 (layer_bounds ex_cfg 7) ex_y.
Proof. apply (projected_monotone qsqrt ex_cfg 7 ex_w ex_r 5 ex_x ex_y ex_cfg_valid eq_refl ex_run eq_refl eq_refl ex_dir_le). Qed.
Example ex_monotone_coordinate_applies :
  lin_unit ex_r 5 (layer_bounds ex_cfg 7) (set_nth 5 2 ex_x) <= lin_unit ex_r 5 (layer_bounds ex_cfg 7) (set_nth 5 (-(2)) ex_x).
Proof. apply (projected_monotone_coordinate qsqrt ex_cfg 7 ex_w ex_r 5 ex_x 5 (-(2)) 2 ex_cfg_valid eq_refl ex_run eq_refl); [lia|lra|reflexivity]. Qed.
Example ex_mdom_applies :
  lin_unit ex_r 5 (layer_bounds ex_cfg 7) (set_nth 1 (nth 1 ex_x 0 + 3) ex_x) - lin_unit ex_r 5 (layer_bounds ex_cfg 7) ex_x <=
  lin_unit ex_r 5 (layer_bounds ex_cfg 7) (set_nth 0 (nth 0 ex_x 0 + 3) ex_x) - lin_unit ex_r 5 (layer_bounds ex_cfg 7) ex_x.
Proof. apply (projected_mdom_effect qsqrt ex_cfg 7 ex_w ex_r 5 ex_x 0 1 3 ex_cfg_valid eq_refl ex_run eq_refl).
  - cbn. auto.
  - lra.
  - vm_compute. reflexivity.
  - vm_compute. reflexivity. Qed.
Example ex_rdom_applies : exists ld hd lw hw,
  nth 4 (layer_bounds ex_cfg 7) nob = (Some ld, Some hd) /\ nth 5 (layer_bounds ex_cfg 7) nob = (Some lw, Some hw) /\
  lin_unit ex_r 5 (layer_bounds ex_cfg 7) (set_nth 5 lw ex_x) - lin_unit ex_r 5 (layer_bounds ex_cfg 7) (set_nth 5 hw ex_x) <=
  lin_unit ex_r 5 (layer_bounds ex_cfg 7) (set_nth 4 ld ex_x) - lin_unit ex_r 5 (layer_bounds ex_cfg 7) (set_nth 4 hd ex_x).
Proof. destruct (projected_rdom_effect qsqrt ex_cfg 7 ex_w ex_r 5 ex_x 4 5 ex_cfg_valid eq_refl ex_run eq_refl)
    as [ld [hd [lw [hw [A [B [_ [_ [_ [D _]]]]]]]]]]. cbn; auto.
  exists ld, hd, lw, hw. split; [exact A|]. split; [exact B|]. apply D. reflexivity. Qed.

(* an all-increasing configuration with both kinds of dominance and order-1
   normalization, for the weighted average *)
Example avg_cfg : lin_cfg := mkLin [1; 1; 1; 1]%Z [(0, 1)]%nat [(2, 3)]%nat
  [None; Some (-(1)); Some 0; Some 0] [None; None; Some 2; Some 1] 1.
Example avg_cfg_valid : lin_valid avg_cfg 4.
Proof. constructor.
  - reflexivity.
  - intros i. unfold mono. cbn. do 4 (destruct i as [|i]; [auto|]). destruct i; auto.
  - reflexivity.
  - reflexivity.
  - intros d k H. in_cases H; cbn; repeat split; lia.
  - intros d k H. in_cases H. cbn. repeat split; try lia; try discriminate.
    + exists 0, 2. repeat split; lra.
    + exists 0, 1. repeat split; lra.
  - intros i [x [H|H]] [y [H'|H']]; in_cases H; in_cases H'.
  - apply (acyclic_rank _ (fun x => 10 - x)%nat). intros a b H. in_cases H; lia.
  - apply (acyclic_rank _ (fun x => 10 - x)%nat). intros a b H. in_cases H; lia. Qed.
Example avg_cfg_increasing : all_increasing avg_cfg 4.
Proof. intros i Hi. unfold mono. cbn. do 4 (destruct i as [|i]; [reflexivity|]). lia. Qed.
Example avg_w : list Q := [1; 3; -(2); 4].
Example avg_x : list Q := [3; -(5); 1; 7].
Example avg_weighted_average_applies : exists r w3,
  lin_project_col qsqrt avg_cfg avg_w = Some r /\ lin_project_col qsqrt (with_norm avg_cfg 0) avg_w = Some w3 /\
  norm_eps <= qsum (map qabs w3) /\ qsum r == 1 /\
  -(1) <= lin_unit r 0 (layer_bounds avg_cfg 4) avg_x - 0 /\ lin_unit r 0 (layer_bounds avg_cfg 4) avg_x - 0 <= 3.
Proof. destruct (lin_defined qsqrt avg_cfg 4 avg_w avg_cfg_valid eq_refl) as [r [E _]].
  destruct (lin_defined qsqrt (with_norm avg_cfg 0) 4 avg_w (lin_valid_with_norm _ _ 0%nat avg_cfg_valid) eq_refl) as [w3 [E3 _]].
  exists r, w3. split; [exact E|]. split; [exact E3|].
  assert (G : norm_eps <= qsum (map qabs w3)).
  { revert E3. vm_compute. intros E3. inversion E3; subst w3. vm_compute. discriminate. }
  split; [exact G|].
  destruct (projected_weighted_average qsqrt avg_cfg 4 avg_w w3 r 0 avg_x (-(1)) 3 avg_cfg_valid eq_refl eq_refl
              avg_cfg_increasing E E3 G eq_refl) as [_ [S [A B]]].
  - intros v H. cbn in H. repeat (destruct H as [<-|H]; [vm_compute; split; discriminate|]). destruct H.
  - split; [exact S|]. split; [exact A|exact B]. Qed.

(* the degenerate branch is reachable too (all raw weights negative) *)
Example avg_degenerate_applies : exists r w3,
  lin_project_col qsqrt avg_cfg [-(1); -(3); -(2); -(4)] = Some r /\
  lin_project_col qsqrt (with_norm avg_cfg 0) [-(1); -(3); -(2); -(4)] = Some w3 /\ qsum (map qabs w3) < norm_eps.
Proof. eexists. eexists. split; [vm_compute; reflexivity|]. split; [vm_compute; reflexivity|]. vm_compute. reflexivity. Qed.

(* a two-unit constrained layer on both input forms *)
Example ex_layer_defined : exists out,
  linear_constrained qsqrt ex_cfg 2 (map (fun x => [x; - x]) ex_w) (Some [1; 2]) (InN [ex_x; ex_y]) = Some out.
Proof. apply projected_layer_defined. apply ex_cfg_valid. discriminate. Qed.
Example ex_layer1_defined : exists out,
  linear_constrained qsqrt avg_cfg 1 (map (fun x => [x]) avg_w) None (In1 avg_x) = Some out.
Proof. apply projected_layer_defined. apply avg_cfg_valid. reflexivity. Qed.
Example ex_plain_guard : exists i, (i < 2)%nat /\ norm_eps <= nth i [-(1); 1 # 2] 0.
Proof. exists 1%nat. split; [lia|]. vm_compute. discriminate. Qed.
