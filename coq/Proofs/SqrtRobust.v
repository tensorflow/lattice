(* Square roots without the exact-root idealisation.

   Several L2 theorems (C06 order-2 normalisation, C13 scalar torsion amounts,
   C12 L2 norm test) are stated for an oracle r with r * r == s.  Over Q such
   an r exists only when s is a rational square, so for almost every input the
   hypothesis is unsatisfiable.  Here: what holds of normalisation by ANY
   r <> 0 and by an approximate root; error bounds for the EXECUTED root qsqrt
   (60 Newton steps from 1 + a, every step rounded DOWN to a multiple of
   u = 2^-80, so that a <= qsqrt a ^2 is FALSE: qsqrt_two_below); and the
   instances for lin_project_col (C06), the scalar torsion amount (C13), the
   L2 norm test of assert_constraints (C12) and the Linear layer output (C20). *)
From TFL Require Import Model.LinearLayer Proofs.PartialOrder Proofs.LinearProject Proofs.LinearEval Proofs.LinearComposed.
Open Scope Q_scope.

Definition sumsq (w : list Q) : Q := qsum (map (fun x => x * x) w).

Lemma sumsq_nonneg w : 0 <= sumsq w.
Proof. exact (qsum_sq_nonneg w). Qed.

(* the exact identity: no hypothesis on r except that one can divide by it *)
Lemma sumsq_div_any (r : Q) w : ~ r == 0 -> sumsq (map (fun x => x / r) w) * (r * r) == sumsq w.
Proof. intros Hr. unfold sumsq. rewrite map_map.
  rewrite (qsum_map_ext (fun x => x / r * (x / r)) (fun x => (/ r * / r) * (x * x))).
  - rewrite qsum_map_scale. field. exact Hr.
  - intros x _. field. exact Hr. Qed.
(* T * q == s with q at most c * s: T is at least 1 / c *)
Lemma unit_below (T q s c : Q) : 0 <= T -> T * q == s -> 0 < s -> q <= c * s -> 1 <= T * c.
Proof. intros HT Hid Hs Hhi. destruct (Qlt_le_dec (T * c) 1) as [C|C]; [exfalso|exact C].
  pose proof (qmul_le_l T q (c * s) HT Hhi) as H1.
  assert (H2 : (T * c) * s < 1 * s) by (apply Qmult_lt_compat_r; assumption). lra. Qed.

(* T * (r*r) == s with an approximate root: T is within the same relative error of 1 *)
Lemma approx_root_unit (T r s e : Q) : 0 <= T -> T * (r * r) == s -> 0 < s ->
  (1 - e) * s <= r * r -> r * r <= (1 + e) * s ->
  1 <= T * (1 + e) /\ T * (1 - e) <= 1.
Proof. intros HT Hid Hs Hlo Hhi. split; [exact (unit_below T (r * r) s _ HT Hid Hs Hhi)|].
  destruct (Qlt_le_dec 1 (T * (1 - e))) as [C|C]; [exfalso|exact C].
  pose proof (qmul_le_l T ((1 - e) * s) (r * r) HT Hlo) as H1.
  assert (H2 : 1 * s < (T * (1 - e)) * s) by (apply Qmult_lt_compat_r; assumption). lra. Qed.

Lemma approx_root_unit_div (r : Q) w e : 0 < r -> 0 < sumsq w ->
  (1 - e) * sumsq w <= r * r -> r * r <= (1 + e) * sumsq w ->
  1 <= sumsq (map (fun x => x / r) w) * (1 + e) /\ sumsq (map (fun x => x / r) w) * (1 - e) <= 1.
Proof. intros Hr Hs Hlo Hhi. apply (approx_root_unit _ r (sumsq w) e); try assumption.
  - apply sumsq_nonneg.
  - apply sumsq_div_any. lra. Qed.

Lemma normalize_l2_approx rt w e :
  (1 - e) * sumsq w <= rt (sumsq w) * rt (sumsq w) -> rt (sumsq w) * rt (sumsq w) <= (1 + e) * sumsq w ->
  (rt (sumsq w) < norm_eps /\ peq (normalize rt 2 w) w) \/
  (norm_eps <= rt (sumsq w) /\ 0 < sumsq w /\
   1 <= sumsq (normalize rt 2 w) * (1 + e) /\ sumsq (normalize rt 2 w) * (1 - e) <= 1).
Proof. intros Hlo Hhi. destruct (normalize_l2_any rt w) as [H|[H Hid]]; [left; exact H|right].
  change (qsum (map qsq ?l)) with (sumsq l) in H, Hid.
  split; [exact H|]. set (r := rt (sumsq w)) in *. set (s := sumsq w) in *.
  assert (Hr : 0 < r) by (unfold norm_eps in H; lra).
  assert (Hrr : 0 < r * r) by (apply Qmult_lt_0_compat; assumption).
  assert (Hs : 0 < s).
  { destruct (Qlt_le_dec 0 s) as [C|C]; [exact C|exfalso].
    pose proof (sumsq_nonneg w) as Hn. fold s in Hn. assert (Z : s == 0) by lra. rewrite Z in Hhi. lra. }
  split; [exact Hs|]. apply (approx_root_unit _ r s e); try assumption. apply sumsq_nonneg. Qed.

Lemma lin_norm2_any rt c n w r :
  lin_valid c n -> length w = n -> lc_norm c = 2%nat -> lin_project_col rt c w = Some r ->
  exists w3, lin_project_col rt (with_norm c 0) w = Some w3 /\
    let S := sumsq w3 in
    (rt S < norm_eps /\ peq r w3) \/ (norm_eps <= rt S /\ sumsq r * (rt S * rt S) == S).
Proof. intros _ _ N E. destruct (lin_unnormalized E) as [w3 [E3 ->]].
  exists w3. split; [exact E3|]. rewrite N. apply normalize_l2_any. Qed.

Lemma lin_norm2_approx rt c n w r :
  lin_valid c n -> length w = n -> lc_norm c = 2%nat -> lin_project_col rt c w = Some r ->
  exists w3, lin_project_col rt (with_norm c 0) w = Some w3 /\
    let S := sumsq w3 in
    forall e, e < 1 -> (1 - e) * S <= rt S * rt S -> rt S * rt S <= (1 + e) * S ->
    (rt S < norm_eps /\ peq r w3) \/
    (norm_eps <= rt S /\ 0 < S /\ 1 <= sumsq r * (1 + e) /\ sumsq r * (1 - e) <= 1).
Proof. intros _ _ N E. destruct (lin_unnormalized E) as [w3 [E3 ->]].
  exists w3. split; [exact E3|]. rewrite N. cbv zeta. intros e _ Hlo Hhi. apply normalize_l2_approx; assumption. Qed.

(* the exact-root theorem (Proofs/LinearProject.v lin_norm2, Props C06_norm_one_or_zero_l2)
   is the instance e = 0 of lin_norm2_approx *)
Lemma lin_norm2_exact_instance rt c n w r :
  lin_valid c n -> length w = n -> lc_norm c = 2%nat -> lin_project_col rt c w = Some r ->
  exists w3, lin_project_col rt (with_norm c 0) w = Some w3 /\
    let S := qsum (map (fun x => x * x) w3) in
    (rt S * rt S == S ->
     qsum (map (fun x => x * x) r) == 1 \/ (rt S < norm_eps /\ peq r w3)).
Proof. intros V L N E. destruct (lin_norm2_approx rt c n w r V L N E) as [w3 [E3 H]].
  exists w3. split; [exact E3|]. cbv zeta in *. fold (sumsq w3). fold (sumsq r). intros Hex.
  destruct (H 0 ltac:(lra) ltac:(lra) ltac:(lra)) as [A|[_ [_ [A B]]]]; [right; exact A|left; lra]. Qed.

Definition u80 : Q := 1 # (2 ^ 80).
Lemma u80_pos : 0 < u80. Proof. reflexivity. Qed.

Lemma floor_grid (d : positive) (x : Q) :
  (Qfloor (x * inject_Z (Zpos d)) # d) <= x /\ x - (1 # d) < (Qfloor (x * inject_Z (Zpos d)) # d).
Proof. set (c := inject_Z (Zpos d)). assert (Hc : 0 < c) by reflexivity.
  assert (E0 : (Qfloor (x * c) # d) == inject_Z (Qfloor (x * c)) / c) by (unfold c; rewrite Qmake_Qdiv; reflexivity).
  split.
  - rewrite E0. apply Qle_shift_div_r; [exact Hc|]. apply Qfloor_le.
  - rewrite E0. apply Qlt_shift_div_l; [exact Hc|].
    assert (E : (1 # d) == 1 / c) by (unfold c; rewrite Qmake_Qdiv; reflexivity).
    rewrite E. pose proof (Qlt_floor (x * c)) as H. rewrite inject_Z_plus in H.
    assert (E2 : (x - 1 / c) * c == x * c - 1) by (field; lra). rewrite E2.
    change (inject_Z 1) with 1 in H. lra. Qed.

Lemma pow80 : (2 ^ 80)%Z = Zpos (2 ^ 80)%positive. Proof. reflexivity. Qed.
Lemma qtrunc_le z : qtrunc z <= z.
Proof. unfold qtrunc. rewrite Qred_correct, pow80. apply floor_grid. Qed.
Lemma qtrunc_gt z : z - u80 < qtrunc z.
Proof. unfold qtrunc, u80. rewrite Qred_correct, pow80. apply floor_grid. Qed.
Lemma qtrunc_nonneg z : 0 <= z -> 0 <= qtrunc z.
Proof. intros Hz. unfold qtrunc. rewrite Qred_correct, pow80. set (d := (2 ^ 80)%positive).
  assert (H : (0 <= Qfloor (z * inject_Z (Zpos d)))%Z).
  { change 0%Z with (Qfloor 0). apply Qfloor_resp_le. apply qmul_nonneg; [exact Hz|discriminate]. }
  unfold Qle. cbn [Qnum Qden]. lia. Qed.
Lemma qtrunc_comp x y : x == y -> qtrunc x = qtrunc y.
Proof. intros H. unfold qtrunc. rewrite H. reflexivity. Qed.

Lemma sq_le_sq x y : 0 <= x -> x <= y -> x * x <= y * y.
Proof. intros Hx Hxy. pose proof (qmul_le_l x x y Hx Hxy). pose proof (qmul_le_l y x y ltac:(lra) Hxy). lra. Qed.
Lemma sq_lt_sq x y : 0 <= x -> x < y -> x * x < y * y.
Proof. intros Hx Hxy. pose proof (qmul_le_l x x y Hx ltac:(lra)).
  assert (x * y < y * y) by (apply Qmult_lt_compat_r; lra). lra. Qed.

(* one exact Newton step z = (y + q)/2, q = a/y, followed by ANY rounding y' with z - u < y' <= z *)
Section Step.
Variables (u a y y' : Q).
Hypotheses (Hu : 0 < u) (Ha : 0 < a) (Hy : 0 < y).
Let q := a / y.
Let z := (y + q) * (1#2).
Hypothesis (Hlo : z - u < y').

Lemma step_q : 0 < q /\ q * y == a.
Proof. split; [apply Qlt_shift_div_l; [exact Hy|lra]|unfold q; field; lra]. Qed.

(* AM-GM: z^2 >= a, hence (y' + u)^2 >= a *)
Lemma step_lower : a <= (y' + u) * (y' + u).
Proof. destruct step_q as [Hq Hqa].
  assert (H1 : a <= z * z) by (unfold z; rewrite <- Hqa; pose proof (qsq_nonneg (y - q)); lra).
  pose proof (sq_le_sq z (y' + u) ltac:(unfold z; lra) ltac:(lra)). lra. Qed.

Lemma step_pos : 4 * (u * u) < a -> u < y'.
Proof. intros H4. destruct (Qlt_le_dec u y') as [C|C]; [exact C|exfalso].
  destruct step_q as [Hq _]. pose proof step_lower as L.
  pose proof (sq_le_sq (y' + u) (2 * u) ltac:(unfold z in Hlo; lra) ltac:(lra)). lra. Qed.

(* error after the step: quartered while above the root, at most (9/4) u^2 once below *)
Hypotheses (Hhi : y' <= z) (Hy' : 0 <= y') (Hyu : u < y) (Hinv : a <= (y + u) * (y + u)).
Lemma step_upper E : 0 <= E -> y * y - a <= E + (9#4) * (u * u) ->
  y' * y' - a <= E * (1#4) + (9#4) * (u * u).
Proof. intros HE HD. destruct step_q as [Hq Hqa].
  pose proof (sq_le_sq y' z Hy' Hhi) as Ht.
  assert (Huu : 0 < u * u) by (apply Qmult_lt_0_compat; exact Hu).
  assert (Ht2 : z * z - a == (y - q) * (y - q) * (1#4)) by (unfold z; rewrite <- Hqa; ring).
  destruct (Qlt_le_dec y q) as [C|C].
  - (* below the root: q - y <= 3 u *)
    assert (Hd : q - y <= 3 * u).
    { destruct (Qlt_le_dec (3 * u) (q - y)) as [C2|C2]; [exfalso|exact C2].
      assert (P : y * (3 * u) < y * (q - y)) by (apply Qmult_lt_l; assumption).
      assert (P2 : u * u < u * y) by (apply Qmult_lt_l; assumption).
      rewrite <- Hqa in Hinv. lra. }
    pose proof (sq_le_sq (q - y) (3 * u) ltac:(lra) Hd) as Hsq.
    pose proof (qmul_nonneg E (1#4) HE ltac:(lra)). lra.
  - (* above the root: (y - q)^2 <= y (y - q) = y^2 - a *)
    assert (Hsq : (y - q) * (y - q) <= y * y - a).
    { rewrite <- Hqa. pose proof (qmul_nonneg q (y - q) ltac:(lra) ltac:(lra)). lra. }
    lra. Qed.
End Step.

Fixpoint qpow4 (n : nat) : Q := match n with O => 1 | S n' => (1#4) * qpow4 n' end.
Lemma qpow4_nonneg n : 0 <= qpow4 n.
Proof. induction n; cbn [qpow4]; lra. Qed.

Definition nstep (a y : Q) : Q := qtrunc ((y + a / y) * (1#2)).
Lemma newton_S n a y : newton (S n) a y = newton n a (nstep a y).
Proof. reflexivity. Qed.

(* every input: the result is >= 0 and, when positive, at most u below the root *)
Lemma nstep_weak a y : 0 < a -> 0 <= y -> 0 <= nstep a y /\ (0 < nstep a y -> a <= (nstep a y + u80) * (nstep a y + u80)).
Proof. intros Ha Hy. unfold nstep. destruct (Qlt_le_dec 0 y) as [C|C].
  - split.
    + apply qtrunc_nonneg. assert (0 < a / y) by (apply Qlt_shift_div_l; [exact C|lra]). lra.
    + intros _. apply (step_lower u80 a y _ Ha C). apply qtrunc_gt.
  - assert (E : y == 0) by lra.
    assert (Z : (y + a / y) * (1#2) == 0). { rewrite E. unfold Qdiv. change (/ 0) with 0. ring. }
    rewrite (qtrunc_comp _ _ Z). split; [discriminate|intros H; discriminate H]. Qed.
Lemma newton_weak a : 0 < a -> forall n y, 0 <= y -> (0 < y -> a <= (y + u80) * (y + u80)) ->
  0 <= newton n a y /\ (0 < newton n a y -> a <= (newton n a y + u80) * (newton n a y + u80)).
Proof. intros Ha. induction n as [|n IH]; intros y Hy Hinv.
  - split; assumption.
  - rewrite newton_S. destruct (nstep_weak a y Ha Hy) as [A B]. apply IH; assumption. Qed.

(* inputs above 4 u^2 = 2^-158: the iterates stay above u and the error decays *)
Lemma newton_strong a : 4 * (u80 * u80) < a -> forall n y E,
  u80 < y -> a <= (y + u80) * (y + u80) -> 0 <= E -> y * y - a <= E + (9#4) * (u80 * u80) ->
  u80 < newton n a y /\ a <= (newton n a y + u80) * (newton n a y + u80) /\
  newton n a y * newton n a y - a <= E * qpow4 n + (9#4) * (u80 * u80).
Proof. intros H4. assert (Ha : 0 < a). { pose proof u80_pos. pose proof (qmul_nonneg u80 u80). lra. }
  induction n as [|n IH]; intros y E Hy Hinv HE HD.
  - cbn [newton qpow4]. split; [exact Hy|split; [exact Hinv|lra]].
  - rewrite newton_S. pose proof u80_pos as Hu. assert (Hy0 : 0 < y) by lra.
    assert (Hgt : (y + a / y) * (1#2) - u80 < nstep a y) by apply qtrunc_gt.
    assert (Hle : nstep a y <= (y + a / y) * (1#2)) by apply qtrunc_le.
    pose proof (step_pos u80 a y _ Ha Hy0 Hgt H4) as P1.
    pose proof (step_lower u80 a y _ Ha Hy0 Hgt) as P2.
    pose proof (step_upper u80 a y _ Hu Ha Hy0 Hle ltac:(lra) Hy Hinv E HE HD) as P3.
    destruct (IH (nstep a y) (E * (1#4)) P1 P2 ltac:(lra) P3) as [A [B C]].
    split; [exact A|split; [exact B|]]. cbn [qpow4]. lra. Qed.

Lemma qsqrt_pos_arg a : 0 < a -> qsqrt a = newton 60 a (1 + a).
Proof. intros Ha. unfold qsqrt. destruct (Qle_bool a 0) eqn:E; [|reflexivity].
  apply Qle_bool_iff in E. lra. Qed.
Lemma qsqrt_nonpos_arg a : a <= 0 -> qsqrt a = 0.
Proof. intros Ha. unfold qsqrt. apply Qle_bool_iff in Ha. rewrite Ha. reflexivity. Qed.

Lemma start_above a : 0 < a -> a <= (1 + a + u80) * (1 + a + u80).
Proof. intros Ha. pose proof u80_pos as Hu.
  pose proof (qmul_nonneg a a ltac:(lra) ltac:(lra)). pose proof (qmul_nonneg u80 u80 ltac:(lra) ltac:(lra)).
  pose proof (qmul_nonneg a u80 ltac:(lra) ltac:(lra)). lra. Qed.

Lemma qsqrt_weak a : 0 <= qsqrt a /\ (0 < qsqrt a -> a <= (qsqrt a + u80) * (qsqrt a + u80)).
Proof. destruct (Qlt_le_dec 0 a) as [Ha|Ha].
  - rewrite (qsqrt_pos_arg a Ha). apply (newton_weak a Ha); [lra|intros _; apply start_above; exact Ha].
  - rewrite (qsqrt_nonpos_arg a Ha). split; [lra|intros H; discriminate H]. Qed.
Theorem qsqrt_nonneg a : 0 <= qsqrt a.
Proof. apply qsqrt_weak. Qed.
(* never more than u = 2^-80 below the true root *)
Theorem qsqrt_lower a : 0 < qsqrt a -> a <= (qsqrt a + u80) * (qsqrt a + u80).
Proof. apply qsqrt_weak. Qed.

Lemma qpow4_60 : qpow4 60 == 1 # (2 ^ 120).
Proof. vm_compute. reflexivity. Qed.

Theorem qsqrt_strong a : 4 * (u80 * u80) < a ->
  u80 < qsqrt a /\ a <= (qsqrt a + u80) * (qsqrt a + u80) /\
  qsqrt a * qsqrt a <= a + (1 + a + a * a) * (1 # (2 ^ 120)) + (9#4) * (u80 * u80).
Proof. intros H4. pose proof u80_pos as Hu. assert (Ha : 0 < a). { pose proof (qmul_nonneg u80 u80). lra. }
  rewrite (qsqrt_pos_arg a Ha).
  pose proof (qmul_nonneg a a ltac:(lra) ltac:(lra)) as Haa.
  destruct (newton_strong a H4 60 (1 + a) (1 + a + a * a)) as [A [B C]].
  - assert (u80 < 1) by reflexivity. lra.
  - apply start_above. exact Ha.
  - lra.
  - pose proof (qmul_nonneg u80 u80 ltac:(lra) ltac:(lra)). lra.
  - split; [exact A|split; [exact B|]]. rewrite qpow4_60 in C. lra. Qed.

Theorem qsqrt_pos a : 4 * (u80 * u80) < a -> 0 < qsqrt a.
Proof. intros H. pose proof (qsqrt_strong a H) as [A _]. pose proof u80_pos. lra. Qed.

(* a root of at least m, where u <= k m: a <= (q + u)^2 <= (1 + k)^2 q^2 *)
Lemma qsqrt_rel_lower a m k : 0 < m -> m <= qsqrt a -> 0 <= k -> u80 <= k * m ->
  a <= (1 + k) * (1 + k) * (qsqrt a * qsqrt a).
Proof. intros Hm Hq Hk0 Hk. pose proof (qsqrt_lower a ltac:(lra)) as L. pose proof u80_pos.
  pose proof (qmul_le_l k m (qsqrt a) Hk0 Hq).
  pose proof (sq_le_sq (qsqrt a + u80) ((1 + k) * qsqrt a) ltac:(lra) ltac:(lra)). lra. Qed.

(* the guard of the model: once the executed root is at least 1e-8, its square
   is at least a / (1 + 2^-51) *)
Theorem qsqrt_guard_lower a : norm_eps <= qsqrt a -> a <= (1 + (1 # 2 ^ 51)) * (qsqrt a * qsqrt a).
Proof. intros Hg.
  pose proof (qsqrt_rel_lower a norm_eps (1 # 2 ^ 53) ltac:(reflexivity) Hg ltac:(discriminate) ltac:(vm_compute; discriminate)) as R.
  assert (Hc : (1 + (1 # 2 ^ 53)) * (1 + (1 # 2 ^ 53)) <= 1 + (1 # 2 ^ 51)) by (vm_compute; discriminate).
  pose proof (qmul_le_r _ _ _ (qsq_nonneg (qsqrt a)) Hc). lra. Qed.

(* small inputs: every positive iterate is a multiple of u, hence >= u, and the
   iterates halve down to about 4 u *)
Lemma qtrunc_grid z : 0 < qtrunc z -> u80 <= qtrunc z.
Proof. unfold qtrunc, u80. rewrite !Qred_correct, pow80. set (d := (2 ^ 80)%positive).
  set (k := Qfloor (z * inject_Z (Z.pos d))). unfold Qlt, Qle. cbn [Qnum Qden]. nia. Qed.

Fixpoint qpow2 (n : nat) : Q := match n with O => 1 | S n' => (1#2) * qpow2 n' end.
Lemma newton_small a : 0 < a -> a <= 4 * (u80 * u80) -> forall n y B,
  0 <= y -> (0 < y -> u80 <= y) -> 0 <= B -> y <= B + 4 * u80 -> newton n a y <= B * qpow2 n + 4 * u80.
Proof. intros Ha Hs. pose proof u80_pos as Hu. induction n as [|n IH]; intros y B Hy Hg HB Hle.
  - cbn [newton qpow2]. lra.
  - rewrite newton_S. cbn [qpow2].
    assert (Hn : 0 <= nstep a y) by (apply nstep_weak; assumption).
    assert (Hgn : 0 < nstep a y -> u80 <= nstep a y) by (unfold nstep; apply qtrunc_grid).
    assert (Hb : nstep a y <= B * (1#2) + 4 * u80).
    { unfold nstep. eapply Qle_trans; [apply qtrunc_le|].
      destruct (Qlt_le_dec 0 y) as [C|C].
      - specialize (Hg C). assert (Hd : a / y <= 4 * u80).
        { apply Qle_shift_div_r; [exact C|]. pose proof (qmul_le_l (4 * u80) u80 y ltac:(lra) Hg). lra. }
        lra.
      - assert (E : y == 0) by lra. rewrite E. unfold Qdiv. change (/ 0) with 0. lra. }
    pose proof (IH (nstep a y) (B * (1#2)) Hn Hgn ltac:(lra) Hb). lra. Qed.

Lemma qpow2_60 : qpow2 60 == 1 # (2 ^ 60).
Proof. vm_compute. reflexivity. Qed.

Theorem qsqrt_small a : a <= 4 * (u80 * u80) -> qsqrt a < norm_eps.
Proof. intros Hs. destruct (Qlt_le_dec 0 a) as [Ha|Ha].
  - rewrite (qsqrt_pos_arg a Ha). pose proof u80_pos as Hu.
    pose proof (newton_small a Ha Hs 60 (1 + a) (1 + a) ltac:(lra)) as H.
    assert (Hu1 : u80 <= 1) by (vm_compute; discriminate).
    specialize (H ltac:(intros _; lra) ltac:(lra) ltac:(lra)). rewrite qpow2_60 in H.
    assert (Hb : 4 * (u80 * u80) <= 1) by (vm_compute; discriminate).
    assert (Hc : 2 * (1 # 2 ^ 60) + 4 * u80 < norm_eps) by (vm_compute; reflexivity).
    assert (Hd : (1 + a) * (1 # 2 ^ 60) <= 2 * (1 # 2 ^ 60)).
    { apply qmul_le_r; [discriminate|lra]. }
    lra.
  - rewrite (qsqrt_nonpos_arg a Ha). reflexivity. Qed.

Corollary qsqrt_guard_range a : norm_eps <= qsqrt a -> 4 * (u80 * u80) < a.
Proof. intros Hg. destruct (Qlt_le_dec (4 * (u80 * u80)) a) as [C|C]; [exact C|].
  pose proof (qsqrt_small a C). lra. Qed.

(* an argument whose root passes the guard is at least eps^2 / 2: eps^2 <= qsqrt a ^2 <= a + tiny *)
Lemma qsqrt_guard_arg a : norm_eps <= qsqrt a -> norm_eps * norm_eps * (1#2) <= a.
Proof. intros Hg. destruct (Qlt_le_dec a (norm_eps * norm_eps * (1#2))) as [C|C]; [exfalso|exact C].
  pose proof (qsqrt_guard_range a Hg) as H4. destruct (qsqrt_strong a H4) as [_ [_ U]].
  pose proof (sq_le_sq norm_eps (qsqrt a) ltac:(discriminate) Hg) as P.
  assert (Ha0 : 0 <= a) by (pose proof (qsq_nonneg u80); lra).
  assert (Hsm : a <= 1) by (assert (norm_eps * norm_eps * (1#2) <= 1) by discriminate; lra).
  pose proof (qmul_le_l a a 1 Ha0 Hsm) as Hss.
  assert (K : 3 * (1 # 2 ^ 120) + (9 # 4) * (u80 * u80) < norm_eps * norm_eps * (1#2)) by (vm_compute; reflexivity).
  assert (K2 : (1 + a + a * a) * (1 # 2 ^ 120) <= 3 * (1 # 2 ^ 120)) by (apply qmul_le_r; [discriminate|lra]).
  lra. Qed.

(* relative upper bound on a range of inputs *)
Theorem qsqrt_range_upper a : norm_eps * norm_eps * (1#2) <= a -> a <= inject_Z (2 ^ 32) ->
  qsqrt a * qsqrt a <= (1 + (1 # 2 ^ 64)) * a.
Proof. intros Hlo Hhi.
  assert (H4 : 4 * (u80 * u80) < a).
  { assert (4 * (u80 * u80) < norm_eps * norm_eps * (1#2)) by reflexivity. lra. }
  destruct (qsqrt_strong a H4) as [_ [_ U]].
  assert (Ha : 0 < a) by (assert (0 < norm_eps * norm_eps * (1#2)) by reflexivity; lra).
  (* lra takes the constants as literals only *)
  change (inject_Z (2 ^ 32)) with 4294967296 in Hhi.
  change (norm_eps * norm_eps * (1#2)) with (1 # 20000000000000000) in Hlo.
  change (u80 * u80) with (1 # 1461501637330902918203684832716283019655932542976) in U.
  change (2 ^ 120)%positive with 1329227995784915872903807060280344576%positive in U.
  change (2 ^ 64)%positive with 18446744073709551616%positive.
  destruct (Qlt_le_dec a 1) as [C|C].
  - pose proof (qmul_le_l a a 1 ltac:(lra) ltac:(lra)) as Hsq. lra.
  - pose proof (qmul_le_l a a 4294967296 ltac:(lra) Hhi) as Hsq. lra. Qed.

(* two-sided relative error of the executed root on [1e-16, 2^32] *)
Theorem qsqrt_range a : norm_eps * norm_eps <= a -> a <= inject_Z (2 ^ 32) ->
  0 < qsqrt a /\ (1 - (1 # 2 ^ 50)) * a <= qsqrt a * qsqrt a /\ qsqrt a * qsqrt a <= (1 + (1 # 2 ^ 64)) * a.
Proof. intros Hlo Hhi.
  assert (H4 : 4 * (u80 * u80) < a).
  { assert (4 * (u80 * u80) < norm_eps * norm_eps) by reflexivity. lra. }
  destruct (qsqrt_strong a H4) as [P [L _]]. pose proof u80_pos as Hu. set (q := qsqrt a) in *.
  split; [lra|]. split; [|apply qsqrt_range_upper; [assert (0 <= norm_eps * norm_eps) by discriminate; lra|assumption]].
  (* q >= norm_eps / 2 *)
  assert (Hh : norm_eps * (1#2) <= q).
  { destruct (Qlt_le_dec q (norm_eps * (1#2))) as [C|C]; [exfalso|exact C].
    assert (Hs : q + u80 < norm_eps). { assert (u80 < norm_eps * (1#2)) by reflexivity. lra. }
    pose proof (sq_lt_sq (q + u80) norm_eps ltac:(lra) Hs). lra. }
  pose proof (qsqrt_rel_lower a (norm_eps * (1#2)) (1 # 2 ^ 52) ltac:(reflexivity) Hh ltac:(discriminate)
                ltac:(vm_compute; discriminate)) as R. fold q in R.
  pose proof (qmul_nonneg q q ltac:(lra) ltac:(lra)) as Hqq.
  (* (1 - e) (1 + k)^2 <= 1 *)
  assert (Hc : (1 - (1 # 2 ^ 50)) * ((1 + (1 # 2 ^ 52)) * (1 + (1 # 2 ^ 52))) <= 1) by (vm_compute; discriminate).
  pose proof (qmul_le_l (1 - (1 # 2 ^ 50)) _ _ ltac:(discriminate) R) as R2.
  pose proof (qmul_le_r _ _ (q * q) Hqq Hc) as R3. lra. Qed.

(* Evaluating qsqrt at a point: from 1 + a the iterates soon reach a fixed point v
   of the rounded step, which the remaining steps leave where it is; so k steps
   and one more are all there is to compute. *)
Lemma newton_plus n m a : forall y, newton (n + m) a y = newton m a (newton n a y).
Proof. induction n as [|n IH]; intros y; [reflexivity|]. cbn [Nat.add]. rewrite !newton_S. apply IH. Qed.
Lemma newton_fix n a y : nstep a y = y -> newton n a y = y.
Proof. intros E. induction n as [|n IH]; [reflexivity|]. rewrite newton_S, E. exact IH. Qed.
Lemma qsqrt_fix k a v : 0 < a -> (k <= 60)%nat -> newton k a (1 + a) = v -> nstep a v = v -> qsqrt a = v.
Proof. intros Ha Hk E F. rewrite (qsqrt_pos_arg a Ha). replace 60%nat with (k + (60 - k))%nat by lia.
  rewrite newton_plus, E. apply newton_fix. exact F. Qed.

(* [qsqrt 2] is evaluated here and nowhere else: the witnesses below rewrite with
   this equation, so that what remains to compute is arithmetic on literals. *)
Lemma qsqrt_2 : qsqrt 2 = 1709679290002018430137083 # 2 ^ 80.
Proof. apply (qsqrt_fix 6); [reflexivity|lia|vm_compute; reflexivity|vm_compute; reflexivity]. Qed.

(* the one-sided bound a <= qsqrt a ^2 does NOT hold: every step rounds down *)
Example qsqrt_two_below : 0 < qsqrt 2 /\ qsqrt 2 * qsqrt 2 < 2 /\ 2 <= (qsqrt 2 + u80) * (qsqrt 2 + u80).
Proof. rewrite qsqrt_2. split; [|split]; vm_compute; first [reflexivity|discriminate]. Qed.

(* qsqrt respects == (its results are reduced fractions on the grid) and is exact at 1 *)
Lemma newton_comp n : forall a a' y y', a == a' -> y == y' -> newton n a y == newton n a' y'.
Proof. induction n as [|n IH]; intros a a' y y' Ha Hy; [exact Hy|].
  rewrite !newton_S. apply IH; [exact Ha|]. unfold nstep. rewrite (qtrunc_comp _ ((y' + a' / y') * (1#2))); [reflexivity|].
  rewrite Ha, Hy. reflexivity. Qed.
Lemma qsqrt_comp a a' : a == a' -> qsqrt a == qsqrt a'.
Proof. intros H. unfold qsqrt. rewrite H. destruct (Qle_bool a' 0); [reflexivity|]. apply newton_comp; [exact H|rewrite H; reflexivity]. Qed.
Lemma qsqrt_one x : x == 1 -> qsqrt x == 1.
Proof. intros H. rewrite (qsqrt_comp x 1 H), (qsqrt_fix 6 1 1); [reflexivity|reflexivity|lia|vm_compute; reflexivity|vm_compute; reflexivity]. Qed.

Lemma lin_norm2_executed c n w r :
  lin_valid c n -> length w = n -> lc_norm c = 2%nat -> lin_project_col qsqrt c w = Some r ->
  exists w3, lin_project_col qsqrt (with_norm c 0) w = Some w3 /\
    let S := sumsq w3 in let q := qsqrt S in
    (q < norm_eps /\ peq r w3) \/
    (norm_eps <= q /\ sumsq r * (q * q) == S /\
     sumsq r <= 1 + (1 # 2 ^ 51) /\
     (S <= inject_Z (2 ^ 32) -> 1 <= sumsq r * (1 + (1 # 2 ^ 64)))).
Proof. intros V L N E. destruct (lin_norm2_any qsqrt c n w r V L N E) as [w3 [E3 H]].
  exists w3. split; [exact E3|]. cbv zeta in *. destruct H as [H|[Hg Hid]]; [left; exact H|right].
  set (S := sumsq w3) in *. set (q := qsqrt S) in *.
  assert (Hq : 0 < q) by (unfold norm_eps in Hg; lra).
  pose proof (Qmult_lt_0_compat q q Hq Hq) as Hqq.
  split; [exact Hg|]. split; [exact Hid|]. split.
  - (* T q^2 = S <= (1+e) q^2 *)
    pose proof (qsqrt_guard_lower S Hg) as Lo. fold q in Lo.
    destruct (Qlt_le_dec (1 + (1 # 2 ^ 51)) (sumsq r)) as [C|C]; [exfalso|exact C].
    pose proof (Qmult_lt_compat_r _ _ (q * q) Hqq C). lra.
  - intros Hr. pose proof (qsqrt_guard_arg S Hg) as Hlo.
    apply (unit_below _ (q * q) S); [apply sumsq_nonneg|exact Hid| |apply qsqrt_range_upper; assumption].
    assert (0 < norm_eps * norm_eps * (1#2)) by reflexivity. lra. Qed.

(* unit-norm feasible weights are a fixed point with the executed root too *)
Lemma lin_fixed_norm2_executed c n w r :
  lin_valid c n -> length w = n -> lc_norm c = 2%nat ->
  lin_feasible c w -> qsum (map (fun x => x * x) w) == 1 -> lin_project_col qsqrt c w = Some r -> peq r w.
Proof. apply lin_fixed_norm2. exact qsqrt_one. Qed.

(* w = (1, 1): sum of squares 2 is not a rational square; 99/70 is a root with
   relative error 1/9800 in the square, the executed root one with error < 2^-50 *)
Example approx_root_two :
  let s := sumsq [1; 1] in let r := 99 # 70 in
  s == 2 /\ 0 < r /\ (1 - (1 # 9800)) * s <= r * r /\ r * r <= (1 + (1 # 9800)) * s /\ (1 # 9800) < 1 /\
  1 <= sumsq (map (fun x => x / r) [1; 1]) * (1 + (1 # 9800)) /\
  sumsq (map (fun x => x / r) [1; 1]) * (1 - (1 # 9800)) <= 1 /\
  ~ sumsq (map (fun x => x / r) [1; 1]) == 1.
Proof. cbv zeta. repeat split; vm_compute; first [reflexivity|discriminate]. Qed.

(* the same column through the model: monotonicities (1, 1), order 2, raw column (1, 1) *)
Definition rt2_cfg : lin_cfg := with_norm zero_cfg 2.
Lemma rt2_cfg_valid : lin_valid rt2_cfg 2.
Proof. apply lin_valid_with_norm. exact zero_cfg_valid. Qed.
Definition rt_99_70 (x : Q) : Q := 99 # 70.
(* the only call of the root oracle on this column is [rt 2] *)
Lemma rt2_project rt : lin_project_col rt rt2_cfg [1; 1] =
  Some (map (fun x => Qred (x / (if qlt (rt 2) norm_eps then 1 else rt 2))) [1; 1]).
Proof. reflexivity. Qed.

(* hypotheses of lin_norm2_any / lin_norm2_approx with the non-square sum 2 and
   the rational approximation 99/70 (e = 1/9800); the result is NOT of unit norm *)
Example any_root_applies : exists r,
  lin_valid rt2_cfg 2 /\ length [1; 1] = 2%nat /\ lc_norm rt2_cfg = 2%nat /\
  lin_project_col rt_99_70 rt2_cfg [1; 1] = Some r /\
  lin_project_col rt_99_70 (with_norm rt2_cfg 0) [1; 1] = Some [1; 1] /\
  sumsq [1; 1] == 2 /\ norm_eps <= rt_99_70 2 /\
  (1 # 9800) < 1 /\ (1 - (1 # 9800)) * 2 <= rt_99_70 2 * rt_99_70 2 /\ rt_99_70 2 * rt_99_70 2 <= (1 + (1 # 9800)) * 2 /\
  ~ rt_99_70 2 * rt_99_70 2 == 2 /\
  sumsq r * (rt_99_70 2 * rt_99_70 2) == 2 /\ 1 <= sumsq r * (1 + (1 # 9800)) /\ sumsq r * (1 - (1 # 9800)) <= 1.
Proof. eexists. split; [exact rt2_cfg_valid|]. split; [reflexivity|]. split; [reflexivity|].
  split; [vm_compute; reflexivity|]. repeat split; vm_compute; first [reflexivity|discriminate]. Qed.

(* the executed root on the same column: guard passed, 2 in range, result norm
   strictly ABOVE 1 (the root is rounded down) but within the proved bound *)
Example executed_root_applies : exists r,
  lin_project_col qsqrt rt2_cfg [1; 1] = Some r /\
  lin_project_col qsqrt (with_norm rt2_cfg 0) [1; 1] = Some [1; 1] /\
  norm_eps <= qsqrt 2 /\ 2 <= inject_Z (2 ^ 32) /\ norm_eps * norm_eps <= 2 /\
  1 < sumsq r /\ sumsq r <= 1 + (1 # 2 ^ 51) /\ sumsq r * (qsqrt 2 * qsqrt 2) == 2.
Proof. eexists. rewrite rt2_project, qsqrt_2. split; [reflexivity|].
  repeat split; vm_compute; first [reflexivity|discriminate]. Qed.

(* lattice_lib.torsion_regularizer turns a scalar amount l into the list
   [math.sqrt(l)] * rank and later multiplies the factors of two dimensions.
   With r the number the square root actually returned, the code computes the
   model's value for the scalar amount r * r -- for EVERY r. *)
From TFL Require Model.Regularizers Proofs.Regularizers.
Module TorsionRoot.
Import TFL.Model.Regularizers TFL.Proofs.Regularizers.

Lemma tors_scalar_any_root sizes units (r1 r2 : Q) w :
  lattice_torsion sizes units (PerDim (repeat r1 (length sizes))) (PerDim (repeat r2 (length sizes))) w ==
  lattice_torsion sizes units (Scalar (r1 * r1)) (Scalar (r2 * r2)) w.
Proof. apply tors_sqrt_oracle; reflexivity. Qed.

(* ... which is the documented sum with pair weight r*r, and differs from the
   documented sum with weight l by (r*r - l) times the unit-weight penalties *)
Lemma tors_scalar_any_root_doc sizes units (r1 r2 l1 l2 : Q) w : (1 <= units)%nat ->
  let code := lattice_torsion sizes units (PerDim (repeat r1 (length sizes))) (PerDim (repeat r2 (length sizes))) w in
  code == doc_torsion sizes units (Scalar (r1 * r1)) (Scalar (r2 * r2)) w /\
  code - doc_torsion sizes units (Scalar l1) (Scalar l2) w ==
    (r1 * r1 - l1) * doc_torsion sizes units (Scalar 1) (Scalar 0) w +
    (r2 * r2 - l2) * doc_torsion sizes units (Scalar 0) (Scalar 1) w.
Proof. intros Hu. cbv zeta. rewrite tors_scalar_any_root. split.
  - apply lattice_torsion_doc; [exact Hu|exact I|exact I].
  - rewrite <- !(lattice_torsion_doc sizes units (Scalar _) (Scalar _) w Hu I I).
    rewrite (lattice_torsion_linear sizes units (r1 * r1) (r2 * r2)), (lattice_torsion_linear sizes units l1 l2). ring. Qed.

(* approximate roots: the penalty is within the same relative error *)
Lemma tors_scalar_approx_root sizes units (r1 r2 l1 l2 e : Q) w : (1 <= units)%nat ->
  (1 - e) * l1 <= r1 * r1 -> r1 * r1 <= (1 + e) * l1 ->
  (1 - e) * l2 <= r2 * r2 -> r2 * r2 <= (1 + e) * l2 ->
  let code := lattice_torsion sizes units (PerDim (repeat r1 (length sizes))) (PerDim (repeat r2 (length sizes))) w in
  (1 - e) * doc_torsion sizes units (Scalar l1) (Scalar l2) w <= code /\
  code <= (1 + e) * doc_torsion sizes units (Scalar l1) (Scalar l2) w.
Proof. intros Hu A1 A2 B1 B2. cbv zeta. rewrite tors_scalar_any_root.
  rewrite <- !(lattice_torsion_doc sizes units (Scalar _) (Scalar _) w Hu I I).
  rewrite (lattice_torsion_linear sizes units (r1 * r1) (r2 * r2)), (lattice_torsion_linear sizes units l1 l2).
  assert (HA : 0 <= lattice_torsion sizes units (Scalar 1) (Scalar 0) w) by (apply lattice_torsion_nonneg; cbn; lra).
  assert (HB : 0 <= lattice_torsion sizes units (Scalar 0) (Scalar 1) w) by (apply lattice_torsion_nonneg; cbn; lra).
  set (A := lattice_torsion sizes units (Scalar 1) (Scalar 0) w) in *.
  set (B := lattice_torsion sizes units (Scalar 0) (Scalar 1) w) in *.
  pose proof (qmul_le_r _ _ A HA A1). pose proof (qmul_le_r _ _ A HA A2).
  pose proof (qmul_le_r _ _ B HB B1). pose proof (qmul_le_r _ _ B HB B2).
  split; lra. Qed.

(* amount 2 (not a rational square) on a 2x2 lattice with a twist: root 99/70 *)
Example tors_root_two :
  let r := 99 # 70 in let e := 1 # 9800 in let w := [0; 0; 0; 1] in
  (1 - e) * 2 <= r * r /\ r * r <= (1 + e) * 2 /\ ~ r * r == 2 /\
  doc_torsion [2; 2]%nat 1 (Scalar 2) (Scalar 2) w == 4 /\
  lattice_torsion [2; 2]%nat 1 (PerDim (repeat r 2)) (PerDim (repeat r 2)) w == 2 * (r * r) /\
  (1 - e) * 4 <= 2 * (r * r) /\ 2 * (r * r) <= (1 + e) * 4.
Proof. cbv zeta. repeat split; vm_compute; first [reflexivity|discriminate]. Qed.
End TorsionRoot.

(* The model compares the SUM OF SQUARES s with squared thresholds; the code
   compares r = tf.norm(...) (a rounded square root of s) with the thresholds.
   For every r >= 0 the code's test on r is the squared test on r * r; when
   r * r is within relative error d of s the two tests agree unless s is within
   that relative error of a threshold. *)
Lemma sq_lt_iff x y : 0 <= x -> 0 <= y -> (x < y <-> x * x < y * y).
Proof. intros Hx Hy. split; [apply sq_lt_sq; exact Hx|]. intros H.
  destruct (Qlt_le_dec x y) as [C|C]; [exact C|]. pose proof (sq_le_sq y x Hy C). lra. Qed.

Lemma l2_check_any_root r eps : 0 <= r -> 0 <= eps ->
  (qabs (r - 1) < eps <-> r * r < (1 + eps) * (1 + eps) /\ (1 - eps < 0 \/ (1 - eps) * (1 - eps) < r * r)).
Proof. intros Hr He. rewrite qabs_lt, <- (sq_lt_iff r (1 + eps)) by lra.
  destruct (Qlt_le_dec (1 - eps) 0) as [Hn|Hn].
  - split; [intros [H1 H2]; split; [lra|left; exact Hn]|intros [H _]; split; lra].
  - rewrite <- (sq_lt_iff (1 - eps) r Hn Hr).
    split; [intros [H1 H2]; split; [lra|right; lra]|intros [H1 [H2|H2]]; split; lra]. Qed.

Lemma l2_check_approx_root r s eps d : 0 <= r -> 0 <= eps ->
  (1 - d) * s <= r * r -> r * r <= (1 + d) * s ->
  ((1 + d) * s < (1 + eps) * (1 + eps) /\ (1 - eps < 0 \/ (1 - eps) * (1 - eps) < (1 - d) * s) -> qabs (r - 1) < eps) /\
  (qabs (r - 1) < eps -> (1 - d) * s < (1 + eps) * (1 + eps) /\ (1 - eps < 0 \/ (1 - eps) * (1 - eps) < (1 + d) * s)).
Proof. intros Hr He Hlo Hhi. rewrite (l2_check_any_root r eps Hr He). split.
  - intros [A [B|B]]; (split; [lra|]); [left; exact B|right; lra].
  - intros [A [B|B]]; (split; [lra|]); [left; exact B|right; lra]. Qed.

Lemma l2_zero_any_root r ne : 0 <= r -> 0 < ne -> (qabs r < ne <-> r * r < ne * ne).
Proof. intros Hr Hn. rewrite qabs_lt, <- (sq_lt_iff r ne) by lra. split; [intros [_ H]; exact H|intros H; split; lra]. Qed.
Lemma l2_zero_approx_root r s ne d : 0 <= r -> 0 < ne ->
  (1 - d) * s <= r * r -> r * r <= (1 + d) * s ->
  ((1 + d) * s < ne * ne -> qabs r < ne) /\ (qabs r < ne -> (1 - d) * s < ne * ne).
Proof. intros Hr Hn Hlo Hhi. rewrite (l2_zero_any_root r ne Hr Hn). split; intros; lra. Qed.

Example l2_check_root_two :
  let r := 99 # 70 in let d := 1 # 9800 in let eps := 1 # 2 in
  0 <= r /\ 0 <= eps /\ (1 - d) * 2 <= r * r /\ r * r <= (1 + d) * 2 /\ ~ r * r == 2 /\
  (1 + d) * 2 < (1 + eps) * (1 + eps) /\ (1 - eps) * (1 - eps) < (1 - d) * 2 /\ qabs (r - 1) < eps.
Proof. cbv zeta. repeat split; vm_compute; first [reflexivity|discriminate]. Qed.

(* The monotonicity / dominance theorems of Proofs/LinearComposed.v hold for
   EVERY function rt (no hypothesis at all: the guard `norm < 1e-8 -> 1` makes
   the divisor positive whatever rt returns).  The only L2-specific function
   level statement is the Cauchy-Schwarz bound: |output - bias| is at most
   ||kernel||_2 * ||clipped input||_2, and ||kernel||_2 is 1 up to the
   relative error of the root. *)
Lemma cs_step a b P A B : 0 <= A -> 0 <= B -> P * P <= A * B ->
  (a * b + P) * (a * b + P) <= (a * a + A) * (b * b + B).
Proof. intros HA HB HP. set (X := 2 * (a * b * P)). set (Y := a * a * B + b * b * A).
  assert (HY : 0 <= Y).
  { pose proof (qmul_nonneg _ _ (qsq_nonneg a) HB). pose proof (qmul_nonneg _ _ (qsq_nonneg b) HA). unfold Y; lra. }
  (* X <= Y because Y^2 - X^2 = (a^2 B - b^2 A)^2 + 4 (ab)^2 (AB - P^2) *)
  assert (K : X <= Y).
  { destruct (Qlt_le_dec Y X) as [C|C]; [exfalso|exact C]. pose proof (sq_lt_sq Y X HY C) as H.
    pose proof (qsq_nonneg (a * a * B - b * b * A)) as S1.
    pose proof (qmul_nonneg _ (A * B - P * P) (qsq_nonneg (a * b)) ltac:(lra)) as S2.
    assert (E : Y * Y - X * X == (a * a * B - b * b * A) * (a * a * B - b * b * A)
                                 + 4 * (a * b * (a * b) * (A * B - P * P))) by (unfold X, Y; ring).
    lra. }
  assert (E : (a * a + A) * (b * b + B) - (a * b + P) * (a * b + P) == (Y - X) + (A * B - P * P)) by (unfold X, Y; ring).
  lra. Qed.

Lemma lin_sum_cs : forall k bs x, lin_sum k bs x * lin_sum k bs x <= sumsq k * sumsq (clipped bs x).
Proof. induction k as [|kq k IH]; intros bs x.
  - cbn. lra.
  - destruct bs as [|[lo hi] bs]; [|destruct x as [|xq x]].
    + cbn [lin_sum clipped]. change (sumsq []) with 0. lra.
    + cbn [lin_sum clipped]. change (sumsq []) with 0. lra.
    + cbn [lin_sum clipped]. unfold sumsq in *. cbn [map qsum]. fold (sumsq k). fold (sumsq (clipped bs x)).
      apply cs_step; [apply sumsq_nonneg|apply sumsq_nonneg|apply IH]. Qed.

(* any kernel whatsoever *)
Lemma lin_unit_cs k b bs x :
  (lin_unit k b bs x - b) * (lin_unit k b bs x - b) <= sumsq k * sumsq (clipped bs x).
Proof. unfold lin_unit. assert (E : b + lin_sum k bs x - b == lin_sum k bs x) by ring. rewrite E. apply lin_sum_cs. Qed.

Lemma projected_l2_output_approx rt c n w r b x :
  lin_valid c n -> length w = n -> lc_norm c = 2%nat -> lin_project_col rt c w = Some r ->
  exists w3, lin_project_col rt (with_norm c 0) w = Some w3 /\
    let S := sumsq w3 in let out := lin_unit r b (layer_bounds c n) x in
    forall e, e < 1 -> (1 - e) * S <= rt S * rt S -> rt S * rt S <= (1 + e) * S -> norm_eps <= rt S ->
    (1 - e) * ((out - b) * (out - b)) <= sumsq (clipped (layer_bounds c n) x).
Proof. intros V L N E. destruct (lin_norm2_approx rt c n w r V L N E) as [w3 [E3 H]].
  exists w3. split; [exact E3|]. cbv zeta in *. intros e He Hlo Hhi Hg.
  destruct (H e He Hlo Hhi) as [[A _]|[_ [_ [_ HT]]]]; [lra|].
  pose proof (lin_unit_cs r b (layer_bounds c n) x) as CS.
  set (o := (lin_unit r b (layer_bounds c n) x - b) * (lin_unit r b (layer_bounds c n) x - b)) in *.
  set (X := sumsq (clipped (layer_bounds c n) x)) in *. set (T := sumsq r) in *.
  assert (HX : 0 <= X) by apply sumsq_nonneg.
  pose proof (qmul_le_l (1 - e) _ _ ltac:(lra) CS) as H1.
  pose proof (qmul_le_r _ _ X HX HT) as H2. lra. Qed.

Lemma projected_l2_output_executed c n w r b x :
  lin_valid c n -> length w = n -> lc_norm c = 2%nat -> lin_project_col qsqrt c w = Some r ->
  exists w3, lin_project_col qsqrt (with_norm c 0) w = Some w3 /\
    let out := lin_unit r b (layer_bounds c n) x in
    (norm_eps <= qsqrt (sumsq w3) ->
     (out - b) * (out - b) <= (1 + (1 # 2 ^ 51)) * sumsq (clipped (layer_bounds c n) x)).
Proof. intros V L N E. destruct (lin_norm2_executed c n w r V L N E) as [w3 [E3 H]].
  exists w3. split; [exact E3|]. cbv zeta in *. intros Hg.
  destruct H as [[A _]|[_ [_ [HT _]]]]; [lra|].
  pose proof (lin_unit_cs r b (layer_bounds c n) x) as CS.
  pose proof (qmul_le_r _ _ _ (sumsq_nonneg (clipped (layer_bounds c n) x)) HT). lra. Qed.

Example projected_l2_applies : exists r,
  lin_project_col qsqrt rt2_cfg [1; 1] = Some r /\ norm_eps <= qsqrt (sumsq [1; 1]) /\
  let out := lin_unit r 5 (layer_bounds rt2_cfg 2) [3; 4] in
  sumsq (clipped (layer_bounds rt2_cfg 2) [3; 4]) == 25 /\
  (out - 5) * (out - 5) <= (1 + (1 # 2 ^ 51)) * 25.
Proof. eexists. change (sumsq [1; 1]) with 2. rewrite rt2_project, qsqrt_2. split; [reflexivity|].
  cbv zeta. repeat split; vm_compute; first [reflexivity|discriminate]. Qed.
