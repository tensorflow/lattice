(* Lemmas about Model/Regularizers.v (property C13): the code-shaped regularizers equal
   the documented sums, are non-negative, linear in the amounts, and vanish on the
   documented kernels. *)
From TFL Require Import Model.Regularizers.
Open Scope Q_scope.

Lemma qsum_swap {A B} (f : A -> B -> Q) la lb :
  qsum (map (fun a => qsum (map (fun b => f a b) lb)) la) ==
  qsum (map (fun b => qsum (map (fun a => f a b) la)) lb).
Proof. induction la as [|a la IH]; cbn [map qsum].
  - rewrite qsum_map_zero by reflexivity. reflexivity.
  - rewrite IH. symmetry. apply (qsum_map_plus (fun b => f a b) (fun b => qsum (map (fun a0 => f a0 b) la))). Qed.

Lemma qsum_map_nth (f : Q -> Q) l :
  qsum (map f l) = qsum (map (fun i => f (nth i l 0)) (seq 0 (length l))).
Proof. induction l as [|a l IH]; cbn [length seq map qsum]. reflexivity.
  rewrite <- seq_shift, map_map. cbn [nth]. rewrite IH. reflexivity. Qed.

(* sum_{k < n} [k+1 < n] X k = sum_{k < n-1} X k *)
Lemma qsum_seq_guard (X : nat -> Q) n :
  qsum (map (fun k => if (S k <? n)%nat then X k else 0) (seq 0 n)) == qsum (map X (seq 0 (n - 1))).
Proof. destruct n as [|n]. reflexivity.
  replace (S n - 1)%nat with n by lia. rewrite seq_S, map_app, qsum_app. cbn [map qsum Nat.add].
  rewrite Nat.ltb_irrefl.
  rewrite (qsum_map_ext (fun k => if (S k <? S n)%nat then X k else 0) X).
  lra. intros k Hk. apply in_seq in Hk. destruct (Nat.ltb_spec (S k) (S n)). reflexivity. lia. Qed.

Lemma tl_map {A B} (f : A -> B) l : tl (map f l) = map f (tl l).
Proof. destruct l; reflexivity. Qed.
Lemma removelast_map {A B} (f : A -> B) l : removelast (map f l) = map f (removelast l).
Proof. induction l as [|a l IH]; cbn [map removelast]. reflexivity.
  destruct l as [|b l]. reflexivity. cbn [map] in *. rewrite IH. reflexivity. Qed.
Lemma tl_seq a n : tl (seq a n) = seq (S a) (n - 1).
Proof. destruct n; cbn [seq tl]. reflexivity. replace (S n - 1)%nat with n by lia. reflexivity. Qed.
Lemma removelast_seq n : forall a, removelast (seq a n) = seq a (n - 1).
Proof. induction n as [|n IH]; intros a. reflexivity.
  cbn [seq]. destruct n as [|n]. reflexivity.
  change (removelast (a :: seq (S a) (S n))) with (a :: removelast (seq (S a) (S n))).
  rewrite IH. replace (S (S n) - 1)%nat with (S n) by lia. replace (S n - 1)%nat with n by lia. reflexivity. Qed.
Lemma tl_map_seq {B} (f : nat -> B) n : tl (map f (seq 0 n)) = map (fun k => f (S k)) (seq 0 (n - 1)).
Proof. rewrite tl_map, tl_seq, <- seq_shift, map_map. reflexivity. Qed.
Lemma removelast_map_seq {B} (f : nat -> B) n : removelast (map f (seq 0 n)) = map f (seq 0 (n - 1)).
Proof. rewrite removelast_map, removelast_seq. reflexivity. Qed.
Lemma map2_map {A B C D} (op : B -> C -> D) (F : A -> B) (G : A -> C) l :
  map2 op (map F l) (map G l) = map (fun x => op (F x) (G x)) l.
Proof. induction l as [|a l IH]; cbn [map map2]. reflexivity. rewrite IH. reflexivity. Qed.
Lemma map2_removelast {A B C} (op : A -> B -> C) l : forall m, length m = S (length l) ->
  map2 op l (removelast m) = map2 op l m.
Proof. induction l as [|a l IH]; intros m Hm. reflexivity.
  destruct m as [|b m]; [discriminate|]. destruct m as [|b' m]; [discriminate|].
  change (removelast (b :: b' :: m)) with (b :: removelast (b' :: m)). cbn [map2].
  rewrite IH. reflexivity. cbn [length] in *. lia. Qed.

Lemma nth_tl {A} (l : list A) i d : nth i (tl l) d = nth (S i) l d.
Proof. destruct l; [destruct i|]; reflexivity. Qed.
Lemma length_tl {A} (l : list A) : length (tl l) = (length l - 1)%nat.
Proof. destruct l; cbn; lia. Qed.
Lemma skipn2_tl {A} (l : list A) : skipn 2 l = tl (tl l).
Proof. destruct l as [|a [|b l]]; reflexivity. Qed.
Lemma in_removelast {A} (l : list A) x : In x (removelast l) -> In x l.
Proof. induction l as [|a l IH]; cbn [removelast]. intros []. destruct l as [|b l]. intros [].
  intros [<-|H]. left; reflexivity. right. apply IH. exact H. Qed.

Lemma nz_false q : nz q = false -> q == 0.
Proof. unfold nz. rewrite negb_false_iff. apply Qeq_bool_iff. Qed.
Lemma nz_true q : nz q = true -> ~ q == 0.
Proof. unfold nz. rewrite negb_true_iff. apply Qeq_bool_neq. Qed.

Global Instance sq_proper : Proper (Qeq ==> Qeq) sq.
Proof. intros a b H. unfold sq. rewrite H. reflexivity. Qed.
Lemma sq_even x : sq (- x) == sq x. Proof. unfold sq. ring. Qed.
Lemma qabs_even x : qabs (- x) == qabs x. Proof. qcases; lra. Qed.
Lemma sq_0 : sq 0 == 0. Proof. unfold sq. ring. Qed.

Lemma sum1_nonneg f r : (forall x, 0 <= f x) -> 0 <= sum1 f r.
Proof. intros H. unfold sum1. apply qsum_map_nonneg. intros; apply H. Qed.
Lemma sum2_nonneg f m : (forall x, 0 <= f x) -> 0 <= sum2 f m.
Proof. intros H. unfold sum2. apply qsum_map_nonneg. intros; apply sum1_nonneg, H. Qed.
Lemma sum3_nonneg f p : (forall x, 0 <= f x) -> 0 <= sum3 f p.
Proof. intros H. unfold sum3. apply qsum_map_nonneg. intros; apply sum2_nonneg, H. Qed.

(* l1 * |m|_1 + l2 * |m|_2^2 *)
Definition norms2 (l1 l2 : Q) (m : list row) : Q := l1 * sum2 qabs m + l2 * sum2 sq m.

(* every regularizer is, in closed form, a sum of terms of this shape *)
Lemma weighted_nonneg a1 a2 e1 e2 : 0 <= a1 -> 0 <= a2 -> 0 <= e1 -> 0 <= e2 -> 0 <= a1 * e1 + a2 * e2.
Proof. intros H1 H2 E1 E2. pose proof (qmul_nonneg _ _ H1 E1). pose proof (qmul_nonneg _ _ H2 E2). lra. Qed.

Lemma norms2_nonneg l1 l2 m : 0 <= l1 -> 0 <= l2 -> 0 <= norms2 l1 l2 m.
Proof. intros H1 H2. apply weighted_nonneg; try assumption; apply sum2_nonneg; [exact qabs_nonneg|exact qsq_nonneg]. Qed.
Lemma norms2_linear l1 l2 m : norms2 l1 l2 m == l1 * norms2 1 0 m + l2 * norms2 0 1 m.
Proof. unfold norms2. lra. Qed.

(* the early return and every shape of the `losses` list compute norms2 *)
Lemma losses_guard l1 l2 m : (if negb (nz l1) && negb (nz l2) then 0 else pwl_losses l1 l2 m) == norms2 l1 l2 m.
Proof. unfold pwl_losses, norms2. destruct (nz l1) eqn:E1, (nz l2) eqn:E2; cbn [negb andb app];
  try (apply nz_false in E1; rewrite E1); try (apply nz_false in E2; rewrite E2); lra. Qed.

Definition lap_rows (cyclic : bool) (units : nat) (x : list row) : list row :=
  if cyclic then tl x ++ [rneg (col_sums units (tl x))] else tl x.
Definition wrinkle_rows cyc units x := sl_diff (pwl_nonlinearity cyc units x (firstn 1 (skipn 1 (tl x)))).

Lemma pwl_laplacian_closed l1 l2 cyc units x : pwl_laplacian l1 l2 cyc units x == norms2 l1 l2 (lap_rows cyc units x).
Proof. apply losses_guard. Qed.
Lemma pwl_hessian_closed l1 l2 cyc units x :
  pwl_hessian l1 l2 cyc units x == norms2 l1 l2 (pwl_nonlinearity cyc units x []).
Proof. apply losses_guard. Qed.
Lemma pwl_wrinkle_small l1 l2 cyc units x : (length x < 3)%nat -> pwl_wrinkle l1 l2 cyc units x = 0.
Proof. intros Hk. unfold pwl_wrinkle. apply Nat.ltb_lt in Hk. rewrite Hk. destruct (negb (nz l1) && negb (nz l2)); reflexivity. Qed.
Lemma pwl_wrinkle_closed l1 l2 cyc units x : (3 <= length x)%nat ->
  pwl_wrinkle l1 l2 cyc units x == norms2 l1 l2 (wrinkle_rows cyc units x).
Proof. intros Hk. rewrite <- losses_guard. unfold pwl_wrinkle. apply Nat.ltb_ge in Hk. rewrite Hk. reflexivity. Qed.

Theorem pwl_laplacian_nonneg l1 l2 cyc units x : 0 <= l1 -> 0 <= l2 -> 0 <= pwl_laplacian l1 l2 cyc units x.
Proof. intros. rewrite pwl_laplacian_closed. apply norms2_nonneg; assumption. Qed.
Theorem pwl_hessian_nonneg l1 l2 cyc units x : 0 <= l1 -> 0 <= l2 -> 0 <= pwl_hessian l1 l2 cyc units x.
Proof. intros. rewrite pwl_hessian_closed. apply norms2_nonneg; assumption. Qed.
Theorem pwl_wrinkle_nonneg l1 l2 cyc units x : 0 <= l1 -> 0 <= l2 -> 0 <= pwl_wrinkle l1 l2 cyc units x.
Proof. intros. destruct (Nat.lt_ge_cases (length x) 3).
  - rewrite pwl_wrinkle_small by assumption. lra.
  - rewrite pwl_wrinkle_closed by assumption. apply norms2_nonneg; assumption. Qed.

Theorem pwl_laplacian_linear l1 l2 cyc units x :
  pwl_laplacian l1 l2 cyc units x == l1 * pwl_laplacian 1 0 cyc units x + l2 * pwl_laplacian 0 1 cyc units x.
Proof. rewrite !pwl_laplacian_closed. apply norms2_linear. Qed.
Theorem pwl_hessian_linear l1 l2 cyc units x :
  pwl_hessian l1 l2 cyc units x == l1 * pwl_hessian 1 0 cyc units x + l2 * pwl_hessian 0 1 cyc units x.
Proof. rewrite !pwl_hessian_closed. apply norms2_linear. Qed.
Theorem pwl_wrinkle_linear l1 l2 cyc units x :
  pwl_wrinkle l1 l2 cyc units x == l1 * pwl_wrinkle 1 0 cyc units x + l2 * pwl_wrinkle 0 1 cyc units x.
Proof. destruct (Nat.lt_ge_cases (length x) 3).
  - rewrite !pwl_wrinkle_small by assumption. lra.
  - rewrite !pwl_wrinkle_closed by assumption. apply norms2_linear. Qed.

Definition wf (units : nat) (m : list row) : Prop := forall r, In r m -> length r = units.

Lemma wf_tl u m : wf u m -> wf u (tl m).
Proof. intros H r Hr. apply H. destruct m; [destruct Hr|right; exact Hr]. Qed.
Lemma wf_removelast u m : wf u m -> wf u (removelast m).
Proof. intros H r Hr. apply H, in_removelast, Hr. Qed.
Lemma wf_firstn u n m : wf u m -> wf u (firstn n m).
Proof. intros H r Hr. apply H, (in_firstn n), Hr. Qed.
Lemma wf_skipn u n m : wf u m -> wf u (skipn n m).
Proof. intros H r Hr. apply H. rewrite <- (firstn_skipn n m). apply in_or_app. right; exact Hr. Qed.
Lemma wf_app u a b : wf u a -> wf u b -> wf u (a ++ b).
Proof. intros Ha Hb r Hr. apply in_app_or in Hr. destruct Hr; auto. Qed.
Lemma wf_nil u : wf u []. Proof. intros r []. Qed.
Lemma wf_neg_col_sums u m : wf u [rneg (col_sums u m)].
Proof. intros r [<-|[]]. unfold rneg, col_sums. rewrite !map_length, seq_length. reflexivity. Qed.
Lemma wf_map2_rsub u a b : wf u a -> wf u b -> wf u (map2 rsub a b).
Proof. intros Ha Hb r Hr. apply in_map2 in Hr. destruct Hr as (x & y & Hx & Hy & ->).
  unfold rsub. rewrite map2_length, (Ha x Hx), (Hb y Hy). apply Nat.min_id. Qed.
Lemma wf_sl_diff u m : wf u m -> wf u (sl_diff m).
Proof. intros H. apply wf_map2_rsub. apply wf_tl, H. apply wf_removelast, H. Qed.

Lemma sum2_columns f {units m} : wf units m ->
  sum2 f m == qsum (map (fun u => sum1 f (column u m)) (seq 0 units)).
Proof. intros H. unfold sum2. etransitivity.
  { apply qsum_map_ext. intros r Hr. unfold sum1. rewrite qsum_map_nth, (H r Hr). reflexivity. }
  cbv beta. rewrite qsum_swap. apply qsum_map_ext. intros u _. unfold sum1, column. rewrite map_map. reflexivity. Qed.

Lemma column_removelast u m : column u (removelast m) = removelast (column u m).
Proof. symmetry. apply removelast_map. Qed.
Lemma column_firstn u n m : column u (firstn n m) = firstn n (column u m).
Proof. symmetry. apply firstn_map. Qed.
Lemma column_skipn u n m : column u (skipn n m) = skipn n (column u m).
Proof. symmetry. apply skipn_map. Qed.

Definition diff1 (l : list Q) : list Q := map2 Qminus (tl l) (removelast l).

(* code-shaped per-unit difference lists *)
Definition lap1 (cyc : bool) (c : list Q) : list Q := if cyc then tl c ++ [- qsum (tl c)] else tl c.
Definition ext1 (c extra : list Q) : list Q := tl c ++ [- qsum (tl c)] ++ firstn 1 (tl c) ++ extra.
Definition nonlin1 (cyc : bool) (c extra : list Q) : list Q :=
  if cyc then diff1 (ext1 c extra) else diff1 (tl c).
Definition hes1 (cyc : bool) (c : list Q) : list Q := nonlin1 cyc c [].
Definition wri1 (cyc : bool) (c : list Q) : list Q := diff1 (nonlin1 cyc c (firstn 1 (skipn 1 (tl c)))).

Lemma wf_ext units x extra : wf units x -> wf units extra ->
  wf units (tl x ++ [rneg (col_sums units (tl x))] ++ firstn 1 (tl x) ++ extra).
Proof. intros H He. repeat apply wf_app; try assumption. apply wf_tl, H. apply wf_neg_col_sums.
  apply wf_firstn, wf_tl, H. Qed.

Lemma wf_nonlinearity cyc units x extra : wf units x -> wf units extra -> wf units (pwl_nonlinearity cyc units x extra).
Proof. intros H He. unfold pwl_nonlinearity. destruct cyc.
  - apply wf_sl_diff, wf_ext; assumption.
  - apply wf_map2_rsub. apply wf_skipn, H. apply wf_removelast, wf_tl, H. Qed.

(* column u of the code's row lists, for a unit u of well-formed rows *)
Section Column.
Variables units u : nat.
Hypothesis Hu : (u < units)%nat.

Lemma column_map2_rsub : forall a b, wf units a -> wf units b ->
  column u (map2 rsub a b) = map2 Qminus (column u a) (column u b).
Proof. induction a as [|x a IH]; intros [|y b] Ha Hb; try reflexivity.
  unfold column. cbn [map2 map]. f_equal.
  - unfold rsub. apply nth_map2; [rewrite (Ha x)|rewrite (Hb y)]; try (left; reflexivity); exact Hu.
  - apply IH; intros r Hr; [apply Ha|apply Hb]; right; assumption. Qed.
Lemma column_sl_diff m : wf units m -> column u (sl_diff m) = diff1 (column u m).
Proof. intros H. unfold sl_diff, diff1.
  rewrite column_map2_rsub by (try apply wf_tl; try apply wf_removelast; exact H).
  rewrite column_tl, column_removelast. reflexivity. Qed.
Lemma column_neg_col_sums m : column u [rneg (col_sums units m)] = [- qsum (column u m)].
Proof. unfold column at 1. cbn [map]. f_equal. unfold rneg.
  rewrite nth_indep with (d' := - 0) by (unfold col_sums; rewrite !map_length, seq_length; exact Hu).
  rewrite map_nth. unfold col_sums. rewrite nth_map_seq by exact Hu. reflexivity. Qed.

Lemma column_lap_rows cyc x : column u (lap_rows cyc units x) = lap1 cyc (column u x).
Proof. unfold lap_rows, lap1. destruct cyc.
  - rewrite column_app, column_neg_col_sums, column_tl. reflexivity.
  - apply column_tl. Qed.

Lemma column_nonlinearity cyc x extra : wf units x -> wf units extra ->
  column u (pwl_nonlinearity cyc units x extra) = nonlin1 cyc (column u x) (column u extra).
Proof. intros H He. unfold pwl_nonlinearity, nonlin1. destruct cyc.
  - rewrite column_sl_diff by (apply wf_ext; assumption). f_equal.
    unfold ext1. rewrite !column_app, column_neg_col_sums, column_firstn, !column_tl. reflexivity.
  - rewrite column_map2_rsub by (try apply wf_skipn; try apply wf_removelast, wf_tl; exact H).
    unfold diff1. rewrite column_skipn, column_removelast, !column_tl, skipn2_tl. reflexivity. Qed.

Lemma column_wrinkle_rows cyc x : wf units x -> column u (wrinkle_rows cyc units x) = wri1 cyc (column u x).
Proof. intros H. unfold wrinkle_rows, wri1.
  assert (He : wf units (firstn 1 (skipn 1 (tl x)))) by (apply wf_firstn, wf_skipn, wf_tl, H).
  rewrite column_sl_diff by (apply wf_nonlinearity; assumption).
  rewrite column_nonlinearity by assumption. rewrite column_firstn, column_skipn, column_tl. reflexivity. Qed.
End Column.

Lemma cumsum_length c : forall acc, length (cumsum_from acc c) = length c.
Proof. induction c as [|a c IH]; intros acc; cbn [cumsum_from length]. reflexivity. rewrite IH. reflexivity. Qed.

(* output i is the accumulator plus the first i + 1 entries *)
Lemma cumsum_nth c : forall acc i, (i < length c)%nat -> nth i (cumsum_from acc c) 0 == acc + qsum (firstn (S i) c).
Proof. induction c as [|a c IH]; intros acc i Hi; cbn [length] in Hi. lia.
  destruct i as [|i]; cbn [cumsum_from nth]. cbn [firstn qsum]. lra.
  rewrite IH by lia. change (firstn (S (S i)) (a :: c)) with (a :: firstn (S i) c). cbn [qsum]. lra. Qed.
Lemma cumsum_succ c acc i : (S i < length c)%nat ->
  nth (S i) (cumsum_from acc c) 0 - nth i (cumsum_from acc c) 0 == nth (S i) c 0.
Proof. intros Hi. rewrite !cumsum_nth by lia. rewrite (qsum_firstn_S c (S i)) by lia. lra. Qed.
Lemma cumsum_first a c acc : nth 0 (cumsum_from acc (a :: c)) 0 = acc + a.
Proof. reflexivity. Qed.

Lemma kp_length c : length (keypoint_outputs c) = length c.
Proof. apply cumsum_length. Qed.

Lemma kp_column_length u (x : list row) : length (keypoint_outputs (column u x)) = length x.
Proof. rewrite kp_length. apply column_length. Qed.

(* first differences of the keypoint outputs: the heights, then (cyclic) the
   wrap-around height, then the same again one period later *)
Lemma first_diff_heights cyc c i : (S i < length c)%nat -> first_diff cyc (keypoint_outputs c) i == nth (S i) c 0.
Proof. intros Hi. unfold first_diff, out_at. rewrite kp_length.
  destruct cyc; [rewrite !Nat.mod_small by lia|]; replace (i + 1)%nat with (S i) by lia; apply cumsum_succ; exact Hi. Qed.
Lemma first_diff_wrap c : (1 <= length c)%nat -> first_diff true (keypoint_outputs c) (length c - 1) == - qsum (tl c).
Proof. intros Hk. unfold first_diff, out_at. rewrite kp_length. replace (length c - 1 + 1)%nat with (length c) by lia.
  rewrite Nat.mod_same, Nat.mod_small by lia. unfold keypoint_outputs. rewrite !cumsum_nth by lia.
  replace (S (length c - 1)) with (length c) by lia. rewrite firstn_all.
  destruct c as [|a c]; cbn [firstn qsum tl]; lra. Qed.
Lemma first_diff_period c i : (1 <= length c)%nat ->
  first_diff true (keypoint_outputs c) (length c + i) = first_diff true (keypoint_outputs c) i.
Proof. intros Hk. unfold first_diff, out_at. rewrite kp_length.
  replace (length c + i + 1)%nat with (i + 1 + 1 * length c)%nat by lia.
  replace (length c + i)%nat with (i + 1 * length c)%nat by lia. rewrite !Nat.mod_add by lia. reflexivity. Qed.

Lemma diff1_length l : length (diff1 l) = (length l - 1)%nat.
Proof. destruct l as [|a l]. reflexivity. unfold diff1.
  rewrite map2_removelast by reflexivity. rewrite map2_length. cbn [tl length]. lia. Qed.
Lemma diff1_nth l i : (S i < length l)%nat -> nth i (diff1 l) 0 = nth (S i) l 0 - nth i l 0.
Proof. intros Hi. unfold diff1. rewrite map2_removelast by (rewrite length_tl; lia).
  rewrite (nth_map2 Qminus (tl l) l i 0 0 0) by (rewrite ?length_tl; lia). rewrite nth_tl. reflexivity. Qed.
Lemma diff1_tab l (D : nat -> Q) : (forall i, (i < length l)%nat -> nth i l 0 == D i) ->
  forall i, (i < length (diff1 l))%nat -> nth i (diff1 l) 0 == D (S i) - D i.
Proof. intros H i Hi. rewrite diff1_length in Hi. rewrite diff1_nth by lia. rewrite !H by lia. reflexivity. Qed.

(* l lists D 0 .. D (n-1).  The code builds its lists of differences by slicing,
   appending and differencing, and each step turns tabulations into a tabulation. *)
Definition tab (l : list Q) (n : nat) (D : nat -> Q) : Prop :=
  length l = n /\ forall i, (i < n)%nat -> nth i l 0 == D i.

Lemma tab_len {l} n {n' D} : n = n' -> tab l n D -> tab l n' D.
Proof. intros <- H. exact H. Qed.
Lemma tab_ext {l n} D {D'} : (forall i, (i < n)%nat -> D i == D' i) -> tab l n D -> tab l n D'.
Proof. intros HD [Hl H]. split. exact Hl. intros i Hi. rewrite H by exact Hi. apply HD, Hi. Qed.
Lemma tab_app a b n m D : tab a n D -> tab b m (fun i => D (n + i)%nat) -> tab (a ++ b) (n + m) D.
Proof. intros [La Ha] [Lb Hb]. split. rewrite app_length, La, Lb. reflexivity.
  intros i Hi. destruct (Nat.lt_ge_cases i n) as [H|H].
  - rewrite app_nth1 by lia. apply Ha, H.
  - rewrite app_nth2, La, Hb by lia. replace (n + (i - n))%nat with i by lia. reflexivity. Qed.

(* forward difference of a sequence; the documented second and third differences
   are the iterated first difference (the second with the opposite sign) *)
Definition delta (D : nat -> Q) (i : nat) : Q := D (S i) - D i.

Lemma second_diff_delta cyc y i : second_diff cyc y i == - delta (first_diff cyc y) i.
Proof. unfold delta, first_diff, second_diff.
  replace (S i + 1)%nat with (i + 2)%nat by lia. replace (S i) with (i + 1)%nat by lia. ring. Qed.
Lemma third_diff_delta cyc y i : third_diff cyc y i == delta (delta (first_diff cyc y)) i.
Proof. unfold delta, first_diff, third_diff.
  replace (S (S i) + 1)%nat with (i + 3)%nat by lia. replace (S (S i)) with (i + 2)%nat by lia.
  replace (S i + 1)%nat with (i + 2)%nat by lia. replace (S i) with (i + 1)%nat by lia. ring. Qed.

Lemma tab_diff1 l n D : tab l n D -> tab (diff1 l) (n - 1) (delta D).
Proof. intros [Hl H]. split. rewrite diff1_length, Hl. reflexivity.
  intros i Hi. apply diff1_tab. intros j Hj. apply H. lia. rewrite diff1_length. lia. Qed.

Lemma heights_tab cyc c : tab (tl c) (length c - 1) (first_diff cyc (keypoint_outputs c)).
Proof. split. apply length_tl. intros i Hi. rewrite nth_tl. symmetry. apply first_diff_heights. lia. Qed.

Lemma lap1_tab cyc c : (cyc = true -> 1 <= length c)%nat ->
  tab (lap1 cyc c) (n_terms cyc (length c) 1) (first_diff cyc (keypoint_outputs c)).
Proof. intros Hk. unfold lap1, n_terms. destruct cyc; [|apply heights_tab]. specialize (Hk eq_refl).
  apply (tab_len (length c - 1 + 1)); [lia|].
  apply tab_app. apply heights_tab. split. reflexivity.
  intros i Hi. replace i with 0%nat by lia. rewrite Nat.add_0_r. symmetry. apply first_diff_wrap, Hk. Qed.

(* what the cyclic Hessian / wrinkle code appends after one full period: the first height(s) again *)
Lemma ext1_tab c extra m : (m < length c)%nat -> tab (firstn 1 (tl c) ++ extra) m (fun i => nth (S i) c 0) ->
  tab (ext1 c extra) (length c + m) (first_diff true (keypoint_outputs c)).
Proof. intros Hm Ht. unfold ext1. rewrite app_assoc. apply tab_app. apply (lap1_tab true). lia.
  apply (tab_ext (fun i => nth (S i) c 0)); [|exact Ht].
  intros i Hi. rewrite first_diff_period by lia. symmetry. apply first_diff_heights. lia. Qed.
Lemma tail1_tab c : (2 <= length c)%nat -> tab (firstn 1 (tl c) ++ []) 1 (fun i => nth (S i) c 0).
Proof. destruct c as [|a [|b c]]; cbn [length]; try lia. intros _. split. reflexivity.
  intros i Hi. replace i with 0%nat by lia. reflexivity. Qed.
Lemma tail2_tab c : (3 <= length c)%nat ->
  tab (firstn 1 (tl c) ++ firstn 1 (skipn 1 (tl c))) 2 (fun i => nth (S i) c 0).
Proof. destruct c as [|a [|b [|b' c]]]; cbn [length]; try lia. intros _. split. reflexivity.
  intros [|[|i]] Hi; try lia; reflexivity. Qed.

Lemma hes1_tab cyc c : (cyc = true -> 2 <= length c)%nat ->
  tab (hes1 cyc c) (n_terms cyc (length c) 2) (delta (first_diff cyc (keypoint_outputs c))).
Proof. intros Hk. unfold hes1, nonlin1, n_terms. destruct cyc.
  - specialize (Hk eq_refl). apply (tab_len (length c + 1 - 1)); [lia|].
    apply tab_diff1, ext1_tab. lia. apply tail1_tab, Hk.
  - apply (tab_len (length c - 1 - 1)); [lia|]. apply tab_diff1, heights_tab. Qed.

Lemma wri1_tab cyc c : (cyc = true -> 3 <= length c)%nat ->
  tab (wri1 cyc c) (n_terms cyc (length c) 3) (delta (delta (first_diff cyc (keypoint_outputs c)))).
Proof. intros Hk. unfold wri1, nonlin1, n_terms. destruct cyc.
  - specialize (Hk eq_refl). apply (tab_len (length c + 2 - 1 - 1)); [lia|].
    apply tab_diff1, tab_diff1, ext1_tab. lia. apply tail2_tab, Hk.
  - apply (tab_len (length c - 1 - 1 - 1)); [lia|]. apply tab_diff1, tab_diff1, heights_tab. Qed.

(* Per-unit equalities: code-shaped difference lists vs documented differences of the keypoint outputs *)
Section PerUnit.
Variable f : Q -> Q.
Hypothesis f_proper : Proper (Qeq ==> Qeq) f.
Hypothesis f_even : forall x, f (- x) == f x.

Lemma sum1_tab {l n} {D : nat -> Q} : tab l n D -> sum1 f l == qsum (map (fun i => f (D i)) (seq 0 n)).
Proof. intros [Hl H]. unfold sum1. rewrite qsum_map_nth, Hl. apply qsum_map_ext. intros i Hi. apply in_seq in Hi.
  apply f_proper, H. lia. Qed.

Lemma hes1_doc cyc c : (cyc = true -> 2 <= length c)%nat ->
  sum1 f (hes1 cyc c) ==
  qsum (map (fun i => f (second_diff cyc (keypoint_outputs c) i)) (seq 0 (n_terms cyc (length c) 2))).
Proof. intros Hk. rewrite (sum1_tab (hes1_tab cyc c Hk)). apply qsum_map_ext. intros i _.
  rewrite second_diff_delta. symmetry. apply f_even. Qed.

Lemma wri1_doc cyc c : (cyc = true -> 3 <= length c)%nat ->
  sum1 f (wri1 cyc c) ==
  qsum (map (fun i => f (third_diff cyc (keypoint_outputs c) i)) (seq 0 (n_terms cyc (length c) 3))).
Proof. intros Hk. rewrite (sum1_tab (wri1_tab cyc c Hk)). apply qsum_map_ext. intros i _.
  rewrite third_diff_delta. reflexivity. Qed.
End PerUnit.

(* the penalties of the units add up *)
Lemma norms2_units l1 l2 {units m} : wf units m ->
  norms2 l1 l2 m == qsum (map (fun u => l1 * sum1 qabs (column u m) + l2 * sum1 sq (column u m)) (seq 0 units)).
Proof. intros H. unfold norms2. rewrite !(sum2_columns _ H), <- !qsum_map_scale. symmetry. apply qsum_map_plus. Qed.

Lemma pwl_doc_generic (M : list row) (code1 : list Q -> list Q) (diff : bool -> list Q -> nat -> Q)
      (order : nat) l1 l2 cyc units (x : list row) :
  wf units M ->
  (forall u, (u < units)%nat -> column u M = code1 (column u x)) ->
  (forall f, Proper (Qeq ==> Qeq) f -> (forall z, f (- z) == f z) -> forall c, length c = length x ->
     sum1 f (code1 c) ==
     qsum (map (fun i => f (diff cyc (keypoint_outputs c) i)) (seq 0 (n_terms cyc (length c) order)))) ->
  norms2 l1 l2 M == doc_pwl diff order l1 l2 cyc units x.
Proof. intros Hwf Hcol Hdoc. rewrite (norms2_units _ _ Hwf). unfold doc_pwl. apply qsum_map_ext.
  intros u Hu. apply in_seq in Hu. unfold doc_pwl_unit, doc_norms. rewrite !map_map, kp_length, Hcol by lia.
  rewrite (Hdoc qabs qabs_proper qabs_even), (Hdoc sq sq_proper sq_even) by apply column_length. reflexivity. Qed.

Lemma wf_lap_rows cyc units x : wf units x -> wf units (lap_rows cyc units x).
Proof. intros H. unfold lap_rows. destruct cyc. apply wf_app. apply wf_tl, H. apply wf_neg_col_sums. apply wf_tl, H. Qed.
Lemma wf_wrinkle_rows cyc units x : wf units x -> wf units (wrinkle_rows cyc units x).
Proof. intros H. unfold wrinkle_rows. apply wf_sl_diff, wf_nonlinearity. exact H. apply wf_firstn, wf_skipn, wf_tl, H. Qed.

Theorem pwl_laplacian_doc l1 l2 cyc units x : wf units x -> (cyc = true -> 1 <= length x)%nat ->
  pwl_laplacian l1 l2 cyc units x == doc_pwl_laplacian l1 l2 cyc units x.
Proof. intros H Hk. rewrite pwl_laplacian_closed. unfold doc_pwl_laplacian.
  apply (pwl_doc_generic _ (lap1 cyc)).
  - apply wf_lap_rows, H.
  - intros u Hu. apply column_lap_rows, Hu.
  - intros f Hp He c Hc. apply sum1_tab. exact Hp. apply lap1_tab. rewrite Hc. exact Hk. Qed.

Theorem pwl_hessian_doc l1 l2 cyc units x : wf units x -> (cyc = true -> 2 <= length x)%nat ->
  pwl_hessian l1 l2 cyc units x == doc_pwl_hessian l1 l2 cyc units x.
Proof. intros H Hk. rewrite pwl_hessian_closed. unfold doc_pwl_hessian.
  apply (pwl_doc_generic _ (hes1 cyc)).
  - apply wf_nonlinearity. exact H. apply wf_nil.
  - intros u Hu. apply column_nonlinearity; try assumption. apply wf_nil.
  - intros f Hp He c Hc. apply hes1_doc; try assumption. rewrite Hc. exact Hk. Qed.

Theorem pwl_wrinkle_doc l1 l2 cyc units x : wf units x -> (3 <= length x)%nat ->
  pwl_wrinkle l1 l2 cyc units x == doc_pwl_wrinkle l1 l2 cyc units x.
Proof. intros H Hk. rewrite pwl_wrinkle_closed by exact Hk. unfold doc_pwl_wrinkle.
  apply (pwl_doc_generic _ (wri1 cyc)).
  - apply wf_wrinkle_rows, H.
  - intros u Hu. apply column_wrinkle_rows; assumption.
  - intros f Hp He c Hc. apply wri1_doc; try assumption. rewrite Hc. intros _. exact Hk. Qed.

(* below three rows the non-cyclic third differences do not exist: both sides are 0 *)
Theorem pwl_wrinkle_doc_small l1 l2 units x : (length x < 3)%nat ->
  pwl_wrinkle l1 l2 false units x == doc_pwl_wrinkle l1 l2 false units x.
Proof. intros Hk. rewrite pwl_wrinkle_small by exact Hk. unfold doc_pwl_wrinkle, doc_pwl. symmetry.
  apply qsum_map_zero. intros u _. unfold doc_pwl_unit, doc_norms, n_terms. rewrite kp_column_length.
  assert (E : (length x - 3 = 0)%nat) by lia. rewrite E. cbn [seq map qsum]. lra. Qed.

Definition idxQ (i : nat) : Q := inject_Z (Z.of_nat i).
Lemma idxQ_plus i j : idxQ (i + j) == idxQ i + idxQ j.
Proof. unfold idxQ. rewrite Nat2Z.inj_add, inject_Z_plus. reflexivity. Qed.

Lemma wrap_mod k j : (j < k)%nat -> ((j + k) mod k = j)%nat.
Proof. intros H. replace (j + k)%nat with (j + 1 * k)%nat by lia. rewrite Nat.mod_add by lia. apply Nat.mod_small, H. Qed.

(* Keypoint outputs quadratic in the keypoint index: position i, which is row j
   (ramp_row) or, cyclic, row j one period later (ramp_wrap), reads the polynomial at j.
   The index comes as a rational t with its equation, so that ring sees i, i + 1, ...
   and not injections of sums; what is left to show is arithmetic on positions. *)
Lemma ramp_row cyc {y k} a b c : length y = k ->
  (forall i, (i < k)%nat -> nth i y 0 == a + b * idxQ i + c * (idxQ i * idxQ i)) ->
  forall i j t, idxQ j == t -> i = j -> (j < k)%nat -> out_at cyc y i == a + b * t + c * (t * t).
Proof. intros Hl H i j t <- -> Hj. rewrite <- H by exact Hj. unfold out_at.
  destruct cyc; [rewrite Hl, Nat.mod_small by exact Hj|]; reflexivity. Qed.

Lemma ramp_wrap {y k} a b c : length y = k ->
  (forall i, (i < k)%nat -> nth i y 0 == a + b * idxQ i + c * (idxQ i * idxQ i)) ->
  forall i j t, idxQ j == t -> i = (j + k)%nat -> (j < k)%nat -> out_at true y i == a + b * t + c * (t * t).
Proof. intros Hl H i j t <- -> Hj. rewrite <- H by exact Hj. unfold out_at.
  rewrite Hl, wrap_mod by exact Hj. reflexivity. Qed.

Lemma doc_pwl_zero diff order l1 l2 cyc units (x : list row) :
  (forall u i, (u < units)%nat -> (i < n_terms cyc (length x) order)%nat ->
     diff cyc (keypoint_outputs (column u x)) i == 0) ->
  doc_pwl diff order l1 l2 cyc units x == 0.
Proof. intros H. unfold doc_pwl. apply qsum_map_zero. intros u Hu. apply in_seq in Hu.
  unfold doc_pwl_unit, doc_norms. rewrite kp_column_length, !map_map.
  rewrite (qsum_map_zero (fun i => qabs _)), (qsum_map_zero (fun i => sq _)). lra.
  - intros i Hi. apply in_seq in Hi. rewrite H by lia. apply sq_0.
  - intros i Hi. apply in_seq in Hi. rewrite H by lia. apply qabs_0. Qed.

Definition outputs (x : list row) (u : nat) : list Q := keypoint_outputs (column u x).

Section PWLZeros.
Variables (l1 l2 : Q) (units : nat) (x : list row).
Hypothesis Hwf : wf units x.

(* constant keypoint outputs, cyclic or not *)
Section Const.
Variable cst : nat -> Q.
Hypothesis Hc : forall u i, (u < units)%nat -> (i < length x)%nat -> nth i (outputs x u) 0 == cst u.

(* the i-th difference of the given order reads positions i .. i + order: rows, unless the indices wrap *)
Lemma out_const cyc order u i j : (u < units)%nat ->
  (i < n_terms cyc (length x) order)%nat -> (j <= i + order)%nat ->
  out_at cyc (keypoint_outputs (column u x)) j == cst u.
Proof. intros Hu Hi Hj. unfold out_at. apply Hc. exact Hu. destruct cyc; cbn [n_terms] in Hi.
  - rewrite kp_column_length. apply Nat.mod_upper_bound. lia.
  - lia. Qed.

Theorem pwl_laplacian_zero_const cyc : (1 <= length x)%nat -> pwl_laplacian l1 l2 cyc units x == 0.
Proof. intros Hk. rewrite (pwl_laplacian_doc _ _ _ _ _ Hwf (fun _ => Hk)).
  apply doc_pwl_zero. intros u i Hu Hi. unfold first_diff.
  rewrite !(out_const cyc 1 u i) by first [assumption | lia]. ring. Qed.

Theorem pwl_hessian_zero_const cyc : (2 <= length x)%nat -> pwl_hessian l1 l2 cyc units x == 0.
Proof. intros Hk. rewrite (pwl_hessian_doc _ _ _ _ _ Hwf (fun _ => Hk)).
  apply doc_pwl_zero. intros u i Hu Hi. unfold second_diff.
  rewrite !(out_const cyc 2 u i) by first [assumption | lia]. ring. Qed.

Theorem pwl_wrinkle_zero_const cyc : pwl_wrinkle l1 l2 cyc units x == 0.
Proof. destruct (Nat.lt_ge_cases (length x) 3) as [Hk|Hk].
  - rewrite pwl_wrinkle_small by exact Hk. reflexivity.
  - rewrite pwl_wrinkle_doc by assumption.
    apply doc_pwl_zero. intros u i Hu Hi. unfold third_diff.
    rewrite !(out_const cyc 3 u i) by first [assumption | lia]. ring. Qed.
End Const.

(* keypoint outputs linear in the keypoint index: Hessian (and wrinkle) vanish *)
Section Linear.
Variables a b : nat -> Q.
Hypothesis Hl : forall u i, (u < units)%nat -> (i < length x)%nat -> nth i (outputs x u) 0 == a u + b u * idxQ i.

Theorem pwl_hessian_zero_linear : pwl_hessian l1 l2 false units x == 0.
Proof. rewrite (pwl_hessian_doc _ _ _ _ _ Hwf) by discriminate.
  apply doc_pwl_zero. intros u i Hu Hi. cbn [n_terms] in Hi.
  assert (Hq : forall j, (j < length x)%nat -> nth j (outputs x u) 0 == a u + b u * idxQ j + 0 * (idxQ j * idxQ j))
    by (intros j Hj; rewrite (Hl u j Hu Hj); ring).
  assert (R := ramp_row false (a u) (b u) 0 (kp_column_length u x) Hq).
  assert (E1 : idxQ (i + 1) == idxQ i + 1) by apply idxQ_plus.
  assert (E2 : idxQ (i + 2) == idxQ i + 2) by apply idxQ_plus.
  unfold second_diff.
  rewrite (R i i _ (Qeq_refl _)), (R (i + 1)%nat _ _ E1), (R (i + 2)%nat _ _ E2) by lia. ring. Qed.
End Linear.

(* keypoint outputs quadratic in the keypoint index: wrinkle vanishes *)
Section Quadratic.
Variables a b c : nat -> Q.
Hypothesis Hq : forall u i, (u < units)%nat -> (i < length x)%nat ->
  nth i (outputs x u) 0 == a u + b u * idxQ i + c u * (idxQ i * idxQ i).

Theorem pwl_wrinkle_zero_quadratic : pwl_wrinkle l1 l2 false units x == 0.
Proof. destruct (Nat.lt_ge_cases (length x) 3) as [Hk|Hk].
  - rewrite pwl_wrinkle_small by exact Hk. reflexivity.
  - rewrite pwl_wrinkle_doc by assumption.
    apply doc_pwl_zero. intros u i Hu Hi. cbn [n_terms] in Hi.
    assert (R := ramp_row false (a u) (b u) (c u) (kp_column_length u x) (fun j => Hq u j Hu)).
    assert (E1 : idxQ (i + 1) == idxQ i + 1) by apply idxQ_plus.
    assert (E2 : idxQ (i + 2) == idxQ i + 2) by apply idxQ_plus.
    assert (E3 : idxQ (i + 3) == idxQ i + 3) by apply idxQ_plus.
    unfold third_diff.
    rewrite (R i i _ (Qeq_refl _)), (R (i + 1)%nat _ _ E1), (R (i + 2)%nat _ _ E2), (R (i + 3)%nat _ _ E3) by lia. ring. Qed.
End Quadratic.
End PWLZeros.

(* satisfiability of the hypotheses: a kernel with heights h, h, h has linear outputs *)
Example linear_outputs_example :
  let x := [[1; 0]; [2; 1#2]; [2; 1#2]; [2; 1#2]] in
  wf 2 x /\ (forall u i, (u < 2)%nat -> (i < length x)%nat ->
             nth i (outputs x u) 0 == nth u [1; 0] 0 + nth u [2; 1#2] 0 * idxQ i) /\
  pwl_hessian 1 1 false 2 x == 0 /\ ~ pwl_hessian 1 1 true 2 x == 0.
Proof. cbv zeta. split; [|split; [|split]].
  - intros r [<-|[<-|[<-|[<-|[]]]]]; reflexivity.
  - intros u i Hu Hi. cbn [length] in Hi.
    destruct u as [|[|u]]; [| |lia]; destruct i as [|[|[|[|i]]]]; try lia; vm_compute; reflexivity.
  - vm_compute. reflexivity.
  - vm_compute. discriminate. Qed.

Lemma sum_all_idx_cons (g : idx -> Q) s sh :
  qsum (map g (all_idx (s :: sh))) ==
  qsum (map (fun k => qsum (map (fun r => g (k :: r)) (all_idx sh))) (seq 0 s)).
Proof. cbn [all_idx]. rewrite map_flat_map, qsum_flat_map. apply qsum_map_ext. intros k _. rewrite map_map. reflexivity. Qed.

(* Fubini along dimension d: all vertices = (coordinate k along d) x (the rest) *)
Lemma fubini sh : forall d (g : idx -> Q), (d < length sh)%nat ->
  qsum (map g (all_idx sh)) ==
  qsum (map (fun k => qsum (map (fun r => g (upd r d k)) (all_idx (upd sh d 1%nat)))) (seq 0 (nth d sh 0%nat))).
Proof. induction sh as [|s sh IH]; intros d g Hd; cbn [length] in Hd. lia.
  destruct d as [|d].
  - cbn [upd nth]. rewrite sum_all_idx_cons. apply qsum_map_ext. intros k _.
    rewrite sum_all_idx_cons. cbn [seq map qsum]. cbn [upd]. lra.
  - cbn [upd nth]. rewrite sum_all_idx_cons.
    etransitivity. { apply qsum_map_ext. intros k0 _. apply (IH d (fun r => g (k0 :: r))). lia. }
    cbv beta. rewrite qsum_swap.
    apply qsum_map_ext. intros k _. rewrite sum_all_idx_cons. cbn [upd]. reflexivity.
Qed.

(* vertices of sizes ++ [n] = vertices of sizes x unit index *)
Lemma sum_all_idx_snoc sh n : forall (G : idx -> Q),
  qsum (map G (all_idx (sh ++ [n]))) ==
  qsum (map (fun u => qsum (map (fun v => G (v ++ [u])) (all_idx sh))) (seq 0 n)).
Proof. induction sh as [|s sh IH]; intros G.
  - cbn [app]. rewrite sum_all_idx_cons. apply qsum_map_ext. intros k _. reflexivity.
  - change ((s :: sh) ++ [n]) with (s :: (sh ++ [n])). rewrite sum_all_idx_cons.
    etransitivity. { apply qsum_map_ext. intros k _. apply (IH (fun r => G (k :: r))). }
    cbv beta. rewrite qsum_swap.
    apply qsum_map_ext. intros u _. rewrite sum_all_idx_cons. reflexivity. Qed.

Lemma upd_length_sh (sh : list nat) d k : length (upd sh d k) = length sh.
Proof. apply upd_length. Qed.

Lemma step_valid sh v d : valid sh v -> has_next sh v d = true -> valid sh (step v d).
Proof. intros Hv E. unfold step. apply upd_valid. exact Hv. unfold has_next in E. apply Nat.ltb_lt in E. exact E. Qed.
Lemma has_next_step sh v i j : i <> j -> has_next sh (step v i) j = has_next sh v j.
Proof. intros Hij. unfold has_next, step. rewrite nth_upd_other by exact Hij. reflexivity. Qed.

Lemma has_next_snoc sh n v u d : length v = length sh -> (d < length sh)%nat ->
  has_next (sh ++ [n]) (v ++ [u]) d = has_next sh v d.
Proof. intros Hl Hd. unfold has_next. rewrite !app_nth1 by lia. reflexivity. Qed.
Lemma step_snoc v u d : (d < length v)%nat -> step (v ++ [u]) d = step v d ++ [u].
Proof. intros Hd. unfold step. rewrite app_nth1, upd_app_l by exact Hd. reflexivity. Qed.

(* the other corners of the unit square at v spanned by the dimensions i <> j *)
Lemma square_valid sh v i j : i <> j -> valid sh v -> has_next sh v i = true -> has_next sh v j = true ->
  valid sh (step v i) /\ valid sh (step v j) /\ valid sh (step (step v i) j).
Proof. intros Hij Hv Ei Ej. repeat split; try (apply step_valid; assumption).
  apply step_valid. apply step_valid; assumption. rewrite has_next_step by exact Hij. exact Ej. Qed.

(* One dimension: code slicing = sum over the edges along d *)
Definition edge_sum (sh : list nat) (d : nat) (f : Q -> Q) (W : tens) : Q :=
  qsum (map (fun k => qsum (map (fun r => f (W (upd r d (S k)) - W (upd r d k))) (rest_idx sh d)))
            (seq 0 (nth d sh 0%nat - 1))).

Lemma code_dim sh d f W : sum2 f (sl_diff (slices sh d W)) = edge_sum sh d f W.
Proof. unfold sl_diff, slices. rewrite tl_map_seq, removelast_map_seq, map2_map.
  unfold sum2, edge_sum. rewrite map_map. f_equal. apply map_ext. intros k.
  unfold rsub. rewrite map2_map. unfold sum1. rewrite map_map. reflexivity. Qed.

Lemma rest_facts sh d r k : (d < length sh)%nat -> In r (rest_idx sh d) ->
  has_next sh (upd r d k) d = (S k <? nth d sh 0%nat)%nat /\ step (upd r d k) d = upd r d (S k).
Proof. intros Hd Hr. apply all_idx_valid, valid_length in Hr. rewrite upd_length in Hr.
  unfold has_next, step. rewrite nth_upd_same by lia. rewrite upd_upd. split; reflexivity. Qed.

(* Fubini along d for a sum over the vertices that have a successor along d *)
Lemma fubini_next sh d (g : idx -> Q) : (d < length sh)%nat ->
  qsum (map (fun v => if has_next sh v d then g v else 0) (all_idx sh)) ==
  qsum (map (fun k => qsum (map (fun r => g (upd r d k)) (rest_idx sh d))) (seq 0 (nth d sh 0%nat - 1))).
Proof. intros Hd. rewrite (fubini sh d _ Hd).
  rewrite <- qsum_seq_guard.
  apply qsum_map_ext. intros k _. fold (rest_idx sh d). destruct (S k <? nth d sh 0%nat)%nat eqn:E.
  - apply qsum_map_ext. intros r Hr. destruct (rest_facts sh d r k Hd Hr) as [-> _]. rewrite E. reflexivity.
  - apply qsum_map_zero. intros r Hr. destruct (rest_facts sh d r k Hd Hr) as [-> _]. rewrite E. reflexivity. Qed.

Lemma doc_dim sh d f W : (d < length sh)%nat ->
  qsum (map (fun v => if has_next sh v d then f (W (step v d) - W v) else 0) (all_idx sh)) == edge_sum sh d f W.
Proof. intros Hd. rewrite fubini_next by exact Hd. apply qsum_map_ext. intros k _. apply qsum_map_ext. intros r Hr.
  destruct (rest_facts sh d r k Hd Hr) as [_ ->]. reflexivity. Qed.

Definition eff (a : option (list Q)) (d : nat) : Q := match a with Some l => nth d l 0 | None => 0 end.

Lemma dim_off_eff {a d} : dim_off a d = true -> eff a d == 0.
Proof. destruct a as [l|]; cbn [dim_off eff]. rewrite negb_true_iff. apply nz_false. reflexivity. Qed.

Lemma lap_dim_closed sh a1 a2 W d :
  lap_dim sh a1 a2 W d == eff a1 d * edge_sum sh d qabs W + eff a2 d * edge_sum sh d sq W.
Proof. unfold lap_dim. destruct (dim_off a1 d && dim_off a2 d) eqn:E.
  - apply andb_true_iff in E. destruct E as [E1 E2]. rewrite (dim_off_eff E1), (dim_off_eff E2). lra.
  - rewrite !code_dim. destruct a1, a2; cbn [eff]; lra. Qed.

(* the per-dimension closed form (per-dimension amounts weight their own dimension) *)
Lemma lap_core_closed sh a1 a2 W :
  lap_core sh a1 a2 W ==
  qsum (map (fun d => eff a1 d * edge_sum sh d qabs W + eff a2 d * edge_sum sh d sq W) (seq 0 (length sh))).
Proof. unfold lap_core. apply qsum_map_ext. intros d _. apply lap_dim_closed. Qed.

(* documented sum over a tensor: vertices x the first n dimensions *)
Definition lap_term (sh : list nat) (e1 e2 : nat -> Q) (W : tens) (v : idx) (d : nat) : Q :=
  if has_next sh v d then e1 d * qabs (W (step v d) - W v) + e2 d * sq (W (step v d) - W v) else 0.
Definition doc_lap_tens (sh : list nat) (n : nat) (e1 e2 : nat -> Q) (W : tens) : Q :=
  qsum (map (fun v => qsum (map (lap_term sh e1 e2 W v) (seq 0 n))) (all_idx sh)).

Lemma doc_lap_tens_dims sh n e1 e2 W : (n <= length sh)%nat ->
  doc_lap_tens sh n e1 e2 W ==
  qsum (map (fun d => e1 d * edge_sum sh d qabs W + e2 d * edge_sum sh d sq W) (seq 0 n)).
Proof. intros Hn. unfold doc_lap_tens.
  rewrite qsum_swap. apply qsum_map_ext. intros d Hd. apply in_seq in Hd.
  rewrite <- !doc_dim by lia. rewrite <- !qsum_map_scale.
  rewrite <- (qsum_map_plus (fun v => e1 d * (if has_next sh v d then qabs (W (step v d) - W v) else 0))
                            (fun v => e2 d * (if has_next sh v d then sq (W (step v d) - W v) else 0))).
  apply qsum_map_ext. intros v _. unfold lap_term. destruct (has_next sh v d); lra. Qed.

Lemma doc_lap_tens_ext {sh n e1 e2 W W'} : (forall v, valid sh v -> W v = W' v) ->
  doc_lap_tens sh n e1 e2 W == doc_lap_tens sh n e1 e2 W'.
Proof. intros HW. unfold doc_lap_tens. apply qsum_map_ext. intros v Hv. apply all_idx_valid in Hv.
  apply qsum_map_ext. intros d _. unfold lap_term. destruct (has_next sh v d) eqn:E; [|reflexivity].
  rewrite (HW v Hv), (HW _ (step_valid sh v d Hv E)). reflexivity. Qed.

Lemma doc_lap_tens_units sizes units e1 e2 W :
  doc_lap_tens (sizes ++ [units]) (length sizes) e1 e2 W ==
  qsum (map (fun u => doc_lap_tens sizes (length sizes) e1 e2 (fun v => W (v ++ [u]))) (seq 0 units)).
Proof. unfold doc_lap_tens at 1. rewrite sum_all_idx_snoc. apply qsum_map_ext. intros u _.
  unfold doc_lap_tens. apply qsum_map_ext. intros v Hv. apply all_idx_valid, valid_length in Hv.
  apply qsum_map_ext. intros d Hd. apply in_seq in Hd. unfold lap_term.
  rewrite has_next_snoc, step_snoc by lia. reflexivity. Qed.

(* per-dimension lists must not be longer than the rank (the code checks
   len == rank in LaplacianRegularizer.__init__; [] is accepted and falsy) *)
Definition amount_ok (rank : nat) (a : amount) : Prop :=
  match a with Scalar _ => True | PerDim l => (length l <= rank)%nat end.

Lemma falsy_norm {rank a} : truthy a = false -> lap_norm rank a = None.
Proof. destruct a as [q|[|x l]]; cbn [truthy lap_norm]; intros H; try rewrite H; try reflexivity. discriminate. Qed.

Lemma lap_core_none sh W : lap_core sh None None W == 0.
Proof. unfold lap_core. apply qsum_map_zero. intros d _. reflexivity. Qed.

(* the early return agrees with the general path *)
Lemma lattice_laplacian_general sizes units l1 l2 w :
  lattice_laplacian sizes units l1 l2 w ==
  if (1 <? units)%nat then
    lap_core (sizes ++ [units]) (append_zero (lap_norm (length sizes) l1)) (append_zero (lap_norm (length sizes) l2))
             (reshape (sizes ++ [units]) w)
  else lap_core sizes (lap_norm (length sizes) l1) (lap_norm (length sizes) l2) (reshape sizes w).
Proof. unfold lattice_laplacian. destruct (negb (truthy l1) && negb (truthy l2)) eqn:E; [|reflexivity].
  apply andb_true_iff in E. destruct E as [E1 E2]. apply negb_true_iff in E1, E2.
  rewrite (falsy_norm E1), (falsy_norm E2). cbn [append_zero option_map].
  destruct (1 <? units)%nat; rewrite lap_core_none; reflexivity. Qed.

Lemma eff_norm rank a d : (d < rank)%nat -> eff (lap_norm rank a) d == amt a d.
Proof. intros Hd. destruct a as [q|[|x l]]; cbn [lap_norm amt].
  - destruct (nz q) eqn:E; cbn [eff]. rewrite nth_repeat_lt by exact Hd. reflexivity.
    apply nz_false in E. rewrite E. reflexivity.
  - cbn [eff]. destruct d; reflexivity.
  - reflexivity. Qed.

Lemma nth_app_zero (l : list Q) d : nth d (l ++ [0]) 0 = nth d l 0.
Proof. destruct (Nat.lt_ge_cases d (length l)).
  - apply app_nth1. assumption.
  - rewrite app_nth2 by lia. rewrite (nth_overflow l) by lia. destruct (d - length l)%nat as [|[|n]]; reflexivity. Qed.

Lemma eff_append_zero a d : eff (append_zero a) d = eff a d.
Proof. destruct a as [l|]; cbn [append_zero option_map eff]. apply nth_app_zero. reflexivity. Qed.

Lemma eff_units_dim rank a : amount_ok rank a -> eff (append_zero (lap_norm rank a)) rank == 0.
Proof. intros Hok. rewrite eff_append_zero. destruct a as [q|[|x l]]; cbn [lap_norm].
  - destruct (nz q); cbn [eff]. rewrite nth_overflow by (rewrite repeat_length; lia). reflexivity. reflexivity.
  - reflexivity.
  - cbn [eff]. cbn [amount_ok] in Hok. rewrite nth_overflow by lia. reflexivity. Qed.

Lemma reshape_units sizes units w u v : valid sizes v -> (u < units)%nat ->
  reshape (sizes ++ [units]) w (v ++ [u]) = kernel_at sizes units w u v.
Proof. intros Hv Hu. unfold reshape, of_list. rewrite memo_ok by (apply valid_snoc; assumption).
  unfold kernel_at. rewrite flat_snoc by exact Hv. reflexivity. Qed.
Lemma reshape_single sizes w v : valid sizes v -> reshape sizes w v = kernel_at sizes 1 w 0 v.
Proof. intros Hv. unfold reshape, of_list. rewrite memo_ok by exact Hv. unfold kernel_at.
  rewrite Nat.mul_1_r, Nat.add_0_r. reflexivity. Qed.

Definition amount_nonneg (a : amount) : Prop :=
  match a with Scalar q => 0 <= q | PerDim l => forall x, In x l -> 0 <= x end.

Lemma eff_nonneg rank a d : amount_nonneg a -> 0 <= eff (lap_norm rank a) d.
Proof. intros H. destruct a as [q|[|x l]]; cbn [lap_norm].
  - destruct (nz q); cbn [eff]; [|lra]. apply nth_nonneg. intros y Hy. apply repeat_spec in Hy. rewrite Hy. exact H.
  - cbn [eff]. lra.
  - apply nth_nonneg, H. Qed.

Lemma edge_sum_nonneg sh d f W : (forall x, 0 <= f x) -> 0 <= edge_sum sh d f W.
Proof. intros H. unfold edge_sum. apply qsum_map_nonneg. intros k _. apply qsum_map_nonneg. intros r _. apply H. Qed.

Lemma lap_core_nonneg sh a1 a2 W : (forall d, 0 <= eff a1 d) -> (forall d, 0 <= eff a2 d) -> 0 <= lap_core sh a1 a2 W.
Proof. intros H1 H2. rewrite lap_core_closed. apply qsum_map_nonneg. intros d _.
  apply weighted_nonneg; auto; apply edge_sum_nonneg; [exact qabs_nonneg|exact qsq_nonneg]. Qed.

Theorem lattice_laplacian_nonneg sizes units l1 l2 w :
  amount_nonneg l1 -> amount_nonneg l2 -> 0 <= lattice_laplacian sizes units l1 l2 w.
Proof. intros H1 H2. rewrite lattice_laplacian_general.
  destruct (1 <? units)%nat; apply lap_core_nonneg; intros d; rewrite ?eff_append_zero; apply eff_nonneg; assumption. Qed.

(* shape of the tensor the code works on *)
Definition lap_shape (sizes : list nat) (units : nat) : list nat := if (1 <? units)%nat then sizes ++ [units] else sizes.

(* per-dimension closed form: amount of dimension d times the l1 / l2 edge sums along d *)
Theorem lattice_laplacian_per_dim sizes units l1 l2 w :
  amount_ok (length sizes) l1 -> amount_ok (length sizes) l2 ->
  lattice_laplacian sizes units l1 l2 w ==
  qsum (map (fun d => amt l1 d * edge_sum (lap_shape sizes units) d qabs (reshape (lap_shape sizes units) w) +
                      amt l2 d * edge_sum (lap_shape sizes units) d sq (reshape (lap_shape sizes units) w))
            (seq 0 (length sizes))).
Proof. intros H1 H2. rewrite lattice_laplacian_general. unfold lap_shape. destruct (1 <? units)%nat.
  - rewrite lap_core_closed. rewrite app_length. cbn [length]. rewrite Nat.add_1_r, seq_S, map_app, qsum_app.
    cbn [map qsum Nat.add]. rewrite !eff_units_dim by assumption.
    rewrite (qsum_map_ext _ (fun d => amt l1 d * edge_sum (sizes ++ [units]) d qabs (reshape (sizes ++ [units]) w) +
                                      amt l2 d * edge_sum (sizes ++ [units]) d sq (reshape (sizes ++ [units]) w))). lra.
    intros d Hd. apply in_seq in Hd. rewrite !eff_append_zero, !eff_norm by lia. reflexivity.
  - rewrite lap_core_closed. apply qsum_map_ext. intros d Hd. apply in_seq in Hd. rewrite !eff_norm by lia. reflexivity. Qed.

(* code-shaped Laplacian == documented sum over adjacent vertex pairs: the documented sum,
   taken over the tensor the code works on, has the same per-dimension closed form *)
Theorem lattice_laplacian_doc sizes units l1 l2 w :
  (1 <= units)%nat -> amount_ok (length sizes) l1 -> amount_ok (length sizes) l2 ->
  lattice_laplacian sizes units l1 l2 w == doc_laplacian sizes units l1 l2 w.
Proof. intros Hu H1 H2. rewrite lattice_laplacian_per_dim by assumption.
  rewrite <- (doc_lap_tens_dims (lap_shape sizes units) (length sizes) (amt l1) (amt l2))
    by (unfold lap_shape; destruct (1 <? units)%nat; rewrite ?app_length; lia).
  unfold doc_laplacian, lap_shape. destruct (Nat.ltb_spec 1 units) as [Hm|Hm].
  - rewrite doc_lap_tens_units. apply qsum_map_ext. intros u Hi. apply in_seq in Hi.
    apply doc_lap_tens_ext. intros v Hv. apply reshape_units. exact Hv. lia.
  - assert (units = 1%nat) by lia. subst units. cbn [seq map qsum].
    rewrite (doc_lap_tens_ext (reshape_single sizes w)). unfold doc_lap_tens, lap_term, doc_laplacian_unit. lra. Qed.

(* scalar amounts are broadcast to every dimension *)
Theorem lattice_laplacian_scalar_broadcast sizes units q1 q2 w :
  lattice_laplacian sizes units (Scalar q1) (Scalar q2) w ==
  lattice_laplacian sizes units (PerDim (repeat q1 (length sizes))) (PerDim (repeat q2 (length sizes))) w.
Proof. rewrite !lattice_laplacian_per_dim; cbn [amount_ok]; try rewrite repeat_length; try lia; try exact I.
  apply qsum_map_ext. intros d Hd. apply in_seq in Hd. cbn [amt]. rewrite !nth_repeat_lt by lia. reflexivity. Qed.

Theorem lattice_laplacian_linear sizes units q1 q2 w :
  lattice_laplacian sizes units (Scalar q1) (Scalar q2) w ==
  q1 * lattice_laplacian sizes units (Scalar 1) (Scalar 0) w + q2 * lattice_laplacian sizes units (Scalar 0) (Scalar 1) w.
Proof. rewrite !lattice_laplacian_per_dim by exact I. cbn [amt]. rewrite <- !qsum_map_scale.
  rewrite <- (qsum_map_plus (fun d => q1 * _) (fun d => q2 * _)). apply qsum_map_ext. intros d _. lra. Qed.

Theorem lattice_laplacian_additive sizes units l1 l2 w :
  amount_ok (length sizes) l1 -> amount_ok (length sizes) l2 ->
  lattice_laplacian sizes units l1 l2 w ==
  lattice_laplacian sizes units l1 (Scalar 0) w + lattice_laplacian sizes units (Scalar 0) l2 w.
Proof. intros H1 H2. rewrite !lattice_laplacian_per_dim; try assumption; try exact I. cbn [amt].
  rewrite <- (qsum_map_plus (fun d => amt l1 d * _ + 0 * _) (fun d => 0 * _ + amt l2 d * _)).
  apply qsum_map_ext. intros d _. lra. Qed.

(* per-dimension amounts are linear: scaling and adding the amount vectors *)
Theorem lattice_laplacian_per_dim_linear sizes units (a a' b b' : list Q) (c c' : Q) w :
  length a = length sizes -> length a' = length sizes -> length b = length sizes -> length b' = length sizes ->
  lattice_laplacian sizes units (PerDim (map2 (fun x y => c * x + c' * y) a a'))
                                (PerDim (map2 (fun x y => c * x + c' * y) b b')) w ==
  c * lattice_laplacian sizes units (PerDim a) (PerDim b) w + c' * lattice_laplacian sizes units (PerDim a') (PerDim b') w.
Proof. intros Ha Ha' Hb Hb'.
  rewrite !lattice_laplacian_per_dim; cbn [amount_ok]; try rewrite map2_length; try lia.
  rewrite <- !qsum_map_scale. rewrite <- (qsum_map_plus (fun d => c * _) (fun d => c' * _)).
  apply qsum_map_ext. intros d Hd. apply in_seq in Hd. cbn [amt].
  rewrite !(nth_map2 (fun x y => c * x + c' * y) _ _ d 0 0 0) by lia. lra. Qed.

(* vanishes on constant kernels (per unit) *)
Theorem lattice_laplacian_zero_const sizes units l1 l2 w (cst : nat -> Q) :
  (1 <= units)%nat -> amount_ok (length sizes) l1 -> amount_ok (length sizes) l2 ->
  (forall u v, (u < units)%nat -> valid sizes v -> kernel_at sizes units w u v == cst u) ->
  lattice_laplacian sizes units l1 l2 w == 0.
Proof. intros Hu H1 H2 Hc. rewrite lattice_laplacian_doc by assumption. unfold doc_laplacian.
  apply qsum_map_zero. intros u Hi. apply in_seq in Hi. unfold doc_laplacian_unit.
  apply qsum_map_zero. intros v Hv. apply all_idx_valid in Hv.
  apply qsum_map_zero. intros d Hd. destruct (has_next sizes v d) eqn:E; [|reflexivity].
  pose proof (step_valid sizes v d Hv E). cbv zeta. rewrite !Hc by (try assumption; lia).
  setoid_replace (cst u - cst u) with 0 by ring. rewrite qabs_0, sq_0. lra. Qed.

Definition rest2 (sh : list nat) (i j : nat) : list idx := all_idx (upd (upd sh i 1%nat) j 1%nat).
Definition twist (W : tens) (r : idx) (i j a b : nat) : Q :=
  W (upd (upd r i a) j b) + W (upd (upd r i (S a)) j (S b)) - W (upd (upd r i a) j (S b)) - W (upd (upd r i (S a)) j b).
Definition twist_sum (sh : list nat) (i j : nat) (f : Q -> Q) (W : tens) : Q :=
  qsum (map (fun a => qsum (map (fun b => qsum (map (fun r => f (twist W r i j a b)) (rest2 sh i j)))
                                (seq 0 (nth j sh 0%nat - 1)))) (seq 0 (nth i sh 0%nat - 1))).

Lemma op3_map {A B C} (f : Q -> Q -> Q) (X Y : A -> B -> C -> Q) la lb lc :
  op3 f (map (fun a => map (fun b => map (X a b) lc) lb) la) (map (fun a => map (fun b => map (Y a b) lc) lb) la)
  = map (fun a => map (fun b => map (fun c => f (X a b c) (Y a b c)) lc) lb) la.
Proof. unfold op3. rewrite map2_map. apply map_ext; intros a. rewrite map2_map. apply map_ext; intros b. apply map2_map. Qed.

(* dropping the last / the first column of every row of a tabulated block *)
Lemma removelast_rows {A B} (F : A -> nat -> B) n l :
  map (@removelast B) (map (fun a => map (F a) (seq 0 n)) l) = map (fun a => map (F a) (seq 0 (n - 1))) l.
Proof. rewrite map_map. apply map_ext. intros a. apply removelast_map_seq. Qed.
Lemma tl_rows {A B} (F : A -> nat -> B) n l :
  map (@tl B) (map (fun a => map (F a) (seq 0 n)) l) = map (fun a => map (fun b => F a (S b)) (seq 0 (n - 1))) l.
Proof. rewrite map_map. apply map_ext. intros a. apply tl_map_seq. Qed.

Lemma twist_block_map {C} (X : nat -> nat -> C -> Q) ni nj (lc : list C) :
  twist_block (map (fun a => map (fun b => map (X a b) lc) (seq 0 nj)) (seq 0 ni)) =
  map (fun a => map (fun b => map (fun c => X a b c + X (S a) (S b) c - X a (S b) c - X (S a) b c) lc)
                    (seq 0 (nj - 1))) (seq 0 (ni - 1)).
Proof. unfold twist_block. rewrite removelast_map_seq, tl_map_seq.
  rewrite (removelast_rows (fun a b => map (X a b) lc)), (tl_rows (fun a b => map (X a b) lc)).
  rewrite (removelast_rows (fun a b => map (X (S a) b) lc)), (tl_rows (fun a b => map (X (S a) b) lc)).
  rewrite (op3_map Qplus (fun a b => X a b) (fun a b => X (S a) (S b))).
  rewrite (op3_map Qminus (fun a b c => X a b c + X (S a) (S b) c) (fun a b => X a (S b))).
  rewrite (op3_map Qminus (fun a b c => X a b c + X (S a) (S b) c - X a (S b) c) (fun a b => X (S a) b)).
  reflexivity. Qed.

Lemma code_pair sh i j f W : sum3 f (twist_block (planes sh i j W)) = twist_sum sh i j f W.
Proof. unfold planes. rewrite (twist_block_map (fun a b r => W (upd (upd r i a) j b))).
  unfold sum3, twist_sum. rewrite map_map. f_equal. apply map_ext. intros a.
  unfold sum2. rewrite map_map. f_equal. apply map_ext. intros b.
  unfold sum1. rewrite map_map. reflexivity. Qed.

Definition twist_at (W : tens) (v : idx) (i j : nat) : Q := W v + W (step (step v i) j) - W (step v i) - W (step v j).

(* the square at the vertex with coordinates a, b along i, j is the code's twist *)
Lemma twist_at_upd W sh i j r a b : i <> j -> (i < length sh)%nat -> (j < length sh)%nat -> In r (rest2 sh i j) ->
  twist_at W (upd (upd r j b) i a) i j == twist W r i j a b.
Proof. intros Hij Hi Hj Hr. apply all_idx_valid, valid_length in Hr. rewrite !upd_length in Hr.
  set (v := upd (upd r j b) i a).
  assert (Hvi : nth i v 0%nat = a) by (apply nth_upd_same; rewrite upd_length; lia).
  assert (Hvj : nth j v 0%nat = b) by (unfold v; rewrite nth_upd_other by exact Hij; apply nth_upd_same; lia).
  assert (Hsi : step v i = upd (upd r i (S a)) j b).
  { unfold step. rewrite Hvi. unfold v. rewrite upd_upd. apply upd_comm. congruence. }
  unfold twist_at, twist. rewrite Hsi. unfold step at 1. rewrite nth_upd_same by (rewrite upd_length; lia).
  rewrite upd_upd. unfold step. rewrite Hvj. unfold v. rewrite (upd_comm r j i) by congruence. rewrite upd_upd.
  ring. Qed.

Lemma doc_pair sh i j f W : Proper (Qeq ==> Qeq) f -> i <> j -> (i < length sh)%nat -> (j < length sh)%nat ->
  qsum (map (fun v => if has_next sh v i && has_next sh v j then f (twist_at W v i j) else 0) (all_idx sh))
  == twist_sum sh i j f W.
Proof. intros Hf Hij Hi Hj.
  rewrite (qsum_map_ext _ (fun v => if has_next sh v i then (if has_next sh v j then f (twist_at W v i j) else 0) else 0))
    by (intros v _; destruct (has_next sh v i); reflexivity).
  rewrite fubini_next by exact Hi. apply qsum_map_ext. intros a _.
  rewrite (qsum_map_ext _ (fun r => if has_next (upd sh i 1%nat) r j then f (twist_at W (upd r i a) i j) else 0))
    by (intros r _; unfold has_next; rewrite !nth_upd_other by exact Hij; reflexivity).
  unfold rest_idx. rewrite (fubini_next (upd sh i 1%nat) j (fun r => f (twist_at W (upd r i a) i j)))
    by (rewrite upd_length; exact Hj).
  rewrite (nth_upd_other sh i j 1%nat Hij). apply qsum_map_ext. intros b _. apply qsum_map_ext. intros r Hr.
  apply Hf, (twist_at_upd W sh); assumption. Qed.

Lemma pair_off_weight {t i j} : pair_off t i j = true -> pair_weight t i j == 0.
Proof. destruct t as [|q r|l]; cbn [pair_off pair_weight]; intros H.
  - reflexivity.
  - apply negb_true_iff in H. rewrite H. reflexivity.
  - apply orb_true_iff in H. destruct H as [H|H]; apply negb_true_iff, nz_false in H; rewrite H; ring. Qed.

Definition pair_form (sh : list nat) (p1 p2 : nat -> nat -> Q) (W : tens) (i j : nat) : Q :=
  p1 i j * twist_sum sh i j qabs W + p2 i j * twist_sum sh i j sq W.

Lemma tors_pair_closed sh t1 t2 W i j :
  tors_pair sh t1 t2 W (i, j) == pair_form sh (pair_weight t1) (pair_weight t2) W i j.
Proof. unfold tors_pair, pair_form. destruct (pair_off t1 i j && pair_off t2 i j) eqn:E.
  - apply andb_true_iff in E. destruct E as [E1 E2]. rewrite (pair_off_weight E1), (pair_off_weight E2). lra.
  - rewrite !code_pair. destruct t1, t2; cbn [pair_weight]; lra. Qed.

(* sum over the pairs i < j of the first n dimensions *)
Definition tri_sum (X : nat -> nat -> Q) (n : nat) : Q :=
  qsum (map (fun i => qsum (map (fun j => if (i <? j)%nat then X i j else 0) (seq 0 n))) (seq 0 n)).

Lemma tri_sum_ext X Y n : (forall i j, (i < j)%nat -> (j < n)%nat -> X i j == Y i j) -> tri_sum X n == tri_sum Y n.
Proof. intros H. apply qsum_map_ext. intros i _. apply qsum_map_ext. intros j Hj. apply in_seq in Hj.
  destruct (Nat.ltb_spec i j); [apply H; lia|reflexivity]. Qed.

Lemma guard_row_zero (X : nat -> Q) n : qsum (map (fun j => if (n <? j)%nat then X j else 0) (seq 0 (S n))) == 0.
Proof. apply qsum_map_zero. intros j Hj. apply in_seq in Hj. destruct (Nat.ltb_spec n j). lia. reflexivity. Qed.

(* pairs that involve dimension n carry weight 0: they can be dropped *)
Lemma tri_sum_S X n : (forall i, X i n == 0) -> tri_sum X (S n) == tri_sum X n.
Proof. intros H0. unfold tri_sum. rewrite qsum_seq_S, guard_row_zero, Qplus_0_r.
  apply qsum_map_ext. intros i _. rewrite qsum_seq_S. destruct (i <? n)%nat; [rewrite H0|]; lra. Qed.

Lemma guard_inner (X : nat -> Q) i n : (i < n)%nat ->
  qsum (map (fun j => if (i <? j)%nat then X j else 0) (seq 0 n)) == qsum (map X (seq (S i) (n - S i))).
Proof. intros Hi. replace n with (S i + (n - S i))%nat at 1 by lia. rewrite seq_app, map_app, qsum_app.
  rewrite (qsum_map_zero _ (seq 0 (S i))).
  - rewrite (qsum_map_ext _ X (seq (0 + S i) (n - S i))). cbn [Nat.add]. lra.
    intros j Hj. apply in_seq in Hj. destruct (Nat.ltb_spec i j). reflexivity. lia.
  - intros j Hj. apply in_seq in Hj. destruct (Nat.ltb_spec i j). lia. reflexivity. Qed.

Lemma pairs_sum (X : nat -> nat -> Q) n : qsum (map (fun ij => X (fst ij) (snd ij)) (dim_pairs n)) == tri_sum X n.
Proof. unfold dim_pairs, tri_sum. rewrite map_flat_map, qsum_flat_map. destruct n as [|n]. reflexivity.
  replace (S n - 1)%nat with n by lia. rewrite qsum_seq_S, guard_row_zero, Qplus_0_r.
  apply qsum_map_ext. intros i Hi. apply in_seq in Hi. rewrite map_map. cbn [fst snd].
  rewrite guard_inner by lia. reflexivity. Qed.

Lemma tors_core_closed sh t1 t2 W :
  tors_core sh t1 t2 W == tri_sum (pair_form sh (pair_weight t1) (pair_weight t2) W) (length sh).
Proof. unfold tors_core. rewrite <- pairs_sum. apply qsum_map_ext. intros [i j] _. apply tors_pair_closed. Qed.

Definition tors_term (sh : list nat) (p1 p2 : nat -> nat -> Q) (W : tens) (v : idx) (i j : nat) : Q :=
  if (i <? j)%nat && has_next sh v i && has_next sh v j then
    p1 i j * qabs (twist_at W v i j) + p2 i j * sq (twist_at W v i j)
  else 0.
Definition doc_tors_tens (sh : list nat) (n : nat) (p1 p2 : nat -> nat -> Q) (W : tens) : Q :=
  qsum (map (fun v => qsum (map (fun i => qsum (map (fun j => tors_term sh p1 p2 W v i j) (seq 0 n))) (seq 0 n)))
            (all_idx sh)).

Lemma doc_tors_tens_pairs sh n p1 p2 W : (n <= length sh)%nat ->
  doc_tors_tens sh n p1 p2 W == tri_sum (pair_form sh p1 p2 W) n.
Proof. intros Hn. unfold doc_tors_tens, tri_sum.
  rewrite qsum_swap.
  apply qsum_map_ext. intros i Hi. apply in_seq in Hi.
  rewrite qsum_swap.
  apply qsum_map_ext. intros j Hj. apply in_seq in Hj. unfold tors_term.
  destruct (Nat.ltb_spec i j) as [Hlt|Hge]; cbn [andb].
  - unfold pair_form. rewrite <- (doc_pair sh i j qabs), <- (doc_pair sh i j sq) by (try lia; auto with typeclass_instances). rewrite <- !qsum_map_scale.
    rewrite <- (qsum_map_plus
      (fun v => p1 i j * (if has_next sh v i && has_next sh v j then qabs (twist_at W v i j) else 0))
      (fun v => p2 i j * (if has_next sh v i && has_next sh v j then sq (twist_at W v i j) else 0))).
    apply qsum_map_ext. intros v _. destruct (has_next sh v i && has_next sh v j); lra.
  - apply qsum_map_zero. reflexivity. Qed.

Lemma doc_tors_tens_ext {sh n p1 p2 W W'} : (forall v, valid sh v -> W v = W' v) ->
  doc_tors_tens sh n p1 p2 W == doc_tors_tens sh n p1 p2 W'.
Proof. intros HW. unfold doc_tors_tens. apply qsum_map_ext. intros v Hv. apply all_idx_valid in Hv.
  apply qsum_map_ext. intros i Hi. apply in_seq in Hi. apply qsum_map_ext. intros j Hj. apply in_seq in Hj.
  unfold tors_term. destruct (Nat.ltb_spec i j) as [Hlt|Hge]; cbn [andb]; [|reflexivity].
  destruct (has_next sh v i) eqn:Ei; cbn [andb]; [|reflexivity].
  destruct (has_next sh v j) eqn:Ej; [|reflexivity].
  destruct (square_valid sh v i j ltac:(lia) Hv Ei Ej) as (Hsi & Hsj & Hsij).
  unfold twist_at. rewrite (HW v Hv), (HW _ Hsi), (HW _ Hsj), (HW _ Hsij). reflexivity. Qed.

Lemma doc_tors_tens_units sizes units p1 p2 W :
  doc_tors_tens (sizes ++ [units]) (length sizes) p1 p2 W ==
  qsum (map (fun u => doc_tors_tens sizes (length sizes) p1 p2 (fun v => W (v ++ [u]))) (seq 0 units)).
Proof. unfold doc_tors_tens at 1. rewrite sum_all_idx_snoc. apply qsum_map_ext. intros u _.
  unfold doc_tors_tens. apply qsum_map_ext. intros v Hv. apply all_idx_valid, valid_length in Hv.
  apply qsum_map_ext. intros i Hi. apply in_seq in Hi. apply qsum_map_ext. intros j Hj. apply in_seq in Hj.
  unfold tors_term, twist_at. rewrite !has_next_snoc, !step_snoc by (unfold step; rewrite ?upd_length; lia).
  reflexivity. Qed.

Lemma falsy_tnorm {rank a} : truthy a = false -> tors_norm rank a = TNone.
Proof. destruct a as [q|[|x l]]; cbn [truthy tors_norm]; intros H; try rewrite H; try reflexivity. discriminate. Qed.

Lemma tors_core_none sh W : tors_core sh TNone TNone W == 0.
Proof. unfold tors_core. apply qsum_map_zero. intros [i j] _. reflexivity. Qed.

Lemma lattice_torsion_general sizes units l1 l2 w : length sizes <> 1%nat ->
  lattice_torsion sizes units l1 l2 w ==
  if (1 <? units)%nat then
    tors_core (sizes ++ [units]) (tors_append_zero (tors_norm (length sizes) l1))
              (tors_append_zero (tors_norm (length sizes) l2)) (reshape (sizes ++ [units]) w)
  else tors_core sizes (tors_norm (length sizes) l1) (tors_norm (length sizes) l2) (reshape sizes w).
Proof. intros Hr. unfold lattice_torsion. destruct (Nat.eqb_spec (length sizes) 1). contradiction. cbn [orb].
  destruct (negb (truthy l1) && negb (truthy l2)) eqn:E; [|reflexivity].
  apply andb_true_iff in E. destruct E as [E1 E2]. apply negb_true_iff in E1, E2.
  rewrite (falsy_tnorm E1), (falsy_tnorm E2). cbn [tors_append_zero].
  destruct (1 <? units)%nat; rewrite tors_core_none; reflexivity. Qed.

Lemma pw_norm rank a i j : (i < rank)%nat -> (j < rank)%nat -> pair_weight (tors_norm rank a) i j == pair_amt a i j.
Proof. intros Hi Hj. destruct a as [q|[|x l]]; cbn [tors_norm pair_amt].
  - destruct (nz q) eqn:E; cbn [pair_weight].
    + destruct (Nat.ltb_spec i rank); [|lia]. destruct (Nat.ltb_spec j rank); [|lia]. reflexivity.
    + apply nz_false in E. rewrite E. reflexivity.
  - cbn [pair_weight]. destruct i, j; cbn [nth]; ring.
  - reflexivity. Qed.

Lemma pw_append_zero t i j : pair_weight (tors_append_zero t) i j = pair_weight t i j.
Proof. destruct t as [|q r|l]; cbn [tors_append_zero pair_weight]; try reflexivity. rewrite !nth_app_zero. reflexivity. Qed.

Lemma pw_units_dim rank a i : amount_ok rank a -> pair_weight (tors_append_zero (tors_norm rank a)) i rank == 0.
Proof. intros Hok. rewrite pw_append_zero. destruct a as [q|[|x l]]; cbn [tors_norm].
  - destruct (nz q); cbn [pair_weight]; [|reflexivity]. rewrite Nat.ltb_irrefl, andb_false_r. reflexivity.
  - reflexivity.
  - cbn [pair_weight]. cbn [amount_ok] in Hok. rewrite (@nth_overflow Q (x :: l) rank 0) by lia. ring. Qed.

Lemma pw_nonneg rank a i j : amount_nonneg a -> 0 <= pair_weight (tors_norm rank a) i j.
Proof. intros H. destruct a as [q|[|x l]]; cbn [tors_norm].
  - destruct (nz q); cbn [pair_weight]; [|lra]. cbn [amount_nonneg] in H. destruct ((i <? rank)%nat && (j <? rank)%nat); lra.
  - cbn [pair_weight]. lra.
  - cbn [pair_weight]. apply qmul_nonneg; apply nth_nonneg; exact H. Qed.

Lemma twist_sum_nonneg sh i j f W : (forall x, 0 <= f x) -> 0 <= twist_sum sh i j f W.
Proof. intros H. unfold twist_sum. apply qsum_map_nonneg. intros a _. apply qsum_map_nonneg. intros b _.
  apply qsum_map_nonneg. intros r _. apply H. Qed.

Lemma tors_core_nonneg sh t1 t2 W : (forall i j, 0 <= pair_weight t1 i j) -> (forall i j, 0 <= pair_weight t2 i j) ->
  0 <= tors_core sh t1 t2 W.
Proof. intros H1 H2. rewrite tors_core_closed. unfold tri_sum. apply qsum_map_nonneg. intros i _. apply qsum_map_nonneg. intros j _.
  destruct (i <? j)%nat; [|lra]. apply weighted_nonneg; auto; apply twist_sum_nonneg; [exact qabs_nonneg|exact qsq_nonneg]. Qed.

Theorem lattice_torsion_nonneg sizes units l1 l2 w :
  amount_nonneg l1 -> amount_nonneg l2 -> 0 <= lattice_torsion sizes units l1 l2 w.
Proof. intros H1 H2. destruct (Nat.eq_dec (length sizes) 1) as [Hr|Hr].
  { unfold lattice_torsion. rewrite Hr. cbn. lra. }
  rewrite lattice_torsion_general by exact Hr.
  destruct (1 <? units)%nat; apply tors_core_nonneg; intros i j; rewrite ?pw_append_zero; apply pw_nonneg; assumption. Qed.

(* closed form over the pairs of lattice dimensions: the pair (i, j) is weighted
   by the product of the two per-dimension amounts (a scalar amount weights
   every pair by itself) *)
Theorem lattice_torsion_pairs sizes units l1 l2 w :
  amount_ok (length sizes) l1 -> amount_ok (length sizes) l2 ->
  lattice_torsion sizes units l1 l2 w ==
  qsum (map (fun ij => pair_form (lap_shape sizes units) (pair_amt l1) (pair_amt l2)
                                 (reshape (lap_shape sizes units) w) (fst ij) (snd ij))
            (dim_pairs (length sizes))).
Proof. intros H1 H2. destruct (Nat.eq_dec (length sizes) 1) as [Hr|Hr].
  { unfold lattice_torsion. rewrite Hr. reflexivity. }
  rewrite lattice_torsion_general by exact Hr. rewrite pairs_sum. unfold lap_shape.
  destruct (1 <? units)%nat; rewrite tors_core_closed.
  - rewrite app_length. cbn [length]. rewrite Nat.add_1_r, tri_sum_S.
    + apply tri_sum_ext. intros i j Hij Hj. unfold pair_form. rewrite !pw_append_zero, !pw_norm by lia. reflexivity.
    + intros i. unfold pair_form. rewrite !pw_units_dim by assumption. lra.
  - apply tri_sum_ext. intros i j Hij Hj. unfold pair_form. rewrite !pw_norm by lia. reflexivity. Qed.

(* code-shaped torsion == documented sum over 2x2 squares: the documented sum, taken over
   the tensor the code works on, has the same closed form over the pairs of dimensions *)
Theorem lattice_torsion_doc sizes units l1 l2 w :
  (1 <= units)%nat -> amount_ok (length sizes) l1 -> amount_ok (length sizes) l2 ->
  lattice_torsion sizes units l1 l2 w == doc_torsion sizes units l1 l2 w.
Proof. intros Hu H1 H2. rewrite lattice_torsion_pairs by assumption. rewrite pairs_sum.
  rewrite <- (doc_tors_tens_pairs (lap_shape sizes units) (length sizes))
    by (unfold lap_shape; destruct (1 <? units)%nat; rewrite ?app_length; lia).
  unfold doc_torsion, lap_shape. destruct (Nat.ltb_spec 1 units) as [Hm|Hm].
  - rewrite doc_tors_tens_units. apply qsum_map_ext. intros u Hi. apply in_seq in Hi.
    apply doc_tors_tens_ext. intros v Hv. apply reshape_units. exact Hv. lia.
  - assert (units = 1%nat) by lia. subst units. cbn [seq map qsum].
    rewrite (doc_tors_tens_ext (reshape_single sizes w)).
    unfold doc_tors_tens, tors_term, twist_at, doc_torsion_unit. lra. Qed.

Lemma dim_pairs_bound n i j : In (i, j) (dim_pairs n) -> (i < j)%nat /\ (j < n)%nat.
Proof. unfold dim_pairs. rewrite in_flat_map. intros [i' [Hi' H]]. apply in_map_iff in H. destruct H as [j' [E Hj']].
  inversion E; subst. apply in_seq in Hi', Hj'. lia. Qed.

(* the scalar amount: the code uses [sqrt(l)] * rank; any exact root s gives the model's value *)
Theorem tors_sqrt_oracle sizes units (s1 s2 q1 q2 : Q) w : s1 * s1 == q1 -> s2 * s2 == q2 ->
  lattice_torsion sizes units (PerDim (repeat s1 (length sizes))) (PerDim (repeat s2 (length sizes))) w ==
  lattice_torsion sizes units (Scalar q1) (Scalar q2) w.
Proof. intros E1 E2. rewrite !lattice_torsion_pairs; cbn [amount_ok]; try rewrite repeat_length; try lia; try exact I.
  apply qsum_map_ext. intros [i j] Hij. apply dim_pairs_bound in Hij. cbn [fst snd]. unfold pair_form. cbn [pair_amt].
  rewrite !nth_repeat_lt by lia. rewrite E1, E2. reflexivity. Qed.

Theorem lattice_torsion_linear sizes units q1 q2 w :
  lattice_torsion sizes units (Scalar q1) (Scalar q2) w ==
  q1 * lattice_torsion sizes units (Scalar 1) (Scalar 0) w + q2 * lattice_torsion sizes units (Scalar 0) (Scalar 1) w.
Proof. rewrite !lattice_torsion_pairs by exact I. rewrite <- !qsum_map_scale.
  rewrite <- (qsum_map_plus (fun ij => q1 * _) (fun ij => q2 * _)). apply qsum_map_ext. intros ij _.
  unfold pair_form. cbn [pair_amt]. lra. Qed.

Theorem lattice_torsion_additive sizes units l1 l2 w :
  amount_ok (length sizes) l1 -> amount_ok (length sizes) l2 ->
  lattice_torsion sizes units l1 l2 w ==
  lattice_torsion sizes units l1 (Scalar 0) w + lattice_torsion sizes units (Scalar 0) l2 w.
Proof. intros H1 H2. rewrite !lattice_torsion_pairs; try assumption; try exact I.
  rewrite <- (qsum_map_plus (fun ij => pair_form _ _ _ _ (fst ij) (snd ij)) (fun ij => pair_form _ _ _ _ (fst ij) (snd ij))).
  apply qsum_map_ext. intros ij _. unfold pair_form. cbn [pair_amt]. lra. Qed.

Definition sep_sum (f : nat -> nat -> Q) (rank : nat) (v : idx) : Q :=
  qsum (map (fun d => f d (nth d v 0%nat)) (seq 0 rank)).

(* moving one coordinate changes one summand *)
Lemma sep_step f rank v j : (j < rank)%nat -> (j < length v)%nat ->
  sep_sum f rank (step v j) - sep_sum f rank v == f j (S (nth j v 0%nat)) - f j (nth j v 0%nat).
Proof. intros Hj Hl. unfold sep_sum, step. induction rank as [|n IH]. lia. rewrite !qsum_seq_S.
  destruct (Nat.eq_dec n j) as [->|Hn].
  - rewrite nth_upd_same by exact Hl. rewrite (qsum_map_ext _ (fun d => f d (nth d v 0%nat)) (seq 0 j)). lra.
    intros d Hd. apply in_seq in Hd. rewrite nth_upd_other by lia. reflexivity.
  - rewrite nth_upd_other by congruence. specialize (IH ltac:(lia)). lra. Qed.

(* a sum of functions of one coordinate each has no twist *)
Lemma sep_twist f rank v i j : i <> j -> (j < rank)%nat -> (j < length v)%nat ->
  sep_sum f rank v + sep_sum f rank (step (step v i) j) - sep_sum f rank (step v i) - sep_sum f rank (step v j) == 0.
Proof. intros Hij Hj Hl. pose proof (sep_step f rank v j Hj Hl) as E1.
  pose proof (sep_step f rank (step v i) j Hj) as E2.
  assert (E3 : nth j (step v i) 0%nat = nth j v 0%nat) by (unfold step; apply nth_upd_other; lia).
  rewrite E3 in E2. unfold step at 1 in E2. rewrite upd_length in E2. specialize (E2 Hl). lra. Qed.

Theorem lattice_torsion_zero_separable sizes units l1 l2 w (f : nat -> nat -> nat -> Q) :
  (1 <= units)%nat -> amount_ok (length sizes) l1 -> amount_ok (length sizes) l2 ->
  (forall u v, (u < units)%nat -> valid sizes v -> kernel_at sizes units w u v == sep_sum (f u) (length sizes) v) ->
  lattice_torsion sizes units l1 l2 w == 0.
Proof. intros Hu H1 H2 Hs. rewrite lattice_torsion_doc by assumption. unfold doc_torsion.
  apply qsum_map_zero. intros u Hi. apply in_seq in Hi. unfold doc_torsion_unit.
  apply qsum_map_zero. intros v Hv. apply all_idx_valid in Hv.
  apply qsum_map_zero. intros i Hi'. apply in_seq in Hi'.
  apply qsum_map_zero. intros j Hj'. apply in_seq in Hj'.
  destruct (Nat.ltb_spec i j) as [Hlt|Hge]; cbn [andb]; [|reflexivity].
  destruct (has_next sizes v i) eqn:Ei; cbn [andb]; [|reflexivity].
  destruct (has_next sizes v j) eqn:Ej; [|reflexivity].
  destruct (square_valid sizes v i j ltac:(lia) Hv Ei Ej) as (Hsi & Hsj & Hsij).
  cbv zeta. rewrite !Hs by (try assumption; lia).
  pose proof (valid_length _ _ Hv) as Hl. rewrite sep_twist by lia. rewrite qabs_0, sq_0. lra. Qed.
