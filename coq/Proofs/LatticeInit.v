(* Lemmas about the Lattice kernel initialisers (Model/LatticeInit.v), for C10. *)
From TFL Require Export Model.LatticeInit Proofs.LatticeSpecFacts.
From Coq Require Import Permutation.
Open Scope Q_scope.

Lemma qnat_S n : qnat (S n) == qnat n + 1. Proof. exact (qofnat_S n). Qed.
Lemma qnat_plus a b : qnat (a + b) == qnat a + qnat b. Proof. exact (qofnat_plus a b). Qed.
Lemma qnat_gt1 n : (2 <= n)%nat -> 0 < qnat n - 1.
Proof. intros H. pose proof (qofnat_lt 1 n H : 1 < qnat n). lra. Qed.
Lemma qnat_ne1 n : n <> 1%nat -> ~ qnat n - 1 == 0.
Proof. intros Hn. destruct n as [|n]. discriminate. pose proof (qnat_gt1 (S n) ltac:(lia)). lra. Qed.

Lemma linspace_length a b n : length (linspace a b n) = n.
Proof. unfold linspace. rewrite map_length, seq_length. reflexivity. Qed.
Lemma linspace_nth a b n k : (k < n)%nat -> nth k (linspace a b n) 0 = linspace_at a b n k.
Proof. intros H. unfold linspace. apply nth_map_seq. exact H. Qed.

Lemma linspace_at_one a b k : linspace_at a b 1 k = a.
Proof. reflexivity. Qed.
Lemma linspace_at_eq a b n k : n <> 1%nat -> linspace_at a b n k == a + (b - a) * qnat k / (qnat n - 1).
Proof. intros H. unfold linspace_at. destruct (Nat.eqb_spec n 1); [contradiction|]. apply Qred_correct. Qed.

(* the common increment of consecutive entries *)
Definition lin_step (a b : Q) (n : nat) : Q := if (n =? 1)%nat then 0 else (b - a) / (qnat n - 1).
Lemma linspace_at_succ a b n k : linspace_at a b n (S k) == linspace_at a b n k + lin_step a b n.
Proof. unfold lin_step. destruct (Nat.eqb_spec n 1) as [->|Hn].
  - rewrite !linspace_at_one. lra.
  - rewrite !linspace_at_eq by exact Hn. rewrite qnat_S. field. exact (qnat_ne1 n Hn). Qed.
Lemma lin_step_nonneg a b n : (1 <= n)%nat -> a <= b -> 0 <= lin_step a b n.
Proof. intros H Hab. unfold lin_step. destruct (Nat.eqb_spec n 1) as [->|Hn]. lra.
  apply Qle_shift_div_l. apply qnat_gt1; lia. lra. Qed.
Lemma lin_step_antitone r n n' : 0 <= r -> (2 <= n)%nat -> (n <= n')%nat -> lin_step 0 r n' <= lin_step 0 r n.
Proof. intros Hr Hn Hnn. unfold lin_step.
  destruct (Nat.eqb_spec n' 1); [lia|]. destruct (Nat.eqb_spec n 1); [lia|].
  pose proof (qnat_gt1 n Hn) as H1.
  assert (H2 : qnat n - 1 <= qnat n' - 1) by (pose proof (qofnat_le n n' Hnn : qnat n <= qnat n'); lra).
  set (x := (r - 0) / (qnat n - 1)).
  assert (Hx : 0 <= x) by (unfold x; apply Qle_shift_div_l; lra).
  assert (Ex : x * (qnat n - 1) == r - 0) by (unfold x; field; lra).
  apply Qle_shift_div_r. lra. pose proof (qmul_le_l x _ _ Hx H2). lra. Qed.
Lemma linspace_at_first a b n : linspace_at a b n 0 == a.
Proof. destruct (Nat.eq_dec n 1) as [->|Hn]. reflexivity.
  rewrite linspace_at_eq by exact Hn. change (qnat 0) with 0. unfold Qdiv. lra. Qed.
Lemma linspace_at_last a b n : (2 <= n)%nat -> linspace_at a b n (n - 1) == b.
Proof. intros H. rewrite linspace_at_eq by lia. rewrite (qofnat_pred n ltac:(lia) : qnat (n - 1) == qnat n - 1).
  pose proof (qnat_gt1 n H). field. lra. Qed.
Lemma linspace_at_mono a b n : (1 <= n)%nat -> a <= b ->
  forall k j, (j <= k)%nat -> linspace_at a b n j <= linspace_at a b n k.
Proof. intros H Hab. induction k as [|k IH]; intros j Hj.
  - replace j with 0%nat by lia. lra.
  - destruct (Nat.eq_dec j (S k)) as [->|Hne]. lra.
    rewrite linspace_at_succ. pose proof (lin_step_nonneg a b n H Hab). specialize (IH j ltac:(lia)). lra. Qed.
Lemma linspace_at_range a b n k : (1 <= n)%nat -> a <= b -> (k <= n - 1)%nat ->
  a <= linspace_at a b n k /\ linspace_at a b n k <= b.
Proof. intros H Hab Hk. split.
  - rewrite <- (linspace_at_first a b n) at 1. apply linspace_at_mono; auto; lia.
  - destruct (Nat.eq_dec n 1) as [->|Hn]. rewrite linspace_at_one. exact Hab.
    rewrite <- (linspace_at_last a b n ltac:(lia)) at 2. apply linspace_at_mono; auto. Qed.
(* the decreasing ramp is the mirror image of the increasing one *)
Lemma linspace_at_dec r n k : linspace_at r 0 n k == r - linspace_at 0 r n k.
Proof. destruct (Nat.eq_dec n 1) as [->|Hn]. rewrite !linspace_at_one. lra.
  rewrite !linspace_at_eq by exact Hn. field. exact (qnat_ne1 n Hn). Qed.

Lemma half_facts s : (s + s mod 2 = 2 * ((s + 1) / 2))%nat /\ (s mod 2 <= 1)%nat /\ (s / 2 = (s + 1) / 2 - s mod 2)%nat.
Proof.
  pose proof (Nat.div_mod s 2 ltac:(lia)) as H1. pose proof (Nat.mod_upper_bound s 2 ltac:(lia)) as H2.
  pose proof (Nat.div_mod (s + 1) 2 ltac:(lia)) as H3. pose proof (Nat.mod_upper_bound (s + 1) 2 ltac:(lia)) as H4.
  assert (H5 : ((s + 1) mod 2 = 1 - s mod 2)%nat).
  { rewrite Nat.add_mod by lia. destruct (s mod 2)%nat as [|[|q]] eqn:E; try lia; reflexivity. }
  lia. Qed.

(* the per-dimension profile  one_d  in closed form *)
Definition uni_prof (u : Z) (s : nat) (r : Q) (k : nat) : Q :=
  let h := ((s + 1) / 2)%nat in let p := (s mod 2)%nat in
  if (u =? 1)%Z then (if (k <? h)%nat then linspace_at r 0 h k else linspace_at 0 r h (p + (k - h)))
  else (if (k <? h)%nat then linspace_at 0 r h k else linspace_at r 0 h (p + (k - h))).
Definition prof_at (m u : Z) (s : nat) (r : Q) (k : nat) : Q :=
  if nz m then linspace_at 0 r s k else if nz u then uni_prof u s r k else 0.

Lemma one_d_length m u s r : length (one_d m u s r) = s.
Proof. unfold one_d. destruct (half_facts s) as (H1 & H2 & H3).
  destruct (nz m). apply linspace_length. destruct (nz u); [|apply repeat_length].
  destruct (u =? 1)%Z; rewrite app_length, skipn_length, !linspace_length; lia. Qed.

(* a ramp followed by the opposite ramp without its first p entries *)
Lemma ramps_nth a b h p k : (k < h \/ p + (k - h) < h)%nat ->
  nth k (linspace a b h ++ skipn p (linspace b a h)) 0 =
  if (k <? h)%nat then linspace_at a b h k else linspace_at b a h (p + (k - h)).
Proof. intros H. destruct (Nat.ltb_spec k h) as [Hlt|Hge].
  - rewrite app_nth1 by (rewrite linspace_length; exact Hlt). apply linspace_nth; exact Hlt.
  - rewrite app_nth2 by (rewrite linspace_length; exact Hge). rewrite linspace_length, nth_skipn_add.
    apply linspace_nth. lia. Qed.

Lemma one_d_nth m u s r k : (k < s)%nat -> nth k (one_d m u s r) 0 = prof_at m u s r k.
Proof. intros Hk. unfold one_d, prof_at. destruct (half_facts s) as (H1 & H2 & H3).
  destruct (nz m). apply linspace_nth; exact Hk.
  destruct (nz u); [|apply nth_repeat].
  unfold uni_prof. cbv zeta. destruct (u =? 1)%Z; apply ramps_nth; lia. Qed.

(* peak = r - valley *)
Lemma uni_prof_peak_eq u s r k : (u =? 1)%Z = false -> uni_prof u s r k == r - uni_prof 1 s r k.
Proof. intros Hu. unfold uni_prof. cbv zeta. rewrite Hu. change (1 =? 1)%Z with true. cbv iota.
  destruct (k <? (s + 1) / 2)%nat; rewrite linspace_at_dec; lra. Qed.

Lemma valley_range {s r k} : 0 <= r -> (k < s)%nat -> 0 <= uni_prof 1 s r k /\ uni_prof 1 s r k <= r.
Proof. intros Hr Hk. unfold uni_prof. cbv zeta. change (1 =? 1)%Z with true. cbv iota.
  destruct (half_facts s) as (H1 & H2 & H3). set (h := ((s + 1) / 2)%nat) in *. set (p := (s mod 2)%nat) in *.
  destruct (Nat.ltb_spec k h) as [Hlt|Hge].
  - rewrite linspace_at_dec. pose proof (linspace_at_range 0 r h k ltac:(lia) Hr ltac:(lia)). lra.
  - apply linspace_at_range; try lia. exact Hr. Qed.

Lemma valley_first s r : (1 <= s)%nat -> uni_prof 1 s r 0 == r.
Proof. intros Hs. unfold uni_prof. cbv zeta. change (1 =? 1)%Z with true. cbv iota.
  destruct (half_facts s) as (H1 & H2 & H3).
  destruct (Nat.ltb_spec 0 ((s + 1) / 2)) as [Hlt|Hge]; [|lia]. apply linspace_at_first. Qed.

Lemma valley_centre s r : (2 <= s)%nat -> uni_prof 1 s r (s / 2) == 0.
Proof. intros Hs. unfold uni_prof. cbv zeta. change (1 =? 1)%Z with true. cbv iota.
  destruct (half_facts s) as (H1 & H2 & H3). set (h := ((s + 1) / 2)%nat) in *. set (p := (s mod 2)%nat) in *.
  destruct (Nat.ltb_spec (s / 2) h) as [Hlt|Hge].
  - assert (p = 1%nat) by lia. assert (2 <= h)%nat by lia.
    replace (s / 2)%nat with (h - 1)%nat by lia. apply linspace_at_last. lia.
  - assert (p = 0%nat) by lia. replace (p + (s / 2 - h))%nat with 0%nat by lia. apply linspace_at_first. Qed.

(* valley: non-increasing while k < s/2, non-decreasing afterwards -- the split
   that _project_partial_monotonicity uses (is_first_part = i < size // 2) *)
Lemma valley_shape s r k : 0 <= r -> (S k < s)%nat ->
  if (k <? s / 2)%nat then uni_prof 1 s r (S k) <= uni_prof 1 s r k
  else uni_prof 1 s r k <= uni_prof 1 s r (S k).
Proof. intros Hr Hk. unfold uni_prof. cbv zeta. change (1 =? 1)%Z with true. cbv iota.
  destruct (half_facts s) as (H1 & H2 & H3). set (h := ((s + 1) / 2)%nat) in *. set (p := (s mod 2)%nat) in *.
  assert (Hh : (1 <= h)%nat) by lia.
  pose proof (linspace_at_mono 0 r h Hh Hr) as Hm.
  destruct (Nat.ltb_spec k (s / 2)) as [Hf|Hf]; destruct (Nat.ltb_spec k h) as [Hkh|Hkh];
    destruct (Nat.ltb_spec (S k) h) as [Hsh|Hsh]; try lia.
  - rewrite !linspace_at_dec. specialize (Hm (S k) k ltac:(lia)). lra.
  - assert (p = 0%nat) by lia. replace (p + (S k - h))%nat with 0%nat by lia.
    rewrite linspace_at_first, linspace_at_dec.
    pose proof (linspace_at_range 0 r h k Hh Hr ltac:(lia)). lra.
  - assert (p = 1%nat) by lia. assert (2 <= h)%nat by lia. replace k with (h - 1)%nat by lia.
    rewrite linspace_at_last by lia.
    pose proof (linspace_at_range 0 r h (p + (S (h - 1) - h)) Hh Hr ltac:(lia)). lra.
  - apply Hm. lia. Qed.

Lemma prof_mono_step m u s r k : nz m = true -> prof_at m u s r (S k) == prof_at m u s r k + lin_step 0 r s.
Proof. intros Hm. unfold prof_at. rewrite Hm. apply linspace_at_succ. Qed.

Lemma prof_range m u {s r k} : 0 <= r -> (k < s)%nat -> 0 <= prof_at m u s r k /\ prof_at m u s r k <= r.
Proof. intros Hr Hk. unfold prof_at. destruct (nz m).
  - apply linspace_at_range; auto; lia.
  - destruct (nz u); [|lra]. destruct (u =? 1)%Z eqn:Eu.
    + apply Z.eqb_eq in Eu. subst u. apply valley_range; assumption.
    + rewrite uni_prof_peak_eq by assumption. pose proof (valley_range Hr Hk). lra. Qed.
Lemma prof_unconstrained m u s r k : nz m = false -> nz u = false -> prof_at m u s r k = 0.
Proof. intros Hm Hu. unfold prof_at. rewrite Hm, Hu. reflexivity. Qed.
(* a profile that is not unimodal never decreases *)
Lemma prof_nondecreasing m u s r k : nz m = true \/ nz u = false -> (1 <= s)%nat -> 0 <= r ->
  prof_at m u s r k <= prof_at m u s r (S k).
Proof. intros H Hs Hr. destruct (nz m) eqn:Em.
  - rewrite prof_mono_step by assumption. pose proof (lin_step_nonneg 0 r s Hs Hr). lra.
  - destruct H as [H|Hu]; [discriminate|]. rewrite !prof_unconstrained by assumption. lra. Qed.

(* where each profile attains 0 and r *)
Definition arg_lo (m u : Z) (s : nat) : nat :=
  if nz m then 0%nat else if nz u then (if (u =? 1)%Z then (s / 2)%nat else 0%nat) else 0%nat.
Definition arg_hi (m u : Z) (s : nat) : nat :=
  if nz m then (s - 1)%nat else if nz u then (if (u =? 1)%Z then 0%nat else (s / 2)%nat) else 0%nat.
Lemma arg_lo_lt m u s : (2 <= s)%nat -> (arg_lo m u s < s)%nat.
Proof. intros Hs. unfold arg_lo. pose proof (Nat.div_lt s 2 ltac:(lia) ltac:(lia)).
  destruct (nz m); [lia|]. destruct (nz u); [|lia]. destruct (u =? 1)%Z; lia. Qed.
Lemma arg_hi_lt m u s : (2 <= s)%nat -> (arg_hi m u s < s)%nat.
Proof. intros Hs. unfold arg_hi. pose proof (Nat.div_lt s 2 ltac:(lia) ltac:(lia)).
  destruct (nz m); [lia|]. destruct (nz u); [|lia]. destruct (u =? 1)%Z; lia. Qed.
Lemma prof_arg_lo m u s r : (2 <= s)%nat -> prof_at m u s r (arg_lo m u s) == 0.
Proof. intros Hs. unfold prof_at, arg_lo. destruct (nz m). apply linspace_at_first.
  destruct (nz u); [|reflexivity]. destruct (u =? 1)%Z eqn:Eu.
  - apply Z.eqb_eq in Eu. subst u. apply valley_centre. exact Hs.
  - rewrite uni_prof_peak_eq by exact Eu. rewrite valley_first by lia. lra. Qed.
Lemma prof_arg_hi m u s r : (2 <= s)%nat -> prof_at m u s r (arg_hi m u s) == (if nz m || nz u then r else 0).
Proof. intros Hs. unfold prof_at, arg_hi. destruct (nz m); cbn [orb]. apply linspace_at_last; lia.
  destruct (nz u); [|reflexivity]. destruct (u =? 1)%Z eqn:Eu.
  - apply Z.eqb_eq in Eu. subst u. apply valley_first. lia.
  - rewrite uni_prof_peak_eq by exact Eu. rewrite valley_centre by lia. lra. Qed.

Lemma qsum_seq_diff (F G : nat -> Q) d : (forall e, e <> d -> F e == G e) ->
  forall n a, (a <= d < a + n)%nat -> qsum (map F (seq a n)) == qsum (map G (seq a n)) + (F d - G d).
Proof. intros HFG. induction n as [|n IH]; intros a Ha. lia. cbn [seq map qsum].
  destruct (Nat.eq_dec a d) as [->|Hne].
  - rewrite (qsum_map_ext F G (seq (S d) n)). lra.
    intros e He. apply in_seq in He. apply HFG. lia.
  - rewrite (HFG a Hne). rewrite (IH (S a)) by lia. lra. Qed.

Lemma qsum_seq_upd (g : nat -> nat -> Q) i d k n : (d < n)%nat -> (d < length i)%nat ->
  qsum (map (fun e => g e (nth e (upd i d k) 0%nat)) (seq 0 n)) ==
  qsum (map (fun e => g e (nth e i 0%nat)) (seq 0 n)) + (g d k - g d (nth d i 0%nat)).
Proof. intros Hd Hl.
  rewrite (qsum_seq_diff (fun e => g e (nth e (upd i d k) 0%nat)) (fun e => g e (nth e i 0%nat)) d).
  - cbv beta. rewrite nth_upd_same by exact Hl. reflexivity.
  - intros e He. cbv beta. rewrite nth_upd_other by auto. reflexivity.
  - lia. Qed.

Lemma count_nz_sum l : qsum (map (fun d => if nz (nth d l 0%Z) then 1 else 0) (seq 0 (length l))) == qnat (count_nz l).
Proof. induction l as [|z l IH]. reflexivity.
  cbn [length]. rewrite <- cons_seq, <- seq_shift. cbn [map qsum]. rewrite map_map. cbn [nth].
  rewrite IH. unfold count_nz. cbn [filter]. destruct (nz z); cbn [length]; [rewrite qnat_S|]; lra. Qed.

Lemma count_nz_repeat1 n : count_nz (repeat 1%Z n) = n.
Proof. induction n as [|n IH]. reflexivity. unfold count_nz in *. cbn. rewrite IH. reflexivity. Qed.
Lemma count_nz_zero_nth l d : count_nz l = 0%nat -> nz (nth d l 0%Z) = false.
Proof. revert d. induction l as [|z l IH]; intros d H. destruct d; reflexivity.
  unfold count_nz in *. cbn [filter] in H. destruct (nz z) eqn:E; [cbn in H; lia|].
  destruct d; cbn [nth]. exact E. apply IH. exact H. Qed.
Lemma count_nz_pos l d : nz (nth d l 0%Z) = true -> (count_nz l <> 0)%nat.
Proof. intros H E. rewrite (count_nz_zero_nth l d E) in H. discriminate. Qed.

Lemma valid_units_coord sizes units i d : valid (sizes ++ [units]) i -> (d < length sizes)%nat ->
  (nth d i 0 < nth d sizes 0)%nat.
Proof. intros Hv Hd. pose proof (valid_nth _ _ d Hv ltac:(rewrite app_length; cbn; lia)) as H.
  rewrite app_nth1 in H by exact Hd. exact H. Qed.
Lemma valid_units_length {sizes units i} : valid (sizes ++ [units]) i -> length i = S (length sizes).
Proof. intros Hv. rewrite (valid_length _ _ Hv), app_length. cbn. lia. Qed.

Section Linear.
Variables (sizes : list nat) (omin omax : Q) (monos unis : list Z) (units : nat).
Let rank := length sizes.
Let sh := sizes ++ [units].
Let r := lin_dim_range sizes omin omax monos unis.
Let em := lin_eff_monos sizes monos unis.
Let f := linear_init_fn sizes omin omax monos unis.

Definition lprof (d k : nat) : Q := prof_at (nth d em 0%Z) (nth d unis 0%Z) (nth d sizes 0%nat) r k.

Lemma lin_fn_valid i : valid sh i -> f i == qsum (map (fun d => lprof d (nth d i 0%nat)) (seq 0 rank)) + omin.
Proof. intros Hv. unfold f, linear_init_fn. fold rank.
  rewrite (qsum_map_ext _ (fun d => lprof d (nth d i 0%nat))). reflexivity.
  intros d Hd. apply in_seq in Hd. unfold lin_profile, lprof. fold em r.
  rewrite one_d_nth. reflexivity. apply (valid_units_coord sizes units); [exact Hv|unfold rank in Hd; lia]. Qed.

Lemma lin_fn_upd i d k : valid sh i -> (d < rank)%nat -> (k < nth d sizes 0)%nat ->
  f (upd i d k) == f i + (lprof d k - lprof d (nth d i 0%nat)).
Proof. intros Hv Hd Hk.
  assert (Hv' : valid sh (upd i d k)).
  { apply upd_valid. exact Hv. unfold sh. rewrite app_nth1 by exact Hd. exact Hk. }
  rewrite (lin_fn_valid _ Hv'), (lin_fn_valid _ Hv).
  rewrite (qsum_seq_upd lprof i d k rank Hd). lra.
  rewrite (valid_units_length Hv). unfold rank in Hd. lia. Qed.

Lemma lin_dim_range_nonneg : omin <= omax -> 0 <= r.
Proof. intros H. unfold r, lin_dim_range.
  pose proof (qofnat_nonneg (lin_num_constraint_dims sizes monos unis) : 0 <= qnat _) as Hn.
  destruct (Qeq_dec (qnat (lin_num_constraint_dims sizes monos unis)) 0) as [E|E].
  - rewrite E. unfold Qdiv. change (/ 0) with 0. lra.
  - apply Qle_shift_div_l; lra. Qed.

Hypothesis Hrank : (1 <= rank)%nat.
Hypothesis Hlm : length monos = rank.
Hypothesis Hlu : length unis = rank.
Hypothesis Hdisj : forall d, nz (nth d monos 0%Z) && nz (nth d unis 0%Z) = false.
Hypothesis Hb : omin <= omax.

Definition cind (d : nat) : Q := if nz (nth d em 0%Z) || nz (nth d unis 0%Z) then 1 else 0.

Lemma em_length : length em = rank.
Proof. unfold em, lin_eff_monos. destruct (count_nz monos + count_nz unis =? 0)%nat.
  apply repeat_length. exact Hlm. Qed.
Lemma em_disj d : nz (nth d em 0%Z) && nz (nth d unis 0%Z) = false.
Proof. unfold em, lin_eff_monos. destruct (Nat.eqb_spec (count_nz monos + count_nz unis) 0) as [E|E]; [|apply Hdisj].
  rewrite (count_nz_zero_nth unis d) by lia. apply andb_false_r. Qed.
Lemma count_em : (count_nz em + count_nz unis)%nat = lin_num_constraint_dims sizes monos unis.
Proof. unfold em, lin_eff_monos, lin_num_constraint_dims.
  destruct (Nat.eqb_spec (count_nz monos + count_nz unis) 0) as [E|E]; [|reflexivity].
  rewrite count_nz_repeat1. lia. Qed.
Lemma ncd_pos : (1 <= lin_num_constraint_dims sizes monos unis)%nat.
Proof. unfold lin_num_constraint_dims. destruct (Nat.eqb_spec (count_nz monos + count_nz unis) 0); [exact Hrank|lia]. Qed.

Lemma cind_sum : qsum (map cind (seq 0 rank)) == qnat (lin_num_constraint_dims sizes monos unis).
Proof. rewrite <- count_em, qnat_plus.
  rewrite <- (count_nz_sum em), <- (count_nz_sum unis), em_length, Hlu, <- qsum_map_plus.
  apply qsum_map_ext. intros d _. unfold cind. pose proof (em_disj d) as H.
  destruct (nz (nth d em 0%Z)), (nz (nth d unis 0%Z)); cbn in *; try discriminate; lra. Qed.

Lemma total_range : qnat (lin_num_constraint_dims sizes monos unis) * r == omax - omin.
Proof. unfold r, lin_dim_range. pose proof (qofnat_ge1 _ ncd_pos : 1 <= qnat _). field. lra. Qed.

Lemma lprof_bounds d k : (k < nth d sizes 0)%nat -> 0 <= lprof d k /\ lprof d k <= cind d * r.
Proof. intros Hk. unfold lprof, cind. pose proof (lin_dim_range_nonneg Hb) as Hr.
  pose proof (prof_range (nth d em 0%Z) (nth d unis 0%Z) Hr Hk).
  destruct (nz (nth d em 0%Z)) eqn:Em; [|destruct (nz (nth d unis 0%Z)) eqn:Eu]; cbn [orb]; [lra|lra|].
  rewrite prof_unconstrained by assumption. lra. Qed.

Lemma lin_fn_in_range i : valid sh i -> omin <= f i /\ f i <= omax.
Proof. intros Hv. rewrite (lin_fn_valid i Hv).
  assert (HB : forall d, In d (seq 0 rank) -> 0 <= lprof d (nth d i 0%nat) /\ lprof d (nth d i 0%nat) <= r * cind d).
  { intros d Hd. apply in_seq in Hd. rewrite (Qmult_comm r). apply lprof_bounds.
    apply (valid_units_coord sizes units); [exact Hv|unfold rank in Hd; lia]. }
  pose proof (qsum_map_nonneg _ _ (fun d Hd => proj1 (HB d Hd))) as H0.
  pose proof (qsum_map_le _ _ _ (fun d Hd => proj2 (HB d Hd))) as H1.
  rewrite qsum_map_scale, cind_sum in H1. pose proof total_range. lra. Qed.

Hypothesis Hsizes : forall s, In s sizes -> (2 <= s)%nat.
Hypothesis Hunits : (1 <= units)%nat.

Lemma size_ge2 d : (d < rank)%nat -> (2 <= nth d sizes 0)%nat.
Proof. intros Hd. apply Hsizes. apply nth_In. exact Hd. Qed.

(* the two extreme vertices *)
Definition corner (pick : Z -> Z -> nat -> nat) : idx :=
  map (fun d => pick (nth d em 0%Z) (nth d unis 0%Z) (nth d sizes 0%nat)) (seq 0 rank) ++ [0%nat].
Lemma corner_nth pick d : (d < rank)%nat -> nth d (corner pick) 0%nat = pick (nth d em 0%Z) (nth d unis 0%Z) (nth d sizes 0%nat).
Proof. intros Hd. unfold corner. rewrite app_nth1 by (rewrite map_length, seq_length; exact Hd).
  rewrite nth_map_seq by exact Hd. reflexivity. Qed.
Lemma corner_valid pick : (forall m u s, (2 <= s)%nat -> (pick m u s < s)%nat) -> valid sh (corner pick).
Proof. intros Hp. apply valid_iff. unfold sh, corner. rewrite !app_length, map_length, seq_length. cbn [length]. split. reflexivity.
  fold rank. intros e He. destruct (Nat.ltb_spec e rank) as [Hlt|Hge].
  - rewrite !app_nth1 by (rewrite ?map_length, ?seq_length; exact Hlt).
    rewrite nth_map_seq by exact Hlt. apply Hp. apply size_ge2. exact Hlt.
  - assert (e = rank) by lia. subst e. rewrite !app_nth2 by (rewrite ?map_length, ?seq_length; unfold rank; lia).
    rewrite map_length, seq_length. unfold rank. rewrite Nat.sub_diag. cbn. lia. Qed.

Lemma lin_fn_min_attained : exists i, valid sh i /\ f i == omin.
Proof. exists (corner arg_lo). assert (Hv : valid sh (corner arg_lo)) by (apply corner_valid; intros; apply arg_lo_lt; assumption).
  split. exact Hv. rewrite (lin_fn_valid _ Hv).
  rewrite (qsum_map_ext _ (fun _ => 0 * 0)).
  - rewrite qsum_map_scale. lra.
  - intros d Hd. apply in_seq in Hd. rewrite corner_nth by lia. unfold lprof. rewrite prof_arg_lo. lra. apply size_ge2. lia. Qed.
Lemma lin_fn_max_attained : exists i, valid sh i /\ f i == omax.
Proof. exists (corner arg_hi). assert (Hv : valid sh (corner arg_hi)) by (apply corner_valid; intros; apply arg_hi_lt; assumption).
  split. exact Hv. rewrite (lin_fn_valid _ Hv).
  rewrite (qsum_map_ext _ (fun d => r * cind d)).
  - rewrite qsum_map_scale, cind_sum. pose proof total_range. lra.
  - intros d Hd. apply in_seq in Hd. rewrite corner_nth by lia. unfold lprof. rewrite prof_arg_hi by (apply size_ge2; lia).
    unfold cind. destruct (nz (nth d em 0%Z) || nz (nth d unis 0%Z)); lra. Qed.
End Linear.

Lemma linear_init_val sizes omin omax monos unis units i : valid (sizes ++ [units]) i ->
  linear_init sizes omin omax monos unis units i ==
  linear_init_fn sizes omin omax (zeros_if_none (length sizes) monos) (zeros_if_none (length sizes) unis) i.
Proof. intros Hv. unfold linear_init. rewrite memo_ok by exact Hv. apply Qred_correct. Qed.

Lemma eff_monos_same sizes monos unis : (count_nz monos + count_nz unis <> 0)%nat -> lin_eff_monos sizes monos unis = monos.
Proof. intros H. unfold lin_eff_monos. destruct (Nat.eqb_spec (count_nz monos + count_nz unis) 0); [lia|reflexivity]. Qed.
Lemma eff_monos_all sizes monos unis d : (count_nz monos + count_nz unis = 0)%nat -> (d < length sizes)%nat ->
  nth d (lin_eff_monos sizes monos unis) 0%Z = 1%Z.
Proof. intros H Hd. unfold lin_eff_monos. rewrite H. cbn [Nat.eqb].
  rewrite nth_indep with (d' := 1%Z) by (rewrite repeat_length; exact Hd). apply nth_repeat. Qed.

(* the inequalities of lattice_lib.assert_constraints for the families that
   Proofs/LatticeSpec.v does not define *)
Definition mono_dominance_holds (sh : list nat) (p : nat * nat) (f : tens) : Prop :=
  let '(dm, wk) := p in
  forall b i j, valid sh b -> (S i < nth dm sh 0)%nat -> (S j < nth wk sh 0)%nat ->
    let mid := (f (at2 b dm wk (S i) (S j)) + f (at2 b dm wk i j)) * (1#2) in
    mid <= f (at2 b dm wk (S i) j) /\ f (at2 b dm wk i (S j)) <= mid.
Definition range_dominance_holds (sh : list nat) (p : nat * nat) (f : tens) : Prop :=
  let '(dm, wk) := p in
  forall b i j, valid sh b -> (i < nth dm sh 0)%nat -> (j < nth wk sh 0)%nat ->
    f (at2 b dm wk i (nth wk sh 0 - 1)%nat) - f (at2 b dm wk i 0%nat) <=
    f (at2 b dm wk (nth dm sh 0 - 1)%nat j) - f (at2 b dm wk 0%nat j).
Definition joint_mono_holds (sh : list nat) (p : nat * nat) (f : tens) : Prop :=
  let '(d1, d2) := p in
  forall b i j, valid sh b -> (S i < nth d1 sh 0)%nat -> (S j < nth d2 sh 0)%nat ->
    let mid := (f (at2 b d1 d2 (S i) j) + f (at2 b d1 d2 i (S j))) * (1#2) in
    mid <= f (at2 b d1 d2 (S i) (S j)) /\ f (at2 b d1 d2 i j) <= mid.

Section LinearTop.
Variables (sizes : list nat) (omin omax : Q) (monos unis : option (list Z)) (units : nat).
Let rank := length sizes.
Let sh := sizes ++ [units].
Let zm := zeros_if_none rank monos.
Let zu := zeros_if_none rank unis.
Let em := lin_eff_monos sizes zm zu.
Let r := lin_dim_range sizes omin omax zm zu.
Let W := linear_init sizes omin omax monos unis units.
Let P := lprof sizes omin omax zm zu.

Lemma W_val i : valid sh i -> W i == linear_init_fn sizes omin omax zm zu i.
Proof. apply linear_init_val. Qed.
Lemma sh_nth d : (d < rank)%nat -> nth d sh 0%nat = nth d sizes 0%nat.
Proof. intros Hd. unfold sh. apply app_nth1. exact Hd. Qed.

(* the kernel is a sum of one profile per dimension: a move along d changes it
   by the increment of d's profile, whatever the other coordinates are *)
Lemma linear_init_upd i d k : valid sh i -> (d < rank)%nat -> (k < nth d sizes 0)%nat ->
  W (upd i d k) == W i + (P d k - P d (nth d i 0%nat)).
Proof. intros Hv Hd Hk. rewrite (W_val i Hv), W_val by (apply upd_valid; [exact Hv|rewrite sh_nth by exact Hd; exact Hk]).
  apply (lin_fn_upd sizes omin omax zm zu units); assumption. Qed.

(* dimension d is treated as monotone by the initialiser *)
Definition lin_mono_dim (d : nat) : Prop := nz (nth d (lin_eff_monos sizes zm zu) 0%Z) = true.

Lemma linear_mono_dim_step d i : (d < rank)%nat -> lin_mono_dim d -> valid sh i ->
  (S (nth d i 0) < nth d sizes 0)%nat ->
  W (upd i d (S (nth d i 0%nat))) == W i + lin_step 0 r (nth d sizes 0%nat).
Proof. intros Hd Hm Hv Hs. rewrite (linear_init_upd i d _ Hv Hd Hs). unfold P, lprof.
  rewrite prof_mono_step by exact Hm. fold r. lra. Qed.

Lemma linear_mono_dim d : omin <= omax -> (d < rank)%nat -> lin_mono_dim d -> mono_along sh d W.
Proof. intros Hb Hd Hm i Hv Hs. rewrite sh_nth in Hs by exact Hd.
  rewrite (linear_mono_dim_step d i Hd Hm Hv Hs).
  pose proof (lin_step_nonneg 0 r (nth d sizes 0%nat) ltac:(lia) (lin_dim_range_nonneg sizes omin omax zm zu Hb)). lra. Qed.

(* a configured monotone dimension is a monotone dimension of the initialiser;
   with nothing configured every dimension is *)
Lemma configured_mono_dim d : nz (nth d zm 0%Z) = true -> lin_mono_dim d.
Proof. intros H. unfold lin_mono_dim. rewrite eff_monos_same. exact H.
  pose proof (count_nz_pos zm d H). lia. Qed.
Lemma unconstrained_all_mono d : (count_nz zm + count_nz zu = 0)%nat -> (d < rank)%nat -> lin_mono_dim d.
Proof. intros H Hd. unfold lin_mono_dim. rewrite eff_monos_all by assumption. reflexivity. Qed.

Lemma linear_unimodal_dim d i : omin <= omax -> (d < rank)%nat -> nz (nth d zm 0%Z) = false ->
  nz (nth d zu 0%Z) = true -> valid sh i -> (S (nth d i 0) < nth d sizes 0)%nat ->
  let nxt := upd i d (S (nth d i 0%nat)) in
  let first_part := (nth d i 0 <? nth d sizes 0 / 2)%nat in
  if (nth d zu 0 =? 1)%Z
  then (if first_part then W nxt <= W i else W i <= W nxt)        (* valley *)
  else (if first_part then W i <= W nxt else W nxt <= W i).       (* peak *)
Proof. intros Hb Hd Hm Hu Hv Hs nxt fp.
  pose proof (linear_init_upd i d _ Hv Hd Hs) as HU. fold nxt in HU. unfold P, lprof, prof_at in HU.
  rewrite eff_monos_same, Hm, Hu in HU by (pose proof (count_nz_pos zu d Hu); lia).
  pose proof (valley_shape (nth d sizes 0%nat) r (nth d i 0%nat) (lin_dim_range_nonneg sizes omin omax zm zu Hb) Hs) as H.
  fold r in HU. destruct (nth d zu 0 =? 1)%Z eqn:E.
  - apply Z.eqb_eq in E. rewrite E in HU. unfold fp. destruct (nth d i 0 <? nth d sizes 0 / 2)%nat; lra.
  - rewrite !(uni_prof_peak_eq (nth d zu 0%Z)) in HU by exact E.
    unfold fp. destruct (nth d i 0 <? nth d sizes 0 / 2)%nat; lra. Qed.

Lemma linear_constant_dim d i k : (d < rank)%nat -> nz (nth d zm 0%Z) = false -> nz (nth d zu 0%Z) = false ->
  (count_nz zm + count_nz zu <> 0)%nat -> valid sh i -> (k < nth d sizes 0)%nat -> W (upd i d k) == W i.
Proof. intros Hd Hm Hu Hc Hv Hk. rewrite (linear_init_upd i d k Hv Hd Hk). unfold P, lprof.
  rewrite eff_monos_same by exact Hc. rewrite !prof_unconstrained by assumption. lra. Qed.

(* tf.tile over units *)
Lemma linear_units_tiled i u : valid sh i -> (u < units)%nat -> W (upd i rank u) == W i.
Proof. intros Hv Hu.
  assert (Hv' : valid sh (upd i rank u)).
  { apply upd_valid. exact Hv. unfold sh, rank. rewrite unit_axis_nth. exact Hu. }
  rewrite (W_val _ Hv'), (W_val _ Hv). unfold linear_init_fn.
  rewrite (qsum_map_ext _ (fun d => nth (nth d i 0%nat) (lin_profile sizes omin omax zm zu d) 0)). reflexivity.
  intros d Hd. apply in_seq in Hd. rewrite nth_upd_other by (unfold rank; lia). reflexivity. Qed.

Lemma linear_range :
  (forall s, In s sizes -> (2 <= s)%nat) -> (1 <= units)%nat -> (1 <= rank)%nat ->
  length zm = rank -> length zu = rank ->
  (forall d, nz (nth d zm 0%Z) && nz (nth d zu 0%Z) = false) -> omin <= omax ->
  (forall i, valid sh i -> omin <= W i /\ W i <= omax) /\
  (exists i, valid sh i /\ W i == omin) /\ (exists i, valid sh i /\ W i == omax).
Proof. intros H1 H2 H3 H4 H5 H6 H7. split; [|split].
  - intros i Hv. rewrite (W_val _ Hv). apply (lin_fn_in_range sizes omin omax zm zu units H3 H4 H5 H6 H7). exact Hv.
  - destruct (lin_fn_min_attained sizes omin omax zm zu units H3 H4 H5 H1 H2) as [i [Hv E]].
    exists i. split. exact Hv. rewrite (W_val _ Hv). exact E.
  - destruct (lin_fn_max_attained sizes omin omax zm zu units H3 H4 H5 H6 H1 H2) as [i [Hv E]].
    exists i. split. exact Hv. rewrite (W_val _ Hv). exact E. Qed.

(* the kernel is additive: moving two coordinates adds two independent increments *)
Lemma linear_at2 b m c i j : valid sh b -> (m < rank)%nat -> (c < rank)%nat -> m <> c ->
  (i < nth m sizes 0)%nat -> (j < nth c sizes 0)%nat ->
  W (at2 b m c i j) == W b + (P m i - P m (nth m b 0%nat)) + (P c j - P c (nth c b 0%nat)).
Proof. intros Hv Hm Hc Hne Hi Hj. unfold at2.
  rewrite (linear_init_upd (upd b m i) c j), (linear_init_upd b m i), nth_upd_other; try assumption; [lra|].
  apply upd_valid; [exact Hv|rewrite sh_nth by exact Hm; exact Hi]. Qed.

Hypothesis Hb : omin <= omax.
Hypothesis Hsizes : forall s, In s sizes -> (2 <= s)%nat.

(* Edgeworth trusts of both directions always hold: every 2x2 square is flat *)
Lemma linear_edgeworth m c dir : (m < rank)%nat -> (c < rank)%nat -> m <> c -> edgeworth_holds sh (m, c, dir) W.
Proof. intros Hm Hc Hne b i j Hv Hi Hj. rewrite sh_nth in Hi, Hj by assumption.
  assert (E : esq W m c i j b == 0).
  { unfold esq. rewrite !linear_at2 by (auto; lia). lra. }
  destruct (0 <? dir)%Z; lra. Qed.

(* a trapezoid trust holds when the initialiser leaves the conditional dimension unconstrained *)
Lemma linear_trapezoid_free_cond m c dir : (m < rank)%nat -> (c < rank)%nat -> m <> c ->
  nz (nth c em 0%Z) = false -> nz (nth c zu 0%Z) = false -> trapezoid_holds sh (m, c, dir) W.
Proof. intros Hm Hc Hne Hcm Hcu b j Hv Hj. cbv zeta. rewrite sh_nth in Hj by assumption. rewrite sh_nth by assumption.
  pose proof (size_ge2 sizes Hsizes m Hm).
  destruct (0 <? dir)%Z; rewrite !linear_at2 by (auto; lia); unfold P, lprof; fold em;
    rewrite !(prof_unconstrained (nth c em 0%Z)) by assumption; lra. Qed.

(* monotonic dominance holds when the dominant dimension has no more vertices than the weak one *)
Lemma linear_mono_dominance dm wk : (dm < rank)%nat -> (wk < rank)%nat -> dm <> wk ->
  nz (nth dm em 0%Z) = true -> nz (nth wk em 0%Z) = true -> (nth dm sizes 0 <= nth wk sizes 0)%nat ->
  mono_dominance_holds sh (dm, wk) W.
Proof. intros Hd Hw Hne Hdm Hwm Hs b i j Hv Hi Hj. cbv zeta. rewrite sh_nth in Hi, Hj by assumption.
  rewrite !linear_at2 by (auto; lia). unfold P, lprof. fold rank zm zu em r.
  rewrite !(prof_mono_step (nth dm em 0%Z)), !(prof_mono_step (nth wk em 0%Z)) by assumption.
  pose proof (lin_step_antitone r _ _ (lin_dim_range_nonneg sizes omin omax zm zu Hb) (size_ge2 sizes Hsizes dm Hd) Hs). fold r. lra. Qed.

(* range dominance between two monotone dimensions always holds: both ranges are r *)
Lemma linear_range_dominance dm wk : (dm < rank)%nat -> (wk < rank)%nat -> dm <> wk ->
  nz (nth dm em 0%Z) = true -> nz (nth wk em 0%Z) = true -> range_dominance_holds sh (dm, wk) W.
Proof. intros Hd Hw Hne Hdm Hwm b i j Hv Hi Hj. rewrite !sh_nth in * by assumption.
  pose proof (size_ge2 sizes Hsizes dm Hd). pose proof (size_ge2 sizes Hsizes wk Hw).
  rewrite !linear_at2 by (auto; lia). unfold P, lprof, prof_at. fold rank zm zu em r. rewrite Hdm, Hwm.
  rewrite !linspace_at_last by lia. rewrite !linspace_at_first. lra. Qed.

(* joint monotonicity holds when neither dimension is unimodal *)
Lemma linear_joint_mono d1 d2 : (d1 < rank)%nat -> (d2 < rank)%nat -> d1 <> d2 ->
  (nz (nth d1 em 0%Z) = true \/ nz (nth d1 zu 0%Z) = false) ->
  (nz (nth d2 em 0%Z) = true \/ nz (nth d2 zu 0%Z) = false) -> joint_mono_holds sh (d1, d2) W.
Proof. intros H1 H2 Hne Hd1 Hd2 b i j Hv Hi Hj. cbv zeta. rewrite sh_nth in Hi, Hj by assumption.
  rewrite !linear_at2 by (auto; lia).
  pose proof (lin_dim_range_nonneg sizes omin omax zm zu Hb) as Hr.
  pose proof (prof_nondecreasing _ _ (nth d1 sizes 0%nat) _ i Hd1 ltac:(pose proof (size_ge2 sizes Hsizes d1 H1); lia) Hr).
  pose proof (prof_nondecreasing _ _ (nth d2 sizes 0%nat) _ j Hd2 ltac:(pose proof (size_ge2 sizes Hsizes d2 H2); lia) Hr).
  unfold P, lprof. fold em. lra. Qed.
End LinearTop.

Lemma linear_monotone_dims sizes omin omax monos unis units d :
  let rank := length sizes in
  let zm := zeros_if_none rank monos in let zu := zeros_if_none rank unis in
  let W := linear_init sizes omin omax monos unis units in
  omin <= omax -> (d < rank)%nat ->
  (nz (nth d zm 0%Z) = true \/ (count_nz zm + count_nz zu = 0)%nat) ->
  mono_along (sizes ++ [units]) d W /\
  forall i, valid (sizes ++ [units]) i -> (S (nth d i 0) < nth d sizes 0)%nat ->
    W (upd i d (S (nth d i 0%nat))) == W i + lin_step 0 (lin_dim_range sizes omin omax zm zu) (nth d sizes 0%nat).
Proof. intros rank zm zu W Hb Hd Hm.
  assert (Hmd : lin_mono_dim sizes monos unis d).
  { destruct Hm as [Hm|Hm]. apply configured_mono_dim; exact Hm. apply unconstrained_all_mono; assumption. }
  split. apply linear_mono_dim; assumption.
  intros i Hv Hs. apply linear_mono_dim_step; assumption. Qed.

Lemma idx_eqb_true a b : idx_eqb a b = true <-> a = b.
Proof. unfold idx_eqb. destruct (list_eq_dec Nat.eq_dec a b); split; congruence. Qed.
Lemma idx_eqb_refl a : idx_eqb a a = true. Proof. apply idx_eqb_true. reflexivity. Qed.

Lemma index_of_lt v l : In v l -> (index_of v l < length l)%nat.
Proof. induction l as [|x l IH]; intros H. destruct H. cbn [index_of length].
  destruct (idx_eqb v x) eqn:E. lia. destruct H as [->|H]. rewrite idx_eqb_refl in E. discriminate.
  specialize (IH H). lia. Qed.
Lemma index_of_nth v l : In v l -> nth (index_of v l) l [] = v.
Proof. induction l as [|x l IH]; intros H. destruct H. cbn [index_of].
  destruct (idx_eqb v x) eqn:E. apply idx_eqb_true in E. subst. reflexivity.
  destruct H as [->|H]. rewrite idx_eqb_refl in E. discriminate. cbn [nth]. apply IH. exact H. Qed.
Lemma index_of_app_in v a b : In v a -> index_of v (a ++ b) = index_of v a.
Proof. induction a as [|x a IH]; intros H. destruct H. cbn [app index_of].
  destruct (idx_eqb v x) eqn:E. reflexivity. f_equal. apply IH.
  destruct H as [->|H]. rewrite idx_eqb_refl in E. discriminate. exact H. Qed.
Lemma index_of_app_notin v a b : ~ In v a -> index_of v (a ++ b) = (length a + index_of v b)%nat.
Proof. induction a as [|x a IH]; intros H. reflexivity. cbn [app index_of length].
  destruct (idx_eqb v x) eqn:E. apply idx_eqb_true in E. subst. exfalso. apply H. left. reflexivity.
  rewrite IH. lia. intros H'. apply H. right. exact H'. Qed.

Lemma valid_app_firstn a b i : valid (a ++ b) i -> valid a (firstn (length a) i).
Proof. revert i. induction a as [|s a IH]; intros i Hv. constructor.
  cbn [app] in Hv. inversion Hv; subst. cbn [length firstn]. constructor. assumption. apply IH. assumption. Qed.
Lemma firstn_upd n : forall i d k, (d < n)%nat -> firstn n (upd i d k) = upd (firstn n i) d k.
Proof. induction n as [|n IH]; intros i d k Hd. lia.
  destruct i as [|x i]. reflexivity. destruct d; cbn. reflexivity. f_equal. apply IH. lia. Qed.
Lemma firstn_upd_at n : forall i k, firstn n (upd i n k) = firstn n i.
Proof. induction n as [|n IH]; intros [|x i] k; cbn; try reflexivity. f_equal. apply IH. Qed.
Lemma vsum_upd_succ v d : (d < length v)%nat -> vsum (upd v d (S (nth d v 0%nat))) = S (vsum v).
Proof. unfold vsum. revert d. induction v as [|x v IH]; intros d Hd; cbn [length] in Hd. lia.
  destruct d; cbn [upd nth fold_right]. lia. rewrite IH by lia. lia. Qed.
Lemma vsum_valid_le sizes v : valid sizes v -> (vsum v <= vsum (map pred sizes))%nat.
Proof. unfold vsum. induction 1; cbn [map fold_right]. lia. lia. Qed.
Lemma level_set_in sizes v : valid sizes v -> In v (level_set sizes (vsum v)).
Proof. intros Hv. unfold level_set. apply filter_In. split. apply all_idx_valid. exact Hv. apply Nat.eqb_refl. Qed.
Lemma level_set_inv sizes L v : In v (level_set sizes L) -> valid sizes v /\ vsum v = L.
Proof. unfold level_set. intros H. apply filter_In in H. destruct H as [H1 H2]. split.
  apply all_idx_valid. exact H1. apply Nat.eqb_eq. exact H2. Qed.

Lemma concat_perm {A} (order blocks : list (list A)) :
  Forall2 (@Permutation A) order blocks -> Permutation (concat order) (concat blocks).
Proof. induction 1; cbn. constructor. apply Permutation_app; assumption. Qed.

(* vertices of later levels receive larger parameter indices *)
Lemma blocks_index_order sizes : forall order n0 n,
  Forall2 (@Permutation idx) order (map (level_set sizes) (seq n0 n)) ->
  (forall v, In v (concat order) -> (n0 <= vsum v)%nat) /\
  (forall x y, In x (concat order) -> In y (concat order) -> (vsum x < vsum y)%nat ->
     (index_of x (concat order) < index_of y (concat order))%nat).
Proof. induction order as [|blk order IH]; intros n0 n H.
  - split. intros v []. intros x y [].
  - destruct n as [|n]; cbn [seq map] in H; inversion H as [|? ? ? ? Hblk Hf]; subst.
    destruct (IH (S n0) n Hf) as [IH1 IH2].
    assert (Hlv : forall v, In v blk -> vsum v = n0).
    { intros v Hv. apply (Permutation_in _ Hblk) in Hv. apply level_set_inv in Hv. tauto. }
    cbn [concat]. split.
    + intros v Hv. apply in_app_iff in Hv. destruct Hv as [Hv|Hv]. rewrite (Hlv v Hv). lia.
      specialize (IH1 v Hv). lia.
    + intros x y Hx Hy Hlt. apply in_app_iff in Hx. apply in_app_iff in Hy.
      assert (Hy' : ~ In y blk).
      { intros Hy'. rewrite (Hlv y Hy') in Hlt. destruct Hx as [Hx|Hx]. rewrite (Hlv x Hx) in Hlt. lia.
        specialize (IH1 x Hx). lia. }
      destruct Hy as [Hy|Hy]; [contradiction|].
      rewrite (index_of_app_notin y blk _ Hy').
      destruct (in_dec (list_eq_dec Nat.eq_dec) x blk) as [Hxb|Hxb].
      * rewrite (index_of_app_in x blk _ Hxb). pose proof (index_of_lt x blk Hxb). lia.
      * destruct Hx as [Hx|Hx]; [contradiction|]. rewrite (index_of_app_notin x blk _ Hxb).
        specialize (IH2 x y Hx Hy Hlt). lia. Qed.

Section RandomMono.
Variables (sizes : list nat) (units : nat) (order : list (list idx)) (samples : list Q) (lo hi : Q).
Let rank := length sizes.
Let sh := sizes ++ [units].
Let F := concat order.
Let W := random_mono_init sizes units order samples.
(* np.random.shuffle: every level is numbered in SOME order *)
Hypothesis Horder : Forall2 (@Permutation idx) order (levels sizes).
(* tf.sort(tf.random.uniform([n], lo, hi)): a sorted vector with one entry per numbered vertex, inside [lo, hi] *)
Hypothesis Hsorted : forall a b, (a <= b)%nat -> (b < length samples)%nat -> nth a samples 0 <= nth b samples 0.
Hypothesis Hlen : length samples = length F.
Hypothesis Hrange : forall x, In x samples -> lo <= x /\ x <= hi.

Lemma vertex_numbered v : valid sizes v -> In v F.
Proof. intros Hv. unfold F. apply (Permutation_in _ (Permutation_sym (concat_perm _ _ Horder))).
  apply in_concat. exists (level_set sizes (vsum v)). split.
  - unfold levels. apply in_map. apply in_seq. pose proof (vsum_valid_le sizes v Hv). unfold num_levels. lia.
  - apply level_set_in. exact Hv. Qed.

Lemma rm_val i : valid sh i -> W i = nth (index_of (firstn rank i) F) samples 0.
Proof. intros Hv. unfold W, random_mono_init. rewrite memo_ok by exact Hv. reflexivity. Qed.

(* a vertex of a lower level gets a smaller sample *)
Lemma sample_level_mono v w : valid sizes v -> valid sizes w -> (vsum v < vsum w)%nat ->
  nth (index_of v F) samples 0 <= nth (index_of w F) samples 0.
Proof. intros Hv Hw Hlt. pose proof (vertex_numbered _ Hv) as Hin. pose proof (vertex_numbered _ Hw) as Hin'.
  destruct (blocks_index_order sizes order 0 (num_levels sizes) Horder) as [_ Hord].
  specialize (Hord _ _ Hin Hin' Hlt). fold F in Hord.
  apply Hsorted. lia. rewrite Hlen. apply index_of_lt. exact Hin'. Qed.

Lemma random_mono_all_dims d : (d < rank)%nat -> mono_along sh d W.
Proof. intros Hd i Hv Hs.
  assert (Hsd : nth d sh 0%nat = nth d sizes 0%nat) by (apply app_nth1; exact Hd). rewrite Hsd in Hs.
  rewrite (rm_val _ Hv), rm_val by (apply upd_valid; [exact Hv|rewrite Hsd; exact Hs]).
  pose proof (valid_app_firstn sizes [units] i Hv) as Hvv. fold rank in Hvv.
  rewrite firstn_upd by exact Hd. rewrite <- (nth_firstn_lt rank i d 0%nat Hd) in *.
  apply sample_level_mono. exact Hvv. apply upd_valid; assumption.
  rewrite vsum_upd_succ. lia. rewrite (valid_length _ _ Hvv). exact Hd. Qed.

Lemma random_mono_in_range i : valid sh i -> lo <= W i /\ W i <= hi.
Proof. intros Hv. rewrite (rm_val _ Hv). apply Hrange. apply nth_In. rewrite Hlen. apply index_of_lt.
  apply vertex_numbered. apply (valid_app_firstn sizes [units]). exact Hv. Qed.

Lemma random_mono_units_tiled i u : valid sh i -> (u < units)%nat -> W (upd i rank u) = W i.
Proof. intros Hv Hu.
  assert (Hv' : valid sh (upd i rank u)).
  { apply upd_valid. exact Hv. unfold sh, rank. rewrite unit_axis_nth. exact Hu. }
  rewrite (rm_val _ Hv), (rm_val _ Hv'), firstn_upd_at. reflexivity. Qed.
End RandomMono.

Lemma default_init_params_spec omin omax :
  (forall x, omin = Some x -> fst (default_init_params omin omax) = x) /\
  (forall y, omax = Some y -> snd (default_init_params omin omax) = y).
Proof. unfold default_init_params. destruct omin, omax; cbn; split; intros ? E; inversion E; reflexivity. Qed.
Lemma default_init_params_unbounded : default_init_params None None = (0, 1).
Proof. reflexivity. Qed.
Lemma default_init_params_one_sided a b :
  default_init_params (Some a) None = (a, qmax 1 a) /\ default_init_params None (Some b) = (qmin 0 b, b).
Proof. split; reflexivity. Qed.
