(* Totality of Model/CondPWL.pwl_fn at the function level: after the size check
   ([verify]) the function has one more way to return None, the broadcasting
   test [bcompat ... else None].  This file characterises exactly when that test
   passes, in terms of the shapes the module docstring lists:
     inputs                      (batch, 1) or (batch, units)
     keypoint_input_parameters   None, rank 2, or (1 or batch, 1 or units, size)
     keypoint_output_parameters  the forms the size check lets through
     batch axes                  every one is 1 or a common B
   so "documented form and documented size => Some" holds for the whole function,
   not only for [verify]. *)
From TFL Require Import Model.CondPWL Proofs.CondPWL.
Open Scope Q_scope.

(* size of the batch axis of a parameter tensor *)
Definition blen (t : ptens) : nat := match t with P2 t => length t | P3 t => length t end.
Definition kip_blen (kip : option ptens) : nat := match kip with None => 1%nat | Some t => blen t end.
(* an axis of size l broadcasts to size B *)
Definition bcast_to (B l : nat) : Prop := l = 1%nat \/ l = B.
(* "1 or batch_size" on every batch axis *)
Definition batch_bcast (inputs : list (list Q)) (kip : option ptens) (kop : ptens) : Prop :=
  exists B, bcast_to B (length inputs) /\ bcast_to B (kip_blen kip) /\ bcast_to B (blen kop).
Definition nonempty_batch (inputs : list (list Q)) (kip : option ptens) (kop : ptens) : Prop :=
  inputs <> [] /\ kip_blen kip <> 0%nat /\ blen kop <> 0%nat.
(* keypoint_input_parameters: None, rank 2, or rank 3 with "1 or units" *)
Definition kip_doc_form (c : pcfg) (kip : option ptens) : Prop :=
  match kip with
  | None => True
  | Some (P2 _) => True
  | Some (P3 t) => length (hd [] t) = 1%nat \/ length (hd [] t) = p_units c
  end.
(* inputs: (batch, 1) or (batch, units) *)
Definition inputs_doc_form (c : pcfg) (inputs : list (list Q)) : Prop :=
  width inputs = 1%nat \/ width inputs = p_units c.

Lemma tile1_length {A} units (t : list (list A)) : length (tile1 units t) = length t.
Proof. unfold tile1. destruct ((length (hd [] t) =? 1)%nat && (1 <? units)%nat); [apply map_length|reflexivity]. Qed.
Lemma to3_length t : length (to3 t) = blen t.
Proof. destruct t; cbn [to3 blen]; [apply map_length|reflexivity]. Qed.

Lemma out_batch_eq c inputs kip kop :
  out_batch c inputs kip kop = Nat.max (length inputs) (Nat.max (kip_blen kip) (blen kop)).
Proof. unfold out_batch. rewrite !tile1_length, to3_length. destruct kip as [t|]; cbn [kip_blen].
  - rewrite tile1_length, to3_length. reflexivity.
  - reflexivity. Qed.

Lemma bcompat_iff n l : bcompat n l = true <-> bcast_to n l.
Proof. unfold bcompat, bcast_to. rewrite orb_true_iff, !Nat.eqb_eq. tauto. Qed.

(* non-empty axes that are each 1 or B broadcast to their maximum, which is 1 or B *)
Lemma bcast_to_max2 B x y : bcast_to B x -> bcast_to B y -> bcast_to B (Nat.max x y).
Proof. intros Hx Hy. destruct (Nat.max_dec x y) as [-> | ->]; assumption. Qed.
Lemma bcast_to_le B M l : l <> 0%nat -> bcast_to B l -> bcast_to B M -> (l <= M)%nat -> bcast_to M l.
Proof. unfold bcast_to. intros N [-> | ->] [-> | ->] Hle; auto.
  (* l = B, M = 1 *) left. lia. Qed.
Lemma bcast_to_max a b d B : a <> 0%nat -> b <> 0%nat -> d <> 0%nat ->
  bcast_to B a -> bcast_to B b -> bcast_to B d ->
  let M := Nat.max a (Nat.max b d) in bcast_to M a /\ bcast_to M b /\ bcast_to M d.
Proof. intros Na Nb Nd Ha Hb Hd M.
  assert (HM : bcast_to B M) by (apply bcast_to_max2; [|apply bcast_to_max2]; assumption).
  pose proof (Nat.le_max_l a (Nat.max b d)) as La. pose proof (Nat.le_max_r a (Nat.max b d)) as Lbd.
  split; [|split].
  - exact (bcast_to_le B M a Na Ha HM La).
  - exact (bcast_to_le B M b Nb Hb HM (Nat.le_trans _ _ _ (Nat.le_max_l b d) Lbd)).
  - exact (bcast_to_le B M d Nd Hd HM (Nat.le_trans _ _ _ (Nat.le_max_r b d) Lbd)). Qed.

(* the second axis after tiling: "1 or units" before <-> compatible with units after *)
Lemma hd_tile1_compat {A} units (t : list (list A)) :
  bcompat units (length (hd [] (tile1 units t))) = true <->
  length (hd [] t) = 1%nat \/ length (hd [] t) = units.
Proof. unfold tile1. destruct ((length (hd [] t) =? 1)%nat && (1 <? units)%nat) eqn:E; [|apply bcompat_iff].
  apply andb_true_iff in E. destruct E as [E1 _]. apply Nat.eqb_eq in E1.
  destruct t as [|m r]; [discriminate|]. cbn [map hd] in *. rewrite length_concat_repeat, E1, bcompat_iff.
  unfold bcast_to. intuition lia. Qed.

Lemma to3_P2_hd t : t <> [] -> length (hd [] (to3 (P2 t))) = 1%nat.
Proof. destruct t; [congruence|reflexivity]. Qed.

(* the unit axis of keypoint_output_parameters of an accepted call *)
Lemma kop_unit_axis c inputs kip kop : verify c inputs kip kop = true -> blen kop <> 0%nat ->
  length (hd [] (to3 kop)) = 1%nat \/ length (hd [] (to3 kop)) = p_units c.
Proof. intros V Hne. apply verify_iff in V. destruct V as (_ & F & _). destruct kop as [t|t]; cbn [blen kop_form_ok] in *.
  - left. apply to3_P2_hd. intros E. rewrite E in Hne. apply Hne. reflexivity.
  - right. exact F. Qed.
Lemma kip_unit_axis c kip : kip_blen kip <> 0%nat ->
  (bcompat (p_units c) (match kip with None => p_units c | Some t => length (hd [] (tile1 (p_units c) (to3 t))) end) = true
   <-> kip_doc_form c kip).
Proof. intros Hne. destruct kip as [[t|t]|]; cbn [kip_doc_form kip_blen blen] in *.
  - rewrite hd_tile1_compat, to3_P2_hd by (intros E; rewrite E in Hne; apply Hne; reflexivity). split; auto.
  - apply hd_tile1_compat.
  - rewrite bcompat_iff. unfold bcast_to. tauto. Qed.

Lemma bcast_test_iff c inputs kip kop :
  verify c inputs kip kop = true -> nonempty_batch inputs kip kop ->
  (bcast_test c inputs kip kop = true <->
   batch_bcast inputs kip kop /\ kip_doc_form c kip /\ inputs_doc_form c inputs).
Proof. intros V [Nx [Nk No]].
  assert (Lx : length inputs <> 0%nat) by (destruct inputs; [congruence|discriminate]).
  unfold bcast_test, inputs_doc_form, width. cbv zeta. rewrite out_batch_eq, !tile1_length, to3_length.
  replace (match kip with None => 1%nat | Some t => length (tile1 (p_units c) (to3 t)) end) with (kip_blen kip)
    by (destruct kip; cbn [kip_blen]; rewrite ?tile1_length, ?to3_length; reflexivity).
  rewrite !andb_true_iff, (kip_unit_axis c kip Nk), !hd_tile1_compat, !bcompat_iff.
  pose proof (kop_unit_axis c inputs kip kop V No) as Uo. unfold batch_bcast. split.
  - intros [[[[[Ha Hb] Hd] Hk] _] Hi]. split; [eexists; split; [exact Ha|split; [exact Hb|exact Hd]]|split; assumption].
  - intros [[B [Ha [Hb Hd]]] [Hk Hi]]. pose proof (bcast_to_max _ _ _ B Lx Nk No Ha Hb Hd) as HM. cbv zeta in HM. tauto. Qed.

(* For non-empty batch axes: the function returns a value exactly when the size
   check accepts and the shapes are the documented broadcastable ones. *)
Lemma T_pwl_fn_total_iff : forall sm sg c inputs kip kop, nonempty_batch inputs kip kop ->
  ((exists out, pwl_fn sm sg c inputs kip kop = Some out) <->
   (verify c inputs kip kop = true /\ batch_bcast inputs kip kop
    /\ kip_doc_form c kip /\ inputs_doc_form c inputs)).
Proof. intros sm sg c inputs kip kop Hne. rewrite pwl_fn_eq. destruct (verify c inputs kip kop) eqn:V; cbn [andb].
  - pose proof (bcast_test_iff c inputs kip kop V Hne) as T.
    destruct (bcast_test c inputs kip kop).
    + split. intros _. split; [reflexivity|]. apply T. reflexivity. intros _. eexists. reflexivity.
    + split. intros [out H]. discriminate. intros [_ H]. apply T in H. discriminate.
  - split. intros [out H]. discriminate. intros [H _]. discriminate. Qed.

(* shape of the result: (broadcast batch, units) *)
Lemma T_pwl_fn_shape : forall sm sg c inputs kip kop out, pwl_fn sm sg c inputs kip kop = Some out ->
  length out = Nat.max (length inputs) (Nat.max (kip_blen kip) (blen kop))
  /\ forall row, In row out -> length row = p_units c.
Proof. intros sm sg c inputs kip kop out H. rewrite pwl_fn_eq in H.
  destruct (verify c inputs kip kop && bcast_test c inputs kip kop); [|discriminate]. injection H as <-. split.
  - rewrite map_length, seq_length. apply out_batch_eq.
  - intros row Hr. apply in_map_iff in Hr. destruct Hr as [b [<- _]]. rewrite map_length, seq_length. reflexivity. Qed.

(* documented forms + documented size <=> a value *)
Lemma T_pwl_fn_total : forall sm sg c inputs kip kop,
  cfg_valid c -> kop_form_ok c kop -> kip_doc_form c kip -> inputs_doc_form c inputs ->
  nonempty_batch inputs kip kop -> batch_bcast inputs kip kop ->
  ((exists out, pwl_fn sm sg c inputs kip kop = Some out) <->
   (Z.of_nat (plast kop) = doc_output_size c (num_keypoints kip) /\ (0 < doc_output_size c (num_keypoints kip))%Z)).
Proof. intros sm sg c inputs kip kop Hc Hk Hki Hi Hne Hb.
  assert (Hi' : inputs_form_ok c inputs) by (destruct Hi as [Hi|Hi]; [left; lia|right; exact Hi]).
  rewrite (T_pwl_fn_total_iff sm sg c inputs kip kop Hne). rewrite <- (verify_sizes c inputs kip kop Hc Hk Hi'). tauto. Qed.

(* units = 2, batch 3: inputs (3,1), keypoint_input_parameters (1,1,1),
   keypoint_output_parameters (3,2,2); 'none' monotonicity, cyclic: 3 keypoints - 1 *)
Definition ex_total_c : pcfg := mkP 0 1 0 1 2 MonoNone false false true None None.
Definition ex_total_inputs : list (list Q) := [[0]; [1 # 2]; [1]].
Definition ex_total_kip : option ptens := Some (P3 [[[0]]]).
Definition ex_total_kop : ptens := P3 [[[0; 0]; [0; 0]]; [[0; 0]; [0; 0]]; [[0; 0]; [0; 0]]].
Lemma T_ex_total :
  cfg_valid ex_total_c /\ kop_form_ok ex_total_c ex_total_kop /\ kip_doc_form ex_total_c ex_total_kip
  /\ inputs_doc_form ex_total_c ex_total_inputs /\ nonempty_batch ex_total_inputs ex_total_kip ex_total_kop
  /\ batch_bcast ex_total_inputs ex_total_kip ex_total_kop
  /\ Z.of_nat (plast ex_total_kop) = doc_output_size ex_total_c (num_keypoints ex_total_kip)
  /\ rect_kip ex_total_kip /\ rect_kop ex_total_kop
  /\ exists out, pwl_fn ex_softmax (fun _ => 1 # 2) ex_total_c ex_total_inputs ex_total_kip ex_total_kop = Some out
       /\ length out = 3%nat.
Proof. split. { unfold cfg_valid; cbn. repeat split; try lra; auto; discriminate. }
  split. { reflexivity. } split. { left. reflexivity. } split. { left. reflexivity. }
  split. { repeat split; discriminate. }
  split. { exists 3%nat. cbv. auto. }
  split. { reflexivity. }
  split. { cbn. intros m [<-|[]]. split; [reflexivity|]. intros r [<-|[]]. reflexivity. }
  split. { cbn. intros m Hm. split.
    - destruct Hm as [<-|[<-|[<-|[]]]]; reflexivity.
    - intros r Hr. destruct Hm as [<-|[<-|[<-|[]]]]; destruct Hr as [<-|[<-|[]]]; reflexivity. }
  eexists. split; [vm_compute; reflexivity|reflexivity]. Qed.
