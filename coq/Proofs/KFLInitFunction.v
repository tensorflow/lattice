(* C10, KroneckerFactoredLattice at FUNCTION level: the layer's function
   (Model/KFL.v [MK.unit_out]: per-dimension linear interpolation of the kernel
   columns, product over dimensions, scale, mean over terms, bias -- the model of
   property C07, tied to KroneckerFactoredLattice.call by H_C07) evaluated on
   the FRESH parameters
     kernel = kfl_random_monotonic_initializer (KFLInit.kfl_init_col per column, C10's model),
     scale  = ScaleInitializer, bias = BiasInitializer
   is monotone in every monotone input and inside the output bounds, for every
   uniform draw inside the initialisation range -- NO constraint has been applied.

   Composition of
     kfl_init_feasible  (Proofs/PremadeInitKFL.v: the fresh parameters are in the
                         feasible set kfl_feasible, from pack_C10_kfl_init_kernel)
     kfl_state_monotone / kfl_state_bounded (Proofs/PremadeKFL.v: a feasible state is
                         monotone / bounded, from C07's units_monotone / units_bounded). *)
From TFL Require Import Model.PremadeKFL Proofs.PremadeKFL Proofs.PremadeInitKFL Model.KFLInit.
Open Scope Q_scope.

Lemma fresh_scale_length c dims units terms samples :
  length (MK.p_scale (premade_kfl_init c dims units terms samples)) = units.
Proof. cbn [premade_kfl_init MK.p_scale]. unfold MK.scale_init. apply repeat_length. Qed.
Lemma fresh_bias_length c dims units terms samples :
  length (MK.p_bias (premade_kfl_init c dims units terms samples)) = units.
Proof. cbn [premade_kfl_init MK.p_bias]. unfold MK.bias_init. apply repeat_length. Qed.

(* any initialisation range [imin, imax] with 0 <= imin, and imax <= 1 when a bound is configured *)
Theorem kfl_fresh_function_monotone c dims units terms imin imax samples ms u xs ys :
  PK.cfg_ok c dims -> 0 <= imin -> (MK.has_bounds c = true -> imax <= 1) ->
  kfl_samples_ok c dims units terms imin imax samples ->
  MK.canon_monos (MK.c_monos c) = Some ms -> PK.coords_le ms xs ys ->
  MK.c_clip c = true \/ (PK.in_range (MK.c_size c) xs /\ PK.in_range (MK.c_size c) ys) ->
  MK.unit_out c (premade_kfl_init c dims units terms samples) u xs <=
  MK.unit_out c (premade_kfl_init c dims units terms samples) u ys.
Proof. intros Hc H0 H1 Hs Em Hle Hr.
  exact (kfl_state_monotone c dims _ ms u xs ys Hc (kfl_init_feasible c dims units terms imin imax samples Hc H0 H1 Hs) Em Hle Hr). Qed.

Theorem kfl_fresh_function_bounded c dims units terms imin imax samples u xs :
  PK.cfg_ok c dims -> 0 <= imin -> (MK.has_bounds c = true -> imax <= 1) ->
  kfl_samples_ok c dims units terms imin imax samples ->
  (u < units)%nat -> length xs = dims -> MK.c_clip c = true \/ PK.in_range (MK.c_size c) xs ->
  (forall lo, MK.c_min c = Some lo -> lo <= MK.unit_out c (premade_kfl_init c dims units terms samples) u xs) /\
  (forall hi, MK.c_max c = Some hi -> MK.unit_out c (premade_kfl_init c dims units terms samples) u xs <= hi).
Proof. intros Hc H0 H1 Hs Hu Hl Hr.
  apply (kfl_state_bounded c dims _ u xs Hc (kfl_init_feasible c dims units terms imin imax samples Hc H0 H1 Hs)).
  - rewrite fresh_scale_length. exact Hu.
  - rewrite fresh_bias_length. exact Hu.
  - exact Hl.
  - exact Hr. Qed.

(* the layer's default: init range = kfl_lib.default_init_params(output_min, output_max) *)
Theorem kfl_fresh_function_default c dims units terms samples :
  PK.cfg_ok c dims ->
  kfl_samples_ok c dims units terms (fst (kfl_default_init_params (MK.c_min c) (MK.c_max c)))
                 (snd (kfl_default_init_params (MK.c_min c) (MK.c_max c))) samples ->
  let p := premade_kfl_init c dims units terms samples in
  (forall ms u xs ys, MK.canon_monos (MK.c_monos c) = Some ms -> PK.coords_le ms xs ys ->
     MK.c_clip c = true \/ (PK.in_range (MK.c_size c) xs /\ PK.in_range (MK.c_size c) ys) ->
     MK.unit_out c p u xs <= MK.unit_out c p u ys) /\
  (forall u xs, (u < units)%nat -> length xs = dims -> MK.c_clip c = true \/ PK.in_range (MK.c_size c) xs ->
     (forall lo, MK.c_min c = Some lo -> lo <= MK.unit_out c p u xs) /\
     (forall hi, MK.c_max c = Some hi -> MK.unit_out c p u xs <= hi)).
Proof. intros Hc Hs p. destruct (kfl_default_range_ok c) as [H0 H1]. split.
  - intros ms u xs ys. exact (kfl_fresh_function_monotone c dims units terms _ _ samples ms u xs ys Hc H0 H1 Hs).
  - intros u xs. exact (kfl_fresh_function_bounded c dims units terms _ _ samples u xs Hc H0 H1 Hs). Qed.

(* The two models of the scale / bias initialisers agree:
   KFLInit.kfl_scale_init / kfl_bias_init are what H_C10.check compares with the
   layer's fresh scale and bias; MK.scale_init / MK.bias_init are what the
   function-level theorems above use.  They differ by Qred only. *)
Lemma term_sign_even t : kfl_term_sign t = (if Nat.even t then 1 else -1).
Proof. reflexivity. Qed.

Lemma Forall2_repeat {A B} (R : A -> B -> Prop) a b n : R a b -> Forall2 R (repeat a n) (repeat b n).
Proof. intros H. induction n; cbn [repeat]; constructor; assumption. Qed.

Lemma scale_models_agree c units terms :
  Forall2 (Forall2 Qeq) (kfl_scale_init units terms (MK.c_min c) (MK.c_max c)) (MK.scale_init c units terms).
Proof. unfold kfl_scale_init, MK.scale_init, MK.scale_init1. cbv zeta. apply Forall2_repeat.
  destruct (MK.c_min c) as [a|], (MK.c_max c) as [b|].
  - apply Forall2_map_seq. intros t _. rewrite Qred_correct, term_sign_even. reflexivity.
  - apply Forall2_repeat_map_seq. intros t _. reflexivity.
  - apply Forall2_repeat_map_seq. intros t _. reflexivity.
  - apply Forall2_map_seq. intros t _. rewrite term_sign_even. reflexivity. Qed.

Lemma bias_models_agree c units :
  Forall2 Qeq (kfl_bias_init units (MK.c_min c) (MK.c_max c)) (MK.bias_init c units).
Proof. unfold kfl_bias_init, MK.bias_init, MK.bias_init1. apply Forall2_repeat.
  destruct (MK.c_min c), (MK.c_max c); try rewrite Qred_correct; reflexivity. Qed.

(* satisfiable: PremadeInitKFL.ex_kfl's configuration (size 2, one monotone
   input, bounds [-1, 1], one unit, two terms with scales +1 / -1, the unsorted
   draw [3/4; 1/4] for both terms) *)
Definition exf_samples : nat -> nat -> nat -> list Q := fun _ _ _ => [3#4; 1#4].
Example exf_hypotheses :
  PK.cfg_ok lk_cfg 1 /\
  kfl_samples_ok lk_cfg 1 1 2 (fst (kfl_default_init_params (MK.c_min lk_cfg) (MK.c_max lk_cfg)))
                 (snd (kfl_default_init_params (MK.c_min lk_cfg) (MK.c_max lk_cfg))) exf_samples /\
  MK.canon_monos (MK.c_monos lk_cfg) = Some [true] /\ PK.coords_le [true] [0] [1] /\
  PK.in_range (MK.c_size lk_cfg) [0] /\ PK.in_range (MK.c_size lk_cfg) [1].
Proof. split. exact lk_cfg_ok. split.
  - intros u t d _ _ _. split. reflexivity. intros x Hx. cbn in Hx |- *. destruct Hx as [<-|[<-|[]]]; lra.
  - split. reflexivity. split. cbn. split; [lra|exact I].
    split; apply PK.in_range2_one; lra. Qed.
Example exf_values :
  MK.unit_out lk_cfg (premade_kfl_init lk_cfg 1 1 2 exf_samples) 0 [0] == -(1#4) /\
  MK.unit_out lk_cfg (premade_kfl_init lk_cfg 1 1 2 exf_samples) 0 [1] == 1#4.
Proof. split; vm_compute; reflexivity. Qed.
