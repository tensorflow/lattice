(* Lemmas about Model/Ensembles.v.  The first phase of the random ensemble and
   the Crystals placement keep one invariant, [placed]; the all-pairs cover is
   a fold of steps each of which [extends] the lattices by one covered pair. *)
From Coq Require Import Permutation Qround Qpower.
From TFL Require Import Base.Lists Model.Ensembles Proofs.RTLStructure.
Open Scope nat_scope.

Lemma memb_true x l : memb x l = true <-> In x l.
Proof. exact (mem_nat_true x l). Qed.
Lemma memb_false x l : memb x l = false <-> ~ In x l.
Proof. exact (mem_nat_false x l). Qed.

(* every row of [ls] is contained in some row of [ls'] *)
Definition grows (ls ls' : list (list nat)) : Prop := forall l, In l ls -> exists l', In l' ls' /\ incl l l'.
Lemma grows_refl ls : grows ls ls.
Proof. intros l H; exists l; split; [exact H|apply incl_refl]. Qed.
Lemma grows_trans a b c : grows a b -> grows b c -> grows a c.
Proof. intros H1 H2 l Hl. destruct (H1 l Hl) as [l1 [I1 S1]]. destruct (H2 l1 I1) as [l2 [I2 S2]].
  exists l2; split; [exact I2|]. eapply incl_tran; eassumption. Qed.
Lemma grows_cons l l' r r' : incl l l' -> grows r r' -> grows (l :: r) (l' :: r').
Proof. intros H1 H2 y [<-|Hy]. exists l'; split; [left; reflexivity|exact H1].
  destruct (H2 y Hy) as [y' [I S]]. exists y'; split; [right; exact I|exact S]. Qed.

Lemma countp_true {A} (l : list A) : countp (fun _ => true) l = length l.
Proof. induction l as [|x l IH]; [reflexivity|]. rewrite countp_cons, IH. reflexivity. Qed.

Lemma concat_repeat_nil {A} n : concat (repeat (@nil A) n) = [].
Proof. induction n; cbn; auto. Qed.

(* rows of length <= rank: a short total forces a non-full row; a full total
   forces every row to be full *)
Lemma concat_length_le {A} rank (ls : list (list A)) : Forall (fun l => length l <= rank) ls ->
  length (concat ls) <= length ls * rank.
Proof. induction 1; cbn [concat length Nat.mul]. lia. rewrite app_length. lia. Qed.
Lemma pigeonhole {A} rank (ls : list (list A)) : Forall (fun l => length l <= rank) ls ->
  length (concat ls) < length ls * rank -> exists c, c < length ls /\ length (nth c ls []) < rank.
Proof. induction 1 as [|l ls Hl HF IH]; cbn [concat length Nat.mul]. lia. rewrite app_length. intros H.
  destruct (Nat.lt_ge_cases (length l) rank) as [Hlt|Hge].
  - exists 0. cbn. split; [lia|exact Hlt].
  - destruct IH as [c [Hc1 Hc2]]. lia. exists (S c). cbn. split; [lia|exact Hc2]. Qed.
Lemma all_full {A} rank (ls : list (list A)) : Forall (fun l => length l <= rank) ls ->
  length (concat ls) = length ls * rank -> Forall (fun l => length l = rank) ls.
Proof. induction 1 as [|l ls Hl HF IH]; cbn [concat length Nat.mul]. constructor. rewrite app_length. intros H.
  pose proof (concat_length_le rank ls HF). constructor. lia. apply IH. lia. Qed.

(* features placed one at a time into rows of capacity [rank]: every row is
   within capacity and the rows together hold exactly the features placed so
   far.  Both the first phase of the random ensemble and the Crystals
   placement keep this. *)
Definition placed (rank : nat) (done : list nat) (lats : list (list nat)) : Prop :=
  Forall (fun l => length l <= rank) lats /\ forall p, countp p (concat lats) = countp p done.

Lemma placed_init rank num : placed rank [] (repeat [] num).
Proof. split; [|intros p; rewrite concat_repeat_nil; reflexivity].
  apply Forall_forall. intros l Hl. apply repeat_spec in Hl. subst. apply Nat.le_0_l. Qed.

Lemma placed_length {rank done lats} : placed rank done lats -> length (concat lats) = length done.
Proof. intros [_ H]. rewrite <- !countp_true. apply H. Qed.

Lemma placed_add rank done lats c f : c < length lats -> length (nth c lats []) < rank ->
  placed rank done lats -> placed rank (done ++ [f]) (set_at c (nth c lats [] ++ [f]) lats).
Proof. intros Hc Hr [HF HC]. split.
  - apply Forall_forall. intros l Hl. apply in_set_at in Hl. destruct Hl as [->|Hl]; [rewrite app_length; cbn; lia|].
    rewrite Forall_forall in HF. apply HF; exact Hl.
  - intros p. pose proof (csum_set_at p c (nth c lats [] ++ [f]) lats Hc) as E.
    rewrite !countp_app in *. rewrite <- HC. lia. Qed.

Lemma counted_in (ls : list (list nat)) done f : (forall p, countp p (concat ls) = countp p done) ->
  In f done -> exists l, In l ls /\ In f l.
Proof. intros HC Hf.
  assert (Hp : 0 < countp (Nat.eqb f) (concat ls)) by (rewrite HC; eapply countp_in_pos; [exact Hf|apply Nat.eqb_refl]).
  destruct (countp_pos_in _ _ Hp) as [x [Hx Ex]]. apply Nat.eqb_eq in Ex. subst x.
  apply in_concat in Hx. destruct Hx as [l [Hl Hfl]]. eauto. Qed.

(* distinct features: no row repeats one, and rows hold placed features only *)
Lemma placed_nodup rank done lats l : placed rank done lats -> NoDup done -> In l lats -> NoDup l /\ incl l done.
Proof. intros [_ HC] Nd Hl. destruct (in_split _ _ Hl) as [l1 [l2 ->]].
  assert (Hle : forall p, countp p l <= countp p done)
    by (intros p; rewrite <- HC, concat_app; cbn [concat]; rewrite !countp_app; lia).
  split.
  - apply (NoDup_count_occ Nat.eq_dec). intros x. rewrite <- countp_count_occ. etransitivity; [apply Hle|].
    rewrite countp_count_occ. apply (NoDup_count_occ Nat.eq_dec); exact Nd.
  - intros x Hx. pose proof (countp_in_pos (Nat.eqb x) l x Hx (Nat.eqb_refl x)) as Hp.
    destruct (countp_pos_in (Nat.eqb x) done) as [y [Hy E]]; [specialize (Hle (Nat.eqb x)); lia|].
    apply Nat.eqb_eq in E. subst; exact Hy. Qed.

Section RandomProofs.
Variable ch1 : nat -> list nat -> nat.
Variable ch2 : nat -> list nat -> nat -> list nat.
Hypothesis ch1_in : forall f nf, nf <> [] -> In (ch1 f nf) nf.
Hypothesis ch2_ok : forall k av sz, NoDup av -> sz <= length av ->
  length (ch2 k av sz) = sz /\ NoDup (ch2 k av sz) /\ incl (ch2 k av sz) av.
Variable rank : nat.

Definition row1 (done : list nat) (l : list nat) : Prop := length l <= rank /\ NoDup l /\ incl l done.

Lemma non_full_in c lats : In c (non_full rank lats) <-> c < length lats /\ length (nth c lats []) < rank.
Proof. unfold non_full. rewrite filter_In, in_seq, Nat.ltb_lt. lia. Qed.

(* np.random.choice picks a lattice that still has room *)
Lemma choice_non_full f lats c0 nf0 : non_full rank lats = c0 :: nf0 ->
  ch1 f (c0 :: nf0) < length lats /\ length (nth (ch1 f (c0 :: nf0)) lats []) < rank.
Proof. intros E. apply non_full_in. rewrite E. apply ch1_in. discriminate. Qed.

(* the first phase keeps the placement, and raises only when there are more
   features than slots *)
Lemma phase1_placed feats : forall done lats, placed rank done lats ->
  match rnd_phase1 ch1 rank feats lats with
  | Some lats' => placed rank (done ++ feats) lats' /\ length lats' = length lats
  | None => length lats * rank < length done + length feats
  end.
Proof.
  induction feats as [|f r IH]; intros done lats HP; cbn [rnd_phase1].
  - rewrite app_nil_r. auto.
  - destruct (non_full rank lats) as [|c0 nf0] eqn:Enf.
    + (* no lattice has room, so the placed features fill them all *)
      destruct (Nat.lt_ge_cases (length done) (length lats * rank)) as [Hlt|Hge]; [exfalso|cbn [length]; lia].
      destruct (pigeonhole rank lats (proj1 HP)) as [c Hc]; [rewrite (placed_length HP); exact Hlt|].
      apply non_full_in in Hc. rewrite Enf in Hc. destruct Hc.
    + destruct (choice_non_full f lats c0 nf0 Enf) as [Hc1 Hc2]. cbv zeta.
      specialize (IH (done ++ [f]) _ (placed_add rank done lats _ f Hc1 Hc2 HP)).
      rewrite set_at_length, <- app_assoc, app_length in IH. cbn [app length] in *.
      destruct (rnd_phase1 ch1 rank r _); [exact IH|lia].
Qed.

Lemma placed_rows done lats : placed rank done lats -> NoDup done -> Forall (row1 done) lats.
Proof. intros HP Nd. apply Forall_forall. intros l Hl. destruct (placed_nodup rank done lats l HP Nd Hl).
  destruct HP as [HF _]. rewrite Forall_forall in HF. split; [apply HF; exact Hl|split; assumption]. Qed.

Definition row2 (feats : list nat) (l : list nat) : Prop := length l = rank /\ NoDup l /\ incl l feats.

Lemma filter_not_in_length (feats l : list nat) : NoDup l -> NoDup feats -> incl l feats ->
  length (filter (fun f => negb (memb f l)) feats) + length l = length feats.
Proof.
  intros Nl Nf Hi.
  assert (P : Permutation (filter (fun f => memb f l) feats) l).
  { apply NoDup_Permutation; [apply NoDup_filter; exact Nf|exact Nl|]. intros x. rewrite filter_In, memb_true.
    split; [tauto|]. intros H; split; [apply Hi; exact H|exact H]. }
  rewrite <- (Permutation_length P). clear. induction feats as [|x feats IH]; [reflexivity|].
  cbn [filter]. destruct (memb x l); cbn [negb length]; lia.
Qed.

(* the second phase fills every lattice to rank with new distinct features,
   and raises only when there are fewer features than rank *)
Lemma phase2_spec feats : NoDup feats -> forall lats k, Forall (row1 feats) lats ->
  match rnd_phase2 ch2 rank feats k lats with
  | Some lats' => length lats' = length lats /\ Forall (row2 feats) lats' /\ grows lats lats'
  | None => length feats < rank
  end.
Proof.
  intros Nf. induction lats as [|l r IH]; intros k HR; cbn [rnd_phase2].
  - split; [reflexivity|]. split; [constructor|apply grows_refl].
  - inversion HR as [|? ? [O1 [O2 O3]] HR']; subst. pose proof (filter_not_in_length feats l O2 Nf O3).
    destruct (Nat.ltb_spec (length (filter (fun f => negb (memb f l)) feats)) (rank - length l)) as [Hlt|Hge]; [lia|].
    specialize (IH (S k) HR'). destruct (rnd_phase2 ch2 rank feats (S k) r) as [r'|]; [|exact IH].
    destruct IH as [L [R G]].
    destruct (ch2_ok k (filter (fun f => negb (memb f l)) feats) (rank - length l) (NoDup_filter _ Nf) Hge) as [C1 [C2 C3]].
    split; [cbn; lia|]. split.
    + constructor; [|exact R]. split; [|split].
      * rewrite app_length, C1. lia.
      * apply nodup_app; auto. intros x Hx Hx'. apply C3 in Hx'. apply filter_In in Hx'.
        destruct Hx' as [_ Hm]. apply negb_true_iff, memb_false in Hm. auto.
      * apply incl_app; [exact O3|]. intros x Hx. apply C3, filter_In in Hx. tauto.
    + apply grows_cons; [apply incl_appl, incl_refl|exact G].
Qed.

Lemma random_ensemble_ok n num lats : random_ensemble ch1 ch2 n num rank = Some lats ->
  length lats = num /\ Forall (row2 (seq 0 n)) lats /\
  forall f, f < n -> exists l, In l lats /\ In f l.
Proof.
  unfold random_ensemble. pose proof (phase1_placed (seq 0 n) [] (repeat [] num) (placed_init rank num)) as P1.
  destruct (rnd_phase1 ch1 rank (seq 0 n) (repeat [] num)) as [l1|]; [|discriminate]. cbn [app] in P1. destruct P1 as [P1 L1].
  intros E2. pose proof (phase2_spec (seq 0 n) (seq_NoDup n 0) l1 0 (placed_rows _ _ P1 (seq_NoDup n 0))) as P2.
  rewrite E2 in P2. destruct P2 as [L2 [R2 G]].
  split; [rewrite L2, L1, repeat_length; reflexivity|]. split; [exact R2|].
  intros f Hf. destruct (counted_in l1 (seq 0 n) f (proj2 P1)) as [l [Hl Hfl]]; [apply in_seq; lia|].
  destruct (G l Hl) as [l' [I S]]. eauto.
Qed.

Lemma random_rank_closed n num lats : random_ensemble ch1 ch2 n num rank = Some lats ->
  length lats = num /\ forall l, In l lats -> length l = rank.
Proof. intros E. destruct (random_ensemble_ok n num lats E) as [L [R _]]. split; [exact L|].
  intros l Hl. rewrite Forall_forall in R. apply (R l Hl). Qed.

Lemma random_no_repeat_closed n num lats : random_ensemble ch1 ch2 n num rank = Some lats ->
  forall l, In l lats -> NoDup l /\ forall f, In f l -> f < n.
Proof. intros E l Hl. destruct (random_ensemble_ok n num lats E) as [_ [R _]].
  rewrite Forall_forall in R. destruct (R l Hl) as [_ [N I]]. split; [exact N|].
  intros f Hf. apply I, in_seq in Hf. lia. Qed.

Lemma random_coverage_closed n num lats : random_ensemble ch1 ch2 n num rank = Some lats ->
  forall f, f < n -> exists l, In l lats /\ In f l.
Proof. intros E. exact (proj2 (proj2 (random_ensemble_ok n num lats E))). Qed.

Lemma random_total_closed n num : n <= num * rank -> rank <= n ->
  exists lats, random_ensemble ch1 ch2 n num rank = Some lats.
Proof.
  intros H1 H2. unfold random_ensemble.
  pose proof (phase1_placed (seq 0 n) [] (repeat [] num) (placed_init rank num)) as P1.
  cbn [app length] in P1. rewrite seq_length, repeat_length in P1.
  destruct (rnd_phase1 ch1 rank (seq 0 n) (repeat [] num)) as [l1|]; [|lia]. destruct P1 as [P1 _].
  pose proof (phase2_spec (seq 0 n) (seq_NoDup n 0) l1 0 (placed_rows _ _ P1 (seq_NoDup n 0))) as P2.
  rewrite seq_length in P2. destruct (rnd_phase2 ch2 rank (seq 0 n) 0 l1) as [lats|]; [eauto|lia].
Qed.
End RandomProofs.

Definition covered (ls : list (list nat)) (i j : nat) : Prop := exists l, In l ls /\ In i l /\ In j l.

Lemma covered_grows ls ls' i j : grows ls ls' -> covered ls i j -> covered ls' i j.
Proof. intros G [l [Hl [Hi Hj]]]. destruct (G l Hl) as [l' [I S]]. exists l'. auto. Qed.

Lemma set_add_in x l : In x (set_add x l).
Proof. unfold set_add. destruct (memb x l) eqn:M. apply memb_true; exact M. apply in_app_iff; right; left; reflexivity. Qed.
Lemma set_add_incl x l : incl l (set_add x l).
Proof. unfold set_add. destruct (memb x l). apply incl_refl. apply incl_appl, incl_refl. Qed.
Lemma set_add_length x l : length (set_add x l) <= S (length l).
Proof. unfold set_add. destruct (memb x l). lia. rewrite app_length; cbn; lia. Qed.
Lemma set_add_nodup x l : NoDup l -> NoDup (set_add x l).
Proof. unfold set_add. destruct (memb x l) eqn:M; intros H. exact H.
  apply memb_false in M. apply nodup_app; [exact H|constructor; [intros []|constructor]|].
  intros y Hy [<-|[]]. contradiction. Qed.
Lemma set_add_bound x l n : x < n -> (forall y, In y l -> y < n) -> forall y, In y (set_add x l) -> y < n.
Proof. unfold set_add. destruct (memb x l); intros Hx H y Hy; auto. apply in_app_iff in Hy.
  destruct Hy as [Hy|[<-|[]]]; auto. Qed.

Lemma pairs_in a b n : a < b -> b < n -> In (a, b) (pairs n).
Proof. intros H1 H2. unfold pairs. apply in_flat_map. exists a. split. apply in_seq; lia.
  apply in_map. apply in_seq. lia. Qed.

Definition pair_perm_oracle (sh : list (nat * nat) -> list (nat * nat)) : Prop := forall l, Permutation l (sh l).

Section CoverProofs.
Variable rank : nat.

(* a cover lattice: within rank, duplicate-free, features below n *)
Definition crow (n : nat) (l : list nat) : Prop := length l <= rank /\ NoDup l /\ forall y, In y l -> y < n.

Lemma crow_add n x l : x < n -> length l < rank -> crow n l -> crow n (set_add x l).
Proof. intros Hx Hl [O1 [O2 O3]]. pose proof (set_add_length x l).
  split; [lia|]. split; [apply set_add_nodup; exact O2|apply set_add_bound; assumption]. Qed.

(* one step for the pair (i, j): afterwards i and j share a lattice, no
   lattice has lost a feature, and the lattices are still cover lattices *)
Definition extends (i j : nat) (ls ls' : list (list nat)) : Prop :=
  covered ls' i j /\ grows ls ls' /\
  forall n, 2 <= rank -> i < n -> j < n -> Forall (crow n) ls -> Forall (crow n) ls'.

Lemma extends_skip i j l r r' : extends i j r r' -> extends i j (l :: r) (l :: r').
Proof. intros [[l' [I S]] [G R]]. split; [|split].
  - exists l'; split; [right; exact I|exact S].
  - apply grows_cons; [apply incl_refl|exact G].
  - intros n Hr Hi Hj HF. inversion HF; subst. constructor; [assumption|apply (R n); assumption]. Qed.

Lemma extends_here i j l l' r : In i l' -> In j l' -> incl l l' ->
  (forall n, i < n -> j < n -> crow n l -> crow n l') -> extends i j (l :: r) (l' :: r).
Proof. intros Hi Hj Hs Hc. split; [|split].
  - exists l'. split; [left; reflexivity|split; assumption].
  - apply grows_cons; [exact Hs|apply grows_refl].
  - intros n _ Hin Hjn HF. inversion HF; subst. constructor; [apply Hc|]; assumption. Qed.

Lemma cover_second_ok i j ls ls' : cover_second rank i j ls = Some ls' -> extends i j ls ls'.
Proof. revert ls'; induction ls as [|l r IH]; intros ls' E; cbn [cover_second] in E; [discriminate|].
  destruct ((length l <? rank) && memb i l) eqn:C1; [|destruct ((length l <? rank) && memb j l) eqn:C2].
  - inversion E; subst. apply andb_true_iff in C1. destruct C1 as [L M]. apply Nat.ltb_lt in L. apply memb_true in M.
    apply extends_here; [apply set_add_incl; exact M|apply set_add_in|apply set_add_incl|].
    intros n _ Hj Hc. apply crow_add; assumption.
  - inversion E; subst. apply andb_true_iff in C2. destruct C2 as [L M]. apply Nat.ltb_lt in L. apply memb_true in M.
    apply extends_here; [apply set_add_in|apply set_add_incl; exact M|apply set_add_incl|].
    intros n Hi _ Hc. apply crow_add; assumption.
  - destruct (cover_second rank i j r) as [r'|]; [|discriminate]. inversion E; subst. apply extends_skip, IH. reflexivity. Qed.

Lemma cover_third_ok i j ls ls' : cover_third rank i j ls = Some ls' -> extends i j ls ls'.
Proof. revert ls'; induction ls as [|l r IH]; intros ls' E; cbn [cover_third] in E; [discriminate|].
  destruct (Nat.ltb_spec (length l) (rank - 1)).
  - inversion E; subst.
    apply extends_here; [apply set_add_incl, set_add_in|apply set_add_in|eapply incl_tran; apply set_add_incl|].
    intros n Hi Hj Hc. pose proof (set_add_length i l). apply crow_add; [exact Hj|lia|apply crow_add; [exact Hi|lia|exact Hc]].
  - destruct (cover_third rank i j r) as [r'|]; [|discriminate]. inversion E; subst. apply extends_skip, IH. reflexivity. Qed.

Lemma add_pair_ok ls i j : extends i j ls (add_pair rank ls (i, j)).
Proof. unfold add_pair.
  destruct (existsb (fun l => memb i l && memb j l) ls) eqn:E.
  - split; [|split; [apply grows_refl|auto]]. apply existsb_exists in E. destruct E as [l [Hl M]].
    apply andb_true_iff in M. destruct M as [M1 M2]. apply memb_true in M1, M2. exists l; auto.
  - destruct (cover_second rank i j ls) as [ls'|] eqn:E2; [apply cover_second_ok; exact E2|].
    destruct (cover_third rank i j ls) as [ls'|] eqn:E3; [apply cover_third_ok; exact E3|].
    split; [|split].
    + exists (set_add j (set_add i [])). split; [apply in_app_iff; right; left; reflexivity|].
      split; [apply set_add_incl, set_add_in|apply set_add_in].
    + intros l Hl. exists l. split; [apply in_app_iff; left; exact Hl|apply incl_refl].
    + intros n Hr Hi Hj HF. apply Forall_app. split; [exact HF|]. constructor; [|constructor].
      pose proof (set_add_length i []). cbn [length] in *.
      apply crow_add; [exact Hj|lia|apply crow_add; [exact Hi|cbn; lia|]].
      split; [cbn; lia|split; [constructor|intros ? []]]. Qed.

Lemma fold_cover ps : forall ls, grows ls (fold_left (add_pair rank) ps ls) /\
  (forall i j, In (i, j) ps -> covered (fold_left (add_pair rank) ps ls) i j) /\
  (forall n, 2 <= rank -> (forall i j, In (i, j) ps -> i < n /\ j < n) ->
     Forall (crow n) ls -> Forall (crow n) (fold_left (add_pair rank) ps ls)).
Proof. induction ps as [|[a b] ps IH]; intros ls; cbn [fold_left]. split; [apply grows_refl|split; [intros ? ? []|auto]].
  destruct (IH (add_pair rank ls (a, b))) as [G [C R]]. destruct (add_pair_ok ls a b) as [Cab [Gab Rab]]. split; [|split].
  - eapply grows_trans; eassumption.
  - intros i j [E|H]. inversion E; subst. eapply covered_grows; eassumption. apply C; exact H.
  - intros n Hr Hp HF. destruct (Hp a b (or_introl eq_refl)).
    apply (R n Hr); [intros; apply Hp; right; assumption|apply (Rab n); assumption]. Qed.
End CoverProofs.

Lemma cover_all_pairs_closed : forall sh, pair_perm_oracle sh ->
  forall n rank i j, i < j -> j < n ->
  exists l, In l (pairs_cover sh n rank) /\ In i l /\ In j l.
Proof. intros sh P n rank i j H1 H2. unfold pairs_cover. apply (proj1 (proj2 (fold_cover rank (sh (pairs n)) []))).
  apply (Permutation_in _ (P _)). apply pairs_in; assumption. Qed.

(* with at least two features every feature is in some cover lattice *)
Lemma cover_rows_closed : forall sh, pair_perm_oracle sh ->
  forall n rank, 2 <= rank ->
  (forall l, In l (pairs_cover sh n rank) -> length l <= rank /\ NoDup l /\ forall f, In f l -> f < n) /\
  (2 <= n -> forall f, f < n -> exists l, In l (pairs_cover sh n rank) /\ In f l).
Proof. intros sh P n rank Hr. split.
  - apply Forall_forall. unfold pairs_cover. apply (fold_cover rank); [exact Hr| |constructor].
    intros i j H. apply (Permutation_in _ (Permutation_sym (P _))) in H. apply in_pairs in H. lia.
  - intros Hn f Hf. destruct (Nat.eq_dec f 0) as [->|N].
    + destruct (cover_all_pairs_closed sh P n rank 0 1) as [l [H1 [H2 _]]]; try lia. eauto.
    + destruct (cover_all_pairs_closed sh P n rank 0 f) as [l [H1 [_ H2]]]; try lia. eauto. Qed.

Definition choice1_oracle (ch1 : nat -> list nat -> nat) : Prop :=
  forall f nf, nf <> [] -> In (ch1 f nf) nf.
(* np.random.choice(a, size, replace=False) on a list of distinct items *)
Definition choice2_oracle (ch2 : nat -> list nat -> nat -> list nat) : Prop :=
  forall k av sz, NoDup av -> sz <= length av ->
  length (ch2 k av sz) = sz /\ NoDup (ch2 k av sz) /\ incl (ch2 k av sz) av.

Lemma nodup_firstn {A} k (l : list A) : NoDup l -> NoDup (firstn k l).
Proof. revert k; induction l as [|x l IH]; intros [|k] H; cbn; try constructor.
  inversion H; subst. intros Hx. apply in_firstn in Hx. contradiction. inversion H; auto. Qed.
Lemma choice_oracles_example :
  choice1_oracle (fun _ nf => hd 0 nf) /\ choice2_oracle (fun _ av sz => firstn sz av).
Proof. split.
  - intros f [|x nf] H; [congruence|left; reflexivity].
  - intros k av sz N H. split; [apply firstn_length_le; exact H|]. split.
    apply nodup_firstn; exact N. intros x Hx. eapply in_firstn; exact Hx. Qed.

Open Scope Q_scope.
(* the running maximum over the scores sc k, .., sc (k + m - 1): the result is
   (sc b, b) for an index b that maximises sc below k + m *)
Lemma argmax_scan_spec (sc : nat -> Q) m : forall k best,
  fst best = sc (snd best) -> (snd best < k)%nat -> (forall c, (c < k)%nat -> sc c <= fst best) ->
  let res := argmax_scan (map sc (seq k m)) k best in
  fst res = sc (snd res) /\ (snd res < k + m)%nat /\ forall c, (c < k + m)%nat -> sc c <= fst res.
Proof.
  induction m as [|m IH]; intros k best Hb Hk Hmax; cbn [seq map argmax_scan]; cbv zeta.
  - rewrite Nat.add_0_r. auto.
  - rewrite <- Nat.add_succ_comm. apply IH.
    + destruct (Qle_bool (fst best) (sc k)); [reflexivity|exact Hb].
    + destruct (Qle_bool (fst best) (sc k)); cbn [snd]; lia.
    + intros c Hc. destruct (Nat.eq_dec c k) as [->|Hne], (Qle_bool (fst best) (sc k)) eqn:E; cbn [fst].
      * apply Qle_refl.
      * apply (qle_false (fst best) (sc k)) in E. lra.
      * apply (qle_true (fst best) (sc k)) in E. pose proof (Hmax c ltac:(lia)). lra.
      * apply Hmax. lia.
Qed.

Lemma best_candidate_spec (sc : nat -> Q) num b : best_candidate (map sc (seq 0 num)) = Some b ->
  (b < num)%nat /\ forall cand, (cand < num)%nat -> sc cand <= sc b.
Proof.
  destruct num as [|m]; cbn [seq map best_candidate]; [discriminate|]. intros E. inversion E as [Eb]; clear E.
  destruct (argmax_scan_spec sc m 1 (sc 0%nat, 0%nat) eq_refl (le_n 1)) as [H1 [H2 H3]].
  - intros c Hc. replace c with 0%nat by lia. apply Qle_refl.
  - rewrite Eb in *. rewrite <- H1. split; [exact H2|exact H3].
Qed.

Lemma half_pow_nonneg z : 0 <= half_pow z.
Proof. unfold half_pow. rewrite Qred_correct. apply Qpower_0_le. lra. Qed.
Lemma zmax_fold_ge l : forall acc x, (In x l \/ x = acc) -> (x <= fold_left Z.max l acc)%Z.
Proof. induction l as [|y l IH]; intros acc x H; cbn [fold_left].
  - destruct H as [[]|H]; lia.
  - assert (Hm : (Z.max acc y <= fold_left Z.max l (Z.max acc y))%Z) by (apply IH; right; reflexivity).
    destruct H as [[H|H]|H]. subst; lia. apply IH; left; exact H. subst; lia. Qed.
Lemma zmax_list_ge l x : In x l -> (x <= zmax_list l)%Z.
Proof. destruct l as [|y l]; cbn; [tauto|]. intros [->|H]; apply zmax_fold_ge; auto. Qed.

Lemma add_list_in n uses f : (f < n)%nat -> (1 <= nth f uses 0%Z)%Z -> In f (add_list n uses).
Proof. intros Hf Hu. unfold add_list. apply in_flat_map. exists 1%nat.
  assert (Hlen : (f < length uses)%nat).
  { destruct (Nat.lt_ge_cases f (length uses)); [assumption|]. rewrite nth_overflow in Hu by assumption. lia. }
  pose proof (zmax_list_ge uses (nth f uses 0%Z) (nth_In _ _ Hlen)).
  split. apply in_seq. lia. apply filter_In. split. apply in_seq; lia. apply Z.leb_le. exact Hu. Qed.

Lemma tget_nonneg T i j : Forall (Forall (fun x => 0 <= x)) T -> 0 <= tget T i j.
Proof. intros HT. unfold tget. destruct (Nat.lt_ge_cases i (length T)) as [Hi|Hi].
  - assert (HR : Forall (fun x => 0 <= x) (nth i T [])) by (rewrite Forall_forall in HT; apply HT, nth_In, Hi).
    destruct (Nat.lt_ge_cases j (length (nth i T []))) as [Hj|Hj].
    rewrite Forall_forall in HR. apply HR, nth_In, Hj. rewrite nth_overflow by exact Hj. lra.
  - rewrite (nth_overflow T) by exact Hi. destruct j; cbn; lra. Qed.

Section CrystalProofs.
Variable c : crystal_cfg.
Hypothesis T_nonneg : Forall (Forall (fun x => 0 <= x)) (k_T c).
Let rank := k_rank c.
Let num := k_num c.

Lemma mean_T_nonneg : 0 <= mean_T (k_n c) (k_T c).
Proof. unfold mean_T. apply qdiv_nonneg; [|apply qofnat_nonneg].
  apply qsum_map_nonneg. intros row Hrow. apply qsum_Forall_nonneg.
  pose proof T_nonneg as HT. rewrite Forall_forall in HT. exact (HT row Hrow). Qed.

Lemma addition_score_full lats C f cand : (rank <= length (nth cand lats []))%nat ->
  addition_score c lats C f cand = -(2).
Proof. intros H. unfold addition_score. fold rank. apply Nat.leb_le in H. rewrite H. reflexivity. Qed.
Lemma addition_score_open lats C f cand : (length (nth cand lats []) < rank)%nat ->
  -(1) <= addition_score c lats C f cand.
Proof. intros H. unfold addition_score. fold rank. apply Nat.leb_gt in H. rewrite H.
  destruct (memb f (nth cand lats [])). lra.
  destruct (nth cand lats []) as [|o l].
  - rewrite Qred_correct. apply (Qle_trans _ 0); [lra|]. apply qdiv_nonneg; [|lra].
    apply Qmult_le_0_compat; [apply mean_T_nonneg|apply qofnat_nonneg].
  - rewrite Qred_correct. apply (Qle_trans _ 0); [lra|]. apply qsum_map_nonneg. intros o' _.
    apply Qmult_le_0_compat; [apply tget_nonneg, T_nonneg|apply half_pow_nonneg]. Qed.

Definition pl_inv (processed : list nat) (lats : list (list nat)) : Prop :=
  length lats = num /\ placed rank processed lats.

Lemma pl_inv_init : pl_inv [] (repeat [] num).
Proof. split; [apply repeat_length|apply placed_init]. Qed.

Lemma place_step processed lats C f : pl_inv processed lats -> (length processed < num * rank)%nat ->
  exists lats' C', place_one c (Some (lats, C)) f = Some (lats', C') /\ pl_inv (processed ++ [f]) lats'.
Proof.
  intros [HL HP] Hlt.
  destruct (pigeonhole rank lats (proj1 HP)) as [c0 [Hc0 Hopen]]; [rewrite (placed_length HP), HL; exact Hlt|].
  cbn [place_one]. fold num.
  destruct (best_candidate (map (addition_score c lats C f) (seq 0 num))) as [b|] eqn:Eb.
  2:{ exfalso. destruct num; [lia|]. cbn in Eb. discriminate. }
  destruct (best_candidate_spec _ _ _ Eb) as [Hb Hmax].
  assert (Hbopen : (length (nth b lats []) < rank)%nat).
  { destruct (Nat.lt_ge_cases (length (nth b lats [])) rank) as [|Hfull]; [assumption|exfalso].
    pose proof (Hmax c0 ltac:(lia)) as Hle. rewrite (addition_score_full lats C f b Hfull) in Hle.
    pose proof (addition_score_open lats C f c0 Hopen). lra. }
  eexists. eexists. split; [reflexivity|]. split; [rewrite set_at_length; exact HL|].
  apply placed_add; [lia|exact Hbopen|exact HP].
Qed.

Lemma place_fold al : forall processed lats C, pl_inv processed lats ->
  (length processed + length al <= num * rank)%nat ->
  exists lats' C', fold_left (place_one c) al (Some (lats, C)) = Some (lats', C') /\ pl_inv (processed ++ al) lats'.
Proof.
  induction al as [|f al IH]; intros processed lats C Hinv Hb; cbn [fold_left].
  - rewrite app_nil_r. eauto.
  - cbn [length] in Hb. destruct (place_step processed lats C f Hinv ltac:(lia)) as [l1 [C1 [E1 I1]]].
    rewrite E1. destruct (IH (processed ++ [f]) l1 C1 I1) as [l2 [C2 [E2 I2]]].
    rewrite app_length; cbn; lia. rewrite <- app_assoc in I2. eauto.
Qed.

(* the swap optimisation preserves row lengths and the multiset *)
Lemma crystal_try_swap_shape lats C a b i0 i1 :
  a <> b -> (i0 < length (nth a lats []))%nat -> (i1 < length (nth b lats []))%nat ->
  same_shape lats (fst (fst (crystal_try_swap c (lats, C) a b i0 i1))).
Proof.
  intros Hab H0 H1. unfold crystal_try_swap. cbv zeta.
  destruct (Nat.eqb _ _). apply same_shape_refl.
  match goal with |- context [if ?cnd then _ else _] => destruct cnd end; cbn [fst].
  apply swap_rows_shape; assumption. apply same_shape_refl.
Qed.

Lemma crystal_pass_pair_shape lats0 acc a b : In (a, b) (pairs (length lats0)) ->
  same_shape lats0 (fst (fst acc)) -> same_shape lats0 (fst (fst (crystal_pass_pair c acc (a, b)))).
Proof.
  intros Hab Hacc. apply in_pairs in Hab. apply (prod_scan_shape (fun s => fst (fst s))); [|exact Hacc].
  intros [[l C] ch] i0 i1 H0 H1. unfold crystal_swap_step. cbn [fst snd] in *.
  pose proof (crystal_try_swap_shape l C a b i0 i1) as T.
  destruct (crystal_try_swap c (l, C) a b i0 i1) as [st' c']. apply T; lia || assumption.
Qed.

Lemma crystal_swap_pass_shape st : same_shape (fst st) (fst (fst (crystal_swap_pass c st))).
Proof. unfold crystal_swap_pass.
  apply fold_left_inv with (P := fun acc => same_shape (fst st) (fst (fst acc))). apply same_shape_refl.
  intros acc [a b] Hab Hs. apply crystal_pass_pair_shape; assumption. Qed.

Lemma crystal_swap_loop_shape fuel : forall st, same_shape (fst st) (fst (crystal_swap_loop c fuel st)).
Proof. induction fuel as [|f IH]; intros st; cbn [crystal_swap_loop]. apply same_shape_refl.
  pose proof (crystal_swap_pass_shape st) as H. destruct (crystal_swap_pass c st) as [st' ch]. cbn [fst] in H.
  destruct ch; [|exact H]. eapply same_shape_trans; [exact H|apply IH]. Qed.

(* after the use allocation: the function returns exactly when the add list
   fills the slots, and then with full lattices holding the add list *)
Lemma crystals_from_uses_spec uses :
  match crystals_from_uses c uses with
  | Some lats => length lats = num /\ (forall l, In l lats -> length l = rank) /\
                 (forall p, countp p (concat lats) = countp p (add_list (k_n c) uses))
  | None => length (add_list (k_n c) uses) <> (num * rank)%nat
  end.
Proof.
  unfold crystals_from_uses. fold rank num.
  destruct (Nat.eqb_spec (length (add_list (k_n c) uses)) (num * rank)) as [Hal|Hne]; cbn [negb]; [|exact Hne].
  destruct (place_fold (add_list (k_n c) uses) [] (repeat [] num) (repeat (repeat 0%Z (k_n c)) (k_n c)) pl_inv_init)
    as [l1 [C1 [E1 [HL HP]]]]; [cbn [length]; lia|].
  rewrite E1. cbn [app] in HP. pose proof (placed_length HP) as Hlen. destruct HP as [HF HC].
  assert (Hfull : Forall (fun l => length l = rank) l1) by (apply all_full; [exact HF|rewrite Hlen, HL; exact Hal]).
  pose proof (crystal_swap_loop_shape (S (k_max_swaps c)) (l1, C1)) as Hsh. cbn [fst] in Hsh.
  split; [|split].
  - rewrite (same_shape_length Hsh). exact HL.
  - exact (same_shape_rows Hsh Hfull).
  - intros p. destruct Hsh as [_ Hc]. rewrite Hc. apply HC.
Qed.
End CrystalProofs.

Lemma qround_nonneg x : 0 <= x -> (0 <= qround_half_even x)%Z.
Proof. intros H. unfold qround_half_even.
  assert (Hf : (0 <= Qfloor x)%Z) by (change 0%Z with (Qfloor 0); apply Qfloor_resp_le; exact H).
  destruct (Qcompare _ _); [destruct (Z.even _)|..]; lia. Qed.
Lemma qround_le_int x k : x <= inject_Z k -> (qround_half_even x <= k)%Z.
Proof. intros H. unfold qround_half_even.
  assert (Hf : (Qfloor x <= k)%Z) by (rewrite <- (Qfloor_Z k); apply Qfloor_resp_le; exact H).
  destruct (Z.eq_dec (Qfloor x) k) as [E|N].
  - assert (Hlt : x - inject_Z (Qfloor x) < 1#2) by (rewrite E; lra).
    destruct (Qcompare (x - inject_Z (Qfloor x)) (1#2)) eqn:Ec.
    + apply Qeq_alt in Ec. lra.
    + lia.
    + apply Qgt_alt in Ec. lra.
  - destruct (Qcompare _ _); [destruct (Z.even _)|..]; lia. Qed.

Lemma zset_add_length i d l : length (zset_add i d l) = length l.
Proof. revert i; induction l as [|x l IH]; intros [|i]; cbn; auto. Qed.
Lemma zset_add_ge1 i d l : (0 <= d)%Z -> Forall (fun u => (1 <= u)%Z) l -> Forall (fun u => (1 <= u)%Z) (zset_add i d l).
Proof. intros Hd. revert i; induction l as [|x l IH]; intros [|i] H; cbn; auto; inversion H; subst; constructor; auto. lia. Qed.

(* the uses one feature receives: its share of what remains, rounded, at most num - 1 *)
Definition alloc_added (num : nat) (rem : Z) (s rs : Q) : Z :=
  Z.min (qround_half_even (inject_Z rem * s / rs)) (Z.of_nat num - 1).

Lemma alloc_added_bounds num rem s rs : (1 <= num)%nat -> (0 <= rem)%Z -> 0 <= s -> s <= rs -> 0 < rs ->
  (0 <= alloc_added num rem s rs <= rem)%Z.
Proof.
  intros Hnum HR Hs Hle Hpos. unfold alloc_added.
  assert (HRq : 0 <= inject_Z rem) by (change 0 with (inject_Z 0); rewrite <- Zle_Qle; exact HR).
  assert (Hx0 : 0 <= inject_Z rem * s / rs).
  { apply Qle_shift_div_l; [exact Hpos|]. pose proof (qmul_nonneg _ _ HRq Hs). lra. }
  assert (Hx1 : inject_Z rem * s / rs <= inject_Z rem).
  { apply Qle_shift_div_r; [exact Hpos|]. apply qmul_le_l; [exact HRq|exact Hle]. }
  pose proof (qround_nonneg _ Hx0). pose proof (qround_le_int _ rem Hx1). lia.
Qed.

Lemma alloc_uses_ge1 num imp : (1 <= num)%nat -> (forall f, 0 <= nth f imp 0) ->
  forall order uses rem_uses rem_scores uses',
  (0 <= rem_uses)%Z -> rem_scores == qsum (map (fun f => nth f imp 0) order) ->
  Forall (fun u => (1 <= u)%Z) uses ->
  alloc_uses num imp order uses rem_uses rem_scores = Some uses' ->
  Forall (fun u => (1 <= u)%Z) uses' /\ length uses' = length uses.
Proof.
  intros Hnum Himp. induction order as [|f r IH]; intros uses rem_uses rem_scores uses' HR HS HU E; cbn [alloc_uses] in E.
  - inversion E; subst; auto.
  - destruct (Qeq_bool rem_scores 0) eqn:Ez; [discriminate|]. apply Qeq_bool_neq in Ez.
    cbn [map qsum] in HS.
    assert (Hrest : 0 <= qsum (map (fun f => nth f imp 0) r)) by (apply qsum_map_nonneg; intros; apply Himp).
    pose proof (Himp f) as Hf.
    assert (Hpos : 0 < rem_scores) by (destruct (Qlt_le_dec 0 rem_scores); [assumption|exfalso; apply Ez; lra]).
    fold (alloc_added num rem_uses (nth f imp 0) rem_scores) in E.
    pose proof (alloc_added_bounds num rem_uses (nth f imp 0) rem_scores Hnum HR Hf ltac:(lra) Hpos) as Ha.
    set (added := alloc_added num rem_uses (nth f imp 0) rem_scores) in *.
    destruct (IH (zset_add f added uses) (rem_uses - added)%Z (Qred (rem_scores - nth f imp 0)) uses') as [H1 H2];
      [lia|rewrite Qred_correct; lra|apply zset_add_ge1; [lia|exact HU]|exact E|].
    split; [exact H1|]. rewrite H2, zset_add_length. reflexivity.
Qed.

Lemma ins_desc_perm imp x l : Permutation (ins_desc imp x l) (x :: l).
Proof. induction l as [|y l IH]; cbn. reflexivity. destruct (Qle_bool _ _). reflexivity.
  rewrite IH. apply perm_swap. Qed.
Lemma argsort_desc_perm imp : Permutation (argsort_desc imp) (seq 0 (length imp)).
Proof. unfold argsort_desc. induction (seq 0 (length imp)) as [|x l IH]; cbn. reflexivity.
  rewrite ins_desc_perm, IH. reflexivity. Qed.
Lemma importance_length n T lap : length (importance n T lap) = n.
Proof. unfold importance. rewrite map_length, seq_length. reflexivity. Qed.

(* importance = 6 * laplacian + the feature's torsions, which are non-negative *)
Lemma importance_ge n T lap f : Forall (Forall (fun x => 0 <= x)) T -> (f < n)%nat ->
  nth f lap 0 * 6 <= nth f (importance n T lap) 0.
Proof. intros HT Hf. unfold importance. rewrite nth_map_seq by exact Hf. rewrite Qred_correct.
  assert (0 <= qsum (map (fun g => if (f <? g)%nat then tget T f g else if (g <? f)%nat then tget T g f else 0) (seq 0 n))); [|lra].
  apply qsum_map_nonneg. intros h _. destruct (f <? h)%nat; [apply tget_nonneg; exact HT|].
  destruct (h <? f)%nat; [apply tget_nonneg; exact HT|apply Qle_refl]. Qed.

Lemma importance_nonneg n T lap : Forall (Forall (fun x => 0 <= x)) T -> Forall (fun x => 0 <= x) lap ->
  forall f, 0 <= nth f (importance n T lap) 0.
Proof. intros HT HL f. destruct (Nat.lt_ge_cases f n) as [Hf|Hf].
  - pose proof (importance_ge n T lap f HT Hf). rewrite Forall_forall in HL. pose proof (nth_nonneg lap f HL). lra.
  - rewrite nth_overflow by (rewrite importance_length; exact Hf). apply Qle_refl. Qed.

(* the scores still to be shared out at the start of the allocation *)
Lemma qsum_argsort imp : Qred (qsum imp) == qsum (map (fun f => nth f imp 0) (argsort_desc imp)).
Proof. rewrite Qred_correct, (qsum_perm _ _ (Permutation_map _ (argsort_desc_perm imp))), map_nth_seq. reflexivity. Qed.

(* the use allocation gives every feature at least one use when all scores are
   non-negative *)
Lemma crystal_uses_ge1 c uses :
  (forall f, 0 <= nth f (importance (k_n c) (k_T c) (k_lap c)) 0) ->
  (1 <= k_num c)%nat -> (k_n c <= k_num c * k_rank c)%nat ->
  crystal_uses c = Some uses -> Forall (fun u => (1 <= u)%Z) uses /\ length uses = k_n c.
Proof.
  intros Himp Hnum Hslots E. unfold crystal_uses in E.
  set (imp := importance (k_n c) (k_T c) (k_lap c)) in *.
  destruct (alloc_uses _ _ _ _ _ _) as [u|] eqn:Ea; [|discriminate].
  destruct (Z.eqb _ _); [|discriminate]. inversion E; subst u; clear E.
  destruct (alloc_uses_ge1 (k_num c) imp Hnum Himp (argsort_desc imp) (repeat 1%Z (k_n c))
              (Z.of_nat (k_num c * k_rank c) - Z.of_nat (k_n c))%Z (Qred (qsum imp)) uses) as [H1 H2];
    [lia|apply qsum_argsort| |exact Ea|split; [exact H1|rewrite H2; apply repeat_length]].
  apply Forall_forall. intros u Hu. apply repeat_spec in Hu. lia.
Qed.
Open Scope nat_scope.

Lemma crystals_closed : forall c lats,
  Forall (Forall (fun x => (0 <= x)%Q)) (k_T c) ->
  crystal_lattices c = Some lats ->
  exists uses, crystal_uses c = Some uses /\ zsum uses = Z.of_nat (k_num c * k_rank c) /\
  length lats = k_num c /\ (forall l, In l lats -> length l = k_rank c) /\
  (forall f, f < k_n c -> (1 <= nth f uses 0%Z)%Z -> exists l, In l lats /\ In f l).
Proof.
  intros c lats HT E. unfold crystal_lattices in E. destruct (crystal_uses c) as [uses|] eqn:Eu; [|discriminate].
  exists uses. split; [reflexivity|]. split.
  - unfold crystal_uses in Eu. destruct (alloc_uses _ _ _ _ _ _) as [u|]; [|discriminate].
    destruct (Z.eqb_spec (zsum u) (Z.of_nat (k_num c * k_rank c))); [|discriminate]. inversion Eu; subst; assumption.
  - pose proof (crystals_from_uses_spec c HT uses) as S. rewrite E in S. destruct S as [H1 [H2 H3]].
    split; [exact H1|]. split; [exact H2|].
    intros f Hf Hu. exact (counted_in lats _ f H3 (add_list_in (k_n c) uses f Hf Hu)).
Qed.

(* allocation succeeded (D13 excluded by hypothesis) + non-negative scores +
   enough slots: exact rank and every feature used *)
Lemma crystals_full_closed : forall c lats,
  Forall (Forall (fun x => (0 <= x)%Q)) (k_T c) -> Forall (fun x => (0 <= x)%Q) (k_lap c) ->
  k_n c <= k_num c * k_rank c ->
  crystal_lattices c = Some lats ->
  length lats = k_num c /\ (forall l, In l lats -> length l = k_rank c) /\
  (forall f, f < k_n c -> exists l, In l lats /\ In f l).
Proof.
  intros c lats HT HL Hslots E. destruct (crystals_closed c lats HT E) as [uses [Eu [Hsum [H1 [H2 H3]]]]].
  split; [exact H1|]. split; [exact H2|]. intros f Hf. apply H3; [exact Hf|].
  (* a feature needs a slot, so there is a lattice *)
  destruct (crystal_uses_ge1 c uses (importance_nonneg _ _ _ HT HL) ltac:(nia) Hslots Eu) as [G L].
  rewrite Forall_forall in G. apply G, nth_In. lia.
Qed.

(* D13 on the model: a valid configuration (non-negative scores, enough slots,
   rank < number of features) on which the use allocation raises
   (0 * 0 / 0 -> nan -> int(round(nan))): feature 2 has importance 0. *)
Definition d13_witness : crystal_cfg :=
  mkcr 3 2 2 1000 [[0; 1; 0]; [1; 0; 0]; [0; 0; 0]]%Q [1; 1; 0]%Q.
Lemma crystals_allocation_refuted : exists c,
  Forall (Forall (fun x => (0 <= x)%Q)) (k_T c) /\ Forall (fun x => (0 <= x)%Q) (k_lap c) /\
  k_n c <= k_num c * k_rank c /\ k_rank c < k_n c /\
  crystal_uses c = None /\ crystal_lattices c = None.
Proof. exists d13_witness. split; [|split; [|split; [|split; [|split]]]].
  - repeat constructor; discriminate.
  - repeat constructor; discriminate.
  - cbn; lia.
  - cbn; lia.
  - vm_compute. reflexivity.
  - vm_compute. reflexivity. Qed.
