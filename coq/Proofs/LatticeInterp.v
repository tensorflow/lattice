(* Lattice forward pass: the theorems of Proofs/LatticeHyper.v and
   Proofs/LatticeSimplex.v restated for the layer-level function unit_fn of
   Model/LatticeInterp.v (kernel matrix with a units axis, clipping, gather
   with units), and the agreement of the two schemes. *)
From Coq Require Import Permutation.
From TFL Require Export Proofs.LatticeHyper Proofs.LatticeOuter Proofs.LatticeSimplex.
Open Scope Q_scope.

(* the kernel of unit u as a tensor over index vectors (row-major) *)
Definition kern (sizes : list nat) (Kmat : list (list Q)) (u : nat) : tens := of_list sizes (column u Kmat).
(* kernel matrix well formed for unit u: every row has one entry per unit *)
Definition wfK (units : nat) (Kmat : list (list Q)) (u : nat) : Prop :=
  (u < units)%nat /\ Forall (fun r => length r = units) Kmat.

Lemma nthZ_nat n l : nthZ (Z.of_nat n) l = nth n l 0.
Proof. unfold nthZ. destruct (Z.ltb_spec (Z.of_nat n) 0). lia. rewrite Nat2Z.id. reflexivity. Qed.

Definition gather_of (units : nat) (Kmat : list (list Q)) (u : nat) : Z -> Q :=
  if (units =? 1)%nat then fun i => nthZ i (concat Kmat)
  else fun i => nthZ (i * Z.of_nat units + Z.of_nat u) (concat Kmat).

Lemma unit_fn_simplex tensor clip units sizes Kmat u x :
  unit_fn Simplex tensor clip units sizes Kmat u x = simplex_unit clip sizes (gather_of units Kmat u) x.
Proof. unfold unit_fn, gather_of. destruct (units =? 1)%nat; reflexivity. Qed.
(* the literal outer-product computation is the recursion on the kernel tensor *)
Lemma unit_fn_hyper tensor clip units sizes Kmat u x : length x = length sizes -> sizes <> [] ->
  unit_fn Hypercube tensor clip units sizes Kmat u x == hyper_unit tensor clip sizes (kern sizes Kmat u) x.
Proof. intros Hl Hne. unfold unit_fn, kern. apply hyper_lit_eq; assumption. Qed.
Lemma unit_fn_hyper_ok {tensor clip units sizes Kmat u x} : ok_input clip sizes x -> sizes <> [] ->
  unit_fn Hypercube tensor clip units sizes Kmat u x == hyper_unit tensor clip sizes (kern sizes Kmat u) x.
Proof. intros [Hl _]. apply unit_fn_hyper, Hl. Qed.

Lemma gather_gk units sizes Kmat u : wfK units Kmat u -> gk sizes (gather_of units Kmat u) (kern sizes Kmat u).
Proof. intros [Hu HF] i Hi. unfold kern, of_list. rewrite memo_ok by exact Hi. rewrite nth_column.
  unfold gather_of. destruct (Nat.eqb_spec units 1) as [E|NE].
  - subst units. assert (u = 0%nat) by lia. subst u. rewrite nthZ_nat.
    rewrite <- (nth_concat 1 0 ltac:(lia) Kmat (flat sizes i) HF). rewrite Nat.mul_1_r, Nat.add_0_r. reflexivity.
  - rewrite <- Nat2Z.inj_mul, <- Nat2Z.inj_add, nthZ_nat. rewrite (nth_concat units u Hu Kmat _ HF). reflexivity. Qed.

Lemma dec_ext : forall sizes c rs z z', dec sizes c rs z -> Forall2 Qeq z z' -> dec sizes c rs z'.
Proof. intros sizes c rs z z' D. revert z'. induction D as [|s ss c cs r rs z zs Hc H0 H1 Hz D IH]; intros z' H';
  inversion H' as [|? z0 ? zs' Ez Hzs]; subst; constructor; auto. rewrite <- Ez. exact Hz. Qed.

(* coordinate j of the corner and of the residual the code computes depends on coordinate j of the point only *)
Section CellCoordinate.
  Variables (sizes : list nat) (z : list Q) (j : nat).
  Hypothesis Hj : (j < length sizes)%nat.
  Hypothesis Hl : length z = length sizes.

  Lemma nth_lower_corner :
    nth j (lower_corner sizes z) 0%Z = Z.min (qtrunc (nth j z 0)) (Z.of_nat (nth j sizes 0%nat) - 2).
  Proof. exact (nth_map2 _ sizes z j 0%nat 0 0%Z Hj ltac:(lia)). Qed.

  Lemma nth_mcorner : nth j (mcorner sizes z) 0%nat =
    if all2 sizes then 0%nat else Z.to_nat (Z.min (qtrunc (nth j z 0)) (Z.of_nat (nth j sizes 0%nat) - 2)).
  Proof. unfold mcorner. destruct (all2 sizes). rewrite (nth_map_lt _ _ j 0%nat 0) by lia. reflexivity.
    rewrite (nth_map_lt _ _ j 0%nat 0%Z) by (unfold lower_corner; rewrite map2_length; lia).
    rewrite nth_lower_corner. reflexivity. Qed.

  Lemma nth_mres : nth j (mres sizes z) 0 =
    if all2 sizes then nth j z 0 else nth j z 0 - inject_Z (Z.min (qtrunc (nth j z 0)) (Z.of_nat (nth j sizes 0%nat) - 2)).
  Proof. unfold mres. destruct (all2 sizes). reflexivity.
    rewrite (nth_map2 (fun xd c => xd - inject_Z c) z _ j 0 0%Z 0) by (unfold lower_corner; rewrite ?map2_length; lia).
    rewrite nth_lower_corner. reflexivity. Qed.
End CellCoordinate.

(* linear interpolation in the terms of a decomposition z = c + r *)
Lemma interp1_res s a c r z : (S c < s)%nat -> 0 <= r -> r <= 1 -> z == qn c + r ->
  interp1 s a z == (1 - r) * a c + r * a (S c).
Proof. intros Hc H0 H1 Hz. rewrite (interp1_cell s a c) by (lra || exact Hc). rewrite Hz. ring. Qed.

(* hypercube at a point with integer residuals: the value at the vertex *)
Lemma G_ir {sizes c rs z} : dec sizes c rs z -> forall K t, ir c rs t -> G sizes K z == K t.
Proof. induction 1 as [|s ss c cs r rs z zs Hc H0 H1 Hz D IH]; intros K t I; inversion I as [|? ? ? ? t' E I'|? ? ? ? t' E I']; subst.
  reflexivity. all: rewrite G_cons, (interp1_res s _ c r z) by assumption.
  - rewrite (IH (fun i => K (c :: i)) t' I'), E. ring.
  - rewrite (IH (fun i => K (S c :: i)) t' I'), E. ring. Qed.

(* hypercube on the edge in direction e: integer residuals except at e *)
Lemma G_edge {sizes c rs z} : dec sizes c rs z -> forall K e t, ir c (set_nth e 0 rs) t ->
  G sizes K z == (1 - nth e rs 0) * K t + nth e rs 0 * K (bump t e).
Proof. induction 1 as [|s ss c cs r rs z zs Hc H0 H1 Hz D IH]; intros K e t I.
  { destruct e; inversion I; subst; unfold G; cbn; ring. }
  rewrite G_cons, (interp1_res s _ c r z) by assumption.
  destruct e as [|e]; cbn [set_nth nth] in *; inversion I as [|? ? ? ? t' E I'|? ? ? ? t' E I']; subst; unfold bump; cbn [nth upd].
  - rewrite !(G_ir D _ t' I'). reflexivity.
  - exfalso. lra.
  - rewrite (IH (fun i => K (c :: i)) e t' I'), E. unfold bump. ring.
  - rewrite (IH (fun i => K (S c :: i)) e t' I'), E. unfold bump. ring. Qed.

Lemma ir_exists : forall c rs, length c = length rs ->
  (forall j, (j < length rs)%nat -> nth j rs 0 == 0 \/ nth j rs 0 == 1) -> exists t, ir c rs t.
Proof. induction c as [|c0 c IH]; intros [|r rs] Hl Hi; try discriminate. exists []; constructor.
  destruct (IH rs) as [t I]. cbn in Hl; lia. intros j Hj. apply (Hi (S j)). cbn; lia.
  destruct (Hi 0%nat ltac:(cbn; lia)) as [E|E]; cbn [nth] in E.
  exists (c0 :: t). apply ir_zero; assumption. exists (S c0 :: t). apply ir_one; assumption. Qed.

Lemma ir_length cs rs ts : ir cs rs ts -> length rs = length cs.
Proof. induction 1; cbn; congruence. Qed.

(* simplex on an edge: only the two end vertices of the edge have weight *)
Lemma scell_edge K sizes c rs z e t : dec sizes c rs z -> (e < length sizes)%nat ->
  ir c (set_nth e 0 rs) t -> scell K c rs == (1 - nth e rs 0) * K t + nth e rs 0 * K (bump t e).
Proof. intros D He I. pose proof (dec_length D) as Lr.
  set (rest := drop_nth e (combine rs (seq 0 (length rs)))).
  assert (P : forall r, Permutation (combine (set_nth e r rs) (seq 0 (length (set_nth e r rs)))) ((r, e) :: rest))
    by (intros r; apply (pairs_pull rs 0 e r); lia).
  destruct (dec_nth D e He) as [_ [R0 [R1 _]]].
  assert (Re : rng [(nth e rs 0, e)]) by (constructor; [split; assumption|constructor]).
  assert (R : rng (rest ++ [(nth e rs 0, e)])).
  { apply Forall_app. split. apply drop_nth_Forall. exact (dec_rng D). exact Re. }
  (* rs with 0 at e has the other pairs of rs, and all of them only move the corner to t *)
  pose proof (S_int K c _ t I [] [(nth e rs 0, e)] Re) as E.
  cbn [app length] in E.
  rewrite (S_perm K c _ _ (Permutation_app_tail [(nth e rs 0, e)] (P 0))) in E.
  cbn [app] in E.
  rewrite S_zero in E; [|exact R|reflexivity].
  (* rs itself has the pair of e and the same others; walk them with that pair last *)
  pose proof (P (nth e rs 0)) as P1.
  rewrite set_nth_self in P1.
  unfold scell.
  rewrite (S_perm K c _ _ (perm_trans P1 (Permutation_cons_append _ _))), E.
  cbn. ring. Qed.

(* the simplex computation on any lattice whose gather reads the kernel tensor *)
Section Simplex.
  Variables (clip : bool) (sizes : list nat) (g : Z -> Q) (K : tens).
  Hypothesis Hs : sizes_ok sizes.
  Hypothesis Hg : gk sizes g K.

  (* the model's value on an admissible input is the cell formula of a cell that contains the (clipped) point *)
  Lemma simplex_cell x : ok_input clip sizes x ->
    let z := eff clip sizes x in
    dec sizes (mcorner sizes z) (mres sizes z) z /\
    simplex_unit clip sizes g x == scell K (mcorner sizes z) (mres sizes z).
  Proof. intros Hok z. rewrite simplex_unit_clip. fold (eff clip sizes x). fold z.
    apply simplex_unit_scell; try assumption. apply eff_inr; assumption. Qed.

  Theorem simplex_vertex v : valid sizes v -> simplex_unit clip sizes g (map qn v) == K v.
  Proof. intros Hv. destruct (simplex_cell _ (vertex_ok clip sizes v Hv)) as [D E]. rewrite E.
    apply (scell_vertex K sizes). eapply dec_ext. exact D. apply eff_proper_in, vertex_inr. exact Hv. Qed.

  (* any descending arrangement of the (residual, dimension) pairs, i.e. any tie-breaking, gives the output *)
  Theorem simplex_tie_invariant x s' : ok_input clip sizes x ->
    let z := eff clip sizes x in
    Permutation s' (mpairs sizes z) -> chain 1 s' -> walk K 1 (mcorner sizes z) s' == simplex_unit clip sizes g x.
  Proof. intros Hok z P C. destruct (simplex_cell x Hok) as [D E]. rewrite E. apply scell_tie_invariant; assumption. Qed.

  Theorem simplex_monotone x d yd : (d < length sizes)%nat ->
    ok_input clip sizes x -> ok_input clip sizes (set_nth d yd x) -> nth d x 0 <= yd -> knondecr sizes K d ->
    simplex_unit clip sizes g x <= simplex_unit clip sizes g (set_nth d yd x).
  Proof. intros Hd Hx Hy Hle HK.
    destruct (simplex_cell x Hx) as [D E]. destruct (simplex_cell _ Hy) as [D' E']. rewrite E, E'.
    pose proof (eff_length clip sizes x (proj1 Hx)) as Lz. rewrite eff_set_nth in *.
    apply (scell_monotone K sizes d _ _ _ _ _ _ D D' Hd).
    - intros j Hj Hlt. rewrite !nth_mcorner, !nth_mres, nth_set_nth_other by (rewrite ?set_nth_length; auto). split; reflexivity.
    - rewrite nth_set_nth_same by lia. rewrite (nth_eff clip sizes x d Hd (proj1 Hx)). apply effc_mono. exact Hle.
    - exact HK. Qed.

  Theorem schemes_agree_vertex tensor v : valid sizes v ->
    simplex_unit clip sizes g (map qn v) == hyper_unit tensor clip sizes K (map qn v).
  Proof. intros Hv. rewrite (simplex_vertex v Hv), (hyper_vertex tensor clip sizes K v Hv). reflexivity. Qed.

  Theorem schemes_agree_edge tensor x e : ok_input clip sizes x -> (e < length sizes)%nat ->
    (forall j, j <> e -> (j < length sizes)%nat -> exists k, nth j (eff clip sizes x) 0 == qn k) ->
    simplex_unit clip sizes g x == hyper_unit tensor clip sizes K x.
  Proof. intros Hok He Hint.
    destruct (simplex_cell x Hok) as [D E]. rewrite E. rewrite hyper_unit_G by exact Hok.
    set (z := eff clip sizes x) in *. set (c := mcorner sizes z) in *. set (rs := mres sizes z) in *.
    (* the point has integer coordinates outside e, hence integer residuals *)
    destruct (ir_exists c (set_nth e 0 rs)) as [t I].
    { rewrite set_nth_length, (dec_length D). apply (dec_clength D). }
    { intros j Hj. rewrite set_nth_length, (dec_length D) in Hj.
      destruct (Nat.eq_dec j e) as [->|N]. left. rewrite nth_set_nth_same by (rewrite (dec_length D); exact He). reflexivity.
      rewrite nth_set_nth_other by auto. destruct (Hint j N Hj) as [k Ek].
      destruct (dec_nth D j Hj) as [_ [R0 [R1 Rz]]]. rewrite Ek in Rz.
      destruct (qn_res k _ _ R0 R1 Rz) as [[_ Er]|[_ Er]]. left; exact Er. right; exact Er. }
    rewrite (scell_edge K sizes c rs z e t D He I). symmetry. apply (G_edge D). exact I. Qed.
End Simplex.

Theorem simplex_bounds clip sizes g K x lo hi : sizes_ok sizes -> gk sizes g K -> ok_input clip sizes x ->
  (forall i, valid sizes i -> lo <= K i /\ K i <= hi) ->
  lo <= simplex_unit clip sizes g x /\ simplex_unit clip sizes g x <= hi.
Proof. intros Hs Hg Hok HK. destruct (simplex_cell clip sizes g K Hs Hg x Hok) as [D E]. rewrite E.
  eapply scell_bounds; eassumption. Qed.

Lemma lattice_eval_unit sc tensor clip units sizes Kmat pts p u : (p < length pts)%nat -> (u < units)%nat ->
  (u < length (nth p pts []))%nat ->
  nth u (nth p (lattice_eval sc tensor clip units sizes Kmat pts) []) 0 =
  unit_fn sc tensor clip units sizes Kmat u (nth u (nth p pts []) []).
Proof. intros Hp Hu Hl. unfold lattice_eval.
  rewrite (nth_map_lt _ pts p [] []) by exact Hp.
  rewrite (nth_map2 (fun (f : list Q -> Q) x => f x) _ _ u (fun _ => 0) [] 0)
    by (rewrite ?map_length, ?seq_length; assumption).
  rewrite (nth_map_lt _ (seq 0 units) u _ 0%nat) by (rewrite seq_length; exact Hu).
  rewrite seq_nth by exact Hu. reflexivity. Qed.

Lemma kern_in_column sizes Kmat u i : length Kmat = prodn sizes -> valid sizes i ->
  In (kern sizes Kmat u i) (column u Kmat).
Proof. intros Hl Hi. unfold kern, of_list. rewrite memo_ok by exact Hi. apply nth_In.
  unfold column. rewrite map_length, Hl. apply flat_lt; exact Hi. Qed.

Lemma kern_minmax sizes Kmat u : length Kmat = prodn sizes ->
  forall i, valid sizes i -> qminl (column u Kmat) <= kern sizes Kmat u i /\ kern sizes Kmat u i <= qmaxl (column u Kmat).
Proof. intros Hl i Hi. pose proof (kern_in_column sizes Kmat u i Hl Hi). split. apply qminl_le; assumption. apply qmaxl_ge; assumption. Qed.

(* non-vacuity: a concrete 2 x 3 lattice with two units *)
Definition ex_sizes : list nat := [2; 3]%nat.
Definition ex_K : list (list Q) := [[0; 5]; [1; 4]; [3; 4]; [1; 6]; [2; 2]; [9#2; 9]].

Ltac all_valid i Hi := apply all_idx_valid in Hi; cbn in Hi;
  repeat (destruct Hi as [<-|Hi]; [|]); try contradiction.

Example ex_sizes_ok : sizes_ok ex_sizes.
Proof. repeat constructor. Qed.
Example ex_wfK : wfK 2 ex_K 0.
Proof. split. lia. repeat constructor. Qed.
Example ex_ok_input : ok_input false ex_sizes [1#2; 3#2] /\ ok_input true ex_sizes [5; -(1)].
Proof. split; split; try reflexivity. right; repeat constructor; unfold qn, inject_Z; cbn; lra. left; reflexivity. Qed.
(* unit 0 of ex_K is non-decreasing along both dimensions *)
Example ex_knondecr : knondecr ex_sizes (kern ex_sizes ex_K 0) 0 /\ knondecr ex_sizes (kern ex_sizes ex_K 0) 1.
Proof. split; intros i Hi Hb; all_valid i Hi; cbn in Hb; try lia; apply Qle_bool_iff; vm_compute; reflexivity. Qed.
(* and satisfies the Edgeworth condition with main 1, conditional 0 *)
Example ex_kedge : kedge ex_sizes (kern ex_sizes ex_K 0) 1 0.
Proof. intros i Hi Hm Hc; all_valid i Hi; cbn in Hm, Hc; try lia; apply Qle_bool_iff; vm_compute; reflexivity. Qed.
Example ex_in_cell : in_cell ex_sizes [0; 1]%nat (eff false ex_sizes [1#2; 3#2]).
Proof. cbn. repeat constructor; unfold qn, inject_Z; cbn; lra. Qed.
(* both schemes evaluated on it *)
Example ex_values :
  unit_fn Hypercube true false 2 ex_sizes ex_K 0 [1#2; 3#2] == 21#8 /\
  unit_fn Simplex true false 2 ex_sizes ex_K 0 [1#2; 3#2] == 11#4 /\
  unit_fn Simplex true false 2 ex_sizes ex_K 1 [1#2; 1#4] == 9#2 /\
  unit_fn Hypercube true false 2 ex_sizes ex_K 1 [1#2; 1#4] == 39#8.
Proof. repeat split; vm_compute; reflexivity. Qed.
Example ex_dec : dec ex_sizes [0; 1]%nat [1#2; 1#2] [1#2; 3#2].
Proof. repeat constructor; try lra; try lia; vm_compute; reflexivity. Qed.
Example ex_tie_orders : chain 1 [(1#2, 0%nat); (1#2, 1%nat)] /\ chain 1 [(1#2, 1%nat); (1#2, 0%nat)] /\
  Permutation [(1#2, 1%nat); (1#2, 0%nat)] (mpairs ex_sizes [1#2; 3#2]).
Proof. repeat split; cbn; try lra. vm_compute. apply perm_swap. Qed.

(* layer-level statements (used verbatim by Props/C02.v) *)
Lemma lt_length_nonnil {A} d (l : list A) : (d < length l)%nat -> l <> [].
Proof. destruct l; [cbn; lia|discriminate]. Qed.

Lemma L_hyper_vertex tensor clip units sizes Kmat u v : sizes <> [] -> valid sizes v ->
  unit_fn Hypercube tensor clip units sizes Kmat u (map qn v) == kern sizes Kmat u v.
Proof. intros Hne Hv. rewrite (unit_fn_hyper_ok (vertex_ok clip sizes v Hv) Hne). apply hyper_vertex, Hv. Qed.

Lemma L_hyper_convex tensor clip units sizes Kmat u x : sizes <> [] ->
  sizes_ok sizes -> ok_input clip sizes x -> length Kmat = prodn sizes ->
  qminl (column u Kmat) <= unit_fn Hypercube tensor clip units sizes Kmat u x /\
  unit_fn Hypercube tensor clip units sizes Kmat u x <= qmaxl (column u Kmat).
Proof. intros Hne Hs Hx Hl. rewrite unit_fn_hyper_ok by assumption.
  apply hyper_bounds; try assumption. apply kern_minmax; assumption. Qed.

Lemma L_hyper_is_multilinear tensor clip units sizes Kmat u x c : sizes <> [] ->
  ok_input clip sizes x -> in_cell sizes c (eff clip sizes x) ->
  unit_fn Hypercube tensor clip units sizes Kmat u x == multilin (kern sizes Kmat u) c (eff clip sizes x).
Proof. intros Hne Hx Hc. rewrite unit_fn_hyper_ok by assumption. apply hyper_multilinear; assumption. Qed.

Lemma L_hyper_monotone tensor clip units sizes Kmat u x d yd :
  sizes_ok sizes -> (d < length sizes)%nat ->
  ok_input clip sizes x -> ok_input clip sizes (set_nth d yd x) -> nth d x 0 <= yd ->
  knondecr sizes (kern sizes Kmat u) d ->
  unit_fn Hypercube tensor clip units sizes Kmat u x <= unit_fn Hypercube tensor clip units sizes Kmat u (set_nth d yd x).
Proof. intros Hs Hd Hx Hy Hle HK. pose proof (lt_length_nonnil d sizes Hd) as Hne.
  rewrite !unit_fn_hyper_ok by assumption. apply hyper_monotone; assumption. Qed.

Lemma L_hyper_edgeworth tensor clip units sizes Kmat u x m c ym yc :
  sizes_ok sizes -> (m < length sizes)%nat -> (c < length sizes)%nat -> m <> c ->
  ok_input clip sizes x -> ok_input clip sizes (set_nth m ym x) ->
  ok_input clip sizes (set_nth c yc x) -> ok_input clip sizes (set_nth m ym (set_nth c yc x)) ->
  nth m x 0 <= ym -> nth c x 0 <= yc -> kedge sizes (kern sizes Kmat u) m c ->
  unit_fn Hypercube tensor clip units sizes Kmat u (set_nth m ym x) - unit_fn Hypercube tensor clip units sizes Kmat u x <=
  unit_fn Hypercube tensor clip units sizes Kmat u (set_nth m ym (set_nth c yc x)) -
  unit_fn Hypercube tensor clip units sizes Kmat u (set_nth c yc x).
Proof. intros Hs Hm Hc Hmc Hx Hxm Hxc Hxmc Lm Lc HK.
  pose proof (lt_length_nonnil m sizes Hm) as Hne.
  rewrite !unit_fn_hyper_ok by assumption.
  apply hyper_edgeworth; assumption. Qed.

Lemma L_simplex_vertex tensor clip units sizes Kmat u v :
  sizes_ok sizes -> wfK units Kmat u -> valid sizes v ->
  unit_fn Simplex tensor clip units sizes Kmat u (map qn v) == kern sizes Kmat u v.
Proof. intros Hs Hw Hv. rewrite unit_fn_simplex. exact (simplex_vertex clip sizes _ _ Hs (gather_gk units sizes Kmat u Hw) v Hv). Qed.

Lemma L_simplex_convex tensor clip units sizes Kmat u x :
  sizes_ok sizes -> wfK units Kmat u -> ok_input clip sizes x -> length Kmat = prodn sizes ->
  qminl (column u Kmat) <= unit_fn Simplex tensor clip units sizes Kmat u x /\
  unit_fn Simplex tensor clip units sizes Kmat u x <= qmaxl (column u Kmat).
Proof. intros Hs Hw Hx Hl. rewrite unit_fn_simplex.
  exact (simplex_bounds clip sizes _ _ x _ _ Hs (gather_gk units sizes Kmat u Hw) Hx (kern_minmax sizes Kmat u Hl)). Qed.

Lemma L_simplex_cell_formula tensor clip units sizes Kmat u x :
  sizes_ok sizes -> wfK units Kmat u -> ok_input clip sizes x ->
  let z := eff clip sizes x in
  dec sizes (mcorner sizes z) (mres sizes z) z /\
  unit_fn Simplex tensor clip units sizes Kmat u x == scell (kern sizes Kmat u) (mcorner sizes z) (mres sizes z).
Proof. intros Hs Hw Hx. rewrite unit_fn_simplex. exact (simplex_cell clip sizes _ _ Hs (gather_gk units sizes Kmat u Hw) x Hx). Qed.

Lemma L_simplex_tie_invariant tensor clip units sizes Kmat u x s' :
  sizes_ok sizes -> wfK units Kmat u -> ok_input clip sizes x ->
  let z := eff clip sizes x in
  Permutation s' (mpairs sizes z) -> chain 1 s' ->
  walk (kern sizes Kmat u) 1 (mcorner sizes z) s' == unit_fn Simplex tensor clip units sizes Kmat u x.
Proof. intros Hs Hw Hx. rewrite unit_fn_simplex.
  exact (simplex_tie_invariant clip sizes _ _ Hs (gather_gk units sizes Kmat u Hw) x s' Hx). Qed.

Lemma L_simplex_monotone tensor clip units sizes Kmat u x d yd :
  sizes_ok sizes -> wfK units Kmat u -> (d < length sizes)%nat ->
  ok_input clip sizes x -> ok_input clip sizes (set_nth d yd x) -> nth d x 0 <= yd ->
  knondecr sizes (kern sizes Kmat u) d ->
  unit_fn Simplex tensor clip units sizes Kmat u x <= unit_fn Simplex tensor clip units sizes Kmat u (set_nth d yd x).
Proof. intros Hs Hw Hd Hx Hy Hle HK. rewrite !unit_fn_simplex.
  exact (simplex_monotone clip sizes _ _ Hs (gather_gk units sizes Kmat u Hw) x d yd Hd Hx Hy Hle HK). Qed.

Lemma L_schemes_agree_edges tensor tensor' clip units sizes Kmat u x e :
  sizes_ok sizes -> wfK units Kmat u -> ok_input clip sizes x -> (e < length sizes)%nat ->
  (forall j, j <> e -> (j < length sizes)%nat -> exists k, nth j (eff clip sizes x) 0 == qn k) ->
  unit_fn Simplex tensor clip units sizes Kmat u x == unit_fn Hypercube tensor' clip units sizes Kmat u x.
Proof. intros Hs Hw Hx He Hint. pose proof (lt_length_nonnil e sizes He) as Hne.
  rewrite unit_fn_simplex, unit_fn_hyper_ok by assumption.
  exact (schemes_agree_edge clip sizes _ _ Hs (gather_gk units sizes Kmat u Hw) tensor' x e Hx He Hint). Qed.

Lemma L_schemes_agree_vertices tensor tensor' clip units sizes Kmat u v : sizes <> [] ->
  sizes_ok sizes -> wfK units Kmat u -> valid sizes v ->
  unit_fn Simplex tensor clip units sizes Kmat u (map qn v) == unit_fn Hypercube tensor' clip units sizes Kmat u (map qn v).
Proof. intros Hne Hs Hw Hv. rewrite unit_fn_simplex, (unit_fn_hyper_ok (vertex_ok clip sizes v Hv) Hne).
  exact (schemes_agree_vertex clip sizes _ _ Hs (gather_gk units sizes Kmat u Hw) tensor' v Hv). Qed.

(* more non-vacuity examples (hypotheses of C02_schemes_agree, C02_simplex_continuous, C02_hyper_continuous) *)
Example ex_edge_point : forall j, j <> 1%nat -> (j < length ex_sizes)%nat ->
  exists k, nth j (eff true ex_sizes [1; 1#2]) 0 == qn k.
Proof. intros j Hj Hl. destruct j as [|[|j]]; cbn in Hl; try lia. exists 1%nat. vm_compute. reflexivity. Qed.
Example ex_face : dec ex_sizes [0; 0]%nat [1#4; 1#2] [1#4; 1#2] /\ (S (S (nth 1 [0; 0]%nat 0%nat)) < nth 1 ex_sizes 0%nat)%nat.
Proof. split. repeat constructor; try lra; try lia; vm_compute; reflexivity. cbn. lia. Qed.
Example ex_two_cells : in_cell ex_sizes [0; 0]%nat [1#2; 1] /\ in_cell ex_sizes [0; 1]%nat [1#2; 1].
Proof. split; repeat constructor; unfold qn, inject_Z; cbn; lra. Qed.
