(* The per-dimension monotonicity theorems of C01 (finding D1), with their condition named.

   finalize_monotone / constraint_monotone exclude the whole configuration
   class [trap_mono_cond_with_edgeworth].  The scalar-mode trapezoid pass (Edgeworth
   trusts configured) shifts whole slices {main = 0 / last, conditional = j} by a
   per-unit amount, which can only break the order along the CONDITIONAL dimension
   of that trust (LatticeTrapezoid.approx_trapezoid_mono_dim).  So for every valid
   configuration, D1 class included, the result is monotone along every monotone
   dimension that is not the conditional feature of a trapezoid trust, and along
   every monotone dimension when no Edgeworth trust is configured:
   LatticeFinalize.finalize_mono_along / constraint_mono_along, from which the
   guarded theorems are derived there.  This file names the condition, restates
   the two theorems with it, shows that inside the D1 class it does exclude some
   monotone dimension, and gives the contrapositive reading. *)
From TFL Require Import Proofs.LatticeSpecFacts Proofs.LatticeMono Proofs.LatticeFinalize.
Open Scope Q_scope.

(* the per-dimension condition: d is not disturbed by the trapezoid pass *)
Definition outside_trapezoid_conditionals (c : lat_cfg) (d : nat) : Prop :=
  l_edge c = [] \/ forall t, In t (l_trap c) -> snd (fst t) <> d.

Section Dims.
Variable c : lat_cfg.
Hypothesis Hc : cfg_valid c.
Local Notation sh := (l_shape c).
Local Notation md := (mono_dims (l_monos c)).

Theorem finalize_monotone_dim W d : In d md -> outside_trapezoid_conditionals c d ->
  mono_along sh d (finalize c W).
Proof. exact (finalize_mono_along c Hc W d). Qed.

Theorem constraint_monotone_dim ran Wd d : block_ok c ran -> In d md -> outside_trapezoid_conditionals c d ->
  mono_along sh d (LC c ran Wd).
Proof. exact (constraint_mono_along c Hc ran Wd d). Qed.

(* conversely, inside the D1 class some monotone dimension is excluded *)
Lemma d1_excludes_some_dim : trap_mono_cond_with_edgeworth c ->
  exists d, In d md /\ ~ outside_trapezoid_conditionals c d.
Proof.
  intros [He (t & Hin & Hm)]. exists (snd (fst t)). split.
  - apply mono_dims_spec. destruct t as [[m cd] dir]. cbn [fst snd] in *.
    destruct (cfg_trap_dims c m cd dir Hc Hin) as (_ & Hcu & _).
    destruct Hc as (_ & _ & Hl & _). split; [|rewrite Hm; discriminate].
    rewrite Hl. exact Hcu.
  - intros [E|H]; [exact (He E)|]. exact (H t Hin eq_refl).
Qed.

Corollary finalize_monotone_from_dims W : ~ trap_mono_cond_with_edgeworth c -> monotone_kernel c (finalize c W).
Proof. intros Hg d Hd. apply finalize_monotone_dim; [exact Hd|]. apply (LatticeTrapezoid.T_not_d1 c Hc); assumption. Qed.

Lemma D_cond_dec (ts : list trust) d :
  (forall t, In t ts -> snd (fst t) <> d) \/ (exists t, In t ts /\ snd (fst t) = d).
Proof.
  induction ts as [|t ts IH]. left; intros t [].
  destruct (Nat.eq_dec (snd (fst t)) d) as [E|E].
  - right. exists t. split; [left; reflexivity|exact E].
  - destruct IH as [H|(t' & Hin & E')].
    + left. intros t' [<-|Hin]; [exact E|apply H; exact Hin].
    + right. exists t'. split; [right; exact Hin|exact E'].
Qed.

(* contrapositive form: a monotonicity failure of the result can only occur along
   the conditional dimension of a trapezoid trust, with Edgeworth trusts present *)
Theorem constraint_monotone_failure_dim ran Wd d : block_ok c ran -> In d md ->
  ~ mono_along sh d (LC c ran Wd) ->
  l_edge c <> [] /\ exists t, In t (l_trap c) /\ snd (fst t) = d.
Proof.
  intros Hb Hd Hn. destruct (D_cond_dec (l_trap c) d) as [H|H].
  - exfalso. apply Hn. apply constraint_monotone_dim; [exact Hb|exact Hd|right; exact H].
  - split; [|exact H]. intros E. apply Hn. apply constraint_monotone_dim; [exact Hb|exact Hd|left; exact E].
Qed.
End Dims.

Print Assumptions finalize_monotone_dim.
Print Assumptions constraint_monotone_dim.
Print Assumptions constraint_monotone_failure_dim.
