(* batch_outer_operation followed by the product with the kernel column is
   the recursion over dimensions interp_w on the row-major kernel tensor. *)
From TFL Require Export Proofs.LatticeHyper.
Open Scope Q_scope.

(* indexed sum: sum_idx f (off + idx) l[idx] *)
Fixpoint isum (f : nat -> Q -> Q) (off : nat) (l : list Q) : Q :=
  match l with [] => 0 | a :: r => f off a + isum f (S off) r end.

Lemma isum_app f : forall l1 l2 off, isum f off (l1 ++ l2) == isum f off l1 + isum f (off + length l1) l2.
Proof. induction l1 as [|a l1 IH]; intros l2 off; cbn [app isum length].
  rewrite Nat.add_0_r. ring. rewrite IH. replace (S off + length l1)%nat with (off + S (length l1))%nat by lia. ring. Qed.

Lemma isum_map f (h : Q -> Q) : forall l off, isum f off (map h l) = isum (fun j b => f j (h b)) off l.
Proof. induction l as [|a l IH]; intros off; cbn [map isum]. reflexivity. rewrite IH. reflexivity. Qed.

Lemma isum_ext f g : forall l off, (forall j a, f j a == g j a) -> isum f off l == isum g off l.
Proof. induction l as [|a l IH]; intros off H; cbn [isum]. reflexivity. rewrite H, IH by exact H. reflexivity. Qed.

Lemma isum_scale f c : forall l off, isum (fun j b => c * f j b) off l == c * isum f off l.
Proof. induction l as [|a l IH]; intros off; cbn [isum]. ring. rewrite IH. ring. Qed.

(* over the tabulated weights of one dimension *)
Lemma isum_tab (f : nat -> Q -> Q) (w : nat -> Q) : forall s k0 off,
  isum f (off + k0) (map w (seq k0 s)) == qsum (map (fun k => f (off + k)%nat (w k)) (seq k0 s)).
Proof. induction s as [|s IH]; intros k0 off; cbn [seq map isum qsum]. reflexivity.
  replace (S (off + k0))%nat with (off + S k0)%nat by lia. rewrite IH. reflexivity. Qed.

Lemma isum_flat_map f W s : length W = s -> forall acc o,
  isum f (o * s) (flat_map (fun a => map (Qmult a) W) acc) ==
  isum (fun j a => isum (fun k' b => f k' (a * b)) (j * s) W) o acc.
Proof. intros HW. induction acc as [|a acc IH]; intros o; cbn [flat_map isum]. reflexivity.
  rewrite isum_app, map_length, HW. rewrite isum_map. replace (o * s + s)%nat with (S o * s)%nat by lia.
  rewrite IH. reflexivity. Qed.

Lemma isum_beyond (M : list Q) : forall a off, (length M <= off)%nat -> isum (fun j x => x * nth j M 0) off a == 0.
Proof. induction a as [|x a IH]; intros off H; cbn [isum]. reflexivity.
  rewrite nth_overflow by exact H. rewrite IH by lia. ring. Qed.

Lemma dot_isum_gen : forall a L pre,
  qsum (map2 Qmult a L) == isum (fun j x => x * nth j (pre ++ L) 0) (length pre) a.
Proof. induction a as [|x a IH]; intros L pre; cbn [isum map2 qsum]. reflexivity.
  destruct L as [|y r]; cbn [map2 qsum].
  - rewrite app_nil_r. rewrite nth_overflow by lia. rewrite isum_beyond by lia. ring.
  - rewrite nth_middle. rewrite (IH r (pre ++ [y])). rewrite app_length. cbn [length]. rewrite Nat.add_1_r.
    rewrite <- app_assoc. cbn [app]. reflexivity. Qed.

Lemma dot_isum a L : qsum (map2 Qmult a L) == isum (fun j x => x * nth j L 0) 0 a.
Proof. exact (dot_isum_gen a L []). Qed.

(* the general step: [acc] holds the merged weights of the leading dimensions *)
Lemma outer_fold L : forall ss ws acc, length ws = length ss ->
  qsum (map2 Qmult (fold_left outer_step (weight_lists ss ws) acc) L) ==
  isum (fun j a => a * interp_w ss ws (fun i => nth (j * prodn ss + flat ss i) L 0)) 0 acc.
Proof. induction ss as [|s ss IH]; intros ws acc Hl; destruct ws as [|w ws]; try discriminate.
  - cbn [weight_lists map2 fold_left interp_w prodn fold_right flat].
    rewrite (dot_isum acc L). apply isum_ext. intros j a. rewrite Nat.mul_1_r, Nat.add_0_r. reflexivity.
  - cbn [weight_lists map2 fold_left]. fold (weight_lists ss ws). rewrite IH by (cbn in Hl; lia).
    unfold outer_step. pose proof (isum_flat_map
      (fun j a => a * interp_w ss ws (fun i => nth (j * prodn ss + flat ss i) L 0)) (map w (seq 0 s)) s
      ltac:(rewrite map_length, seq_length; reflexivity) acc 0%nat) as FM. cbn [Nat.mul] in FM. rewrite FM.
    apply isum_ext. intros j a.
    pose proof (isum_tab (fun k' b => a * b * interp_w ss ws (fun i => nth (k' * prodn ss + flat ss i) L 0)) w s 0 (j * s)) as T.
    rewrite Nat.add_0_r in T. rewrite T. rewrite interp_w_cons. unfold wsum. rewrite <- qsum_map_scale.
    apply qsum_seq_ext. intros k Hk.
    assert (E : interp_w ss ws (fun i => nth ((j * s + k) * prodn ss + flat ss i) L 0) ==
                interp_w ss ws (fun i => nth (j * prodn (s :: ss) + flat (s :: ss) (k :: i)) L 0)).
    { apply interp_w_ext_K. cbn in Hl; lia. intros i _. cbn [prodn fold_right flat]. fold (prodn ss).
      replace ((j * s + k) * prodn ss + flat ss i)%nat with (j * (s * prodn ss) + (k * prodn ss + flat ss i))%nat by nia.
      reflexivity. }
    rewrite E. ring. Qed.

Theorem hyper_lit_eq tensor clip sizes Kcol x : length x = length sizes -> sizes <> [] ->
  hyper_unit_lit tensor clip sizes Kcol x == hyper_unit tensor clip sizes (of_list sizes Kcol) x.
Proof. intros Hl Hne. unfold hyper_unit_lit, hyper_unit, dot. rewrite rsum_qsum.
  set (ws := hyper_weights tensor clip sizes x).
  assert (Lw : length ws = length sizes).
  { unfold ws, hyper_weights. destruct (all2 sizes && tensor); rewrite map_length. exact Hl.
    exact (eff_length clip sizes x Hl). }
  rewrite (interp_w_ext_K sizes ws (of_list sizes Kcol) (fun i => nth (flat sizes i) Kcol 0) Lw)
    by (intros i Hi; unfold of_list; rewrite memo_ok by exact Hi; reflexivity).
  destruct sizes as [|s ss]; [congruence|]. destruct ws as [|w ws']; [discriminate|].
  cbn [weight_lists map2 batch_outer]. fold (weight_lists ss ws').
  rewrite outer_fold by (cbn in Lw; lia).
  pose proof (isum_tab (fun j a => a * interp_w ss ws' (fun i => nth (j * prodn ss + flat ss i) Kcol 0)) w s 0 0) as T.
  cbn [Nat.add] in T. rewrite T. rewrite interp_w_cons. unfold wsum. apply qsum_seq_ext. intros k Hk. reflexivity. Qed.
