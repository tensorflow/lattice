From TFL Require Import Model.PartialOrder.
Open Scope Q_scope.

(* pointwise equality of weight vectors *)
Definition peq (a b : list Q) : Prop := length a = length b /\ forall k, nth k a 0 == nth k b 0.
Lemma peq_refl a : peq a a. Proof. split; [reflexivity|intros; reflexivity]. Qed.
Lemma peq_trans {a b c} : peq a b -> peq b c -> peq a c.
Proof. intros [L1 H1] [L2 H2]. split; [congruence|]. intros k. rewrite H1. apply H2. Qed.
Lemma peq_sym {a b} : peq a b -> peq b a.
Proof. intros [L1 H1]. split; [congruence|]. intros k. symmetry. apply H1. Qed.

Lemma nth_overflow_Q (l : list Q) k : (length l <= k)%nat -> nth k l 0 = 0.
Proof. apply nth_overflow. Qed.

Section Gen.
  Variable sel : Q -> Q -> Q.
  Variable R : Q -> Q -> Prop.
  Hypothesis R_proper : forall a a' b b', a == a' -> b == b' -> R a b -> R a' b'.
  Hypothesis R_refl : forall a, R a a.
  Hypothesis R_trans : forall a b c, R a b -> R b c -> R a c.
  Hypothesis sel_l : forall a b, R (sel a b) a.
  Hypothesis sel_r : forall a b, R (sel a b) b.
  Hypothesis sel_id : forall a b, R a b -> sel a b == a.
  Hypothesis sel_proper : forall a a' b b', a == a' -> b == b' -> sel a b == sel a' b'.
  Variable nb : nat -> list nat.

  Definition fsel (w : list Q) (js : list nat) (a : Q) : Q := fold_left (fun m j => sel m (nth j w 0)) js a.

  Lemma fsel_R w js : forall a, R (fsel w js a) a /\ forall j, In j js -> R (fsel w js a) (nth j w 0).
  Proof. induction js as [|j js IH]; intros a; cbn [fsel fold_left]. split; [apply R_refl|intros ? []].
    destruct (IH (sel a (nth j w 0))) as [H1 H2]. fold (fsel w js (sel a (nth j w 0))) in *. split.
    - eapply R_trans. exact H1. apply sel_l.
    - intros x [<-|Hx]. eapply R_trans. exact H1. apply sel_r. apply H2; assumption. Qed.

  Lemma fsel_id w js : forall a, (forall j, In j js -> R a (nth j w 0)) -> fsel w js a == a.
  Proof. induction js as [|j js IH]; intros a H; cbn [fsel fold_left]. reflexivity.
    fold (fsel w js (sel a (nth j w 0))).
    assert (E : sel a (nth j w 0) == a) by (apply sel_id; apply H; left; reflexivity).
    rewrite IH. exact E. intros x Hx. eapply R_proper; [symmetry; exact E|reflexivity|]. apply H; right; assumption. Qed.

  Lemma fsel_proper w w' js : (forall k, nth k w 0 == nth k w' 0) -> forall a a', a == a' -> fsel w js a == fsel w' js a'.
  Proof. intros Hw. induction js as [|j js IH]; intros a a' Ha; cbn [fsel fold_left]. exact Ha.
    apply IH. apply sel_proper; [exact Ha|apply Hw]. Qed.

  Definition gstep := gen_step sel nb.
  Definition gpass := gen_pass sel nb.

  Lemma gstep_length step w i : length (gstep step w i) = length w.
  Proof. unfold gstep, gen_step. destruct (nb i); [reflexivity|apply set_nth_length]. Qed.

  (* the step at i writes position i only, and only when i has neighbours *)
  Lemma gstep_other step w i k : i <> k \/ nb i = [] -> nth k (gstep step w i) 0 = nth k w 0.
  Proof. unfold gstep, gen_step. intros [H|H]; [|rewrite H; reflexivity].
    destruct (nb i); [reflexivity|]. apply nth_set_nth_other; exact H. Qed.
  Lemma gstep_same step w i : (i < length w)%nat -> nb i <> [] ->
    nth i (gstep step w i) 0 == step * fsel w (nb i) (nth i w 0) + (1 - step) * nth i w 0.
  Proof. intros Hi Hn. unfold gstep, gen_step. destruct (nb i) as [|j js] eqn:E; [congruence|].
    rewrite nth_set_nth_same by exact Hi. apply Qred_correct. Qed.
  Lemma gstep_cases step w i k : nth k (gstep step w i) 0 = nth k w 0 \/
    k = i /\ nth k (gstep step w i) 0 == step * fsel w (nb i) (nth i w 0) + (1 - step) * nth i w 0.
  Proof. destruct (Nat.eq_dec i k) as [<-|Hne]; [|left; apply gstep_other; left; exact Hne].
    destruct (nb i) as [|j js] eqn:E; [left; apply gstep_other; right; exact E|].
    destruct (Nat.lt_ge_cases i (length w)) as [Hi|Hi].
    - right. split; [reflexivity|]. rewrite <- E. apply gstep_same; [exact Hi|rewrite E; discriminate].
    - left. rewrite !nth_overflow by (rewrite ?gstep_length; exact Hi). reflexivity. Qed.

  Lemma gpass_cons step v L w : gpass step (v :: L) w = gpass step L (gstep step w v).
  Proof. reflexivity. Qed.
  (* what holds of w and is kept by the step at every element of L holds of the pass *)
  Lemma gpass_ind (I : list Q -> Prop) step L : (forall w i, In i L -> I w -> I (gstep step w i)) ->
    forall w, I w -> I (gpass step L w).
  Proof. induction L as [|v L IH]; intros HI w Hw; [exact Hw|]. rewrite gpass_cons. apply IH.
    - intros w' i Hi. apply HI. right; exact Hi.
    - apply HI; [left; reflexivity|exact Hw]. Qed.

  Lemma gpass_length step L w : length (gpass step L w) = length w.
  Proof. apply (gpass_ind (fun w' => length w' = length w)); [|reflexivity].
    intros w' i _ E. rewrite gstep_length. exact E. Qed.
  Lemma gpass_unchanged step L w k : (forall i, In i L -> i <> k \/ nb i = []) ->
    nth k (gpass step L w) 0 = nth k w 0.
  Proof. intros H. apply (gpass_ind (fun w' => nth k w' 0 = nth k w 0)); [|reflexivity].
    intros w' i Hi E. rewrite gstep_other by (apply H; exact Hi). exact E. Qed.

  Fixpoint okL (L : list nat) : Prop :=
    match L with
    | [] => True
    | v :: rest => (forall j, In j (nb v) -> ~ In j rest) /\ ~ In v rest /\ okL rest
    end.

  (* A full pass over an admissible order establishes R between every processed
     node and each of its neighbours: the value written at u is final, and so
     are the values of u's neighbours at that moment. *)
  Lemma gpass_establishes : forall L w, okL L -> (forall v, In v L -> (v < length w)%nat) ->
    forall v j, In v L -> In j (nb v) -> R (nth v (gpass 1 L w) 0) (nth j (gpass 1 L w) 0).
  Proof.
    induction L as [|u L IH]; intros w Hok Hr v j Hv Hj. destruct Hv.
    cbn [okL] in Hok. destruct Hok as [Hnb [Hu Hok]]. rewrite gpass_cons.
    destruct Hv as [<-|Hv].
    - (* neither u nor its neighbour j comes again in L *)
      rewrite (gpass_unchanged 1 L _ u) by (intros i Hi; left; intros ->; exact (Hu Hi)).
      rewrite (gpass_unchanged 1 L _ j) by (intros i Hi; left; intros ->; exact (Hnb j Hj Hi)).
      assert (E : nth u (gstep 1 w u) 0 == fsel w (nb u) (nth u w 0)).
      { rewrite gstep_same; [lra|apply Hr; left; reflexivity|intro E; rewrite E in Hj; destruct Hj]. }
      destruct (Nat.eq_dec u j) as [<-|Hneq]; [apply R_refl|].
      eapply R_proper; [symmetry; exact E|reflexivity|].
      rewrite gstep_other by (left; exact Hneq). apply fsel_R. exact Hj.
    - apply IH; try assumption. intros x Hx. rewrite gstep_length. apply Hr. right; assumption.
  Qed.

  Definition feasR (w : list Q) : Prop := forall v j, In j (nb v) -> R (nth v w 0) (nth j w 0).

  Lemma feasR_peq w w' : peq w w' -> feasR w -> feasR w'.
  Proof. intros [_ H] F v j Hj. eapply R_proper; [apply H|apply H|]. apply F; exact Hj. Qed.

  Lemma gstep_fixed step w i : feasR w -> peq (gstep step w i) w.
  Proof. intros F. split; [apply gstep_length|]. intros k.
    destruct (gstep_cases step w i k) as [->|[-> ->]]; [reflexivity|].
    rewrite fsel_id by (intros j Hj; apply F; exact Hj). lra. Qed.

  (* Fixed point: a pass with any step, started anywhere pointwise equal to a
     w0 where R already holds everywhere, stays there. *)
  Lemma gpass_fixed step L w w0 : feasR w0 -> peq w w0 -> peq (gpass step L w) w0.
  Proof. intros F. apply (gpass_ind (fun w' => peq w' w0)).
    intros w' i _ P. eapply peq_trans; [|exact P]. apply gstep_fixed.
    apply (feasR_peq w0); [apply peq_sym; exact P|exact F]. Qed.

  (* Predicates closed under sel and the step's convex combination are kept on
     all entries. *)
  Section Pred.
    Variable P : Q -> Prop.
    Variable step : Q.
    Hypothesis P_proper : forall a b, a == b -> P a -> P b.
    Hypothesis P_sel : forall a b, P a -> P b -> P (sel a b).
    Hypothesis P_mix : forall a b, P a -> P b -> P (step * a + (1 - step) * b).
    Variable S : nat -> Prop. (* the entries for which P is known *)
    Hypothesis S_nb : forall v j, In j (nb v) -> S v /\ S j.

    Definition allP (w : list Q) : Prop := forall k, S k -> P (nth k w 0).

    Lemma fsel_P w js : (forall j, In j js -> P (nth j w 0)) -> forall a, P a -> P (fsel w js a).
    Proof. induction js as [|j js IH]; intros H a Ha; cbn [fsel fold_left]. exact Ha.
      apply IH. intros; apply H; right; assumption. apply P_sel. exact Ha. apply H; left; reflexivity. Qed.

    Lemma gstep_P w i : allP w -> allP (gstep step w i).
    Proof. intros H k Sk. destruct (gstep_cases step w i k) as [->|[-> E]]; [apply H; exact Sk|].
      apply (P_proper _ _ (Qeq_sym _ _ E)).
      apply P_mix; [|apply H; exact Sk]. apply fsel_P; [|apply H; exact Sk].
      intros x Hx. apply H. apply (S_nb i x). exact Hx. Qed.

    Lemma gpass_P L w : allP w -> allP (gpass step L w).
    Proof. apply gpass_ind. intros w' i _. apply gstep_P. Qed.
  End Pred.
End Gen.

Definition Rle (a b : Q) : Prop := a <= b.
Definition Rge (a b : Q) : Prop := b <= a.

Lemma min_sel_id a b : Rle a b -> qmin a b == a. Proof. unfold Rle; intros; qcases; lra. Qed.
Lemma max_sel_id a b : Rge a b -> qmax a b == a. Proof. unfold Rge; intros; qcases; lra. Qed.

Ltac solve_R := unfold Rle, Rge; intros; qcases; lra.

Definition feasible (ps : pairs) (w : list Q) : Prop := forall i j, In (i, j) ps -> nth i w 0 <= nth j w 0.

Lemma in_succs ps i j : In j (succs ps i) <-> In (i, j) ps.
Proof. unfold succs. rewrite in_map_iff. split.
  - intros [[a b] [E H]]. apply filter_In in H. destruct H as [H1 H2]. cbn in *. apply Nat.eqb_eq in H2. subst. exact H1.
  - intros H. exists (i, j). split; [reflexivity|]. apply filter_In. split; [exact H|]. cbn. apply Nat.eqb_refl. Qed.
Lemma in_preds ps i j : In i (preds ps j) <-> In (i, j) ps.
Proof. unfold preds. rewrite in_map_iff. split.
  - intros [[a b] [E H]]. apply filter_In in H. destruct H as [H1 H2]. cbn in *. apply Nat.eqb_eq in H2. subst. exact H1.
  - intros H. exists (i, j). split; [reflexivity|]. apply filter_In. split; [exact H|]. cbn. apply Nat.eqb_refl. Qed.

Lemma feasible_feasR_min ps w : feasible ps w <-> feasR Rle (succs ps) w.
Proof. unfold feasible, feasR, Rle. split; intros H.
  - intros v j Hj. apply H. apply in_succs. exact Hj.
  - intros i j Hij. apply H. apply in_succs. exact Hij. Qed.
Lemma feasible_feasR_max ps w : feasible ps w <-> feasR Rge (preds ps) w.
Proof. unfold feasible, feasR, Rge. split; intros H.
  - intros v j Hj. apply H. apply in_preds. exact Hj.
  - intros i j Hij. apply (H j i). apply in_preds. exact Hij. Qed.

(* A valid topological order for the pairs: no duplicates, contains every node
   of every pair, and for s = v :: rest no predecessor of v occurs in rest. *)
Fixpoint ordered (ps : pairs) (s : list nat) : Prop :=
  match s with
  | [] => True
  | v :: rest => (forall p, In (p, v) ps -> ~ In p rest) /\ ordered ps rest
  end.
Definition topo_ok (ps : pairs) (s : list nat) : Prop :=
  NoDup s /\ (forall i j, In (i, j) ps -> In i s /\ In j s) /\ ordered ps s.

Lemma okL_max ps s : NoDup s -> ordered ps s -> okL (preds ps) s.
Proof. induction s as [|v s IH]; intros Hn Ho; cbn [okL]. exact I.
  inversion Hn; subst. destruct Ho as [Hp Ho]. split; [|split].
  - intros j Hj. apply Hp. apply in_preds. exact Hj.
  - assumption.
  - apply IH; assumption. Qed.

Lemma okL_app nb A v : okL nb A -> ~ In v A -> (forall a j, In a A -> In j (nb a) -> j <> v) -> okL nb (A ++ [v]).
Proof. induction A as [|a A IH]; intros Hok Hv Hnb; cbn [app okL].
  - split; [intros j _ []|split; [intros []|exact I]].
  - cbn [okL] in Hok. destruct Hok as [H1 [H2 H3]]. split; [|split].
    + intros j Hj Hin. apply in_app_iff in Hin. destruct Hin as [Hin|[E|[]]].
      * exact (H1 j Hj Hin).
      * exact (Hnb a j (or_introl eq_refl) Hj (eq_sym E)).
    + intros Hin. apply in_app_iff in Hin. destruct Hin as [Hin|[E|[]]]. exact (H2 Hin). apply Hv; left; symmetry; exact E.
    + apply IH. exact H3. intro; apply Hv; right; assumption. intros a' j Ha' Hj. apply (Hnb a' j); [right; assumption|assumption]. Qed.

Lemma okL_min ps s : NoDup s -> ordered ps s -> okL (succs ps) (rev s).
Proof. induction s as [|v s IH]; intros Hn Ho; cbn [rev]. exact I.
  inversion Hn; subst. destruct Ho as [Hp Ho]. apply okL_app.
  - apply IH; assumption.
  - rewrite <- in_rev. assumption.
  - intros a j Ha Hj ->. apply in_succs in Hj. rewrite <- in_rev in Ha. exact (Hp a Hj Ha). Qed.

Definition pairs_in_range (ps : pairs) (w : list Q) : Prop :=
  forall i j, In (i, j) ps -> (i < length w)%nat /\ (j < length w)%nat.

Lemma min_proj_feasible ps s w : topo_ok ps s -> (forall v, In v s -> (v < length w)%nat) ->
  feasible ps (min_proj ps s 1 w).
Proof. intros [Hn [Hc Ho]] Hr i j Hij. unfold min_proj.
  apply (gpass_establishes qmin Rle); try solve [solve_R].
  - apply okL_min; assumption.
  - intros v Hv. apply Hr. apply in_rev. exact Hv.
  - rewrite <- in_rev. apply (Hc i j Hij).
  - apply in_succs. exact Hij. Qed.

Lemma max_proj_feasible ps s w : topo_ok ps s -> (forall v, In v s -> (v < length w)%nat) ->
  feasible ps (max_proj ps s 1 w).
Proof. intros [Hn [Hc Ho]] Hr i j Hij. unfold max_proj.
  change (Rge (nth j (gen_pass qmax (preds ps) 1 s w) 0) (nth i (gen_pass qmax (preds ps) 1 s w) 0)).
  apply (gpass_establishes qmax Rge); try solve [solve_R].
  - apply okL_max; assumption.
  - exact Hr.
  - apply (Hc i j Hij).
  - apply in_preds. exact Hij. Qed.

Lemma min_proj_length ps s st w : length (min_proj ps s st w) = length w.
Proof. apply gpass_length. Qed.
Lemma max_proj_length ps s st w : length (max_proj ps s st w) = length w.
Proof. apply gpass_length. Qed.
Lemma po_with_order_length ps s w : length (po_with_order ps s w) = length w.
Proof. unfold po_with_order. rewrite map2_length, max_proj_length, !min_proj_length, max_proj_length. apply Nat.min_id. Qed.

Lemma nth_avg a b k : length a = length b ->
  nth k (map2 (fun x y => Qred ((x + y) * (1#2))) a b) 0 == (nth k a 0 + nth k b 0) * (1#2).
Proof. revert b k; induction a as [|x a IH]; intros [|y b] k H; cbn in H; try discriminate.
  - destruct k; cbn; lra.
  - destruct k; cbn [map2 nth]. apply Qred_correct. apply IH. lia. Qed.
Lemma po_with_order_nth ps s w k : nth k (po_with_order ps s w) 0 ==
  (nth k (max_proj ps s 1 (min_proj ps s (1#2) w)) 0 + nth k (min_proj ps s 1 (max_proj ps s (1#2) w)) 0) * (1#2).
Proof. apply nth_avg. rewrite min_proj_length, !max_proj_length, min_proj_length. reflexivity. Qed.

Theorem po_with_order_feasible ps s w : topo_ok ps s -> (forall v, In v s -> (v < length w)%nat) ->
  feasible ps (po_with_order ps s w).
Proof. intros Ht Hr i j Hij. rewrite !po_with_order_nth.
  pose proof (max_proj_feasible ps s (min_proj ps s (1#2) w) Ht
               ltac:(intros v Hv; rewrite min_proj_length; apply Hr; exact Hv) i j Hij) as H1.
  pose proof (min_proj_feasible ps s (max_proj ps s (1#2) w) Ht
               ltac:(intros v Hv; rewrite max_proj_length; apply Hr; exact Hv) i j Hij) as H2.
  lra. Qed.

Lemma min_proj_fixed ps s st w w0 : feasible ps w0 -> peq w w0 -> peq (min_proj ps s st w) w0.
Proof. intros F. apply (gpass_fixed qmin Rle); try solve [solve_R]. apply feasible_feasR_min. exact F. Qed.
Lemma max_proj_fixed ps s st w w0 : feasible ps w0 -> peq w w0 -> peq (max_proj ps s st w) w0.
Proof. intros F. apply (gpass_fixed qmax Rge); try solve [solve_R]. apply feasible_feasR_max. exact F. Qed.

Theorem po_with_order_fixed ps s w : feasible ps w -> peq (po_with_order ps s w) w.
Proof. intros F. pose proof (peq_refl w) as P0.
  destruct (max_proj_fixed ps s 1 _ w F (min_proj_fixed ps s (1#2) w w F P0)) as [_ HA].
  destruct (min_proj_fixed ps s 1 _ w F (max_proj_fixed ps s (1#2) w w F P0)) as [_ HB].
  split; [apply po_with_order_length|]. intros k. rewrite po_with_order_nth, HA, HB. lra. Qed.

Definition node (ps : pairs) (k : nat) : Prop := exists x, In (k, x) ps \/ In (x, k) ps.
(* lo is a lower bound on the entries that occur in a pair: the passes keep it
   (used for signs in Linear) *)
Definition lower_on (ps : pairs) (lo : Q) (w : list Q) : Prop := forall k, node ps k -> lo <= nth k w 0.

Lemma succs_node ps v j : In j (succs ps v) -> node ps v /\ node ps j.
Proof. intros H. apply in_succs in H. split; [exists j; left|exists v; right]; exact H. Qed.
Lemma preds_node ps v j : In j (preds ps v) -> node ps v /\ node ps j.
Proof. intros H. apply in_preds in H. split; [exists j; right|exists v; left]; exact H. Qed.

(* a lower bound on all nodes is kept by a pass whose selection keeps it and
   whose step lies in [0, 1] *)
Lemma po_pass_lower ps (sel : Q -> Q -> Q) nb step lo L w :
  (forall a b, lo <= a -> lo <= b -> lo <= sel a b) -> 0 <= step -> step <= 1 ->
  (forall v j, In j (nb v) -> node ps v /\ node ps j) ->
  lower_on ps lo w -> lower_on ps lo (gen_pass sel nb step L w).
Proof. intros Hsel H0 H1 Hnb.
  apply (gpass_P sel nb (fun x => lo <= x) step); try assumption.
  - intros a b E H. lra.
  - intros a b Ha Hb. pose proof (qmul_nonneg step (a - lo) H0 ltac:(lra)). pose proof (qmul_nonneg (1 - step) (b - lo) ltac:(lra) ltac:(lra)). lra. Qed.

Lemma min_proj_lower ps s st lo w : 0 <= st -> st <= 1 -> lower_on ps lo w -> lower_on ps lo (min_proj ps s st w).
Proof. intros H0 H1. apply (po_pass_lower ps qmin); [intros; qcases; lra|exact H0|exact H1|apply succs_node]. Qed.
Lemma max_proj_lower ps s st lo w : 0 <= st -> st <= 1 -> lower_on ps lo w -> lower_on ps lo (max_proj ps s st w).
Proof. intros H0 H1. apply (po_pass_lower ps qmax); [intros; qcases; lra|exact H0|exact H1|apply preds_node]. Qed.

Theorem po_with_order_lower ps s w lo : lower_on ps lo w -> lower_on ps lo (po_with_order ps s w).
Proof. intros Hw k Hk. rewrite po_with_order_nth.
  assert (A : lo <= nth k (max_proj ps s 1 (min_proj ps s (1#2) w)) 0).
  { apply max_proj_lower; [lra|lra| |exact Hk]. apply min_proj_lower; [lra|lra|exact Hw]. }
  assert (B : lo <= nth k (min_proj ps s 1 (max_proj ps s (1#2) w)) 0).
  { apply min_proj_lower; [lra|lra| |exact Hk]. apply max_proj_lower; [lra|lra|exact Hw]. }
  lra. Qed.

(* entries that occur in no pair are returned unchanged: they have no neighbours *)
Lemma gen_pass_nonnode ps sel nb step L w k : (forall v j, In j (nb v) -> node ps v) -> ~ node ps k ->
  nth k (gen_pass sel nb step L w) 0 = nth k w 0.
Proof. intros Hnb Hk. apply (gpass_unchanged sel nb). intros i _.
  destruct (Nat.eq_dec i k) as [->|Hne]; [right|left; exact Hne].
  destruct (nb k) as [|j js] eqn:E; [reflexivity|]. exfalso. apply Hk. apply (Hnb k j). rewrite E; left; reflexivity. Qed.

Lemma min_proj_nonnode ps s st w k : ~ node ps k -> nth k (min_proj ps s st w) 0 = nth k w 0.
Proof. apply gen_pass_nonnode. apply succs_node. Qed.
Lemma max_proj_nonnode ps s st w k : ~ node ps k -> nth k (max_proj ps s st w) 0 = nth k w 0.
Proof. apply gen_pass_nonnode. apply preds_node. Qed.

Theorem po_with_order_nonnode ps s w k : ~ node ps k -> nth k (po_with_order ps s w) 0 == nth k w 0.
Proof. intros Hk. rewrite po_with_order_nth.
  rewrite max_proj_nonnode, min_proj_nonnode, min_proj_nonnode, max_proj_nonnode by exact Hk. lra. Qed.

(* reflection of the executable order check *)
Lemma nodupb_NoDup l : nodupb l = true -> NoDup l.
Proof. induction l as [|x l IH]; cbn [nodupb]. constructor.
  rewrite andb_true_iff, negb_true_iff, mem_nat_false. intros [H1 H2]. constructor; [exact H1|apply IH; exact H2]. Qed.
Lemma orderedb_ordered ps s : orderedb ps s = true -> ordered ps s.
Proof. induction s as [|v s IH]; cbn [orderedb ordered]. exact (fun _ => I).
  rewrite andb_true_iff, forallb_forall. intros [H1 H2]. split; [|apply IH; exact H2].
  intros p Hp. specialize (H1 (p, v) Hp). cbn [fst snd] in H1.
  rewrite Nat.eqb_refl, negb_true_iff in H1. apply mem_nat_false. exact H1. Qed.
Lemma topo_okb_ok ps s : topo_okb ps s = true -> topo_ok ps s.
Proof. unfold topo_okb. rewrite !andb_true_iff, forallb_forall. intros [[H1 H2] H3].
  split; [apply nodupb_NoDup; exact H1|split; [|apply orderedb_ordered; exact H3]].
  intros i j Hij. specialize (H2 (i, j) Hij). cbn [fst snd] in H2.
  rewrite andb_true_iff, !mem_nat_true in H2. exact H2. Qed.
