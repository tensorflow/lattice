(* The Boyle-Dykstra bound (Proofs/DykstraBound.v) for the MODEL of
   lattice_lib.project_by_dykstra (Model/LatticeDykstra.v): dyk_step / dyk_sweep
   / dyk_loop with the keyed last_change dictionary.

   The model's sweep is not literally an [asweep] (dictionary with shared keys,
   memo / Qred around every tensor), so the one-step lemma [bd_step] is iterated
   directly over dyk_step, with a ghost function  lp : key -> tens  (the point
   produced by the last projection stored under a key) that exists only in the
   proof.  The potential sums over the DISTINCT keys of the maps, so no
   hypothesis "no constraint listed twice" is needed here.

   [dyk_loop_bound]        generic keyed nearest-point maps, common point Y:
                           dist2 (W_n, Y) + (squared movement of sweeps 1..n) <= dist2 (W_0, Y)
   [dyk_loop_stalls]       n >= 1: some sweep k < n moves by at most dist2 (W_0, Y) / n
   [dyk_moves_zero_fixpoint] a sweep that does not move reproduces every stored change
   [dykstra_never_farther_from_feasible], [dykstra_moves_summable],
   [dykstra_stalls], [dykstra_stalled_nearest]
                           the same for group_ops c of a configuration of the six
                           exact families and a feasible kernel Y. *)
From TFL Require Export Proofs.LatticeDykstra Proofs.DykstraBound.
Open Scope Q_scope.

Definition dist2 (sh : list nat) (f g : tens) : Q := d2 (all_idx sh) f g.

Definition key_dec : forall a b : key, {a = b} + {a <> b} := list_eq_dec Z.eq_dec.

(* squared movement of one sweep: sum over its group steps of dist2 (W_after, W_before) *)
Fixpoint dyk_moves (sh : list nat) (ops : list (key * (tens -> tens))) (st : tens * list (key * tens)) : Q :=
  match ops with
  | [] => 0
  | kop :: r => let st' := dyk_step sh st kop in dist2 sh (fst st') (fst st) + dyk_moves sh r st'
  end.
(* ... of each of the first n sweeps *)
Fixpoint dyk_loop_moves (sh : list nat) (ops : list (key * (tens -> tens))) (n : nat) (st : tens * list (key * tens)) : list Q :=
  match n with
  | O => []
  | S n' => dyk_moves sh ops st :: dyk_loop_moves sh ops n' (dyk_sweep sh ops st)
  end.

Lemma dyk_moves_nonneg sh ops : forall st, 0 <= dyk_moves sh ops st.
Proof. induction ops as [|kop r IH]; intros st; cbn [dyk_moves]. lra.
  pose proof (d2_nonneg (all_idx sh) (fst (dyk_step sh st kop)) (fst st)). specialize (IH (dyk_step sh st kop)).
  unfold dist2. lra. Qed.
Lemma dyk_loop_moves_length sh ops n : forall st, length (dyk_loop_moves sh ops n st) = n.
Proof. induction n as [|n IH]; intros st; cbn [dyk_loop_moves length]. reflexivity. rewrite IH. reflexivity. Qed.
Lemma dyk_loop_moves_nth sh ops n : forall st k, (k < n)%nat ->
  nth k (dyk_loop_moves sh ops n st) 0 = dyk_moves sh ops (dyk_loop sh ops k st).
Proof. induction n as [|n IH]; intros st k Hk. lia. destruct k as [|k]; cbn [dyk_loop_moves nth dyk_loop]. reflexivity.
  apply IH. lia. Qed.
Lemma dyk_loop_moves_nonneg sh ops n : forall st m, In m (dyk_loop_moves sh ops n st) -> 0 <= m.
Proof. induction n as [|n IH]; intros st m; cbn [dyk_loop_moves]. intros []. intros [<-|H]. apply dyk_moves_nonneg. exact (IH _ _ H). Qed.

Section ModelBound.
Variables (sh : list nat) (Cof : key -> tens -> Prop) (Y : tens) (K : list key).
Hypothesis K_nodup : NoDup K.
Notation II := (all_idx sh).
Notation state := (tens * list (key * tens))%type.

(* dual part of the potential, with the ghost last points lp *)
Definition mdual (lc : list (key * tens)) (lp : key -> tens) : Q :=
  qsum (map (fun k => ip II (lc_get lc k) (vsub Y (lp k))) K).
Definition mphi (st : state) (lp : key -> tens) : Q := dist2 sh (fst st) Y + 2 * mdual (snd st) lp.
Definition minv (lc : list (key * tens)) (lp : key -> tens) : Prop :=
  forall k, In k K -> forall c, Cof k c -> 0 <= ip II (lc_get lc k) (vsub c (lp k)).
(* key among K, the map is a nearest-point map onto the set of its key, which contains Y *)
Definition op_good (kop : key * (tens -> tens)) : Prop :=
  In (fst kop) K /\ is_proj II (Cof (fst kop)) (snd kop) /\ Cof (fst kop) Y.

Lemma m_step (st : state) kop lp : op_good kop -> minv (snd st) lp ->
  exists lp', minv (snd (dyk_step sh st kop)) lp' /\
    mphi (dyk_step sh st kop) lp' + dist2 sh (fst (dyk_step sh st kop)) (fst st) <= mphi st lp.
Proof. destruct st as [W lc], kop as [k op]. intros (HK & HP & HY) Hinv.
  destruct (dyk_step_spec sh W lc k op) as (rolled & new & -> & Hz & He). cbn [fst snd] in *.
  apply teq_veq in Hz, He. set (W1 := op rolled) in *.
  destruct (bd_step II (Cof k) op Y W (lc_get lc k) (lp k) rolled new HP HY (Hinv k HK) Hz He) as (Hnew & Hsl & Hid).
  fold W1 in Hnew, Hsl, Hid.
  set (lp' := fun k' : key => if key_eqb k' k then W1 else lp k').
  assert (Hsame : lp' k = W1) by (unfold lp'; rewrite key_eqb_refl; reflexivity).
  assert (Hoth : forall k', k' <> k -> lp' k' = lp k') by (intros k' Hne; unfold lp'; rewrite key_eqb_neq by exact Hne; reflexivity).
  exists lp'. split.
  - intros k' Hk' c Hc. destruct (key_dec k' k) as [->|Hne].
    + rewrite lc_get_set_same, Hsame. apply Hnew. exact Hc.
    + rewrite lc_get_set_other by exact Hne. rewrite Hoth by exact Hne. apply Hinv; assumption.
  - unfold mphi, mdual. cbn [fst snd].
    rewrite (qsum_update K (fun k' => ip II (lc_get lc k') (vsub Y (lp k')))
               (fun k' => ip II (lc_get (lc_set lc k new) k') (vsub Y (lp' k'))) k K_nodup HK).
    + cbv beta. rewrite lc_get_set_same, Hsame. unfold dist2 in *. lra.
    + intros k' _ Hne. cbv beta. rewrite lc_get_set_other by exact Hne. rewrite Hoth by exact Hne. reflexivity. Qed.

Lemma m_sweep ops : forall (st : state) lp, (forall kop, In kop ops -> op_good kop) -> minv (snd st) lp ->
  exists lp', minv (snd (dyk_sweep sh ops st)) lp' /\
    mphi (dyk_sweep sh ops st) lp' + dyk_moves sh ops st <= mphi st lp.
Proof. induction ops as [|kop r IH]; intros st lp Hg Hi.
  - exists lp. split. exact Hi. cbn [dyk_moves]. unfold dyk_sweep. cbn [fold_left]. lra.
  - rewrite dyk_sweep_cons. cbn [dyk_moves].
    destruct (m_step st kop lp (Hg kop (or_introl eq_refl)) Hi) as [lp1 [Hi1 H1]].
    destruct (IH (dyk_step sh st kop) lp1 (fun k H => Hg k (or_intror H)) Hi1) as [lp2 [Hi2 H2]].
    exists lp2. split. exact Hi2. lra. Qed.

Lemma m_loop ops n : forall (st : state) lp, (forall kop, In kop ops -> op_good kop) -> minv (snd st) lp ->
  exists lp', minv (snd (dyk_loop sh ops n st)) lp' /\
    mphi (dyk_loop sh ops n st) lp' + qsum (dyk_loop_moves sh ops n st) <= mphi st lp.
Proof. induction n as [|n IH]; intros st lp Hg Hi; cbn [dyk_loop dyk_loop_moves qsum].
  - exists lp. split. exact Hi. lra.
  - destruct (m_sweep ops st lp Hg Hi) as [lp1 [Hi1 H1]].
    destruct (IH (dyk_sweep sh ops st) lp1 Hg Hi1) as [lp2 [Hi2 H2]].
    exists lp2. split. exact Hi2. lra. Qed.

Lemma mdual_nonneg lc lp : (forall k, In k K -> Cof k Y) -> minv lc lp -> 0 <= mdual lc lp.
Proof. intros HY Hi. unfold mdual. apply qsum_map_nonneg. intros k Hk. apply Hi. exact Hk. apply HY. exact Hk. Qed.

Lemma m_init (W0 : tens) : minv [] (fun _ => W0) /\ mphi (W0, []) (fun _ => W0) == dist2 sh W0 Y.
Proof. split.
  - intros k _ c _. change (lc_get [] k) with (@vzero idx). rewrite ip_zero_l. lra.
  - unfold mphi, mdual. cbn [fst snd].
    assert (Z : qsum (map (fun k : key => ip II (lc_get [] k) (vsub Y W0)) K) == 0).
    { apply qsum_map_zero. intros k _. change (lc_get [] k) with (@vzero idx). apply ip_zero_l. }
    rewrite Z. lra. Qed.
End ModelBound.

(* Generic keyed nearest-point maps: no hypothesis on the keys (duplicates
   allowed), no properness, only: every map is a nearest-point map onto the set
   named by its key, and Y lies in all these sets. *)
Theorem dyk_loop_bound sh (ops : list (key * (tens -> tens))) (Cof : key -> tens -> Prop) (Y W0 : tens) (n : nat) :
  (forall kop, In kop ops -> is_proj (all_idx sh) (Cof (fst kop)) (snd kop) /\ Cof (fst kop) Y) ->
  dist2 sh (fst (dyk_loop sh ops n (W0, []))) Y + qsum (dyk_loop_moves sh ops n (W0, [])) <= dist2 sh W0 Y.
Proof. intros Hops.
  set (K := nodup key_dec (map fst ops)).
  assert (Hnd : NoDup K) by apply NoDup_nodup.
  assert (Hg : forall kop, In kop ops -> op_good sh Cof Y K kop).
  { intros kop Hin. destruct (Hops kop Hin) as [HP HY]. split; [|split; assumption].
    apply nodup_In. apply in_map. exact Hin. }
  assert (HYK : forall k, In k K -> Cof k Y).
  { intros k Hk. apply nodup_In in Hk. apply in_map_iff in Hk. destruct Hk as [kop [<- Hin]]. apply (Hops kop Hin). }
  destruct (m_init sh Cof Y K W0) as [Hi0 Hphi0].
  destruct (m_loop sh Cof Y K Hnd ops n (W0, []) (fun _ => W0) Hg Hi0) as [lp [Hi H]].
  pose proof (mdual_nonneg sh Cof Y K _ lp HYK Hi) as Hd.
  unfold mphi in H at 1. rewrite Hphi0 in H. lra. Qed.

Theorem dyk_loop_never_farther sh (ops : list (key * (tens -> tens))) (Cof : key -> tens -> Prop) (Y W0 : tens) (n : nat) :
  (forall kop, In kop ops -> is_proj (all_idx sh) (Cof (fst kop)) (snd kop) /\ Cof (fst kop) Y) ->
  dist2 sh (fst (dyk_loop sh ops n (W0, []))) Y <= dist2 sh W0 Y.
Proof. intros Hops. pose proof (dyk_loop_bound sh ops Cof Y W0 n Hops).
  pose proof (qsum_nonneg _ (dyk_loop_moves_nonneg sh ops n (W0, []))). lra. Qed.

Theorem dyk_loop_stalls sh (ops : list (key * (tens -> tens))) (Cof : key -> tens -> Prop) (Y W0 : tens) (n : nat) :
  (forall kop, In kop ops -> is_proj (all_idx sh) (Cof (fst kop)) (snd kop) /\ Cof (fst kop) Y) ->
  (1 <= n)%nat ->
  exists k, (k < n)%nat /\ dyk_moves sh ops (dyk_loop sh ops k (W0, [])) * qnat n <= dist2 sh W0 Y.
Proof. intros Hops Hn.
  destruct (qsum_pigeonhole (dyk_loop_moves sh ops n (W0, [])) (dist2 sh W0 Y)) as [k [Hk Hle]].
  - intros E. apply (f_equal (@length Q)) in E. rewrite dyk_loop_moves_length in E. cbn in E. lia.
  - pose proof (dyk_loop_bound sh ops Cof Y W0 n Hops).
    pose proof (d2_nonneg (all_idx sh) (fst (dyk_loop sh ops n (W0, []))) Y). unfold dist2 in *. lra.
  - rewrite dyk_loop_moves_length in Hk, Hle. exists k. split. exact Hk.
    rewrite <- (dyk_loop_moves_nth sh ops n (W0, []) k Hk). exact Hle. Qed.

(* a sweep that does not move reproduces every stored change (distinct keys) *)
Lemma dyk_moves_zero_fixpoint sh ops : forall st, NoDup (map fst ops) -> dyk_moves sh ops st <= 0 ->
  teq sh (fst (dyk_sweep sh ops st)) (fst st) /\
  forall kop, In kop ops -> teq sh (lc_get (snd (dyk_sweep sh ops st)) (fst kop)) (lc_get (snd st) (fst kop)).
Proof. induction ops as [|[k op] r IH]; intros [W lc] Hnd H.
  - split. apply teq_refl. intros kop [].
  - cbn [map fst] in Hnd. inversion Hnd as [|? ? Hnotin Hnd']; subst.
    rewrite dyk_sweep_cons. cbn [dyk_moves] in H.
    destruct (dyk_step_spec sh W lc k op) as (rolled & new & Est & Hr & Hn). rewrite Est in H |- *.
    set (W1 := op rolled) in *. cbn [fst snd] in *.
    pose proof (d2_nonneg (all_idx sh) W1 W) as Hd. pose proof (dyk_moves_nonneg sh r (W1, lc_set lc k new)) as Hm.
    unfold dist2 in H.
    assert (HW1 : teq sh W1 W) by (apply teq_veq; apply d2_zero; lra).
    destruct (IH (W1, lc_set lc k new) Hnd' ltac:(lra)) as [IH1 IH2]. cbn [fst snd] in *. split.
    + eapply teq_trans. exact IH1. exact HW1.
    + intros kop [<-|Hin]; cbn [fst].
      * rewrite sweep_get_other by exact Hnotin. cbn [snd]. rewrite lc_get_set_same.
        intros x Hx. rewrite (Hn x Hx). unfold vsub. rewrite (HW1 x Hx), (Hr x Hx). unfold vsub. ring.
      * eapply teq_trans. apply IH2. exact Hin. rewrite lc_get_set_other. apply teq_refl.
        intros E. apply Hnotin. rewrite <- E. apply in_map. exact Hin. Qed.

(* the configured group maps of the six exact families *)
Lemma group_ops_bound_hyps c Y : dyk_cfg_ok c -> exact_families c -> dyk_feasible c Y ->
  forall kop, In kop (group_ops c) ->
    is_proj (all_idx (k_shape c)) (key_set c (fst kop)) (snd kop) /\ key_set c (fst kop) Y.
Proof. intros Hok Hex HY kop Hin. split. apply (group_ops_exact c Hok Hex kop Hin).
  apply feasible_key_sets; assumption. Qed.

Theorem dykstra_moves_summable (c : dyk_cfg) (W0 Y : tens) (n : nat) :
  dyk_cfg_ok c -> exact_families c -> dyk_feasible c Y ->
  let sh := k_shape c in
  dist2 sh (fst (dyk_loop sh (group_ops c) n (W0, []))) Y + qsum (dyk_loop_moves sh (group_ops c) n (W0, []))
    <= dist2 sh W0 Y.
Proof. intros Hok Hex HY. apply (dyk_loop_bound (k_shape c) (group_ops c) (key_set c)).
  apply group_ops_bound_hyps; assumption. Qed.

Theorem dykstra_stalls (c : dyk_cfg) (W0 Y : tens) (n : nat) :
  dyk_cfg_ok c -> exact_families c -> dyk_feasible c Y -> (1 <= n)%nat ->
  let sh := k_shape c in
  exists k, (k < n)%nat /\
    dyk_moves sh (group_ops c) (dyk_loop sh (group_ops c) k (W0, [])) * qnat n <= dist2 sh W0 Y.
Proof. intros Hok Hex HY Hn. apply (dyk_loop_stalls (k_shape c) (group_ops c) (key_set c)).
  apply group_ops_bound_hyps; assumption. exact Hn. Qed.

(* a sweep with zero movement has reached the nearest feasible kernel *)
Theorem dykstra_stalled_nearest (c : dyk_cfg) (W0 : tens) (n : nat) :
  dyk_cfg_ok c -> exact_families c -> trap_sizes_ok c ->
  NoDup (k_edge c) -> NoDup (k_trap c) -> NoDup (k_mdom c) -> NoDup (k_jmono c) ->
  let sh := k_shape c in
  let st := dyk_loop sh (group_ops c) n (W0, []) in
  dyk_moves sh (group_ops c) st <= 0 ->
  dyk_feasible c (fst st) /\
  forall z, dyk_feasible c z -> dist2 sh W0 (fst st) <= dist2 sh W0 z.
Proof. intros Hok Hex Hts He Ht Hm Hj sh st H0.
  pose proof (group_ops_keys_nodup c Hex He Ht Hm Hj) as Hnd.
  destruct (dyk_moves_zero_fixpoint sh (group_ops c) st Hnd H0) as [_ Hfix].
  destruct (dykstra_fixpoint_nearest c W0 n Hok Hex Hts Hnd Hfix) as (_ & Hfeas & Hnear).
  split. exact Hfeas. intros z Hz. apply (Hnear z Hz). Qed.

(* The hypotheses are satisfiable; tight and strict instances.
   exC_cfg: one monotone dimension of size 2, one unit, W0 = (1, 0).  One sweep
   gives (1/2, 1/2) with squared movement 1/2.
   Y  = (1/2, 1/2) (the nearest feasible kernel): 0 + 1/2 = dist2 (W0, Y)   (tight);
   Y' = (0, 1):                                   1/2 + 1/2 < 2 = dist2 (W0, Y') (strict). *)
Definition exD_Y : tens := of_list [2; 1]%nat [1#2; 1#2].
Definition exD_Y' : tens := of_list [2; 1]%nat [0; 1].
Lemma exD_feasible Y : mono_alongb (k_shape exC_cfg) 0 Y = true -> dyk_feasible exC_cfg Y.
Proof. intros H. unfold dyk_feasible. cbv zeta. split; [|split; [|split; [|split; [|split; [|split; [|split]]]]]];
    try (intros t []; fail).
  - intros d Hd Hm. unfold k_rank in Hd. cbn in Hd. destruct d as [|d]; try lia. apply mono_alongb_ok. exact H.
  - intros d Hd Hu. unfold k_rank in Hd. cbn in Hd. destruct d as [|d]; try lia. exfalso; apply Hu; reflexivity. Qed.
Example never_farther_hyps_D :
  let sh := k_shape exC_cfg in let ops := group_ops exC_cfg in
  dyk_cfg_ok exC_cfg /\ exact_families exC_cfg /\ dyk_feasible exC_cfg exD_Y /\ dyk_feasible exC_cfg exD_Y' /\
  dist2 sh (fst (dyk_loop sh ops 1 (exC_W0, []))) exD_Y + qsum (dyk_loop_moves sh ops 1 (exC_W0, [])) == dist2 sh exC_W0 exD_Y /\
  dist2 sh (fst (dyk_loop sh ops 1 (exC_W0, []))) exD_Y' + qsum (dyk_loop_moves sh ops 1 (exC_W0, [])) < dist2 sh exC_W0 exD_Y' /\
  0 < dyk_moves sh ops (exC_W0, []).
Proof. cbv zeta. destruct exC_ok as (H1 & H2 & _ & _).
  split; [exact H1|]. split; [exact H2|]. split; [|split; [|split; [|split]]].
  - apply exD_feasible. vm_compute. reflexivity.
  - apply exD_feasible. vm_compute. reflexivity.
  - apply Qeq_bool_eq. vm_compute. reflexivity.
  - vm_compute. reflexivity.
  - vm_compute. reflexivity. Qed.

(* never farther from a feasible kernel, after any number n of sweeps and for the
   function project_by_dykstra itself (with its early returns and k_iters c sweeps) *)
Theorem dykstra_never_farther_from_feasible (c : dyk_cfg) (W0 Y : tens) :
  dyk_cfg_ok c -> exact_families c -> dyk_feasible c Y ->
  (forall n, dist2 (k_shape c) (fst (dyk_loop (k_shape c) (group_ops c) n (W0, []))) Y <= dist2 (k_shape c) W0 Y) /\
  dist2 (k_shape c) (project_by_dykstra c W0) Y <= dist2 (k_shape c) W0 Y.
Proof. intros Hok Hex HY.
  assert (H : forall n, dist2 (k_shape c) (fst (dyk_loop (k_shape c) (group_ops c) n (W0, []))) Y <= dist2 (k_shape c) W0 Y).
  { intros n. apply (dyk_loop_never_farther (k_shape c) (group_ops c) (key_set c)). apply group_ops_bound_hyps; assumption. }
  split. exact H. unfold project_by_dykstra.
  destruct (k_iters c =? 0)%nat. apply Qle_refl.
  match goal with |- context [if ?b then _ else _] => destruct b end. apply Qle_refl. apply H. Qed.
