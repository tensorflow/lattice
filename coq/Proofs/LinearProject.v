(* Proofs about Model/LinearProject.v: categorical_calibration_lib.project and
   linear_lib.project, one column of weights.  The topological-sort facts come
   from Proofs/TopoSort.v, so the only assumption about the pair lists is
   acyclicity. *)
From TFL Require Import Model.LinearProject Proofs.PartialOrder Proofs.TopoSort.
Open Scope Q_scope.

Lemma in_swap ps a b : In (a, b) (swap_pairs ps) <-> In (b, a) ps.
Proof. unfold swap_pairs. rewrite in_map_iff. split.
  - intros [[x y] [E H]]. cbn in E. inversion E; subst. exact H.
  - intros H. exists (b, a). split; [reflexivity|exact H]. Qed.
Lemma node_swap ps k : node (swap_pairs ps) k <-> node ps k.
Proof. unfold node. split; intros [x [H|H]]; exists x; [right|left|right|left]; apply in_swap; exact H. Qed.
Lemma path_swap ps a b : path (swap_pairs ps) a b -> path ps b a.
Proof. intros H. induction H as [a b H|a b c _ IH1 _ IH2]. apply path_step, in_swap, H.
  eapply path_trans; eassumption. Qed.
Lemma acyclic_swap ps : acyclic ps -> acyclic (swap_pairs ps).
Proof. intros H a Ha. apply (H a). apply path_swap. exact Ha. Qed.

(* Both projections start with the partial-order projection when there are
   pairs, and with nothing when there are none. *)
Definition po_opt (ps : pairs) (w : list Q) : option (list Q) :=
  match ps with [] => Some w | _ => po_project ps w end.

(* whatever it returns has these properties (any order the sort may return) *)
Lemma po_opt_some {ps w p} : po_opt ps w = Some p ->
  length p = length w /\
  (forall lo, lower_on ps lo w -> lower_on ps lo p) /\
  (forall k, ~ node ps k -> nth k p 0 == nth k w 0) /\
  (feasible ps w -> peq p w).
Proof. intros E. assert (H : p = w \/ exists s, p = po_with_order ps s w).
  { destruct ps; [left; inversion E; reflexivity|right]. unfold po_opt, po_project in E.
    destruct (toposort _) as [s| |]; try discriminate. exists s. inversion E; reflexivity. }
  destruct H as [->|[s ->]].
  - split; [reflexivity|]. split; [intros lo H; exact H|]. split; [reflexivity|intros; apply peq_refl].
  - split; [apply po_with_order_length|]. split; [intros lo; apply po_with_order_lower|].
    split; [intros k; apply po_with_order_nonnode|apply po_with_order_fixed]. Qed.

(* on acyclic pairs it is defined and what it returns satisfies every pair *)
Lemma po_opt_defined ps w : acyclic ps -> pairs_in_range ps w -> exists p, po_opt ps w = Some p /\ feasible ps p.
Proof. intros Hac Hr. destruct ps as [|p0 ps']; [exists w; split; [reflexivity|intros i j []]|].
  destruct (po_project_defined (p0 :: ps') w ltac:(discriminate) Hac Hr) as [s [T [Hs E]]].
  exists (po_with_order (p0 :: ps') s w). split; [exact E|apply po_with_order_feasible; assumption]. Qed.

Definition cclip (lo hi : option Q) (x : Q) : Q := clip_hi hi (clip_lo lo x).
Lemma cclip_mono lo hi x y : x <= y -> cclip lo hi x <= cclip lo hi y.
Proof. intros. unfold cclip, clip_lo, clip_hi. destruct lo, hi; qcases; lra. Qed.
Lemma cclip_hi lo h x : cclip lo (Some h) x <= h.
Proof. unfold cclip, clip_lo, clip_hi. destruct lo; qcases; lra. Qed.
Lemma cclip_lo l hi x : (forall h, hi = Some h -> l <= h) -> l <= cclip (Some l) hi x.
Proof. intros H. unfold cclip, clip_lo, clip_hi. destruct hi as [h|]; [specialize (H h eq_refl)|]; qcases; lra. Qed.
Lemma cclip_id lo hi x : (forall l, lo = Some l -> l <= x) -> (forall h, hi = Some h -> x <= h) -> cclip lo hi x == x.
Proof. intros Hl Hh. unfold cclip, clip_lo, clip_hi.
  destruct lo as [l|]; [specialize (Hl l eq_refl)|]; (destruct hi as [h|]; [specialize (Hh h eq_refl)|]); qcases; lra. Qed.
Lemma cclip_proper {lo hi x y} : x == y -> cclip lo hi x == cclip lo hi y.
Proof. intros E. unfold cclip, clip_hi, clip_lo. destruct lo, hi; rewrite E; reflexivity. Qed.

Lemma cat_project_col_some ps lo hi w r : cat_project_col ps lo hi w = Some r ->
  exists p, po_opt ps w = Some p /\ r = map (cclip lo hi) p.
Proof. unfold cat_project_col. fold (po_opt ps w). destruct (po_opt ps w) as [p|]; [|discriminate].
  intros E. inversion E. exists p. split; reflexivity. Qed.

Lemma cat_length {ps lo hi w r} : cat_project_col ps lo hi w = Some r -> length r = length w.
Proof. intros E. apply cat_project_col_some in E. destruct E as [p [E ->]]. rewrite map_length. exact (proj1 (po_opt_some E)). Qed.

Lemma cat_defined ps lo hi w : acyclic ps -> pairs_in_range ps w ->
  exists r, cat_project_col ps lo hi w = Some r /\ length r = length w.
Proof. intros Hac Hr. destruct (po_opt_defined ps w Hac Hr) as [p [E _]].
  assert (Er : cat_project_col ps lo hi w = Some (map (cclip lo hi) p)).
  { unfold cat_project_col. fold (po_opt ps w). rewrite E. reflexivity. }
  eexists. split; [exact Er|]. exact (cat_length Er). Qed.

Lemma cat_pairs ps lo hi w r : ps <> [] -> acyclic ps -> pairs_in_range ps w ->
  cat_project_col ps lo hi w = Some r -> feasible ps r.
Proof. intros _ Hac Hr E. apply cat_project_col_some in E. destruct E as [p [E ->]].
  destruct (po_opt_defined ps w Hac Hr) as [p' [E' F]]. rewrite E in E'. inversion E'; subst p'.
  destruct (po_opt_some E) as [L _].
  intros i j Hij. destruct (Hr i j Hij) as [Hi Hj].
  rewrite !(nth_map_lt _ _ _ 0 0) by (rewrite L; assumption). apply cclip_mono. apply F. exact Hij. Qed.

Lemma cat_bounds ps lo hi w r : cat_project_col ps lo hi w = Some r -> forall x, In x r ->
  (forall h, hi = Some h -> x <= h) /\ (forall l, lo = Some l -> (forall h, hi = Some h -> l <= h) -> l <= x).
Proof. intros E x Hx. apply cat_project_col_some in E. destruct E as [p [_ ->]].
  apply in_map_iff in Hx. destruct Hx as [y [<- _]]. split.
  - intros h ->. apply cclip_hi.
  - intros l -> H. apply cclip_lo. exact H. Qed.

Definition within (lo hi : option Q) (x : Q) : Prop :=
  (forall l, lo = Some l -> l <= x) /\ (forall h, hi = Some h -> x <= h).

Lemma cat_fixed ps lo hi w r : feasible ps w -> (forall x, In x w -> within lo hi x) ->
  cat_project_col ps lo hi w = Some r -> peq r w.
Proof. intros F Hb E. apply cat_project_col_some in E. destruct E as [p [E ->]].
  destruct (po_opt_some E) as [L [_ [_ P]]]. destruct (P F) as [_ P'].
  split. rewrite map_length; exact L.
  intros k. destruct (Nat.lt_ge_cases k (length w)) as [Hk|Hk].
  - rewrite (nth_map_lt _ _ _ 0 0) by (rewrite L; exact Hk). rewrite (cclip_proper (P' k)).
    destruct (Hb (nth k w 0) (nth_In w 0 Hk)) as [H1 H2]. apply cclip_id; assumption.
  - rewrite !nth_overflow by (rewrite ?map_length, ?L; exact Hk). reflexivity. Qed.

Definition sclip (m : Z) (x : Q) : Q :=
  if (m =? 1)%Z then qmax x (x * 0) else if (m =? -1)%Z then qmin x (x * 0) else x.
Lemma sign_clip_length ms w : length (sign_clip ms w) = Nat.min (length ms) (length w).
Proof. unfold sign_clip. apply map2_length. Qed.
(* at every index: beyond the end both sides are 0 *)
Lemma sign_clip_nth ms w i : length ms = length w -> nth i (sign_clip ms w) 0 = sclip (nth i ms 0%Z) (nth i w 0).
Proof. intros L. destruct (Nat.lt_ge_cases i (length w)) as [H|H].
  - unfold sign_clip. apply (nth_map2 _ ms w i 0%Z 0 0); lia.
  - rewrite !nth_overflow by (rewrite ?sign_clip_length; lia). reflexivity. Qed.
Lemma sclip_spec m x :
  (m = 1%Z -> 0 <= sclip m x) /\ (m = (-1)%Z -> sclip m x <= 0) /\
  ((m = 1%Z -> 0 <= x) -> (m = (-1)%Z -> x <= 0) -> sclip m x == x).
Proof. unfold sclip. destruct (Z.eqb_spec m 1) as [->|H1]; [|destruct (Z.eqb_spec m (-1)) as [->|H2]].
  - split; [intros _; qcases; lra|split; [intros; discriminate|]]. intros H _. specialize (H eq_refl). qcases; lra.
  - split; [intros; discriminate|split; [intros _; qcases; lra|]]. intros _ H. specialize (H eq_refl). qcases; lra.
  - split; [intros; contradiction|split; [intros; contradiction|]]. intros; reflexivity. Qed.

Definition mono (c : lin_cfg) (i : nat) : Z := nth i (lc_monos c) 0%Z.
(* the sign constraints: >= 0 on increasing, <= 0 on decreasing inputs *)
Definition signs_ok (c : lin_cfg) (w : list Q) : Prop :=
  forall i, (mono c i = 1%Z -> 0 <= nth i w 0) /\ (mono c i = (-1)%Z -> nth i w 0 <= 0).

Lemma signs_ok_peq c w w' : peq w w' -> signs_ok c w -> signs_ok c w'.
Proof. intros [_ H] S i. rewrite <- (H i). apply S. Qed.

Lemma sign_clip_signs c w : length (lc_monos c) = length w -> signs_ok c (sign_clip (lc_monos c) w).
Proof. intros L i. rewrite sign_clip_nth by exact L. destruct (sclip_spec (mono c i) (nth i w 0)) as [A [B _]]. split; assumption. Qed.
Lemma sign_clip_fixed c w : length (lc_monos c) = length w -> signs_ok c w -> peq (sign_clip (lc_monos c) w) w.
Proof. intros L S. split; [rewrite sign_clip_length; lia|]. intros i. rewrite sign_clip_nth by exact L.
  apply sclip_spec; apply S. Qed.

Definition lin_scale (c : lin_cfg) (i : nat) : Q :=
  scaling (nth i (lc_monos c) 0%Z) (nth i (lc_min c) None) (nth i (lc_max c) None).

Lemma scaling_sign m lo hi : (m = (-1)%Z -> scaling m lo hi < 0) /\ (m <> (-1)%Z -> 0 < scaling m lo hi).
Proof. unfold scaling. destruct (Z.eqb_spec m (-1)) as [->|Hm].
  - split; [intros _|intros H; contradiction]. destruct lo as [l|], hi as [h|]; try lra.
    destruct (qlt l h) eqn:E; [apply qlt_true in E|]; lra.
  - split; [intros H; contradiction|intros _]. destruct lo as [l|], hi as [h|]; try lra.
    destruct (qlt l h) eqn:E; [apply qlt_true in E|]; lra. Qed.
(* division safety: no scaling is ever zero *)
Lemma scaling_nonzero m lo hi : ~ scaling m lo hi == 0.
Proof. destruct (scaling_sign m lo hi) as [A B]. destruct (Z.eq_dec m (-1)) as [E|E]; [specialize (A E)|specialize (B E)]; lra. Qed.
Lemma scaling_bounded m l h : l < h -> scaling m (Some l) (Some h) == (if (m =? -1)%Z then -(1) else 1) * (h - l).
Proof. intros H. unfold scaling. apply qlt_true in H. rewrite H. reflexivity. Qed.

Lemma scalings_length ms : forall los his n, length ms = n -> length los = n -> length his = n ->
  length (scalings ms los his) = n.
Proof. induction ms as [|m ms IH]; intros [|lo los] [|hi his] n H1 H2 H3; cbn in *; try lia.
  destruct n; [lia|]. f_equal. apply IH; lia. Qed.
Lemma scalings_nth ms : forall los his i, (i < length ms)%nat -> (i < length los)%nat -> (i < length his)%nat ->
  nth i (scalings ms los his) 0 = scaling (nth i ms 0%Z) (nth i los None) (nth i his None).
Proof. induction ms as [|m ms IH]; intros [|lo los] [|hi his] [|i] H1 H2 H3; cbn in *; try lia; auto.
  apply IH; lia. Qed.

Definition rbounds (c : lin_cfg) (i : nat) : Prop :=
  exists l h, nth i (lc_min c) None = Some l /\ nth i (lc_max c) None = Some h /\ l < h.

(* what verify_hyperparameters guarantees, plus acyclic dominance graphs *)
Record lin_valid (c : lin_cfg) (n : nat) : Prop := {
  lv_monos_len : length (lc_monos c) = n;
  lv_monos_val : forall i, mono c i = 0%Z \/ mono c i = 1%Z \/ mono c i = (-1)%Z;
  lv_min_len : lc_rdom c <> [] -> length (lc_min c) = n;
  lv_max_len : lc_rdom c <> [] -> length (lc_max c) = n;
  lv_mdom : forall d k, In (d, k) (lc_mdom c) ->
      (d < n)%nat /\ (k < n)%nat /\ mono c d = 1%Z /\ mono c k = 1%Z;
  lv_rdom : forall d k, In (d, k) (lc_rdom c) ->
      (d < n)%nat /\ (k < n)%nat /\ mono c d = mono c k /\ mono c d <> 0%Z /\ rbounds c d /\ rbounds c k;
  lv_disjoint : forall i, node (lc_mdom c) i -> node (lc_rdom c) i -> False;
  lv_mdom_acyclic : acyclic (swap_pairs (lc_mdom c));
  lv_rdom_acyclic : acyclic (swap_pairs (lc_rdom c))
}.

Definition mdom_ok (c : lin_cfg) (w : list Q) : Prop :=
  forall d k, In (d, k) (lc_mdom c) -> nth k w 0 <= nth d w 0.
Definition rdom_ok (c : lin_cfg) (w : list Q) : Prop :=
  forall d k, In (d, k) (lc_rdom c) -> lin_scale c k * nth k w 0 <= lin_scale c d * nth d w 0.
Definition lin_feasible (c : lin_cfg) (w : list Q) : Prop := signs_ok c w /\ mdom_ok c w /\ rdom_ok c w.

Lemma mdom_ok_peq {c w w'} : peq w w' -> mdom_ok c w -> mdom_ok c w'.
Proof. intros [_ H] S d k Hd. rewrite <- !H. apply S; exact Hd. Qed.
Lemma rdom_ok_peq {c w w'} : peq w w' -> rdom_ok c w -> rdom_ok c w'.
Proof. intros [_ H] S d k Hd. rewrite <- !H. apply S; exact Hd. Qed.

Definition stage_po (ps : pairs) (w : list Q) : option (list Q) :=
  match ps with [] => Some w | _ => po_project (swap_pairs ps) w end.
Definition stage_range (c : lin_cfg) (w2 : list Q) : option (list Q) :=
  match lc_rdom c with
  | [] => Some w2
  | _ => let sc := scalings (lc_monos c) (lc_min c) (lc_max c) in
         match po_project (swap_pairs (lc_rdom c)) (map2 Qmult w2 sc) with
         | Some p => Some (map2 (fun x s => Qred (x / s)) p sc)
         | None => None
         end
  end.
Definition lin_pre (c : lin_cfg) (w : list Q) : option (list Q) :=
  match stage_po (lc_mdom c) (sign_clip (lc_monos c) w) with
  | None => None
  | Some w2 => stage_range c w2
  end.

Lemma lin_project_col_pre rt c w :
  lin_project_col rt c w = option_map (normalize rt (lc_norm c)) (lin_pre c w).
Proof. unfold lin_project_col, lin_pre, stage_po, stage_range.
  destruct (match lc_mdom c with [] => _ | _ => _ end) as [w2|]; [|reflexivity].
  destruct (lc_rdom c); [reflexivity|]. cbv zeta.
  destruct (po_project _ _); reflexivity. Qed.

(* the pre-normalization vector is what the model computes when no normalization is requested *)
Definition with_norm (c : lin_cfg) (k : nat) : lin_cfg :=
  mkLin (lc_monos c) (lc_mdom c) (lc_rdom c) (lc_min c) (lc_max c) k.
Lemma lin_pre_norm0 rt c w : lin_project_col rt (with_norm c 0) w = lin_pre c w.
Proof. rewrite lin_project_col_pre. change (option_map (fun x => x) (lin_pre c w) = lin_pre c w).
  destruct (lin_pre c w); reflexivity. Qed.

Lemma stage_po_opt ps w : stage_po ps w = po_opt (swap_pairs ps) w.
Proof. destruct ps; reflexivity. Qed.

Lemma stage_po_spec ps w : acyclic (swap_pairs ps) -> pairs_in_range ps w ->
  exists w', stage_po ps w = Some w' /\ length w' = length w /\
    (forall d k, In (d, k) ps -> nth k w' 0 <= nth d w' 0) /\
    (forall lo, lower_on ps lo w -> lower_on ps lo w') /\
    (forall k, ~ node ps k -> nth k w' 0 == nth k w 0) /\
    ((forall d k, In (d, k) ps -> nth k w 0 <= nth d w 0) -> peq w' w).
Proof. intros Hac Hr. rewrite stage_po_opt.
  destruct (po_opt_defined (swap_pairs ps) w Hac) as [w' [E F]].
  { intros i j Hij. rewrite in_swap in Hij. destruct (Hr j i Hij). split; assumption. }
  destruct (po_opt_some E) as [L [Lo [Nn Fx]]].
  exists w'. split; [exact E|split; [exact L|]]. split; [|split; [|split]].
  - intros d k Hd. apply F. rewrite in_swap. exact Hd.
  - intros lo H k Hk. apply Lo; [|apply node_swap; exact Hk]. intros k' Hk'. apply H. apply node_swap; exact Hk'.
  - intros k Hk. apply Nn. rewrite node_swap. exact Hk.
  - intros H. apply Fx. intros i j Hij. rewrite in_swap in Hij. apply H; exact Hij. Qed.

Lemma stage_range_nonempty c w2 : lc_rdom c <> [] ->
  stage_range c w2 =
    match stage_po (lc_rdom c) (map2 Qmult w2 (scalings (lc_monos c) (lc_min c) (lc_max c))) with
    | Some p => Some (map2 (fun x s => Qred (x / s)) p (scalings (lc_monos c) (lc_min c) (lc_max c)))
    | None => None
    end.
Proof. intros H. unfold stage_range, stage_po. destruct (lc_rdom c); [congruence|reflexivity]. Qed.

Lemma scalings_spec {c n} : lin_valid c n -> lc_rdom c <> [] ->
  length (scalings (lc_monos c) (lc_min c) (lc_max c)) = n /\
  forall i, (i < n)%nat -> nth i (scalings (lc_monos c) (lc_min c) (lc_max c)) 0 = lin_scale c i.
Proof. intros V Hne. pose proof (lv_monos_len c n V) as L1. pose proof (lv_min_len c n V Hne) as L2.
  pose proof (lv_max_len c n V Hne) as L3. split; [apply scalings_length; assumption|].
  intros i Hi. apply scalings_nth; congruence. Qed.

Lemma node_dec ps k : {node ps k} + {~ node ps k}.
Proof. destruct (in_dec Nat.eq_dec k (nodes ps)) as [H|H]; [left|right]; rewrite node_nodes; exact H. Qed.

Lemma rdom_node_mono {c n i} : lin_valid c n -> node (lc_rdom c) i -> mono c i = 1%Z \/ mono c i = (-1)%Z.
Proof. intros V [x [H|H]]; destruct (lv_rdom c n V _ _ H) as [_ [_ [C [D _]]]];
  destruct (lv_monos_val c n V i) as [E|E]; try exact E; exfalso; congruence. Qed.

(* on an input with a direction, the sign constraint on x says that x times
   the input's scaling is non-negative *)
Lemma scaled_sign c i x : mono c i = 1%Z \/ mono c i = (-1)%Z ->
  (0 <= x * lin_scale c i <-> (mono c i = 1%Z -> 0 <= x) /\ (mono c i = (-1)%Z -> x <= 0)).
Proof. destruct (scaling_sign (mono c i) (nth i (lc_min c) None) (nth i (lc_max c) None)) as [A B].
  change (scaling _ _ _) with (lin_scale c i) in A, B. intros [M|M]; rewrite M in *.
  - assert (Hs : 0 < lin_scale c i) by (apply B; discriminate). split.
    + intros H. split; [intros _|discriminate]. destruct (Qlt_le_dec x 0) as [C|C]; [|exact C].
      pose proof (Qmult_lt_compat_r x 0 _ Hs C). lra.
    + intros [H _]. apply qmul_nonneg; [apply H; reflexivity|lra].
  - assert (Hs : lin_scale c i < 0) by (apply A; reflexivity). split.
    + intros H. split; [discriminate|intros _]. destruct (Qlt_le_dec 0 x) as [C|C]; [|exact C].
      pose proof (Qmult_lt_compat_r 0 x (- lin_scale c i) ltac:(lra) C). lra.
    + intros [_ H]. pose proof (qmul_nonneg (- x) (- lin_scale c i) ltac:(specialize (H eq_refl); lra) ltac:(lra)). lra. Qed.

(* The stage works in scaled coordinates v_i = w2_i * s_i, where the sign
   constraints of the pairs' inputs read 0 <= v_i and the range dominances are
   plain dominances; w3 is p unscaled, w3_i * s_i == p_i. *)
Lemma stage_range_spec {c n w2} : lin_valid c n -> length w2 = n -> signs_ok c w2 ->
  exists w3, stage_range c w2 = Some w3 /\ length w3 = n /\ signs_ok c w3 /\ rdom_ok c w3 /\
    (forall i, ~ node (lc_rdom c) i -> nth i w3 0 == nth i w2 0) /\
    (rdom_ok c w2 -> peq w3 w2).
Proof. intros V L S. destruct (lc_rdom c) as [|p0 rd'] eqn:E.
  - exists w2. unfold stage_range. rewrite E. split; [reflexivity|split; [exact L|split; [exact S|]]].
    split; [unfold rdom_ok; rewrite E; intros d k []|]. split; [intros; reflexivity|intros; apply peq_refl].
  - assert (Hne : lc_rdom c <> []) by (rewrite E; discriminate). rewrite <- E in *. clear E p0 rd'.
    rewrite (stage_range_nonempty c w2 Hne). destruct (scalings_spec V Hne) as [Lsc Hsc].
    set (sc := scalings (lc_monos c) (lc_min c) (lc_max c)) in *. set (v := map2 Qmult w2 sc).
    assert (Lv : length v = n) by (unfold v; rewrite map2_length; lia).
    (* entries beyond n are 0 on both sides, so the equations hold at every index *)
    assert (Hv : forall i, nth i v 0 == nth i w2 0 * lin_scale c i).
    { intros i. destruct (Nat.lt_ge_cases i n) as [Hi|Hi]; [|rewrite !nth_overflow by lia; lra].
      unfold v. rewrite (nth_map2 Qmult w2 sc i 0 0 0), Hsc by lia. reflexivity. }
    destruct (stage_po_spec (lc_rdom c) v (lv_rdom_acyclic c n V)) as [p [Ep [Lp [F [Lo [Nn Fx]]]]]].
    { intros d k H. destruct (lv_rdom c n V d k H) as [A [B _]]. rewrite Lv. split; assumption. }
    rewrite Ep. set (w3 := map2 (fun x s => Qred (x / s)) p sc).
    assert (Lw3 : length w3 = n) by (unfold w3; rewrite map2_length; lia).
    assert (Hw3 : forall i, nth i w3 0 * lin_scale c i == nth i p 0).
    { intros i. destruct (Nat.lt_ge_cases i n) as [Hi|Hi]; [|rewrite !nth_overflow by lia; lra].
      unfold w3. rewrite (nth_map2 (fun x s => Qred (x / s)) p sc i 0 0 0), Qred_correct, Hsc by lia.
      rewrite Qmult_comm. apply Qmult_div_r, scaling_nonzero. }
    (* where the projection kept the scaled entry, unscaling gives the entry back *)
    assert (Hback : forall i, nth i p 0 == nth i v 0 -> nth i w3 0 == nth i w2 0).
    { intros i Hi. apply (Qmult_inj_r _ _ (lin_scale c i)); [apply scaling_nonzero|]. rewrite Hw3, Hi. apply Hv. }
    assert (Hvpos : forall k, node (lc_rdom c) k -> 0 <= nth k v 0).
    { intros k Hk. rewrite Hv. apply scaled_sign; [exact (rdom_node_mono V Hk)|apply S]. }
    exists w3. split; [reflexivity|split; [exact Lw3|]]. split; [|split; [|split]].
    + intros i. destruct (node_dec (lc_rdom c) i) as [Hi|Hi]; [|rewrite (Hback i (Nn i Hi)); apply S].
      apply scaled_sign; [exact (rdom_node_mono V Hi)|]. rewrite Hw3. apply (Lo 0 Hvpos i Hi).
    + intros d k H. rewrite !(Qmult_comm (lin_scale c _)), !Hw3. apply F. exact H.
    + intros i Hi. apply Hback, Nn, Hi.
    + intros R. assert (P : peq p v).
      { apply Fx. intros d k H. rewrite !Hv, !(Qmult_comm (nth _ w2 0)). apply R; exact H. }
      split; [lia|]. intros i. apply Hback, P. Qed.

Lemma lin_pre_spec {c n w} : lin_valid c n -> length w = n ->
  exists w3, lin_pre c w = Some w3 /\ length w3 = n /\ lin_feasible c w3 /\ (lin_feasible c w -> peq w3 w).
Proof. intros V L. unfold lin_pre. set (w1 := sign_clip (lc_monos c) w).
  assert (Lm : length (lc_monos c) = length w) by (rewrite L; apply (lv_monos_len c n V)).
  assert (L1 : length w1 = n) by (unfold w1; rewrite sign_clip_length; lia).
  assert (S1 : signs_ok c w1) by (apply sign_clip_signs; exact Lm).
  assert (Hr : pairs_in_range (lc_mdom c) w1).
  { intros d k H. destruct (lv_mdom c n V d k H) as [A [B _]]. rewrite L1. split; assumption. }
  destruct (stage_po_spec (lc_mdom c) w1 (lv_mdom_acyclic c n V) Hr) as [w2 [E2 [L2 [F2 [Lo2 [Nn2 Fx2]]]]]].
  rewrite E2. rewrite L1 in L2.
  assert (Hm1 : forall i, node (lc_mdom c) i -> mono c i = 1%Z).
  { intros i [x [H|H]]; destruct (lv_mdom c n V _ _ H) as [_ [_ [A B]]]; assumption. }
  assert (S2 : signs_ok c w2).
  { intros i. destruct (node_dec (lc_mdom c) i) as [Hi|Hi].
    - split; intros Hm.
      + apply (Lo2 0); [|exact Hi]. intros k Hk. apply S1. apply Hm1; exact Hk.
      + rewrite (Hm1 i Hi) in Hm. discriminate.
    - rewrite (Nn2 i Hi). apply S1. }
  destruct (stage_range_spec V L2 S2) as [w3 [E3 [L3 [S3 [R3 [Nn3 Fx3]]]]]].
  exists w3. split; [exact E3|split; [exact L3|]]. split; [split; [exact S3|split; [|exact R3]]|].
  - intros d k H.
    assert (Hd : ~ node (lc_rdom c) d) by (intro Hn; apply (lv_disjoint c n V d); [exists k; left; exact H|exact Hn]).
    assert (Hk : ~ node (lc_rdom c) k) by (intro Hn; apply (lv_disjoint c n V k); [exists d; right; exact H|exact Hn]).
    rewrite (Nn3 d Hd), (Nn3 k Hk). apply F2; exact H.
  - intros [Fs [Fm Fr]].
    assert (P1 : peq w1 w) by (apply sign_clip_fixed; assumption).
    assert (P2 : peq w2 w1). { apply Fx2. apply (mdom_ok_peq (peq_sym P1) Fm). }
    assert (P21 : peq w2 w) by (eapply peq_trans; eassumption).
    assert (P3 : peq w3 w2). { apply Fx3. apply (rdom_ok_peq (peq_sym P21) Fr). }
    eapply peq_trans; eassumption. Qed.

(* normalization is multiplication by a positive number *)
Definition norm_div (rt : Q -> Q) (order : nat) (w : list Q) : Q :=
  let n := col_norm rt order w in if qlt n norm_eps then 1 else n.
Lemma norm_div_pos rt order w : 0 < norm_div rt order w.
Proof. unfold norm_div. destruct (qlt (col_norm rt order w) norm_eps) eqn:E. lra.
  apply qlt_false in E. unfold norm_eps in E. lra. Qed.
Lemma normalize_S rt k w : normalize rt (S k) w = map (fun x => Qred (x / norm_div rt (S k) w)) w.
Proof. reflexivity. Qed.
Lemma normalize_length rt order w : length (normalize rt order w) = length w.
Proof. destruct order; [reflexivity|]. rewrite normalize_S. apply map_length. Qed.
Lemma normalize_nth rt k w i : nth i (normalize rt (S k) w) 0 == nth i w 0 * / norm_div rt (S k) w.
Proof. rewrite normalize_S. destruct (Nat.lt_ge_cases i (length w)) as [H|H].
  - rewrite (nth_map_lt _ _ _ 0 0) by exact H. rewrite Qred_correct. reflexivity.
  - rewrite !nth_overflow by (rewrite ?map_length; exact H). lra. Qed.
Lemma normalize_scale rt order w : exists e, 0 < e /\ forall i, nth i (normalize rt order w) 0 == nth i w 0 * e.
Proof. destruct order as [|k].
  - exists 1. split; [lra|]. intros i. cbn [normalize]. lra.
  - exists (/ norm_div rt (S k) w). split; [apply Qinv_lt_0_compat, norm_div_pos|]. intros i. apply normalize_nth. Qed.

Lemma lin_defined rt c n w : lin_valid c n -> length w = n ->
  exists r, lin_project_col rt c w = Some r /\ length r = n.
Proof. intros V L. rewrite lin_project_col_pre. destruct (lin_pre_spec V L) as [w3 [E3 [L3 _]]].
  rewrite E3. eexists. split; [reflexivity|]. rewrite normalize_length. exact L3. Qed.

(* the constraints are homogeneous: a positive multiple of a feasible column is feasible *)
Lemma lin_feasible_scale {c w r e} : 0 < e -> (forall i, nth i r 0 == nth i w 0 * e) -> lin_feasible c w -> lin_feasible c r.
Proof. intros He Hn [S [M R]]. split; [|split].
  - intros i. rewrite (Hn i). destruct (S i) as [A B]. split; intros Hm.
    + apply qmul_nonneg; [apply A; exact Hm|lra].
    + specialize (B Hm). pose proof (qmul_nonneg (- nth i w 0) e ltac:(lra) ltac:(lra)). lra.
  - intros d k H. rewrite !Hn. apply qmul_le_r; [lra|]. apply M; exact H.
  - intros d k H. rewrite !Hn. pose proof (qmul_le_r _ _ e ltac:(lra) (R d k H)). lra. Qed.

(* and the zero column is feasible for every configuration *)
Lemma lin_feasible_zero c n : lin_feasible c (repeat 0 n).
Proof. split; [|split].
  - intros i. rewrite nth_repeat. split; intros _; apply Qle_refl.
  - intros d k _. rewrite !nth_repeat. apply Qle_refl.
  - intros d k _. rewrite !nth_repeat, !Qmult_0_r. apply Qle_refl. Qed.

(* what the projection returns satisfies all constraints, normalized or not *)
Theorem lin_result_feasible {rt c n w r} : lin_valid c n -> length w = n -> lin_project_col rt c w = Some r -> lin_feasible c r.
Proof. intros V L E. rewrite lin_project_col_pre in E.
  destruct (lin_pre_spec V L) as [w3 [E3 [_ [F3 _]]]]. rewrite E3 in E. inversion E.
  destruct (normalize_scale rt (lc_norm c) w3) as [e [He Hn]].
  exact (lin_feasible_scale He Hn F3). Qed.

Lemma lin_signs rt c n w r : lin_valid c n -> length w = n -> lin_project_col rt c w = Some r ->
  forall i, (nth i (lc_monos c) 0%Z = 1%Z -> 0 <= nth i r 0) /\ (nth i (lc_monos c) 0%Z = (-1)%Z -> nth i r 0 <= 0).
Proof. intros V L E. exact (proj1 (lin_result_feasible V L E)). Qed.

Lemma lin_mdom rt c n w r : lin_valid c n -> length w = n -> lin_project_col rt c w = Some r ->
  forall d k, In (d, k) (lc_mdom c) -> nth k r 0 <= nth d r 0.
Proof. intros V L E. exact (proj1 (proj2 (lin_result_feasible V L E))). Qed.

Lemma lin_rdom rt c n w r : lin_valid c n -> length w = n -> lin_project_col rt c w = Some r ->
  forall d k, In (d, k) (lc_rdom c) ->
    scaling (nth k (lc_monos c) 0%Z) (nth k (lc_min c) None) (nth k (lc_max c) None) * nth k r 0 <=
    scaling (nth d (lc_monos c) 0%Z) (nth d (lc_min c) None) (nth d (lc_max c) None) * nth d r 0.
Proof. intros V L E. exact (proj2 (proj2 (lin_result_feasible V L E))). Qed.

(* the same with the scalings written out: both inputs of a range-dominance pair
   have the same direction sg = +-1 and proper ranges [l, h] *)
Lemma lin_rdom_explicit rt c n w r : lin_valid c n -> length w = n -> lin_project_col rt c w = Some r ->
  forall d k, In (d, k) (lc_rdom c) -> exists ld hd lk hk,
    nth d (lc_min c) None = Some ld /\ nth d (lc_max c) None = Some hd /\ ld < hd /\
    nth k (lc_min c) None = Some lk /\ nth k (lc_max c) None = Some hk /\ lk < hk /\
    (nth d (lc_monos c) 0%Z = 1%Z -> (hk - lk) * nth k r 0 <= (hd - ld) * nth d r 0) /\
    (nth d (lc_monos c) 0%Z = (-1)%Z -> (hk - lk) * - nth k r 0 <= (hd - ld) * - nth d r 0).
Proof. intros V L E d k H. pose proof (lin_rdom rt c n w r V L E d k H) as R.
  destruct (lv_rdom c n V d k H) as [_ [_ [Hm [_ [[ld [hd [A1 [A2 A3]]]] [lk [hk [B1 [B2 B3]]]]]]]]].
  unfold mono in Hm. exists ld, hd, lk, hk. repeat (split; [assumption|]).
  rewrite A1, A2, B1, B2, <- Hm in R. rewrite !scaling_bounded in R by assumption.
  split; intros Hd; rewrite Hd in R; cbn [Z.eqb Pos.eqb] in R; lra. Qed.

(* a feasible column is returned as it is whenever the normalization returns
   columns that agree with it as they are *)
Lemma lin_fixed_norm {rt c n w r} : lin_valid c n -> length w = n -> lin_feasible c w ->
  lin_project_col rt c w = Some r -> (forall w3, peq w3 w -> peq (normalize rt (lc_norm c) w3) w3) -> peq r w.
Proof. intros V L F E Hn. rewrite lin_project_col_pre in E.
  destruct (lin_pre_spec V L) as [w3 [E3 [_ [_ Fx]]]]. rewrite E3 in E. inversion E.
  eapply peq_trans; [apply Hn|]; exact (Fx F). Qed.

Lemma lin_fixed rt c n w r : lin_valid c n -> length w = n -> lc_norm c = 0%nat ->
  lin_feasible c w -> lin_project_col rt c w = Some r -> peq r w.
Proof. intros V L N F E. apply (lin_fixed_norm V L F E). rewrite N. intros; apply peq_refl. Qed.

(* the result is the un-normalized result (the same configuration with
   normalization switched off), normalized *)
Lemma lin_unnormalized {rt c w r} : lin_project_col rt c w = Some r ->
  exists w3, lin_project_col rt (with_norm c 0) w = Some w3 /\ r = normalize rt (lc_norm c) w3.
Proof. rewrite lin_pre_norm0, lin_project_col_pre. destruct (lin_pre c w) as [w3|]; [|discriminate].
  intros E. inversion E. exists w3. split; reflexivity. Qed.

Lemma qsum_map_peq (f : Q -> Q) a b : (forall x y, x == y -> f x == f y) -> peq a b -> qsum (map f a) == qsum (map f b).
Proof. intros Hf [L H]. revert b L H. induction a as [|x a IH]; intros [|y b] L H; cbn in L; try discriminate. reflexivity.
  cbn [map qsum]. rewrite (Hf x y (H 0%nat)). rewrite (IH b). reflexivity. lia. intros k. apply (H (S k)). Qed.
Definition qsq (x : Q) : Q := x * x.
Lemma qsum_abs_peq {a b} : peq a b -> qsum (map qabs a) == qsum (map qabs b).
Proof. apply qsum_map_peq. intros x y E. rewrite E. reflexivity. Qed.
Lemma qsum_sq_peq {a b} : peq a b -> qsum (map qsq a) == qsum (map qsq b).
Proof. apply qsum_map_peq. intros x y E. unfold qsq. rewrite E. reflexivity. Qed.
Lemma qsum_sq_nonneg w : 0 <= qsum (map qsq w).
Proof. apply qsum_map_nonneg. intros x _. apply qsq_nonneg. Qed.

(* dividing every entry by r divides the sum of absolute values by r > 0 and
   the sum of squares by r * r *)
Lemma qsum_abs_div r w : 0 < r -> qsum (map qabs (map (fun x => Qred (x / r)) w)) * r == qsum (map qabs w).
Proof. intros Hr. rewrite map_map, (qsum_map_ext _ (fun x => / r * qabs x)).
  - rewrite qsum_map_scale. field. lra.
  - intros x _. rewrite Qred_correct. unfold Qdiv. rewrite qabs_mul_nonneg. lra.
    pose proof (Qinv_lt_0_compat r Hr). lra. Qed.
Lemma qsum_sq_div r w : ~ r == 0 -> qsum (map qsq (map (fun x => Qred (x / r)) w)) * (r * r) == qsum (map qsq w).
Proof. intros Hr. rewrite map_map, (qsum_map_ext _ (fun x => (/ r * / r) * qsq x)).
  - rewrite qsum_map_scale. field. exact Hr.
  - intros x _. unfold qsq. rewrite Qred_correct. field. exact Hr. Qed.

(* the two branches of tf.where(norm < eps, 1.0, norm) *)
Lemma normalize_small rt k w : col_norm rt (S k) w < norm_eps -> peq (normalize rt (S k) w) w.
Proof. intros H. split. apply normalize_length. intros i. rewrite normalize_nth. unfold norm_div.
  apply qlt_true in H. rewrite H. field. Qed.
Lemma normalize_cases rt k w :
  (col_norm rt (S k) w < norm_eps /\ peq (normalize rt (S k) w) w) \/
  (norm_eps <= col_norm rt (S k) w /\ normalize rt (S k) w = map (fun x => Qred (x / col_norm rt (S k) w)) w).
Proof. destruct (Qlt_le_dec (col_norm rt (S k) w) norm_eps) as [H|H].
  - left. split; [exact H|]. apply normalize_small. exact H.
  - right. split; [exact H|]. rewrite normalize_S. unfold norm_div. apply qlt_false in H. rewrite H. reflexivity. Qed.

Lemma normalize_l1 rt w : qsum (map qabs (normalize rt 1 w)) == 1 \/
  (qsum (map qabs w) < norm_eps /\ peq (normalize rt 1 w) w).
Proof. destruct (normalize_cases rt 0 w) as [H|[H ->]]; [right; exact H|left]. cbn [col_norm] in *.
  assert (Hn : 0 < qsum (map qabs w)) by (unfold norm_eps in H; lra).
  apply (Qmult_inj_r _ _ (qsum (map qabs w))); [lra|]. rewrite qsum_abs_div by exact Hn. lra. Qed.

(* order 2 with whatever the root function returns: r * r takes the place of
   the sum of squares *)
Lemma normalize_l2_any rt w :
  (rt (qsum (map qsq w)) < norm_eps /\ peq (normalize rt 2 w) w) \/
  (norm_eps <= rt (qsum (map qsq w)) /\
   qsum (map qsq (normalize rt 2 w)) * (rt (qsum (map qsq w)) * rt (qsum (map qsq w))) == qsum (map qsq w)).
Proof. destruct (normalize_cases rt 1 w) as [H|[H ->]]; [left; exact H|right]. cbn [col_norm] in *.
  change (fun x : Q => x * x) with qsq in *. split; [exact H|]. apply qsum_sq_div. unfold norm_eps in H. lra. Qed.

(* The square root of the order-2 norm is an oracle: the only thing needed is
   that it is exact AT the sum of squares in question (a hypothesis "for all x"
   would be unsatisfiable over the rationals). *)
Lemma normalize_l2 rt w : rt (qsum (map qsq w)) * rt (qsum (map qsq w)) == qsum (map qsq w) ->
  qsum (map qsq (normalize rt 2 w)) == 1 \/
  (rt (qsum (map qsq w)) < norm_eps /\ peq (normalize rt 2 w) w).
Proof. intros Hsq. destruct (normalize_l2_any rt w) as [H|[H Hid]]; [right; exact H|left].
  set (r := rt (qsum (map qsq w))) in *. assert (Hr : 0 < r) by (unfold norm_eps in H; lra).
  pose proof (Qmult_lt_0_compat r r Hr Hr) as Hrr.
  apply (Qmult_inj_r _ _ (r * r)); [lra|]. rewrite Hid, Hsq. lra. Qed.

Lemma lin_norm1 rt c n w r : lin_valid c n -> length w = n -> lc_norm c = 1%nat -> lin_project_col rt c w = Some r ->
  exists w3, lin_project_col rt (with_norm c 0) w = Some w3 /\
    (qsum (map qabs r) == 1 \/ (qsum (map qabs w3) < norm_eps /\ peq r w3)).
Proof. intros _ _ N E. destruct (lin_unnormalized E) as [w3 [E3 ->]].
  exists w3. split; [exact E3|]. rewrite N. apply normalize_l1. Qed.

Lemma lin_norm2 rt c n w r :
  lin_valid c n -> length w = n -> lc_norm c = 2%nat -> lin_project_col rt c w = Some r ->
  exists w3, lin_project_col rt (with_norm c 0) w = Some w3 /\
    let S := qsum (map (fun x => x * x) w3) in
    (rt S * rt S == S ->
     qsum (map (fun x => x * x) r) == 1 \/ (rt S < norm_eps /\ peq r w3)).
Proof. intros _ _ N E. destruct (lin_unnormalized E) as [w3 [E3 ->]].
  exists w3. split; [exact E3|]. rewrite N. apply (normalize_l2 rt). Qed.

(* normalization (any order) multiplies the un-normalized result by one positive
   number, hence keeps signs and all (homogeneous) dominance inequalities *)
Lemma lin_norm_scaling rt c n w r : lin_valid c n -> length w = n -> lin_project_col rt c w = Some r ->
  exists w3 e, lin_project_col rt (with_norm c 0) w = Some w3 /\ 0 < e /\ length r = length w3 /\
    forall i, nth i r 0 == nth i w3 0 * e.
Proof. intros _ _ E. destruct (lin_unnormalized E) as [w3 [E3 ->]].
  destruct (normalize_scale rt (lc_norm c) w3) as [e [He Hn]].
  exists w3, e. split; [exact E3|]. split; [exact He|]. split; [apply normalize_length|exact Hn]. Qed.

Lemma normalize_unit rt k w : col_norm rt (S k) w == 1 -> peq (normalize rt (S k) w) w.
Proof. intros H. split. apply normalize_length. intros i. rewrite normalize_nth. unfold norm_div.
  assert (E : qlt (col_norm rt (S k) w) norm_eps = false) by (apply qlt_false; unfold norm_eps; lra).
  rewrite E, H. field. Qed.

(* weights that satisfy the constraints AND already have unit norm are a fixed
   point of the projection with normalization *)
Lemma lin_fixed_norm1 rt c n w r : lin_valid c n -> length w = n -> lc_norm c = 1%nat ->
  lin_feasible c w -> qsum (map qabs w) == 1 -> lin_project_col rt c w = Some r -> peq r w.
Proof. intros V L N F U E. apply (lin_fixed_norm V L F E). rewrite N. intros w3 P.
  apply normalize_unit. cbn [col_norm]. rewrite (qsum_abs_peq P). exact U. Qed.

Lemma lin_fixed_norm2 rt c n w r : (forall x, x == 1 -> rt x == 1) ->
  lin_valid c n -> length w = n -> lc_norm c = 2%nat ->
  lin_feasible c w -> qsum (map (fun x => x * x) w) == 1 -> lin_project_col rt c w = Some r -> peq r w.
Proof. intros Hrt V L N F U E. apply (lin_fixed_norm V L F E). rewrite N. intros w3 P.
  apply normalize_unit. cbn [col_norm]. apply Hrt. rewrite <- U. exact (qsum_sq_peq P). Qed.

Lemma lin_valid_with_norm c n k : lin_valid c n -> lin_valid (with_norm c k) n.
Proof. intros [A B C D E F G H I]. constructor; assumption. Qed.
Lemma lin_feasible_with_norm c k w : lin_feasible c w <-> lin_feasible (with_norm c k) w.
Proof. unfold lin_feasible, signs_ok, mdom_ok, rdom_ok, lin_scale, mono, with_norm. cbn. reflexivity. Qed.

(* the matrix projection is the column projection of every unit *)
Lemma opt_map_all_some {A B} (f : A -> option B) l : forall r, opt_map_all f l = Some r ->
  length r = length l /\ forall i d d', (i < length l)%nat -> f (nth i l d) = Some (nth i r d').
Proof. induction l as [|a l IH]; intros r E; cbn in E.
  - inversion E. split; [reflexivity|]. intros i d d' H. cbn in H. lia.
  - fold (opt_map_all f l) in E. destruct (f a) as [b|] eqn:Fa; [|discriminate].
    destruct (opt_map_all f l) as [r'|]; [|discriminate]. inversion E; subst r.
    destruct (IH r' eq_refl) as [L H]. split; [cbn; lia|]. intros [|i] d d' Hi; cbn. exact Fa. apply H. cbn in Hi. lia. Qed.
Lemma opt_map_all_total {A B} (f : A -> option B) l : (forall a, In a l -> exists b, f a = Some b) ->
  exists r, opt_map_all f l = Some r.
Proof. induction l as [|a l IH]; intros H; cbn. eexists; reflexivity. fold (opt_map_all f l).
  destruct (H a (or_introl eq_refl)) as [b Eb]. destruct IH as [r Er]. intros x Hx; apply H; right; exact Hx.
  rewrite Eb, Er. eexists; reflexivity. Qed.

Lemma project_per_unit (f : list Q -> option (list Q)) units (W R : list (list Q)) u :
  match opt_map_all (fun u => f (column u W)) (seq 0 units) with
  | Some cols => Some (transpose (length W) cols) | None => None end = Some R ->
  (u < units)%nat -> exists r, f (column u W) = Some r /\ (length r = length W -> column u R = r).
Proof. intros E Hu. destruct (opt_map_all _ _) as [cols|] eqn:Ec; [|discriminate]. inversion E; subst R.
  apply opt_map_all_some in Ec. destruct Ec as [Lc Hc]. rewrite seq_length in Lc, Hc.
  specialize (Hc u 0%nat [] Hu). rewrite seq_nth in Hc by exact Hu. cbn [Nat.add] in Hc.
  exists (nth u cols []). split; [exact Hc|]. intros Lr. rewrite column_transpose by lia. rewrite <- Lr. apply map_nth_seq. Qed.

Lemma lin_per_unit rt c units W R u : lin_valid c (length W) -> lin_project rt c units W = Some R -> (u < units)%nat ->
  exists r, lin_project_col rt c (column u W) = Some r /\ column u R = r.
Proof. intros V E Hu. destruct (project_per_unit (lin_project_col rt c) units W R u E Hu) as [r [Er Hr]].
  exists r. split; [exact Er|]. apply Hr. destruct (lin_defined rt c (length W) (column u W) V (column_length u W)) as [r' [Er' Lr']].
  congruence. Qed.
Lemma lin_matrix_defined rt c units W : lin_valid c (length W) -> exists R, lin_project rt c units W = Some R.
Proof. intros V. unfold lin_project.
  destruct (opt_map_all_total (fun u => lin_project_col rt c (column u W)) (seq 0 units)) as [cols Ec].
  - intros u _. destruct (lin_defined rt c (length W) (column u W) V (column_length u W)) as [r [Er _]]. exists r; exact Er.
  - rewrite Ec. eexists; reflexivity. Qed.

Lemma cat_per_unit ps lo hi units W R u : cat_project ps lo hi units W = Some R -> (u < units)%nat ->
  exists r, cat_project_col ps lo hi (column u W) = Some r /\ column u R = r.
Proof. intros E Hu. destruct (project_per_unit (cat_project_col ps lo hi) units W R u E Hu) as [r [Er Hr]].
  exists r. split; [exact Er|]. apply Hr. rewrite (cat_length Er). apply column_length. Qed.

(* inputs 0..3 increasing with a monotonic-dominance diamond (0 dominates 1 and 2,
   which dominate 3), inputs 4, 5 decreasing with a range dominance, input 6 free *)
Example ex_cfg : lin_cfg := mkLin [1; 1; 1; 1; -1; -1; 0]%Z [(1, 3); (0, 1); (2, 3); (0, 2)]%nat [(4, 5)]%nat
  [None; None; None; None; Some 0; Some (-1); None] [None; None; None; None; Some 2; Some 0; None] 1.
Ltac in_cases H :=
  cbn in H; repeat (destruct H as [H|H]; [inversion H; subst; clear H|]); try (destruct H).
Example ex_cfg_valid : lin_valid ex_cfg 7.
Proof. constructor.
  - reflexivity.
  - intros i. unfold mono. cbn. do 7 (destruct i as [|i]; [auto|]). destruct i; auto.
  - reflexivity.
  - reflexivity.
  - intros d k H. in_cases H; cbn; repeat split; lia.
  - intros d k H. in_cases H. cbn. repeat split; try lia; try discriminate.
    + exists 0, 2. repeat split; lra.
    + exists (-1), 0. repeat split; lra.
  - intros i [x [H|H]] [y [H'|H']]; in_cases H; in_cases H'.
  - apply (acyclic_rank _ (fun x => 10 - x)%nat). intros a b H. in_cases H; lia.
  - apply (acyclic_rank _ (fun x => 10 - x)%nat). intros a b H. in_cases H; lia. Qed.
Example ex_w : list Q := [1; 3; -2; 4; 1; -3; 5].
Example ex_run : lin_project_col qsqrt ex_cfg ex_w = Some [17 # 124; 17 # 124; 4 # 31; 4 # 31; -3 # 62; -3 # 31; 10 # 31].
Proof. vm_compute. reflexivity. Qed.
Example ex_feasible_w : list Q := [4; 2; 3; 1; -1; -1; 5].
Example ex_feasible : lin_feasible (with_norm ex_cfg 0) ex_feasible_w.
Proof. split; [|split].
  - intros i. unfold mono. cbn. do 7 (destruct i as [|i]; [split; intros; try discriminate; lra|]). destruct i; split; intros; discriminate.
  - intros d k H. in_cases H; cbn; lra.
  - intros d k H. in_cases H. vm_compute. discriminate. Qed.
Example ex_cat_run : cat_project_col diamond (Some 0) (Some 2) [3; 1; 2; -1] = Some [9 # 8; 9 # 8; 9 # 8; 9 # 8].
Proof. vm_compute. reflexivity. Qed.
Example ex_cat_feasible : feasible diamond [0; 1; 2; 3] /\ (forall x, In x [0; 1; 2; 3] -> within (Some 0) (Some 3) x).
Proof. split.
  - intros i j H. in_cases H; cbn; lra.
  - intros x H. in_cases H; split; intros b E; inversion E; subst; lra. Qed.
Example ex_cat_in_range : pairs_in_range diamond [3; 1; 2; -1].
Proof. intros i j H. in_cases H; cbn; lia. Qed.

(* a feasible unit-L1-norm vector, a feasible unit-L2-norm vector, and a root
   oracle that is exact where the order-2 theorems need it *)
Example ex_unit1 : lin_feasible ex_cfg (map (fun x => x / 17) ex_feasible_w) /\ qsum (map qabs (map (fun x => x / 17) ex_feasible_w)) == 1.
Proof. split; [split; [|split]|].
  - intros i. unfold mono. cbn. do 7 (destruct i as [|i]; [split; intros; try discriminate; vm_compute; discriminate|]). destruct i; split; intros; discriminate.
  - intros d k H. in_cases H; vm_compute; discriminate.
  - intros d k H. in_cases H. vm_compute. discriminate.
  - vm_compute. reflexivity. Qed.
Example ex_rt (x : Q) : Q := if Qeq_bool x 25 then 5 else 1.
Example ex_w2 : list Q := [3; 1; 1; 0; -1; -2; 3].
Example ex_norm2_oracle : exists w3, lin_project_col ex_rt (with_norm (with_norm ex_cfg 2) 0) ex_w2 = Some w3 /\
  ex_rt (qsum (map (fun x => x * x) w3)) * ex_rt (qsum (map (fun x => x * x) w3)) == qsum (map (fun x => x * x) w3).
Proof. eexists. split; [vm_compute; reflexivity|vm_compute; reflexivity]. Qed.
Example ex_rt_one : forall x, x == 1 -> ex_rt x == 1.
Proof. intros x H. unfold ex_rt. destruct (Qeq_bool x 25) eqn:E; [|reflexivity]. apply Qeq_bool_eq in E. lra. Qed.
Example ex_unit2 : lin_feasible (with_norm ex_cfg 2) (map (fun x => x / 5) ex_w2) /\
  qsum (map (fun x => x * x) (map (fun x => x / 5) ex_w2)) == 1.
Proof. split; [split; [|split]|].
  - intros i. unfold mono. cbn. do 7 (destruct i as [|i]; [split; intros; try discriminate; vm_compute; discriminate|]). destruct i; split; intros; discriminate.
  - intros d k H. in_cases H; vm_compute; discriminate.
  - intros d k H. in_cases H. vm_compute. discriminate.
  - vm_compute. reflexivity. Qed.
(* a 2-unit matrix for the lifting lemma *)
Example ex_matrix : exists R, lin_project qsqrt ex_cfg 2 (map (fun x => [x; - x]) ex_w) = Some R.
Proof. apply lin_matrix_defined. apply ex_cfg_valid. Qed.
