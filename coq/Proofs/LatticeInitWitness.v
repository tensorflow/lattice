(* C10: concrete witnesses for the open findings D6 / D24 on the model, and
   examples showing that the hypotheses of the C10 theorems are satisfiable. *)
From TFL Require Export Proofs.LatticeInitFixed.
From Coq Require Import Permutation.
Open Scope Q_scope.

(* valley (u = 1) / peak along dimension d, split at size // 2 as in the projection *)
Definition unimodal_holds (sh : list nat) (d : nat) (u : Z) (f : tens) : Prop :=
  forall i, valid sh i -> (S (nth d i 0) < nth d sh 0)%nat ->
    let nxt := upd i d (S (nth d i 0%nat)) in
    if (nth d i 0 <? nth d sh 0 / 2)%nat
    then (if (u =? 1)%Z then f nxt <= f i else f i <= f nxt)
    else (if (u =? 1)%Z then f i <= f nxt else f nxt <= f i).

(* D6 (a): trapezoid trust whose conditional feature is monotone *)
Definition d6a_kernel : tens := linear_init [2; 2]%nat 0 1 (Some [1; 1]%Z) None 1.
Lemma d6a_refuted : ~ trapezoid_holds [2; 2; 1]%nat (0%nat, 1%nat, 1%Z) d6a_kernel.
Proof. intros H. specialize (H [0; 0; 0]%nat 0%nat ltac:(repeat constructor) ltac:(cbn; lia)).
  vm_compute in H. destruct H as [H _]. apply H. reflexivity. Qed.
(* D6 (b): monotonic dominance, dominant dimension larger *)
Definition d6b_kernel : tens := linear_init [3; 2]%nat 0 1 (Some [1; 1]%Z) None 1.
Lemma d6b_refuted : ~ mono_dominance_holds [3; 2; 1]%nat (0%nat, 1%nat) d6b_kernel.
Proof. intros H. specialize (H [0; 0; 0]%nat 0%nat 0%nat ltac:(repeat constructor) ltac:(cbn; lia) ltac:(cbn; lia)).
  vm_compute in H. destruct H as [H _]. apply H. reflexivity. Qed.
(* D6 (c): joint monotonicity touching a unimodal dimension *)
Definition d6c_kernel : tens := linear_init [4; 3]%nat 0 1 (Some [1; 0]%Z) (Some [0; 1]%Z) 1.
Lemma d6c_refuted : ~ joint_mono_holds [4; 3; 1]%nat (0%nat, 1%nat) d6c_kernel.
Proof. intros H. specialize (H [0; 0; 0]%nat 0%nat 0%nat ltac:(repeat constructor) ltac:(cbn; lia) ltac:(cbn; lia)).
  vm_compute in H. destruct H as [H _]. apply H. reflexivity. Qed.

(* D24: the random monotonic initialiser ignores unimodality and trusts *)
Definition d24_order : list (list idx) := levels [3; 2]%nat.
Definition d24_samples : list Q := [0; 1; 2; 3; 4; 5].
Definition d24_kernel : tens := random_mono_init [3; 2]%nat 1 d24_order d24_samples.
Lemma d24_oracle_ok :
  Forall2 (@Permutation idx) d24_order (levels [3; 2]%nat) /\
  (forall a b, (a <= b)%nat -> (b < length d24_samples)%nat -> nth a d24_samples 0 <= nth b d24_samples 0) /\
  length d24_samples = length (concat d24_order) /\ (forall x, In x d24_samples -> 0 <= x /\ x <= 5).
Proof. split; [|split; [|split]].
  - unfold d24_order. induction (levels [3; 2]%nat); constructor; auto.
  - intros a b Hab Hb. cbn in Hb.
    do 6 (destruct b as [|b]; [do 6 (destruct a as [|a]; [cbn; first [lra|lia]|]); lia|]). lia.
  - reflexivity.
  - intros x Hx. cbn in Hx. repeat (destruct Hx as [<-|Hx]; [lra|]). destruct Hx. Qed.
Lemma d24_refuted_unimodality : ~ unimodal_holds [3; 2; 1]%nat 0%nat 1%Z d24_kernel.
Proof. intros H. specialize (H [0; 0; 0]%nat ltac:(repeat constructor) ltac:(cbn; lia)).
  vm_compute in H. apply H. reflexivity. Qed.
Lemma d24_refuted_trapezoid : ~ trapezoid_holds [3; 2; 1]%nat (0%nat, 1%nat, 1%Z) d24_kernel.
Proof. intros H. specialize (H [0; 0; 0]%nat 0%nat ltac:(repeat constructor) ltac:(cbn; lia)).
  vm_compute in H. destruct H as [H _]. apply H. reflexivity. Qed.

(* the hypotheses of the positive theorems are satisfiable *)
Example linear_range_hyps :
  let sizes := [3; 2; 4]%nat in let zm := [1; 0; 0]%Z in let zu := [0; 0; -1]%Z in
  (forall s, In s sizes -> (2 <= s)%nat) /\ length zm = length sizes /\ length zu = length sizes /\
  (forall d, nz (nth d zm 0%Z) && nz (nth d zu 0%Z) = false).
Proof. cbn. repeat split; try reflexivity.
  - intros s H. repeat (destruct H as [<-|H]; [lia|]). destruct H.
  - intros d. do 3 (destruct d as [|d]; [reflexivity|]). destruct d; reflexivity. Qed.

Definition ex_cfg : lat_cfg := mkLat [3; 2]%nat 2 [1; 0]%Z [] [] (Some (-2)) None.
Example ex_cfg_valid : cfg_valid ex_cfg /\ mono_bounds_only ex_cfg /\ l_sizes ex_cfg <> [] /\
  fst (default_init_params (l_min ex_cfg) (l_max ex_cfg)) <= snd (default_init_params (l_min ex_cfg) (l_max ex_cfg)).
Proof. split. apply cfg_validb_ok; reflexivity. cbn. repeat split. discriminate. lra. Qed.
(* with the identity as Dykstra stage the hypothesis [teq sh (dyk W) W] holds trivially *)
Example ex_fixed :
  let W := linear_init (l_sizes ex_cfg) (-2) 1 (Some (l_monos ex_cfg)) None (l_units ex_cfg) in
  teq (l_shape ex_cfg) (lattice_constraint_after_dykstra ex_cfg true W) W.
Proof. destruct ex_cfg_valid as (H1 & H2 & H3 & H4).
  apply (constraint_fixes_feasible ex_cfg (fun K => K)); [exact H1| |apply teq_refl].
  exact (linear_init_feasible ex_cfg H1 H2 H3 H4). Qed.
