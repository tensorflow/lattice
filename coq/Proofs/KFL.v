(* Lemmas about the model of KroneckerFactoredLattice (Model/KFL.v): 1-D
   interpolation in cell form, the monotonicity / bounds projections, the
   invariant argument over arbitrary constraint histories, and the output
   theorems used by Props/C07.v. *)
From TFL Require Import Model.KFL.
Open Scope Q_scope.

Lemma qn_S k : qn (S k) == qn k + 1.
Proof. exact (qofnat_S k). Qed.
Lemma qn_nonneg k : 0 <= qn k.
Proof. exact (qofnat_nonneg k). Qed.

Lemma qsgn_cases s : (0 < s /\ qsgn s = 1) \/ (s < 0 /\ qsgn s = -1) \/ (s == 0 /\ qsgn s = 0).
Proof.
  unfold qsgn. destruct (qlt 0 s) eqn:E1.
  - left. split; [apply qlt_true; exact E1|reflexivity].
  - apply qlt_false in E1. destruct (qlt s 0) eqn:E2.
    + right; left. split; [apply qlt_true; exact E2|reflexivity].
    + apply qlt_false in E2. right; right. split; [lra|reflexivity].
Qed.
Lemma qsgn_zero x : qsgn x = 0 -> x == 0.
Proof. destruct (qsgn_cases x) as [[_ ->]|[[_ ->]|[H _]]]; [discriminate|discriminate|auto]. Qed.

Lemma Forall2_map2_r {A B} (P : A -> B -> Prop) (R : A -> B -> Prop) (f : A -> B -> B) l1 l2 :
  Forall2 P l1 l2 -> (forall a b, P a b -> R a (f a b)) -> Forall2 R l1 (map2 f l1 l2).
Proof. intros H HF. induction H; cbn [map2]; constructor; auto. Qed.
Lemma Forall2_map_l {A B} (P R : A -> B -> Prop) (g : A -> A) l1 l2 :
  Forall2 P l1 l2 -> (forall a b, P a b -> R (g a) b) -> Forall2 R (map g l1) l2.
Proof. intros H HF. induction H; cbn [map]; constructor; auto. Qed.
Lemma Forall2_map_r {A B} (R R' : A -> B -> Prop) (g : B -> B) l1 l2 :
  Forall2 R l1 l2 -> (forall a b, R a b -> R' a (g b)) -> Forall2 R' l1 (map g l2).
Proof. induction 1; cbn [map]; constructor; auto. Qed.
Lemma Forall2_map2_Forall {A B C} (P : A -> B -> Prop) (P' : C -> Prop) (f : A -> B -> C) l1 l2 :
  Forall2 P l1 l2 -> (forall a b, P a b -> P' (f a b)) -> Forall P' (map2 f l1 l2).
Proof. intros H HF. induction H; cbn [map2]; constructor; auto. Qed.
Lemma Forall_map2_any {A B C} (P : C -> Prop) (f : A -> B -> C) a b : (forall x y, P (f x y)) -> Forall P (map2 f a b).
Proof. intros H. revert b. induction a as [|x a IH]; intros [|y b]; cbn [map2]; constructor; auto. Qed.
Lemma Forall2_map2_any {A B} (R : B -> A -> Prop) (f : A -> B -> A) : forall a b,
  length a = length b -> (forall x y, R y (f x y)) -> Forall2 R b (map2 f a b).
Proof. induction a as [|x a IH]; intros [|y b] Hl H; cbn in *; try discriminate; constructor; auto. Qed.
Lemma map2_Forall {A B C} (P : A -> Prop) (P' : B -> Prop) (R : C -> Prop) (f : A -> B -> C) : forall a b,
  (forall x y, P x -> P' y -> R (f x y)) -> Forall P a -> Forall P' b -> Forall R (map2 f a b).
Proof.
  induction a as [|x a IH]; intros [|y b] Hf Ha Hb; cbn [map2]; try constructor;
  inversion Ha; inversion Hb; subst; auto.
Qed.

Definition hatsum (off : nat) (v : vec) (x : Q) : Q :=
  qsum (map2 Qmult (map (fun i => hat (qn i - x)) (seq off (length v))) v).
Lemma hatsum_cons off a v x : hatsum off (a :: v) x = hat (qn off - x) * a + hatsum (S off) v x.
Proof. reflexivity. Qed.
Lemma hat_far z : 1 <= z \/ z <= -1 -> hat z == 0.
Proof. intros H. unfold hat. qcases; lra. Qed.
Lemma hat_pos z : 0 <= z -> z <= 1 -> hat z == 1 - z.
Proof. intros H1 H2. unfold hat. qcases; lra. Qed.
Lemma hat_neg z : z <= 0 -> -1 <= z -> hat z == 1 + z.
Proof. intros H1 H2. unfold hat. qcases; lra. Qed.

Lemma hatsum_zero : forall v off x, x <= qn off - 1 -> hatsum off v x == 0.
Proof.
  induction v as [|a v IH]; intros off x H. reflexivity.
  rewrite hatsum_cons. rewrite hat_far by (left; lra).
  rewrite IH by (rewrite qn_S; lra). lra.
Qed.

(* The same function written cell by cell: on [off, off+1] the segment from
   v_0 to v_1, further right the rest of the list. *)
Fixpoint cell (off : nat) (v : vec) (x : Q) : Q :=
  match v with
  | [] => 0
  | a :: r => match r with
              | [] => a
              | b :: _ => if Qle_bool x (qn (S off)) then a + (x - qn off) * (b - a) else cell (S off) r x
              end
  end.

Lemma cell_one off a x : cell off [a] x = a.
Proof. reflexivity. Qed.
Lemma cell_cases off a b r x :
  (x <= qn off + 1 /\ cell off (a :: b :: r) x = a + (x - qn off) * (b - a)) \/
  (qn off + 1 < x /\ cell off (a :: b :: r) x = cell (S off) (b :: r) x).
Proof.
  cbn [cell]. destruct (Qle_bool x (qn (S off))) eqn:E.
  - left. apply Qle_bool_iff in E. rewrite qn_S in E. auto.
  - right. apply (qle_false x (qn (S off))) in E. rewrite qn_S in E. auto.
Qed.

Lemma hatsum_cell : forall v off x, qn off <= x -> x <= qn off + qn (length v) - 1 -> hatsum off v x == cell off v x.
Proof.
  induction v as [|a r IH]; intros off x H1 H2. reflexivity.
  destruct r as [|b r'].
  - rewrite hatsum_cons. cbn [cell]. change (qn (length [a])) with 1 in H2.
    rewrite hat_pos by lra. change (hatsum (S off) [] x) with 0.
    assert (E : x == qn off) by lra. rewrite E. ring.
  - change (length (a :: b :: r')) with (S (length (b :: r'))) in H2. rewrite qn_S in H2.
    destruct (cell_cases off a b r' x) as [[E ->]|[E ->]].
    + rewrite !hatsum_cons. rewrite hatsum_zero by (rewrite !qn_S; lra).
      rewrite hat_neg by lra. rewrite hat_pos by (rewrite qn_S; lra). rewrite qn_S. ring.
    + rewrite hatsum_cons. rewrite hat_far by (right; lra).
      rewrite IH by (rewrite qn_S; lra). ring.
Qed.

Fixpoint sorted (v : vec) : Prop :=
  match v with a :: r => match r with b :: _ => a <= b /\ sorted r | [] => True end | [] => True end.
Fixpoint rsorted (v : vec) : Prop :=
  match v with a :: r => match r with b :: _ => b <= a /\ rsorted r | [] => True end | [] => True end.

Lemma sorted_map g v : (forall x y, x <= y -> g x <= g y) -> sorted v -> sorted (map g v).
Proof. intros Hg. induction v as [|a r IH]; intros H. exact I. destruct r as [|b r']. exact I.
  destruct H as [H1 H2]. split. apply Hg, H1. apply IH, H2. Qed.
Lemma rsorted_map g v : (forall x y, x <= y -> g x <= g y) -> rsorted v -> rsorted (map g v).
Proof. intros Hg. induction v as [|a r IH]; intros H. exact I. destruct r as [|b r']. exact I.
  destruct H as [H1 H2]. split. apply Hg, H1. apply IH, H2. Qed.
Lemma sorted_map_anti g v : (forall x y, x <= y -> g y <= g x) -> sorted v -> rsorted (map g v).
Proof. intros Hg. induction v as [|a r IH]; intros H. exact I. destruct r as [|b r']. exact I.
  destruct H as [H1 H2]. split. apply Hg, H1. apply IH, H2. Qed.
Lemma rsorted_map_anti g v : (forall x y, x <= y -> g y <= g x) -> rsorted v -> sorted (map g v).
Proof. intros Hg. induction v as [|a r IH]; intros H. exact I. destruct r as [|b r']. exact I.
  destruct H as [H1 H2]. split. apply Hg, H1. apply IH, H2. Qed.

Lemma sorted_of_nth : forall v, (forall i, (S i < length v)%nat -> nth i v 0 <= nth (S i) v 0) -> sorted v.
Proof.
  induction v as [|a r IH]; intros H. exact I. destruct r as [|b r']. exact I. split.
  - exact (H 0%nat ltac:(cbn; lia)).
  - apply IH. intros i Hi. apply (H (S i)). cbn in *. lia.
Qed.
Lemma rsorted_of_nth : forall v, (forall i, (S i < length v)%nat -> nth (S i) v 0 <= nth i v 0) -> rsorted v.
Proof.
  induction v as [|a r IH]; intros H. exact I. destruct r as [|b r']. exact I. split.
  - exact (H 0%nat ltac:(cbn; lia)).
  - apply IH. intros i Hi. apply (H (S i)). cbn in *. lia.
Qed.

Lemma cell_between lo hi : forall v off x, v <> [] -> Forall (fun w => lo <= w /\ w <= hi) v -> qn off <= x ->
  lo <= cell off v x /\ cell off v x <= hi.
Proof.
  induction v as [|a r IH]; intros off x Hne HF Hx. congruence.
  inversion HF as [|? ? [Ha1 Ha2] HF']; subst. destruct r as [|b r'].
  - cbn [cell]. split; assumption.
  - destruct (cell_cases off a b r' x) as [[E ->]|[E ->]].
    + inversion HF' as [|? ? [Hb1 Hb2] _]; subst. apply between_bounds; split; lra.
    + apply IH. congruence. assumption. rewrite qn_S. lra.
Qed.

Lemma cell_ge_head : forall r a off x, sorted (a :: r) -> qn off <= x -> a <= cell off (a :: r) x.
Proof.
  induction r as [|b r IH]; intros a off x Hs Hx. cbn [cell]; lra.
  destruct Hs as [Hab Hs]. destruct (cell_cases off a b r x) as [[E ->]|[E ->]].
  - pose proof (qmul_nonneg (x - qn off) (b - a) ltac:(lra) ltac:(lra)). lra.
  - pose proof (IH b (S off) x Hs ltac:(rewrite qn_S; lra)). lra.
Qed.

Lemma cell_mono : forall v off x y, sorted v -> x <= y -> cell off v x <= cell off v y.
Proof.
  induction v as [|a r IH]; intros off x y Hs Hxy. cbn; lra.
  destruct r as [|b r']. cbn [cell]; lra.
  destruct Hs as [Hab Hs].
  destruct (cell_cases off a b r' x) as [[Ex ->]|[Ex ->]]; destruct (cell_cases off a b r' y) as [[Ey ->]|[Ey ->]].
  - pose proof (qmul_nonneg (y - x) (b - a) ltac:(lra) ltac:(lra)). lra.
  - pose proof (cell_ge_head r' b (S off) y Hs ltac:(rewrite qn_S; lra)).
    pose proof (qmul_nonneg (1 - (x - qn off)) (b - a) ltac:(lra) ltac:(lra)). lra.
  - lra.
  - apply IH; assumption.
Qed.

Lemma qprod_nonneg l : Forall (fun a => 0 <= a) l -> 0 <= qprod l.
Proof. induction 1; cbn [qprod]. lra. apply qmul_nonneg; assumption. Qed.
Lemma qprod_le l l' : Forall2 (fun a b => 0 <= a /\ a <= b) l l' -> 0 <= qprod l /\ qprod l <= qprod l'.
Proof.
  induction 1 as [|a b l l' [Ha Hab] _ [IH1 IH2]]; cbn [qprod]. split; lra.
  pose proof (qmul_nonneg a (qprod l) Ha IH1).
  pose proof (qmul_le_l a _ _ Ha IH2).
  pose proof (qmul_nonneg (b - a) (qprod l') ltac:(lra) ltac:(lra)).
  split; lra.
Qed.
Lemma qmul_abs_le a m b n : - m <= a -> a <= m -> - n <= b -> b <= n -> - (m * n) <= a * b /\ a * b <= m * n.
Proof.
  intros. pose proof (qmul_nonneg (m - a) (n + b) ltac:(lra) ltac:(lra)).
  pose proof (qmul_nonneg (m + a) (n - b) ltac:(lra) ltac:(lra)).
  pose proof (qmul_nonneg (m - a) (n - b) ltac:(lra) ltac:(lra)).
  pose proof (qmul_nonneg (m + a) (n + b) ltac:(lra) ltac:(lra)).
  split; lra.
Qed.
Lemma qprod_abs l ms : Forall2 (fun a m => - m <= a /\ a <= m) l ms -> - qprod ms <= qprod l /\ qprod l <= qprod ms.
Proof.
  induction 1 as [|a m l ms [Ha1 Ha2] _ [IH1 IH2]]; cbn [qprod]. split; lra.
  apply qmul_abs_le; assumption.
Qed.

(* the empty list is covered because 0 lies between the bounds *)
Lemma qmean_between0 l lo hi : lo <= 0 -> 0 <= hi -> Forall (fun a => lo <= a /\ a <= hi) l -> lo <= qmean l /\ qmean l <= hi.
Proof.
  intros L0 H0 HF. destruct l as [|a l]. change (qmean []) with 0. split; lra.
  apply (qavg_bounds lo hi (a :: l)); [discriminate|apply Forall_forall, HF].
Qed.
(* one-sided: no other bound is needed, and x / 0 = 0 covers the empty list *)
Lemma qmean_sign l : (Forall (fun a => 0 <= a) l -> 0 <= qmean l) /\ (Forall (fun a => a <= 0) l -> qmean l <= 0).
Proof.
  assert (Hn : 0 <= / qn (length l)) by apply Qinv_le_0_compat, qn_nonneg.
  unfold qmean, Qdiv. split; intros H.
  - apply qmul_nonneg; [clear Hn; induction H; cbn [qsum]; lra|exact Hn].
  - assert (Hs : qsum l <= 0) by (clear Hn; induction H; cbn [qsum]; lra).
    pose proof (qmul_nonneg (- qsum l) _ ltac:(lra) Hn). lra.
Qed.
Lemma qmean_le l l' : Forall2 Qle l l' -> qmean l <= qmean l'.
Proof. exact (qavg_le l l'). Qed.

Lemma cummin_back_cons a r :
  cummin_back (a :: r) = match cummin_back r with [] => [a] | (y :: _) as r' => qmin a y :: r' end.
Proof. reflexivity. Qed.
Lemma cummin_back_sorted v : sorted (cummin_back v).
Proof.
  induction v as [|a r IH]. exact I. rewrite cummin_back_cons.
  destruct (cummin_back r) as [|y l]. exact I. split. apply qmin_r. exact IH.
Qed.
Lemma cummin_back_length v : length (cummin_back v) = length v.
Proof.
  induction v as [|a r IH]. reflexivity. rewrite cummin_back_cons.
  destruct (cummin_back r) as [|y l]; cbn [length] in *; lia.
Qed.
Lemma cummin_back_Forall (P : Q -> Prop) v : Forall P v -> Forall P (cummin_back v).
Proof.
  induction 1 as [|a r Ha _ IH]. constructor. rewrite cummin_back_cons.
  destruct (cummin_back r) as [|y l]. constructor; [assumption|constructor].
  constructor; [|assumption]. inversion IH; subst. destruct (qmin_either a y) as [-> | ->]; assumption.
Qed.
Lemma cummax_from_Forall (P : Q -> Prop) : forall l m, P m -> Forall P l -> Forall P (cummax_from m l).
Proof.
  induction l as [|x r IH]; intros m Hm H; cbn [cummax_from]. constructor.
  inversion H; subst. assert (P (qmax x m)) by (destruct (qmax_either x m) as [-> | ->]; assumption).
  constructor; auto.
Qed.
Lemma cummax_Forall (P : Q -> Prop) v : Forall P v -> Forall P (cummax v).
Proof. destruct 1; cbn [cummax]. constructor. constructor; [assumption|apply cummax_from_Forall; assumption]. Qed.
Lemma cummax_from_length : forall l m, length (cummax_from m l) = length l.
Proof. induction l; intros; cbn; auto. Qed.
Lemma cummax_length v : length (cummax v) = length v.
Proof. destruct v; cbn; [|rewrite cummax_from_length]; reflexivity. Qed.

Lemma mono_proj1_sorted v : sorted (mono_proj1 v).
Proof. apply cummin_back_sorted. Qed.
Lemma mono_proj1_length v : length (mono_proj1 v) = length v.
Proof. unfold mono_proj1. rewrite cummin_back_length, map2_length, cummax_length. lia. Qed.
(* every entry of the projection is a min / max / average of entries *)
Lemma mono_proj1_Forall (P : Q -> Prop) v : (forall x y, P x -> P y -> P ((x + y) * (1#2))) ->
  Forall P v -> Forall P (mono_proj1 v).
Proof.
  intros Hp H. apply cummin_back_Forall. apply (map2_Forall P P); [exact Hp|assumption|apply cummax_Forall; assumption].
Qed.

Definition vnonneg (v : vec) : Prop := Forall (fun w => 0 <= w) v.
Definition tnonneg (vs : term) : Prop := Forall vnonneg vs.
Definition tshape (L dims : nat) (vs : term) : Prop := length vs = dims /\ Forall (fun v => length v = L) vs.
Definition prodmax (vs : term) : Q := qprod (map maxabs vs).

(* what the kernel constraint establishes for the monotone inputs, relative to
   the sign of the scale of the term *)
Definition term_good (ms : list bool) (s : Q) (vs : term) : Prop :=
  s == 0 \/
  (0 < s /\ tnonneg vs /\ Forall2 (fun (m : bool) v => m = true -> sorted v) ms vs) \/
  (s < 0 /\ tnonneg vs /\ Forall2 (fun (m : bool) v => m = true -> rsorted v) ms vs).

(* from the form in which Proofs/KFLInit.v states the order of a fresh column
   (kfl_col_sorted) *)
Lemma term_good_of_dir ms s vs : tnonneg vs ->
  Forall2 (fun (m : bool) v => m = true ->
             forall i, (S i < length v)%nat -> qsgn s * nth i v 0 <= qsgn s * nth (S i) v 0) ms vs ->
  term_good ms s vs.
Proof.
  intros Hn H. destruct (qsgn_cases s) as [[Hp E]|[[Hp E]|[Hz _]]]; [| |left; exact Hz]; rewrite E in H.
  - right; left. split; [exact Hp|split; [exact Hn|]]. eapply Forall2_impl; [|exact H]. cbn beta.
    intros m v Hv Hm. apply sorted_of_nth. intros i Hi. specialize (Hv Hm i Hi). lra.
  - right; right. split; [exact Hp|split; [exact Hn|]]. eapply Forall2_impl; [|exact H]. cbn beta.
    intros m v Hv Hm. apply rsorted_of_nth. intros i Hi. specialize (Hv Hm i Hi). lra.
Qed.
Lemma tnonneg_map g vs : (forall x, 0 <= x -> 0 <= g x) -> tnonneg vs -> tnonneg (map (map g) vs).
Proof.
  intros Hp Hn. apply Forall_map_impl with (P := vnonneg); [assumption|].
  intros v Hv. apply Forall_map_impl with (P := fun w => 0 <= w); auto.
Qed.
Lemma term_good_map g ms s vs :
  (forall x y, x <= y -> g x <= g y) -> (forall x, 0 <= x -> 0 <= g x) ->
  term_good ms s vs -> term_good ms s (map (map g) vs).
Proof.
  intros Hm Hp [H|[(Hs & Hn & Hso)|(Hs & Hn & Hso)]].
  - left; assumption.
  - right; left. split; [assumption|split; [apply tnonneg_map; assumption|]].
    eapply Forall2_map_r. exact Hso. intros m v H E. apply sorted_map; auto.
  - right; right. split; [assumption|split; [apply tnonneg_map; assumption|]].
    eapply Forall2_map_r. exact Hso. intros m v H E. apply rsorted_map; auto.
Qed.
Lemma tshape_map g L dims vs : tshape L dims vs -> tshape L dims (map (map g) vs).
Proof.
  intros [H1 H2]. split. rewrite map_length; assumption.
  apply Forall_map_impl with (P := fun v => length v = L); [assumption|]. intros v Hv. rewrite map_length; assumption.
Qed.

Definition relu (w : Q) : Q := qmax w 0.
(* one dimension: multiply by the direction, project, multiply again *)
Definition pv (dir : Q) (m : bool) (v : vec) : vec :=
  vscale dir (if m then mono_proj1 (vscale dir (map relu v)) else vscale dir (map relu v)).
Lemma project_mono_term_pv ms s vs :
  project_mono_term ms s (clip0 vs) = map2 (fun v m => pv (qsgn s) m v) vs ms.
Proof.
  unfold project_mono_term, clip0. generalize (qsgn s) as dir. intros dir. revert ms.
  induction vs as [|v vs IH]; intros [|m ms]; cbn [map map2]; try reflexivity.
  f_equal. apply IH.
Qed.
Lemma pv_length dir m v : length (pv dir m v) = length v.
Proof. unfold pv, vscale. destruct m; rewrite !map_length, ?mono_proj1_length, ?map_length; reflexivity. Qed.

Lemma relu_nonneg v : vnonneg (map relu v).
Proof. apply Forall_forall, all_map. intros x _. unfold relu. apply qmax_r. Qed.

(* all entries keep the sign of dir through the projection; the second
   multiplication makes them non-negative *)
Lemma pv_nonneg dir m v : dir = 1 \/ dir = -1 -> vnonneg (pv dir m v).
Proof.
  intros Hd. unfold pv, vscale.
  assert (H : Forall (fun w => 0 <= dir * w) (map (fun w => dir * w) (map relu v))).
  { apply Forall_map_impl with (P := fun w => 0 <= w). apply relu_nonneg. intros w Hw. destruct Hd as [-> | ->]; lra. }
  apply Forall_map_impl with (P := fun w => 0 <= dir * w); [|auto].
  destruct m; [apply mono_proj1_Forall; [intros; lra|]|]; exact H.
Qed.
Lemma project_mono_term_good ms s vs : length vs = length ms ->
  term_good ms s (project_mono_term ms s (clip0 vs)).
Proof.
  intros Hl. rewrite project_mono_term_pv.
  destruct (qsgn_cases s) as [[Hs ->]|[[Hs ->]|[Hs ->]]].
  - right; left. split; [assumption|split].
    + apply Forall_map2_any. intros; apply pv_nonneg; auto.
    + apply Forall2_map2_any. assumption. intros v m ->. apply sorted_map. intros; lra. apply mono_proj1_sorted.
  - right; right. split; [assumption|split].
    + apply Forall_map2_any. intros; apply pv_nonneg; auto.
    + apply Forall2_map2_any. assumption. intros v m ->. apply sorted_map_anti. intros; lra. apply mono_proj1_sorted.
  - left; assumption.
Qed.
Lemma project_mono_term_shape L dims ms s vs : length ms = dims -> tshape L dims vs ->
  tshape L dims (project_mono_term ms s (clip0 vs)).
Proof.
  intros Hm [H1 H2]. rewrite project_mono_term_pv. split.
  - rewrite map2_length. lia.
  - clear H1 Hm. revert ms. induction H2 as [|v vs Hv _ IH]; intros [|m ms]; cbn [map2]; constructor.
    rewrite pv_length; assumption. apply IH.
Qed.

(* finalize_weights_term is the two stages in sequence *)
Definition mono_stage (monos : option (list bool)) (s : Q) (vs : term) : term :=
  match monos with
  | Some ms => if (0 <? count_true ms)%nat then project_mono_term ms s (clip0 vs) else vs
  | None => vs
  end.
Definition bounds_stage (root : nat -> Q -> Q) (omin omax : option Q) (t : term) : term :=
  if is_some omin || is_some omax then project_bounds_term root omin omax t else t.
Lemma finalize_weights_term_stages root monos omin omax s vs :
  finalize_weights_term root monos omin omax s vs = bounds_stage root omin omax (mono_stage monos s vs).
Proof. reflexivity. Qed.

Lemma mono_stage_good monos L dims s vs : (forall ms, monos = Some ms -> length ms = dims) -> tshape L dims vs ->
  tshape L dims (mono_stage monos s vs) /\
  (forall ms, monos = Some ms -> (0 < count_true ms)%nat -> term_good ms s (mono_stage monos s vs)).
Proof.
  intros Hms Hsh. unfold mono_stage. destruct monos as [ms|]; [|split; [exact Hsh|discriminate]].
  specialize (Hms ms eq_refl). destruct (0 <? count_true ms)%nat eqn:Ec.
  - split. apply project_mono_term_shape; assumption.
    intros ms' E _. injection E as <-. apply project_mono_term_good. destruct Hsh; lia.
  - split. exact Hsh. intros ms' E Hc. injection E as <-. apply Nat.ltb_ge in Ec. lia.
Qed.

Lemma qabs_div w f : 0 < f -> qabs (w / f) == qabs w / f.
Proof.
  intros Hf. assert (Hi : 0 < / f) by (apply Qinv_lt_0_compat, Hf). unfold Qdiv.
  destruct (qabs_spec w) as [[H1 ->]|[H1 ->]]; destruct (qabs_spec (w * / f)) as [[H2 ->]|[H2 ->]]; try lra.
  - pose proof (qmul_nonneg w (/ f) H1 ltac:(lra)). lra.
  - pose proof (qmul_nonneg (- w) (/ f) ltac:(lra) ltac:(lra)).
    assert (w * / f == 0) by lra. lra.
Qed.
Lemma maxabs_nonneg v : 0 <= maxabs v.
Proof.
  unfold maxabs. destruct v as [|a v]. cbn; lra.
  pose proof (qmaxl_ge (map qabs (a :: v)) (qabs a) (or_introl eq_refl)). pose proof (qabs_nonneg a). lra.
Qed.
Lemma maxabs_div_le v f : 0 < f -> maxabs (map (fun w => w / f) v) <= maxabs v / f.
Proof.
  intros Hf. destruct v as [|a v].
  - cbn. unfold Qdiv. lra.
  - unfold maxabs. apply qmaxl_lub. cbn; congruence.
    intros x Hx. rewrite map_map in Hx. apply in_map_iff in Hx. destruct Hx as [w [<- Hw]].
    rewrite qabs_div by assumption. apply qdiv_le_mono. assumption.
    apply qmaxl_ge. apply in_map. assumption.
Qed.
Lemma qprod_map_div (g : vec -> Q) f vs : ~ f == 0 ->
  qprod (map (fun v => g v / f) vs) * qpow f (length vs) == qprod (map g vs).
Proof.
  intros Hf. induction vs as [|v vs IH]; cbn [map qprod length qpow]. ring.
  rewrite <- IH. field. assumption.
Qed.
Lemma prodmax_nonneg vs : 0 <= prodmax vs.
Proof.
  unfold prodmax. induction vs as [|v vs IH]; cbn [map qprod]. lra.
  apply qmul_nonneg. apply maxabs_nonneg. exact IH.
Qed.

Section Root.
Variable root : nat -> Q -> Q.
(* the only facts used about tf.pow(x, 1/d), for x >= 1: the result is >= 1, its
   d-th power is not below x (an exact root where one exists, else any upper
   approximation: there is no exact rational square root of 2), and 1 for x = 1 *)
Definition root_ok : Prop := forall d x, (1 <= d)%nat -> 1 <= x ->
  1 <= root d x /\ x <= qpow (root d x) d /\ (x == 1 -> root d x == 1).
Hypothesis Hroot : root_ok.

Lemma prodmax_after_div vs :
  (1 <= length vs)%nat ->
  let f := root (length vs) (qmax (prodmax vs) 1) in
  0 < f /\ prodmax (map (map (fun w => w / f)) vs) <= 1.
Proof.
  intros Hd f.
  destruct (Hroot (length vs) (qmax (prodmax vs) 1) Hd (qmax_r _ _)) as (Hf1 & Hf2 & _). fold f in Hf1, Hf2.
  assert (Hf : 0 < f) by lra. split. exact Hf.
  apply Qle_trans with (qprod (map (fun v => maxabs v / f) vs)).
  { unfold prodmax. rewrite map_map. apply qprod_le. apply Forall2_map_in. intros v _. split.
    apply maxabs_nonneg. apply maxabs_div_le. exact Hf. }
  pose proof (qprod_map_div maxabs f vs ltac:(lra)) as H2. fold (prodmax vs) in H2.
  set (P' := qprod (map (fun v => maxabs v / f) vs)) in *.
  pose proof (qmax_l (prodmax vs) 1) as H3. pose proof (qmax_r (prodmax vs) 1) as H4.
  set (M := qmax (prodmax vs) 1) in *. set (F := qpow f (length vs)) in *.
  (* P' * F == P <= M <= F and 1 <= M *)
  apply (Qmult_le_r P' 1 F); lra.
Qed.
End Root.

Definition bounds_ok (omin omax : option Q) : Prop :=
  forall lo hi, omin = Some lo -> omax = Some hi -> lo < hi.

Lemma finalize_scale1_sign omin omax s : bounds_ok omin omax ->
  (0 < finalize_scale1 omin omax s -> 0 < s) /\ (finalize_scale1 omin omax s < 0 -> s < 0).
Proof.
  intros Hb. unfold finalize_scale1. destruct omin as [lo|], omax as [hi|].
  - specialize (Hb lo hi eq_refl eq_refl). unfold qclip. split; intros H; qcases; lra.
  - split; intros H; qcases; lra.
  - split; intros H; qcases; lra.
  - split; intros H; lra.
Qed.
Lemma finalize_scale1_qsgn omin omax s : bounds_ok omin omax ->
  qsgn (finalize_scale1 omin omax s) = qsgn s \/ qsgn (finalize_scale1 omin omax s) = 0.
Proof.
  intros Hb. destruct (finalize_scale1_sign omin omax s Hb) as [H1 H2].
  destruct (qsgn_cases (finalize_scale1 omin omax s)) as [[Hs ->]|[[Hs ->]|[Hs ->]]]; [| |right; reflexivity]; left.
  - destruct (qsgn_cases s) as [[Hs' ->]|[[Hs' ->]|[Hs' ->]]]; [reflexivity| |]; specialize (H1 Hs); lra.
  - destruct (qsgn_cases s) as [[Hs' ->]|[[Hs' ->]|[Hs' ->]]]; [|reflexivity|]; specialize (H2 Hs); lra.
Qed.
(* with two-sided bounds the sign is kept exactly *)
Lemma finalize_scale1_qsgn_two_sided lo hi s : lo < hi ->
  qsgn (finalize_scale1 (Some lo) (Some hi) s) = qsgn s.
Proof.
  intros Hb. cbn [finalize_scale1]. unfold qclip.
  destruct (qsgn_cases s) as [[Hs ->]|[[Hs ->]|[Hs ->]]];
  match goal with |- qsgn ?e = _ => destruct (qsgn_cases e) as [[Hs' ->]|[[Hs' ->]|[Hs' ->]]] end;
  try reflexivity; exfalso; revert Hs'; qcases; lra.
Qed.
Lemma finalize_scale1_idem omin omax s : bounds_ok omin omax ->
  finalize_scale1 omin omax (finalize_scale1 omin omax s) == finalize_scale1 omin omax s.
Proof.
  intros Hb. unfold finalize_scale1. destruct omin as [lo|], omax as [hi|].
  - specialize (Hb lo hi eq_refl eq_refl). apply qclip_id; apply qclip_range; lra.
  - qcases; lra.
  - qcases; lra.
  - reflexivity.
Qed.

Lemma term_good_scale ms omin omax s vs : bounds_ok omin omax ->
  term_good ms s vs -> term_good ms (finalize_scale1 omin omax s) vs.
Proof.
  intros Hb H. destruct (finalize_scale1_sign omin omax s Hb) as [H1 H2].
  destruct (Qlt_le_dec 0 (finalize_scale1 omin omax s)) as [Hp|Hp].
  - specialize (H1 Hp). destruct H as [H|[H|H]]; [lra| |destruct H; lra].
    right; left. destruct H as (_ & Ha & Hb'). auto.
  - destruct (Qlt_le_dec (finalize_scale1 omin omax s) 0) as [Hn|Hn].
    + specialize (H2 Hn). destruct H as [H|[H|H]]; [lra|destruct H; lra|].
      right; right. destruct H as (_ & Ha & Hb'). auto.
    + left. lra.
Qed.

(* what the two constraints establish, per (unit, term) *)
Definition kgood (c : config) (s : Q) (vs : term) : Prop :=
  (forall ms, canon_monos (c_monos c) = Some ms -> (0 < count_true ms)%nat -> term_good ms s vs) /\
  (is_some (c_min c) = true -> is_some (c_max c) = true -> prodmax vs <= 1) /\
  (is_some (c_min c) <> is_some (c_max c) -> tnonneg vs).
(* the bound part of kgood: no scale in it *)
Definition kbnd (c : config) (vs : term) : Prop :=
  (is_some (c_min c) = true -> is_some (c_max c) = true -> prodmax vs <= 1) /\
  (is_some (c_min c) <> is_some (c_max c) -> tnonneg vs).
Definition sgood (c : config) (s : Q) : Prop :=
  match c_min c, c_max c with
  | Some lo, Some hi => - ((hi - lo) * (1#2)) <= s /\ s <= (hi - lo) * (1#2)
  | Some _, None => 0 <= s
  | None, Some _ => s <= 0
  | None, None => True
  end.
Definition cfg_ok (c : config) (dims : nat) : Prop :=
  (2 <= c_size c)%nat /\ (1 <= dims)%nat /\ bounds_ok (c_min c) (c_max c) /\
  (forall ms, canon_monos (c_monos c) = Some ms -> length ms = dims).

Lemma sgood_finalize c s : bounds_ok (c_min c) (c_max c) -> sgood c (finalize_scale1 (c_min c) (c_max c) s).
Proof.
  intros Hb. unfold sgood, finalize_scale1. destruct (c_min c) as [lo|], (c_max c) as [hi|].
  - specialize (Hb lo hi eq_refl eq_refl). unfold qclip. split; qcases; lra.
  - apply qmax_r.
  - apply qmin_r.
  - exact I.
Qed.
Lemma kgood_scale c s vs : bounds_ok (c_min c) (c_max c) ->
  kgood c s vs -> kgood c (finalize_scale1 (c_min c) (c_max c) s) vs.
Proof.
  intros Hb (H1 & H2 & H3). split; [|split]; auto.
  intros ms E Hc. apply term_good_scale; auto.
Qed.

Section Root.
Variable root : nat -> Q -> Q.
Hypothesis Hroot : root_ok root.

Lemma bounds_stage_good omin omax L dims s t : (1 <= dims)%nat -> tshape L dims t ->
  let t' := bounds_stage root omin omax t in
  tshape L dims t' /\ (forall ms, term_good ms s t -> term_good ms s t') /\
  (is_some omin = true -> is_some omax = true -> prodmax t' <= 1) /\
  (is_some omin <> is_some omax -> tnonneg t').
Proof.
  intros Hd Hsh.
  (* exactly one bound: the weights are clipped at 0 *)
  assert (Hclip : tshape L dims (clip0 t) /\ (forall ms, term_good ms s t -> term_good ms s (clip0 t)) /\
                  tnonneg (clip0 t)).
  { split; [apply tshape_map; assumption|split].
    - intros ms. apply term_good_map; [intros; apply qmax_mono; lra|intros; apply qmax_r].
    - apply Forall_forall, all_map. intros v _. apply (relu_nonneg v). }
  unfold bounds_stage. destruct omin as [lo|], omax as [hi|]; cbn [is_some orb project_bounds_term].
  - destruct (prodmax_after_div root Hroot t) as [Hf Hp]. destruct Hsh; lia.
    split; [apply tshape_map; assumption|split; [|split]].
    + intros ms. apply term_good_map. intros; apply qdiv_le_mono; assumption. intros; apply qdiv_nonneg; [assumption|apply Qlt_le_weak; assumption].
    + intros _ _. exact Hp.
    + intros H; congruence.
  - destruct Hclip as (A & B & C). split; [exact A|split; [exact B|split; [discriminate|intros _; exact C]]].
  - destruct Hclip as (A & B & C). split; [exact A|split; [exact B|split; [discriminate|intros _; exact C]]].
  - split; [assumption|split; [auto|split]]; intros; congruence.
Qed.

(* the kernel constraint of the layer on one (unit, term) *)
Definition Kt (c : config) (s : Q) (vs : term) : term :=
  finalize_weights_term root (canon_monos (c_monos c)) (c_min c) (c_max c) s vs.
Definition gate (c : config) : bool :=
  (0 <? num_constraint_dims (canon_monos (c_monos c)))%nat || is_some (c_min c) || is_some (c_max c).

Lemma Kt_good c dims s vs : cfg_ok c dims -> tshape (c_size c) dims vs ->
  tshape (c_size c) dims (Kt c s vs) /\ kgood c s (Kt c s vs).
Proof.
  intros (HL & Hd & Hb & Hms) Hsh. unfold Kt. rewrite finalize_weights_term_stages.
  destruct (mono_stage_good _ _ _ s vs Hms Hsh) as [Hsh1 Hg1].
  destruct (bounds_stage_good (c_min c) (c_max c) _ _ s _ Hd Hsh1) as (B1 & B2 & B3 & B4).
  split; [exact B1|]. split; [|split; assumption].
  intros ms E Hc. apply B2, Hg1; assumption.
Qed.
Lemma kgood_gate_closed c s vs : gate c = false -> kgood c s vs.
Proof.
  unfold gate. intros H. apply orb_false_iff in H. destruct H as [H H3]. apply orb_false_iff in H. destruct H as [H1 H2].
  split; [|split].
  - intros ms E Hc. rewrite E in H1. cbn [num_constraint_dims] in H1. apply Nat.ltb_ge in H1. lia.
  - intros H; congruence.
  - intros H; congruence.
Qed.

(* the layer's operations, reduced to the two gated calls *)
Definition opK (c : config) (p : params) : params :=
  mkPar (kfl_constraints_call root c (p_scale p) (p_kern p)) (p_scale p) (p_bias p).
Definition opS (c : config) (p : params) : params :=
  mkPar (p_kern p) (scale_constraints_call c (p_scale p)) (p_bias p).

Lemma kernel_variable_constraint_eq c s k :
  kernel_variable_constraint root c s k = kfl_constraints_call root c s k.
Proof.
  unfold kernel_variable_constraint, kfl_constraints_call, has_bounds.
  destruct (canon_monos (c_monos c)) as [ms|]; cbn [is_some orb]. reflexivity.
  destruct (is_some (c_min c) || is_some (c_max c)) eqn:E. reflexivity.
  cbn [num_constraint_dims]. rewrite <- orb_assoc, E. reflexivity.
Qed.
Lemma scale_variable_constraint_eq c s : scale_variable_constraint c s = scale_constraints_call c s.
Proof. unfold scale_variable_constraint, scale_constraints_call. destruct (has_bounds c); reflexivity. Qed.
Lemma apply_step_ops c p st :
  apply_step root c p st = match st with StepK => opK c p | StepS => opS c p | StepF => opS c (opK c p) end.
Proof.
  destruct st; cbn [apply_step]; unfold opK, opS; cbn [p_kern p_scale p_bias].
  - rewrite kernel_variable_constraint_eq. reflexivity.
  - rewrite scale_variable_constraint_eq. reflexivity.
  - reflexivity.
Qed.

(* With the gates inside: on parameters of matching shape both calls act entry by entry. *)
Definition Ktg (c : config) (s : Q) (vs : term) : term := if gate c then Kt c s vs else vs.
Definition S1 (c : config) (s : Q) : Q := finalize_scale1 (c_min c) (c_max c) s.
Lemma kfl_constraints_call_terms {P : Q -> term -> Prop} c {scale k} : Forall2 (Forall2 P) scale k ->
  kfl_constraints_call root c scale k = map2 (map2 (Ktg c)) scale k.
Proof.
  intros H. unfold kfl_constraints_call, Ktg. fold (gate c). destruct (gate c). reflexivity.
  symmetry. induction H as [|su ku scale k Hu _ IH]; cbn [map2]; f_equal; [|exact IH].
  induction Hu; cbn [map2]; f_equal; assumption.
Qed.
Lemma scale_constraints_call_terms c scale : scale_constraints_call c scale = map (map (S1 c)) scale.
Proof.
  unfold scale_constraints_call, S1, has_bounds.
  destruct (c_min c), (c_max c); cbn [is_some orb]; try reflexivity.
  rewrite <- (map_id scale) at 1. apply map_ext. intros su. rewrite <- (map_id su) at 1. reflexivity.
Qed.
Definition hasK (steps : list step) : bool := existsb (fun st => match st with StepS => false | _ => true end) steps.
Definition hasS (steps : list step) : bool := existsb (fun st => match st with StepK => false | _ => true end) steps.
Definition shaped (c : config) (dims : nat) (p : params) : Prop :=
  Forall2 (Forall2 (fun (_ : Q) vs => tshape (c_size c) dims vs)) (p_scale p) (p_kern p).

(* Generic invariant argument: PK is established by the kernel constraint on
   every (unit, term) and survives the scale constraint; PS is established by
   the scale constraint (the kernel constraint does not touch the scale). *)
Section Inv.
Variable c : config.
Variable dims : nat.
Variable PK : Q -> term -> Prop.
Variable PS : Q -> Prop.
Hypothesis HK : forall s vs, tshape (c_size c) dims vs -> tshape (c_size c) dims (Ktg c s vs) /\ PK s (Ktg c s vs).
Hypothesis HKS : forall s vs, PK s vs -> PK (S1 c s) vs.
Hypothesis HS : forall s, PS (S1 c s).

Definition inv (a b : bool) (p : params) : Prop :=
  Forall2 (Forall2 (fun s vs => tshape (c_size c) dims vs /\ (a = true -> PK s vs) /\ (b = true -> PS s)))
          (p_scale p) (p_kern p).

Lemma inv_opK a b p : inv a b p -> inv true b (opK c p).
Proof.
  intros H. unfold inv, opK. cbn [p_scale p_kern]. rewrite (kfl_constraints_call_terms c H).
  eapply Forall2_map2_r. exact H. cbn beta. intros su ku Hu. eapply Forall2_map2_r. exact Hu. cbn beta.
  intros s vs (Hsh & _ & Hs). destruct (HK s vs Hsh) as [K1 K2]. auto.
Qed.
Lemma inv_opS a b p : inv a b p -> inv a true (opS c p).
Proof.
  intros H. unfold inv, opS. cbn [p_scale p_kern]. rewrite scale_constraints_call_terms.
  eapply Forall2_map_l. exact H. cbn beta. intros su ku Hu. eapply Forall2_map_l. exact Hu. cbn beta.
  intros s vs (Hsh & Hk & _). auto.
Qed.

Lemma run_inv : forall steps a b p, inv a b p -> inv (a || hasK steps) (b || hasS steps) (run root c steps p).
Proof.
  induction steps as [|st steps IH]; intros a b p H.
  - cbn. rewrite !orb_false_r. exact H.
  - unfold run. cbn [fold_left]. fold (run root c steps (apply_step root c p st)).
    rewrite apply_step_ops. destruct st; cbn [hasK hasS existsb].
    + specialize (IH true b _ (inv_opK a b p H)). rewrite orb_true_r. cbn [orb] in *. exact IH.
    + specialize (IH a true _ (inv_opS a b p H)). rewrite orb_true_r. cbn [orb] in *. exact IH.
    + specialize (IH true true _ (inv_opS _ _ _ (inv_opK a b p H))).
      rewrite !orb_true_r. cbn [orb] in *. exact IH.
Qed.
Lemma shaped_inv p : shaped c dims p -> inv false false p.
Proof.
  intros H. eapply Forall2_impl2. exact H. intros s vs Hsh. split; [exact Hsh|split; intros; discriminate].
Qed.
Lemma run_establishes steps p : shaped c dims p -> inv (hasK steps) (hasS steps) (run root c steps p).
Proof. intros H. apply (run_inv steps false false p), shaped_inv, H. Qed.
End Inv.

Lemma run_bias c steps p : p_bias (run root c steps p) = p_bias p.
Proof. revert p. induction steps as [|st steps IH]; intros p. reflexivity.
  unfold run. cbn [fold_left]. fold (run root c steps (apply_step root c p st)). rewrite IH. destruct st; reflexivity. Qed.

(* instance 1: the properties that make the output monotone and bounded *)
Lemma good_HK c dims : cfg_ok c dims -> forall s vs, tshape (c_size c) dims vs ->
  tshape (c_size c) dims (Ktg c s vs) /\ kgood c s (Ktg c s vs).
Proof.
  intros Hc s vs Hsh. unfold Ktg. destruct (gate c) eqn:G. apply Kt_good; assumption.
  split. exact Hsh. apply kgood_gate_closed, G.
Qed.
Lemma run_good c dims steps p : cfg_ok c dims -> shaped c dims p ->
  inv c dims (kgood c) (sgood c) (hasK steps) (hasS steps) (run root c steps p).
Proof.
  intros Hc Hsh. pose proof Hc as (_ & _ & Hb & _). apply run_establishes; auto.
  - apply good_HK, Hc.
  - intros s vs. apply kgood_scale, Hb.
  - intros s. apply sgood_finalize, Hb.
Qed.
End Root.

Definition in_range (L : nat) (xs : list Q) : Prop := Forall (fun x => 0 <= x /\ x <= qn L - 1) xs.
(* ys is obtained from xs by increasing some of the monotone coordinates *)
Fixpoint coords_le (ms : list bool) (xs ys : list Q) : Prop :=
  match ms, xs, ys with
  | [], [], [] => True
  | m :: ms', x :: xs', y :: ys' => (if m : bool then x <= y else x = y) /\ coords_le ms' xs' ys'
  | _, _, _ => False
  end.

Lemma clip_in_range clip L xs : (2 <= L)%nat -> clip = true \/ in_range L xs -> in_range L (map (clip_in clip L) xs).
Proof.
  intros HL H. pose proof (qofnat_ge1 L ltac:(lia) : 1 <= qn L) as H1. unfold in_range, clip_in.
  destruct clip.
  - apply Forall_forall, all_map. intros x _. apply qclip_range. lra.
  - destruct H as [H|H]; [discriminate|]. apply Forall_map_impl with (P := fun x => 0 <= x /\ x <= qn L - 1); auto.
Qed.
Lemma coords_le_clip clip L : forall ms xs ys, coords_le ms xs ys ->
  coords_le ms (map (clip_in clip L) xs) (map (clip_in clip L) ys).
Proof.
  induction ms as [|m ms IH]; intros [|x xs] [|y ys] H; cbn [coords_le map] in *; try contradiction; auto.
  destruct H as [H1 H2]. split; [|apply IH; exact H2].
  destruct m. unfold clip_in. destruct clip; [apply qclip_mono|]; exact H1. rewrite H1; reflexivity.
Qed.
Lemma coords_le_no_mono : forall ms xs ys, count_true ms = 0%nat -> coords_le ms xs ys -> xs = ys.
Proof.
  induction ms as [|m ms IH]; intros [|x xs] [|y ys] Hc H; cbn [coords_le] in *; try contradiction; auto.
  destruct H as [H1 H2]. destruct m. discriminate. f_equal. exact H1. apply IH; assumption.
Qed.
Lemma coords_le_length : forall ms xs ys, coords_le ms xs ys -> length xs = length ms /\ length ys = length ms.
Proof.
  induction ms as [|m ms IH]; intros [|x xs] [|y ys] H; cbn [coords_le] in *; try contradiction; auto.
  destruct H as [_ H]. destruct (IH _ _ H). cbn; split; congruence.
Qed.
Lemma coords_le_refl : forall ms xs, length xs = length ms -> coords_le ms xs xs.
Proof.
  induction ms as [|m ms IH]; intros [|x xs] H; cbn in *; try discriminate; auto.
  split. destruct m; [lra|reflexivity]. apply IH. lia.
Qed.
Lemma coords_le_set_nth : forall ms xs d y, length xs = length ms -> nth d ms false = true -> nth d xs 0 <= y ->
  coords_le ms xs (set_nth d y xs).
Proof.
  induction ms as [|m ms IH]; intros [|x xs] d y Hl Hm Hy; cbn [length] in *; try discriminate.
  - destruct d; discriminate.
  - destruct d as [|d]; cbn [nth set_nth coords_le] in *.
    + subst m. split. exact Hy. apply coords_le_refl. lia.
    + split. destruct m; [lra|reflexivity]. apply IH; auto.
Qed.

Lemma vec_abs_bound v : Forall (fun w => - maxabs v <= w /\ w <= maxabs v) v.
Proof.
  apply Forall_forall. intros w Hw. unfold maxabs.
  pose proof (qmaxl_ge (map qabs v) (qabs w) (in_map qabs v w Hw)). revert H. qcases; lra.
Qed.
Section Term.
Variable L : nat.
Hypothesis HL : (2 <= L)%nat.

Lemma pwl1d_cell v x : length v = L -> 0 <= x -> x <= qn L - 1 -> pwl1d L v x == cell 0 v x.
Proof.
  intros Hl H0 H1. unfold pwl1d, interp_weights. destruct (L =? 2)%nat eqn:E.
  - apply Nat.eqb_eq in E. rewrite E in Hl, H1. destruct v as [|a [|b [|c v]]]; try discriminate.
    change (qn 2) with 2 in H1.
    destruct (cell_cases 0 a b [] x) as [[_ ->]|[E' _]]; [|change (qn 0) with 0 in E'; lra].
    cbn [map2 qsum]. change (qn 0) with 0. ring.
  - rewrite <- Hl in H1 |- *. change (qsum _) with (hatsum 0 v x). apply hatsum_cell.
    change (qn 0) with 0; lra. change (qn 0) with 0; lra.
Qed.
Lemma pwl1d_abs v x : length v = L -> 0 <= x -> x <= qn L - 1 ->
  - maxabs v <= pwl1d L v x /\ pwl1d L v x <= maxabs v.
Proof.
  intros Hl H0 H1. rewrite (pwl1d_cell v x Hl H0 H1).
  apply cell_between. destruct v; cbn in *; [lia|congruence]. apply vec_abs_bound. change (qn 0) with 0; exact H0.
Qed.
Lemma pwl1d_nonneg v x : length v = L -> 0 <= x -> x <= qn L - 1 -> vnonneg v -> 0 <= pwl1d L v x.
Proof.
  intros Hl H0 H1 Hn. rewrite (pwl1d_cell v x Hl H0 H1).
  apply (cell_between 0 (qmaxl v)). destruct v; cbn in *; [lia|congruence].
  apply Forall_forall. intros w Hw. split. unfold vnonneg in Hn. rewrite Forall_forall in Hn. auto. apply qmaxl_ge, Hw.
  change (qn 0) with 0; exact H0.
Qed.
Lemma pwl1d_mono v x y : length v = L -> 0 <= x -> x <= y -> y <= qn L - 1 -> sorted v ->
  pwl1d L v x <= pwl1d L v y.
Proof.
  intros Hl H0 Hxy H1 Hs. rewrite (pwl1d_cell v x Hl H0 ltac:(lra)), (pwl1d_cell v y Hl ltac:(lra) H1).
  apply cell_mono; assumption.
Qed.
(* a decreasing vector is the negation of an increasing one, and pwl1d is linear in the vector *)
Lemma pwl1d_opp v x : pwl1d L (map Qopp v) x == - pwl1d L v x.
Proof.
  unfold pwl1d. generalize (interp_weights L x) as w. intros w. revert v.
  induction w as [|a w IH]; intros [|b v]; cbn [map map2 qsum]; try lra. rewrite IH. ring.
Qed.
Lemma pwl1d_anti v x y : length v = L -> 0 <= x -> x <= y -> y <= qn L - 1 -> rsorted v ->
  pwl1d L v y <= pwl1d L v x.
Proof.
  intros Hl H0 Hxy H1 Hs.
  assert (Hs' : sorted (map Qopp v)) by (apply rsorted_map_anti; [intros; lra|exact Hs]).
  pose proof (pwl1d_mono _ x y ltac:(rewrite map_length; exact Hl) H0 Hxy H1 Hs') as H.
  rewrite !pwl1d_opp in H. lra.
Qed.


Lemma factors_up : forall ms vs xs ys,
  Forall2 (fun (m : bool) v => m = true -> sorted v) ms vs -> tnonneg vs -> Forall (fun v => length v = L) vs ->
  coords_le ms xs ys -> in_range L xs -> in_range L ys ->
  Forall2 (fun a b => 0 <= a /\ a <= b) (map2 (pwl1d L) vs xs) (map2 (pwl1d L) vs ys).
Proof.
  intros ms vs xs ys H. revert xs ys. induction H as [|m v ms vs Hm _ IH]; intros [|x xs] [|y ys] Hn Hl Hc Hx Hy;
    cbn [coords_le map2] in *; try contradiction; constructor;
    inversion_clear Hn; inversion_clear Hl; inversion_clear Hx as [|? ? [X0 X1]]; inversion_clear Hy as [|? ? [Y0 Y1]];
    destruct Hc as [Hc Hc'].
  - split. apply pwl1d_nonneg; auto. destruct m. apply pwl1d_mono; auto. subst y. lra.
  - apply IH; auto.
Qed.
Lemma factors_down : forall ms vs xs ys,
  Forall2 (fun (m : bool) v => m = true -> rsorted v) ms vs -> tnonneg vs -> Forall (fun v => length v = L) vs ->
  coords_le ms xs ys -> in_range L xs -> in_range L ys ->
  Forall2 (fun a b => 0 <= a /\ a <= b) (map2 (pwl1d L) vs ys) (map2 (pwl1d L) vs xs).
Proof.
  intros ms vs xs ys H. revert xs ys. induction H as [|m v ms vs Hm _ IH]; intros [|x xs] [|y ys] Hn Hl Hc Hx Hy;
    cbn [coords_le map2] in *; try contradiction; constructor;
    inversion_clear Hn; inversion_clear Hl; inversion_clear Hx as [|? ? [X0 X1]]; inversion_clear Hy as [|? ? [Y0 Y1]];
    destruct Hc as [Hc Hc'].
  - split. apply pwl1d_nonneg; auto. destruct m. apply pwl1d_anti; auto. subst y. lra.
  - apply IH; auto.
Qed.

Lemma term_out_mono ms s vs xs ys : term_good ms s vs -> Forall (fun v => length v = L) vs ->
  coords_le ms xs ys -> in_range L xs -> in_range L ys -> term_out L xs s vs <= term_out L ys s vs.
Proof.
  intros [H|[(Hs & Hn & Hso)|(Hs & Hn & Hso)]] Hl Hc Hx Hy; unfold term_out.
  - rewrite H. lra.
  - destruct (qprod_le _ _ (factors_up ms vs xs ys Hso Hn Hl Hc Hx Hy)) as [_ H]. apply qmul_le_l; lra.
  - destruct (qprod_le _ _ (factors_down ms vs xs ys Hso Hn Hl Hc Hx Hy)) as [_ H]. apply qmul_le_l_neg; lra.
Qed.

Lemma factors_abs : forall vs xs, Forall (fun v => length v = L) vs -> length xs = length vs -> in_range L xs ->
  Forall2 (fun a m => - m <= a /\ a <= m) (map2 (pwl1d L) vs xs) (map maxabs vs).
Proof.
  induction vs as [|v vs IH]; intros [|x xs] Hl Hlen Hx; cbn [map2 map length] in *; try discriminate; constructor.
  - inversion_clear Hl; inversion_clear Hx as [|? ? [X0 X1]]. apply pwl1d_abs; auto.
  - inversion_clear Hl; inversion_clear Hx. apply IH; auto.
Qed.
Lemma term_out_abs dims s vs xs b : tshape L dims vs -> length xs = dims -> in_range L xs ->
  prodmax vs <= 1 -> - b <= s -> s <= b -> - b <= term_out L xs s vs /\ term_out L xs s vs <= b.
Proof.
  intros [Hd Hl] Hlen Hx Hp Hb1 Hb2. unfold term_out.
  assert (Hlen' : length xs = length vs) by congruence.
  destruct (qprod_abs _ _ (factors_abs vs xs Hl Hlen' Hx)) as [P1 P2]. fold (prodmax vs) in P1, P2.
  destruct (qmul_abs_le s b (qprod (map2 (pwl1d L) vs xs)) 1) as [B1 B2]; lra.
Qed.
Lemma term_prod_nonneg vs xs : tnonneg vs -> Forall (fun v => length v = L) vs -> in_range L xs ->
  0 <= qprod (map2 (pwl1d L) vs xs).
Proof.
  intros Hn Hl Hx. apply qprod_nonneg.
  apply (map2_Forall (fun v => length v = L /\ vnonneg v) (fun x => 0 <= x /\ x <= qn L - 1)).
  - intros v x [H1 H2] [X0 X1]. apply pwl1d_nonneg; auto.
  - apply Forall_and; assumption.
  - exact Hx.
Qed.
Lemma term_out_sign s vs xs : tnonneg vs -> Forall (fun v => length v = L) vs -> in_range L xs ->
  (0 <= s -> 0 <= term_out L xs s vs) /\ (s <= 0 -> term_out L xs s vs <= 0).
Proof.
  intros Hn Hl Hx. pose proof (term_prod_nonneg vs xs Hn Hl Hx) as Hp. unfold term_out. split; intros Hs.
  - apply qmul_nonneg; assumption.
  - pose proof (qmul_nonneg (- s) _ ltac:(lra) Hp). lra.
Qed.
End Term.

(* one unit, and a whole parameter state all of whose (unit, term) entries have
   the established properties -- however it was reached *)
Lemma unit_eval_mono clip L dims ms su ku b xs ys : (2 <= L)%nat ->
  Forall2 (fun s vs => tshape L dims vs /\ term_good ms s vs) su ku ->
  coords_le ms xs ys -> clip = true \/ (in_range L xs /\ in_range L ys) ->
  unit_eval clip L su ku b xs <= unit_eval clip L su ku b ys.
Proof.
  intros HL H Hc Hr. unfold unit_eval. apply Qplus_le_l, qmean_le.
  induction H as [|s vs su ku [[_ Hsh] Hg] _ IH]; cbn [map2]; constructor; [|exact IH].
  apply (term_out_mono L HL ms); [exact Hg|exact Hsh|apply coords_le_clip, Hc| |]; apply clip_in_range; tauto.
Qed.

Theorem units_monotone c dims p ms u xs ys : cfg_ok c dims ->
  Forall2 (Forall2 (fun s vs => tshape (c_size c) dims vs /\ kgood c s vs)) (p_scale p) (p_kern p) ->
  canon_monos (c_monos c) = Some ms -> coords_le ms xs ys ->
  c_clip c = true \/ (in_range (c_size c) xs /\ in_range (c_size c) ys) ->
  unit_out c p u xs <= unit_out c p u ys.
Proof.
  intros (HL & _) Hp Em Hle Hr.
  destruct (Nat.eq_dec (count_true ms) 0) as [E0|E0].
  - rewrite (coords_le_no_mono ms xs ys E0 Hle). lra.
  - unfold unit_out. destruct (Nat.lt_ge_cases u (length (p_scale p))) as [Hu|Hu].
    + apply (unit_eval_mono _ _ dims ms); auto.
      eapply Forall2_impl; [|exact (Forall2_nth _ _ _ u [] [] Hp Hu)].
      intros s vs (H1 & H2 & _). split. exact H1. apply H2. exact Em. lia.
    + rewrite (nth_overflow (p_scale p) [] Hu). unfold unit_eval. cbn [map2]. lra.
Qed.

(* sgood c is membership in the configured output interval moved to 0: [-h, h]
   (two bounds, h the half width), >= 0 (lower bound only), <= 0 (upper bound
   only).  A term whose scale lies in it lies in it, so does the mean of such
   terms, and the fixed bias moves it back onto the configured interval. *)
Lemma term_out_sgood c dims s vs xs : (2 <= c_size c)%nat -> tshape (c_size c) dims vs -> kbnd c vs -> sgood c s ->
  length xs = dims -> in_range (c_size c) xs -> sgood c (term_out (c_size c) xs s vs).
Proof.
  intros HL Hsh [Hp Hn] Hs Hlen Hx. unfold sgood in *. destruct (c_min c), (c_max c); cbn [is_some] in *.
  - destruct Hs. apply (term_out_abs (c_size c) HL dims); auto.
  - apply (term_out_sign (c_size c) HL s vs xs); [apply Hn; discriminate|apply Hsh|exact Hx|exact Hs].
  - apply (term_out_sign (c_size c) HL s vs xs); [apply Hn; discriminate|apply Hsh|exact Hx|exact Hs].
  - exact I.
Qed.
Lemma sgood_qmean c l : bounds_ok (c_min c) (c_max c) -> Forall (sgood c) l -> sgood c (qmean l).
Proof.
  intros Hb H. unfold sgood in *. destruct (c_min c) as [lo|], (c_max c) as [hi|].
  - specialize (Hb lo hi eq_refl eq_refl). apply qmean_between0; [lra|lra|exact H].
  - apply qmean_sign, H.
  - apply qmean_sign, H.
  - exact I.
Qed.
Lemma sgood_bias c m b : sgood c m -> b == bias_init1 (c_min c) (c_max c) ->
  (forall lo, c_min c = Some lo -> lo <= m + b) /\ (forall hi, c_max c = Some hi -> m + b <= hi).
Proof.
  unfold sgood, bias_init1. intros H Eb. destruct (c_min c) as [lo|], (c_max c) as [hi|].
  all: split; intros b' E; try discriminate; injection E as <-; lra.
Qed.

Lemma unit_eval_bounded c dims su ku b xs :
  cfg_ok c dims ->
  Forall2 (fun s vs => tshape (c_size c) dims vs /\ kbnd c vs /\ sgood c s) su ku ->
  length xs = dims -> c_clip c = true \/ in_range (c_size c) xs ->
  b == bias_init1 (c_min c) (c_max c) ->
  (forall lo, c_min c = Some lo -> lo <= unit_eval (c_clip c) (c_size c) su ku b xs) /\
  (forall hi, c_max c = Some hi -> unit_eval (c_clip c) (c_size c) su ku b xs <= hi).
Proof.
  intros (HL & _ & Hb & _) H Hlen Hr Eb. unfold unit_eval.
  apply sgood_bias; [|exact Eb]. apply sgood_qmean; [exact Hb|].
  eapply Forall2_map2_Forall. exact H. intros s vs (Hsh & Hk & Hs).
  apply (term_out_sgood c dims); auto. rewrite map_length; exact Hlen. apply clip_in_range; tauto.
Qed.

Theorem units_bounded c dims p u xs : cfg_ok c dims ->
  Forall2 (Forall2 (fun s vs => tshape (c_size c) dims vs /\ kbnd c vs /\ sgood c s)) (p_scale p) (p_kern p) ->
  nth u (p_bias p) 0 == bias_init1 (c_min c) (c_max c) ->
  length xs = dims -> c_clip c = true \/ in_range (c_size c) xs ->
  (forall lo, c_min c = Some lo -> lo <= unit_out c p u xs) /\
  (forall hi, c_max c = Some hi -> unit_out c p u xs <= hi).
Proof.
  intros Hc Hp Eb Hlen Hr. unfold unit_out. apply (unit_eval_bounded c dims); auto.
  destruct (Nat.lt_ge_cases u (length (p_scale p))) as [Hu|Hu].
  - exact (Forall2_nth _ _ _ u [] [] Hp Hu).
  - rewrite (nth_overflow (p_scale p) [] Hu), (nth_overflow (p_kern p) []).
    constructor. rewrite <- (Forall2_length _ _ _ Hp). exact Hu.
Qed.

Section Main.
Variable root : nat -> Q -> Q.
Hypothesis Hroot : root_ok root.

Theorem kfl_monotone c dims p steps ms u xs ys :
  cfg_ok c dims -> shaped c dims p -> hasK steps = true ->
  canon_monos (c_monos c) = Some ms ->
  coords_le ms xs ys ->
  c_clip c = true \/ (in_range (c_size c) xs /\ in_range (c_size c) ys) ->
  unit_out c (run root c steps p) u xs <= unit_out c (run root c steps p) u ys.
Proof.
  intros Hc Hsh HK. pose proof (run_good root Hroot c dims steps p Hc Hsh) as Hinv. rewrite HK in Hinv.
  apply (units_monotone c dims); [exact Hc|].
  eapply Forall2_impl2. exact Hinv. intros s vs (H1 & H2 & _). auto.
Qed.
Theorem kfl_monotone_single c dims p steps ms u xs d y :
  cfg_ok c dims -> shaped c dims p -> hasK steps = true ->
  canon_monos (c_monos c) = Some ms -> length xs = dims ->
  nth d ms false = true -> nth d xs 0 <= y ->
  c_clip c = true \/ (in_range (c_size c) xs /\ in_range (c_size c) (set_nth d y xs)) ->
  unit_out c (run root c steps p) u xs <= unit_out c (run root c steps p) u (set_nth d y xs).
Proof.
  intros Hc Hsh HK Em Hl Hm Hy Hr. apply (kfl_monotone c dims p steps ms); auto.
  apply coords_le_set_nth; auto. destruct Hc as (_ & _ & _ & H). rewrite (H ms Em). exact Hl.
Qed.

Theorem kfl_bounded c dims p steps u xs :
  cfg_ok c dims -> shaped c dims p -> hasK steps = true -> hasS steps = true ->
  (u < length (p_scale p))%nat ->
  nth u (p_bias p) 0 == bias_init1 (c_min c) (c_max c) ->
  length xs = dims -> c_clip c = true \/ in_range (c_size c) xs ->
  (forall lo, c_min c = Some lo -> lo <= unit_out c (run root c steps p) u xs) /\
  (forall hi, c_max c = Some hi -> unit_out c (run root c steps p) u xs <= hi).
Proof.
  intros Hc Hsh HK HS _ Eb.
  pose proof (run_good root Hroot c dims steps p Hc Hsh) as Hinv. rewrite HK, HS in Hinv.
  apply (units_bounded c dims); [exact Hc| |rewrite run_bias; exact Eb].
  eapply Forall2_impl2. exact Hinv. intros s vs (H1 & H2 & H3). split; [exact H1|split; [apply H2|]; auto].
Qed.
End Main.

Definition veq (a b : vec) : Prop := Forall2 Qeq a b.
Definition teq (a b : term) : Prop := Forall2 veq a b.

Lemma teq_refl t : teq t t.
Proof. induction t; constructor; [apply qleq_refl|assumption]. Qed.
Lemma teq_trans a b c : teq a b -> teq b c -> teq a c.
Proof.
  intros H. revert c. induction H as [|x y a b Hxy _ IH]; intros c H2; inversion H2; subst; constructor.
  - eapply qleq_trans; eassumption.
  - apply IH. assumption.
Qed.

Lemma veq_map (P : Q -> Prop) g h v : Forall P v -> (forall w, P w -> g w == h w) -> veq (map g v) (map h v).
Proof. induction 1; intros Hg; cbn [map]; constructor; auto. apply IHForall; assumption. Qed.
Lemma veq_map_id g v : (forall w, g w == w) -> veq (map g v) v.
Proof. intros Hg. induction v; cbn [map]; constructor; auto. Qed.
Lemma vscale_proper dir a b : veq a b -> veq (vscale dir a) (vscale dir b).
Proof. unfold vscale. induction 1; cbn [map]; constructor; auto. rewrite H. reflexivity. Qed.
Lemma sorted_veq : forall a b, veq a b -> sorted a -> sorted b.
Proof.
  induction a as [|x a IH]; intros b H Hs; inversion H as [|? y ? b' Hxy Hab]; subst. exact I.
  destruct a as [|x' a']; inversion Hab as [|? y' ? b'' Hxy' Hab']; subst. exact I.
  cbn [sorted] in Hs. destruct Hs as [H1 H2]. cbn [sorted]. split. lra. apply (IH (y' :: b'')); assumption.
Qed.

(* a sorted vector is a fixed point of the 1-D monotonicity projection *)
Lemma cummax_from_fix : forall l m, sorted (m :: l) -> veq (cummax_from m l) l.
Proof.
  induction l as [|x r IH]; intros m Hs; cbn [cummax_from]. constructor.
  cbn [sorted] in Hs. destruct Hs as [Hmx Hs].
  assert (E : qmax x m == x) by (qcases; lra).
  constructor. exact E. apply IH. apply (sorted_veq (x :: r)); [|exact Hs].
  constructor. symmetry; exact E. apply qleq_refl.
Qed.
Lemma cummax_fix u : sorted u -> veq (cummax u) u.
Proof. destruct u as [|a r]; intros Hs; cbn [cummax]. constructor. constructor. reflexivity. apply cummax_from_fix, Hs. Qed.
Lemma avg_fix : forall c u, veq c u -> veq (map2 (fun a m => (a + m) * (1#2)) u c) u.
Proof. induction 1; cbn [map2]; constructor; auto. lra. Qed.
Lemma cummin_back_fix : forall h, sorted h -> veq (cummin_back h) h.
Proof.
  induction h as [|a r IH]; intros Hs. constructor. rewrite cummin_back_cons. destruct r as [|b r0].
  - cbn [cummin_back]. apply qleq_refl.
  - cbn [sorted] in Hs. destruct Hs as [Hab Hs]. specialize (IH Hs).
    destruct (cummin_back (b :: r0)) as [|y l']; inversion IH as [|? ? ? ? Hy Hl]; subst.
    constructor. qcases; lra. constructor; assumption.
Qed.
Lemma mono_proj1_fix u : sorted u -> veq (mono_proj1 u) u.
Proof.
  intros Hs. unfold mono_proj1. pose proof (avg_fix _ _ (cummax_fix u Hs)) as Hh.
  set (h := map2 _ u (cummax u)) in *.
  apply qleq_trans with h; [|exact Hh]. apply cummin_back_fix. apply (sorted_veq u h); [apply qleq_sym, Hh|exact Hs].
Qed.

(* non-negative weights sorted in the direction dir (sorted for 1, rsorted for
   -1) go through one dimension of the monotonicity stage unchanged: the
   clipping does nothing, the projection does nothing, and dir * dir = 1 *)
Lemma pv_fix dir m v : dir * dir == 1 -> vnonneg v -> (m = true -> sorted (vscale dir v)) -> veq (pv dir m v) v.
Proof.
  intros Hd Hn Hs. unfold pv.
  assert (Hu : veq (vscale dir (map relu v)) (vscale dir v)).
  { unfold vscale. rewrite map_map. apply (veq_map (fun w => 0 <= w)). exact Hn.
    intros w Hw. assert (E : relu w == w) by (unfold relu; qcases; lra). rewrite E. reflexivity. }
  set (u := vscale dir (map relu v)) in *.
  assert (Hm : veq (if m then mono_proj1 u else u) (vscale dir v)).
  { destruct m; [|exact Hu]. apply qleq_trans with u; [|exact Hu].
    apply mono_proj1_fix. apply (sorted_veq (vscale dir v)); [apply qleq_sym, Hu|auto]. }
  apply qleq_trans with (vscale dir (vscale dir v)). apply vscale_proper, Hm.
  unfold vscale. rewrite map_map. apply veq_map_id.
  intros w. rewrite Qmult_assoc, Hd. ring.
Qed.

Lemma map2_pv_fix dir (P : vec -> Prop) : dir * dir == 1 -> (forall v, P v -> sorted (vscale dir v)) ->
  forall ms w, Forall2 (fun (m : bool) v => m = true -> P v) ms w -> tnonneg w ->
  teq (map2 (fun v m => pv dir m v) w ms) w.
Proof.
  intros Hd HP ms w HF. induction HF as [|m v ms w Hp _ IH]; intros Hn; cbn [map2]. constructor.
  inversion Hn; subst. constructor; [apply pv_fix|apply IH]; auto.
Qed.
Lemma mono_stage_fix ms s w : ~ s == 0 -> term_good ms s w -> teq (project_mono_term ms s (clip0 w)) w.
Proof.
  intros Hs Hg. rewrite project_mono_term_pv. destruct Hg as [H|[(H1 & Hn & Hso)|(H1 & Hn & Hso)]]. contradiction.
  - destruct (qsgn_cases s) as [[_ ->]|[[H2 _]|[H2 _]]]; try lra.
    apply (map2_pv_fix 1 sorted); auto. reflexivity. intros v Hv. apply sorted_map; [intros; lra|exact Hv].
  - destruct (qsgn_cases s) as [[H2 _]|[[_ ->]|[H2 _]]]; try lra.
    apply (map2_pv_fix (-1) rsorted); auto. reflexivity. intros v Hv. apply rsorted_map_anti; [intros; lra|exact Hv].
Qed.
Lemma mono_stage_settled monos s w : ~ s == 0 ->
  (forall ms, monos = Some ms -> (0 < count_true ms)%nat -> term_good ms s w) -> teq (mono_stage monos s w) w.
Proof.
  intros Hs Hg. unfold mono_stage. destruct monos as [ms|]; [|apply teq_refl].
  destruct (0 <? count_true ms)%nat eqn:Ec; [|apply teq_refl].
  apply mono_stage_fix. exact Hs. apply Hg. reflexivity. apply Nat.ltb_lt, Ec.
Qed.

Lemma maxabs_proper a b : veq a b -> maxabs a == maxabs b.
Proof.
  intros H. unfold maxabs. destruct H as [|x y a b Hxy Hab]; cbn [map qmaxl]. reflexivity.
  apply (fold_left_qleq qmax). exact qmax_proper. induction Hab; cbn [map]; constructor; auto. apply qabs_proper; assumption.
  apply qabs_proper; assumption.
Qed.
Lemma prodmax_proper a b : teq a b -> prodmax a == prodmax b.
Proof. unfold prodmax. induction 1; cbn [map qprod]. reflexivity. rewrite (maxabs_proper _ _ H), IHForall2. reflexivity. Qed.
Lemma teq_map_id g t : (forall w, g w == w) -> teq (map (map g) t) t.
Proof.
  intros Hg. induction t as [|v t IH]; cbn [map]; constructor; auto.
  apply veq_map_id, Hg.
Qed.
Lemma teq_relu t w : teq t w -> tnonneg w -> teq (clip0 t) w.
Proof.
  unfold clip0. induction 1 as [|a b t w Hab _ IH]; intros Hn; cbn [map]. constructor.
  inversion Hn as [|? ? Hb Hw]; subst. constructor; [|apply IH; assumption].
  clear - Hab Hb. induction Hab; cbn [map]; constructor.
  inversion Hb; subst. qcases; lra. inversion Hb; subst. apply IHHab; assumption.
Qed.

Section Root.
Variable root : nat -> Q -> Q.
Hypothesis Hroot : root_ok root.

Lemma bounds_stage_fix omin omax t w : (1 <= length t)%nat -> teq t w ->
  (is_some omin = true -> is_some omax = true -> prodmax w <= 1) ->
  (is_some omin <> is_some omax -> tnonneg w) ->
  teq (bounds_stage root omin omax t) w.
Proof.
  intros Hd Ht H2 H1. unfold bounds_stage. destruct omin as [lo|], omax as [hi|]; cbn [is_some orb project_bounds_term].
  - apply teq_trans with t; [|exact Ht]. apply teq_map_id. intros x.
    assert (E : qmax (prodmax t) 1 == 1).
    { rewrite (prodmax_proper _ _ Ht). specialize (H2 eq_refl eq_refl). qcases; lra. }
    destruct (Hroot (length t) (qmax (prodmax t) 1) Hd (qmax_r _ _)) as (_ & _ & Hone).
    rewrite (Hone E). unfold Qdiv. change (/ 1) with 1. ring.
  - apply teq_relu. exact Ht. apply H1. discriminate.
  - apply teq_relu. exact Ht. apply H1. discriminate.
  - exact Ht.
Qed.

(* the kernel constraint is idempotent on every term whose scale is not zero
   (a zero scale zeroes the weights: idempotent_params_witness) *)
Lemma Kt_settled c dims s vs : cfg_ok c dims -> tshape (c_size c) dims vs ->
  s == 0 \/ teq (Kt root c s (Kt root c s vs)) (Kt root c s vs).
Proof.
  intros Hc Hsh. destruct (Qeq_dec s 0) as [E|E]; [left; exact E|right].
  destruct (Kt_good root Hroot c dims s vs Hc Hsh) as [[Hlen _] (G1 & G2 & G3)]. destruct Hc as (_ & Hd & _).
  set (w := Kt root c s vs) in *. unfold Kt at 1. rewrite finalize_weights_term_stages.
  pose proof (mono_stage_settled _ s w E G1) as Hm.
  apply bounds_stage_fix; auto. rewrite (Forall2_length _ _ _ Hm). lia.
Qed.
Lemma Kt_sign c s s' vs : qsgn s = qsgn s' -> Kt root c s vs = Kt root c s' vs.
Proof. intros E. unfold Kt, finalize_weights_term, project_mono_term. rewrite E. reflexivity. Qed.
End Root.

Fixpoint rel4 {A B} (R : A -> B -> A -> B -> Prop) (a : list A) (b : list B) (a' : list A) (b' : list B) : Prop :=
  match a, b, a', b' with
  | [], [], [], [] => True
  | x :: a1, y :: b1, x' :: a1', y' :: b1' => R x y x' y' /\ rel4 R a1 b1 a1' b1'
  | _, _, _, _ => False
  end.
Lemma rel4_K {A B} (P : A -> B -> Prop) (R : A -> B -> A -> B -> Prop) (f : A -> B -> B) a b :
  Forall2 P a b -> (forall x y, P x y -> R x y x (f x y)) -> rel4 R a b a (map2 f a b).
Proof. intros H HR. induction H; cbn [map2 rel4]; auto. Qed.
Lemma rel4_S {A B} (P : A -> B -> Prop) (R : A -> B -> A -> B -> Prop) (g : A -> A) a b :
  Forall2 P a b -> (forall x y, P x y -> R x y (g x) y) -> rel4 R a b (map g a) b.
Proof. intros H HR. induction H; cbn [map rel4]; auto. Qed.
Lemma rel4_id {A B} (P : A -> B -> Prop) (R : A -> B -> A -> B -> Prop) a b :
  Forall2 P a b -> (forall x y, P x y -> R x y x y) -> rel4 R a b a b.
Proof. intros H HR. induction H; cbn [rel4]; auto. Qed.
Lemma rel4_trans {A B} (R : A -> B -> A -> B -> Prop) :
  (forall x y x' y' x'' y'', R x y x' y' -> R x' y' x'' y'' -> R x y x'' y'') ->
  forall a b a' b' a'' b'', rel4 R a b a' b' -> rel4 R a' b' a'' b'' -> rel4 R a b a'' b''.
Proof.
  intros HR. induction a as [|x a IH]; intros [|y b] [|x' a'] [|y' b'] [|x'' a''] [|y'' b''] H1 H2;
    cbn [rel4] in *; try contradiction; auto.
  destruct H1, H2. split; eauto.
Qed.
Lemma rel4_nth {A B} (R : A -> B -> A -> B -> Prop) :
  forall a b a' b' u, rel4 (rel4 R) a b a' b' -> rel4 R (nth u a []) (nth u b []) (nth u a' []) (nth u b' []).
Proof.
  induction a as [|x a IH]; intros [|y b] [|x' a'] [|y' b'] u H; cbn [rel4] in H; try contradiction.
  - destruct u; exact I.
  - destruct H as [H1 H2]. destruct u; cbn [nth]. exact H1. apply IH, H2.
Qed.

(* Two states of one (unit, term) are equivalent when the scales agree and,
   unless that scale is zero, the weights agree. *)
Definition tequiv (s : Q) (vs : term) (s' : Q) (vs' : term) : Prop := s' == s /\ (s == 0 \/ teq vs' vs).
Definition params_equiv (p q : params) : Prop :=
  rel4 (rel4 tequiv) (p_scale p) (p_kern p) (p_scale q) (p_kern q) /\ p_bias q = p_bias p.
Lemma tequiv_refl s vs : tequiv s vs s vs.
Proof. split; [reflexivity|right; apply teq_refl]. Qed.
Lemma tequiv_trans s vs s' vs' s'' vs'' : tequiv s vs s' vs' -> tequiv s' vs' s'' vs'' -> tequiv s vs s'' vs''.
Proof.
  intros [E1 H1] [E2 H2]. split. rewrite E2; exact E1.
  destruct H1 as [H1|H1]; [left; exact H1|]. destruct H2 as [H2|H2]; [left; rewrite <- E1; exact H2|].
  right. apply teq_trans with vs'; assumption.
Qed.
Lemma equiv_refl (P : Q -> term -> Prop) a b : Forall2 (Forall2 P) a b -> rel4 (rel4 tequiv) a b a b.
Proof.
  intros H. eapply rel4_id. exact H. intros su ku Hu. eapply rel4_id. exact Hu. intros; apply tequiv_refl.
Qed.
Lemma params_equiv_trans p q r : params_equiv p q -> params_equiv q r -> params_equiv p r.
Proof.
  intros [H1 B1] [H2 B2]. split; [|congruence].
  eapply (rel4_trans (rel4 tequiv)); [|exact H1|exact H2].
  intros. eapply (rel4_trans tequiv); eauto. intros; eapply tequiv_trans; eauto.
Qed.

Lemma dot_proper : forall w v v', veq v v' -> qsum (map2 Qmult w v) == qsum (map2 Qmult w v').
Proof.
  intros w v v' H. revert w. induction H as [|x y v v' Hxy _ IH]; intros [|a w]; cbn [map2 qsum]; try reflexivity.
  rewrite Hxy, (IH w). reflexivity.
Qed.
Lemma factors_proper L xs : forall vs vs', teq vs vs' ->
  qprod (map2 (pwl1d L) vs xs) == qprod (map2 (pwl1d L) vs' xs).
Proof.
  intros vs vs' H. revert xs. induction H as [|v v' vs vs' Hv _ IH]; intros [|x xs]; cbn [map2 qprod]; try reflexivity.
  unfold pwl1d at 1 3. rewrite (dot_proper _ _ _ Hv), (IH xs). reflexivity.
Qed.
Lemma term_out_equiv L xs s vs s' vs' : tequiv s vs s' vs' -> term_out L xs s' vs' == term_out L xs s vs.
Proof.
  intros [E [H|H]]; unfold term_out; rewrite E.
  - rewrite H. ring.
  - rewrite (factors_proper L xs _ _ H). reflexivity.
Qed.
Lemma qmean_proper l l' : Forall2 Qeq l l' -> qmean l == qmean l'.
Proof. exact (qavg_proper l l'). Qed.
Lemma terms_equiv L xs : forall su ku su' ku', rel4 tequiv su ku su' ku' ->
  Forall2 Qeq (map2 (term_out L xs) su' ku') (map2 (term_out L xs) su ku).
Proof.
  induction su as [|s su IH]; intros [|vs ku] [|s' su'] [|vs' ku'] H; cbn [rel4] in H; try contradiction; cbn [map2].
  constructor. destruct H as [H1 H2]. constructor. apply term_out_equiv, H1. apply IH, H2.
Qed.
Theorem equiv_same_output c p q u xs : params_equiv p q -> unit_out c q u xs == unit_out c p u xs.
Proof.
  intros [H B]. unfold unit_out, unit_eval. rewrite B.
  rewrite (qmean_proper _ _ (terms_equiv _ _ _ _ _ _ (rel4_nth tequiv _ _ _ _ u H))). reflexivity.
Qed.

Section Root.
Variable root : nat -> Q -> Q.
Hypothesis Hroot : root_ok root.

Lemma S1_keeps_sign c s : bounds_ok (c_min c) (c_max c) -> S1 c s == 0 \/ qsgn (S1 c s) = qsgn s.
Proof.
  intros Hb. unfold S1. destruct (finalize_scale1_qsgn (c_min c) (c_max c) s Hb) as [H|H].
  right; exact H. left; apply qsgn_zero, H.
Qed.
Lemma Ktg_sign c s s' vs : qsgn s = qsgn s' -> Ktg root c s vs = Ktg root c s' vs.
Proof. intros E. unfold Ktg. destruct (gate c); [apply Kt_sign, E|reflexivity]. Qed.

(* instance 2 of the invariant argument: fixed points *)
Section Settled.
Variables (c : config) (dims : nat).
Hypothesis Hc : cfg_ok c dims.
Let Hb : bounds_ok (c_min c) (c_max c) := proj1 (proj2 (proj2 Hc)).

Definition settledK (s : Q) (vs : term) : Prop := s == 0 \/ teq (Ktg root c s vs) vs.
Definition settledS (s : Q) : Prop := S1 c s == s.

Lemma settled_HK s vs : tshape (c_size c) dims vs ->
  tshape (c_size c) dims (Ktg root c s vs) /\ settledK s (Ktg root c s vs).
Proof.
  intros Hsh. unfold settledK, Ktg. destruct (gate c) eqn:G.
  - split. apply (Kt_good root Hroot c dims s vs Hc Hsh). apply (Kt_settled root Hroot c dims); assumption.
  - split. exact Hsh. right. apply teq_refl.
Qed.
Lemma settled_HKS s vs : settledK s vs -> settledK (S1 c s) vs.
Proof.
  intros H. unfold settledK in *. destruct H as [H|H].
  - left. destruct (finalize_scale1_sign (c_min c) (c_max c) s Hb) as [P N]. fold (S1 c s) in P, N.
    destruct (Qlt_le_dec 0 (S1 c s)) as [H1|H1]. specialize (P H1); lra.
    destruct (Qlt_le_dec (S1 c s) 0) as [H2|H2]. specialize (N H2); lra. lra.
  - destruct (S1_keeps_sign c s Hb) as [E|E]. left; exact E.
    right. rewrite (Ktg_sign c _ _ vs E). exact H.
Qed.
Lemma settled_HS s : settledS (S1 c s).
Proof. apply finalize_scale1_idem, Hb. Qed.

Lemma run_settled steps p : shaped c dims p ->
  inv c dims settledK settledS (hasK steps) (hasS steps) (run root c steps p).
Proof. apply (run_establishes root c dims _ _ settled_HK settled_HKS settled_HS). Qed.

(* one more application of anything changes nothing (up to equivalence) *)
Lemma settled_opK p : inv c dims settledK settledS true true p -> params_equiv p (opK root c p).
Proof.
  intros H. split; [|reflexivity]. unfold opK. cbn [p_scale p_kern]. rewrite (kfl_constraints_call_terms root c H).
  eapply rel4_K. exact H. cbn beta. intros su ku Hu. eapply rel4_K. exact Hu. cbn beta.
  intros s vs (_ & Hk & _). split. reflexivity. exact (Hk eq_refl).
Qed.
Lemma settled_opS p : inv c dims settledK settledS true true p -> params_equiv p (opS c p).
Proof.
  intros H. split; [|reflexivity]. unfold opS. cbn [p_scale p_kern]. rewrite scale_constraints_call_terms.
  eapply rel4_S. exact H. cbn beta. intros su ku Hu. eapply rel4_S. exact Hu. cbn beta.
  intros s vs (_ & _ & Hs). split. exact (Hs eq_refl). right. apply teq_refl.
Qed.
Lemma settled_run : forall more p, inv c dims settledK settledS true true p -> params_equiv p (run root c more p).
Proof.
  induction more as [|st more IH]; intros p H.
  - split; [|reflexivity]. exact (equiv_refl _ _ _ H).
  - unfold run. cbn [fold_left]. fold (run root c more (apply_step root c p st)). rewrite apply_step_ops.
    pose proof (inv_opK root c dims _ _ settled_HK true true p H) as IK.
    pose proof (inv_opS c dims _ _ settled_HKS settled_HS true true p H) as IS.
    destruct st.
    + eapply params_equiv_trans. apply (settled_opK p H). apply IH, IK.
    + eapply params_equiv_trans. apply (settled_opS p H). apply IH, IS.
    + pose proof (inv_opS c dims _ _ settled_HKS settled_HS true true _ IK) as IKS.
      eapply params_equiv_trans. apply (settled_opK p H).
      eapply params_equiv_trans. apply (settled_opS _ IK). apply IH, IKS.
Qed.
End Settled.

Lemma run_app c steps more p : run root c (steps ++ more) p = run root c more (run root c steps p).
Proof. unfold run. apply fold_left_app. Qed.

Theorem kfl_idempotent c dims p steps more :
  cfg_ok c dims -> shaped c dims p -> hasK steps = true -> hasS steps = true ->
  params_equiv (run root c steps p) (run root c (steps ++ more) p).
Proof.
  intros Hc Hsh HK HS. rewrite run_app. apply (settled_run c dims Hc).
  pose proof (run_settled c dims Hc steps p Hsh) as H. rewrite HK, HS in H. exact H.
Qed.

(* the kernel constraint applied before or after the scale constraint *)
Lemma rel4_order {A B} (P : A -> B -> Prop) (R : A -> B -> A -> B -> Prop) (g : A -> A) (f : A -> B -> B) a b :
  Forall2 P a b -> (forall x y, P x y -> R (g x) (f x y) (g x) (f (g x) y)) ->
  rel4 R (map g a) (map2 f a b) (map g a) (map2 f (map g a) b).
Proof. intros H HR. induction H; cbn [map map2 rel4]; auto. Qed.

Theorem kfl_order_irrelevant c dims p : cfg_ok c dims -> shaped c dims p ->
  params_equiv (run root c [StepK; StepS] p) (run root c [StepS; StepK] p).
Proof.
  intros Hc Hsh. pose proof Hc as (_ & _ & Hb & _). unfold run. cbn [fold_left]. rewrite !apply_step_ops.
  split; [|reflexivity]. unfold opK, opS. cbn [p_scale p_kern]. rewrite !scale_constraints_call_terms.
  assert (Hsh' : Forall2 (Forall2 (fun _ _ => True)) (map (map (S1 c)) (p_scale p)) (p_kern p)).
  { eapply Forall2_map_l. exact Hsh. cbn beta. intros su ku Hu. eapply Forall2_map_l. exact Hu. auto. }
  rewrite (kfl_constraints_call_terms root c Hsh), (kfl_constraints_call_terms root c Hsh').
  eapply rel4_order. exact Hsh. cbn beta. intros su ku Hu. eapply rel4_order. exact Hu. cbn beta. intros s vs _.
  split. reflexivity. destruct (S1_keeps_sign c s Hb) as [E|E]. left; exact E.
  right. rewrite (Ktg_sign c _ _ vs E). apply teq_refl.
Qed.
End Root.

(* the root hypothesis is satisfiable (by a crude upper root) *)
Lemma qpow_ge1 x d : 1 <= x -> 1 <= qpow x d.
Proof. intros H. induction d as [|d IH]; cbn [qpow]. lra. pose proof (qmul_le_l x 1 (qpow x d) ltac:(lra) IH). lra. Qed.
Lemma root_ok_id : root_ok (fun _ x => x).
Proof.
  intros d x Hd Hx. split; [exact Hx|split; [|auto]].
  destruct d as [|d]. lia. cbn [qpow]. pose proof (qpow_ge1 x d Hx).
  pose proof (qmul_le_l x 1 (qpow x d) ltac:(lra) H). lra.
Qed.

(* size-2 configurations with one input, for the witnesses *)
Lemma cfg_ok_one m omin omax clip : bounds_ok omin omax -> cfg_ok (mkCfg 2 (Some [m]) omin omax clip) 1.
Proof.
  intros Hb. split; [cbn; lia|split; [lia|split; [exact Hb|]]]. intros ms E. injection E as <-. reflexivity.
Qed.
Lemma bounds_ok_two lo hi : lo < hi -> bounds_ok (Some lo) (Some hi).
Proof. intros H lo' hi' E1 E2. injection E1 as <-. injection E2 as <-. exact H. Qed.
Lemma in_range2_one x : 0 <= x -> x <= 1 -> in_range 2 [x].
Proof. intros H0 H1. constructor; [|constructor]. change (qn 2) with 2. lra. Qed.

Definition wit_cfg : config := mkCfg 2 (Some [true]) (Some 0) None true.
Definition wit_par : params := mkPar [[ [[1; 2]] ]] [[ -1 ]] [0].
Lemma wit_cfg_ok : cfg_ok wit_cfg 1.
Proof. apply cfg_ok_one. intros lo hi _ H; discriminate. Qed.
Lemma wit_shaped : shaped wit_cfg 1 wit_par.
Proof. repeat constructor. Qed.
Lemma idempotent_params_witness : exists c p,
  cfg_ok c 1 /\ shaped c 1 p /\
  ~ Forall2 (Forall2 teq) (p_kern (run qroot c [StepK; StepS] p))
                          (p_kern (run qroot c [StepK; StepS; StepK] p)).
Proof.
  exists wit_cfg, wit_par. split; [exact wit_cfg_ok|split; [exact wit_shaped|]].
  intros H. vm_compute in H.
  inversion H as [|? ? ? ? H1 _]; subst. inversion H1 as [|? ? ? ? H2 _]; subst.
  inversion H2 as [|? ? ? ? H3 _]; subst. inversion H3 as [|? ? ? ? H4 _]; subst.
  vm_compute in H4. discriminate H4.
Qed.
Lemma hypotheses_witness : exists root c dims p steps ms xs ys,
  root_ok root /\ cfg_ok c dims /\ shaped c dims p /\ hasK steps = true /\ hasS steps = true /\
  canon_monos (c_monos c) = Some ms /\ coords_le ms xs ys /\
  in_range (c_size c) xs /\ in_range (c_size c) ys /\ length xs = dims /\
  (0 < length (p_scale p))%nat /\ nth 0 (p_bias p) 0 == bias_init1 (c_min c) (c_max c).
Proof.
  exists (fun _ x => x), wit_cfg, 1%nat, wit_par, [StepK; StepS], [true], [1#2], [1].
  split; [exact root_ok_id|split; [exact wit_cfg_ok|split; [exact wit_shaped|]]].
  split; [reflexivity|split; [reflexivity|split; [reflexivity|]]].
  split. { cbn. split; [lra|exact I]. }
  split. { apply in_range2_one; lra. }
  split. { apply in_range2_one; lra. }
  split; [reflexivity|split; [cbn; lia|cbn; lra]].
Qed.
