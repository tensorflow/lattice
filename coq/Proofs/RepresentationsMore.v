(* C14, further cases:
   - pwl_calibration_fn == PWLCalibration for EVERY missing-value configuration
     (none / given missing_output_value / DERIVED missing output), one slice;
   - the same for every entry of the whole function CondPWL.pwl_fn (size check,
     tiling, broadcasting), via the slices of Proofs/CondPWL.v;
   - the geometric-mean reduction of cdf_fn and of the CDF layer is the SAME
     function of the (equal) 'none' results except for the stabilising epsilon. *)
From TFL Require Import Proofs.Representations Proofs.CondPWL.
Open Scope Q_scope.

(* (b1) missing values, all three configurations *)
(* the layer's imputation formula is_missing * v + (1 - is_missing) * f when a
   missing input value m and a missing output v exist; f otherwise *)
Definition mixv (m v : option Q) (x f : Q) : Q :=
  match m, v with
  | Some m, Some v => (if Qeq_bool x m then 1 else 0) * v + (1 - (if Qeq_bool x m then 1 else 0)) * f
  | _, _ => f
  end.
(* the missing output the function uses: given, or derived from the LAST output parameter *)
Definition missing_output (sg : Q -> Q) (c : CondPWL.pcfg) (kop : list Q) : option Q :=
  fst (CondPWL.split_missing sg c kop).

Lemma missing_output_cases sg c kop :
  missing_output sg c kop =
  match CondPWL.p_min c with
  | None => None
  | Some _ => match CondPWL.p_mout c with
              | Some v => Some v
              | None => Some (CondPWL.p_omin c + sg (last kop 0) * CondPWL.rng_out c)
              end
  end.
Proof. unfold missing_output, CondPWL.split_missing.
  destruct (CondPWL.p_min c); [destruct (CondPWL.p_mout c)|]; reflexivity. Qed.

Theorem pwl_row_equals_layer_any sm sg c kip kop x :
  nonzero (CondPWL.key_deltas sm c kip) ->
  let ks := layer_keypoints (CondPWL.p_imin c) (CondPWL.key_deltas sm c kip) in
  let f := PWLEval.pwl_fn (PWLEval.kp_lefts ks) (PWLEval.kp_diffs ks) (CondPWL.derived_outputs sm sg c kop) x in
  CondPWL.pwl_row sm sg c kip kop x == mixv (CondPWL.p_min c) (missing_output sg c kop) x f.
Proof. intros Hnz ks f. unfold CondPWL.pwl_row, mixv, missing_output.
  assert (E : CondPWL.interp x (CondPWL.keypoints c (CondPWL.key_deltas sm c kip)) (CondPWL.key_deltas sm c kip)
                (CondPWL.kernel_outputs sm sg c (snd (CondPWL.split_missing sg c kop))) == f).
  { unfold f, ks, CondPWL.keypoints, CondPWL.derived_outputs. apply pwl_interp_equals_layer. exact Hnz. }
  destruct (CondPWL.p_min c) as [m|]; [|exact E].
  destruct (fst (CondPWL.split_missing sg c kop)) as [v|]; [|exact E].
  destruct (Qeq_bool x m). ring. rewrite E. ring. Qed.

(* DERIVED missing output: missing_input_value m set, missing_output_value not
   given: the value is omin + sg(last parameter) * (omax - omin), and the
   derived kernel column comes from the parameters WITHOUT the last one. *)
Theorem pwl_fn_equals_layer_missing_derived sm sg c kip kop x m :
  CondPWL.p_min c = Some m -> CondPWL.p_mout c = None -> nonzero (CondPWL.key_deltas sm c kip) ->
  let ks := layer_keypoints (CondPWL.p_imin c) (CondPWL.key_deltas sm c kip) in
  let kos := CondPWL.kernel_outputs sm sg c (removelast kop) in
  let f := PWLEval.pwl_fn (PWLEval.kp_lefts ks) (PWLEval.kp_diffs ks) kos x in
  let v := CondPWL.p_omin c + sg (last kop 0) * (CondPWL.p_omax c - CondPWL.p_omin c) in
  let mu := if Qeq_bool x m then 1 else 0 in
  CondPWL.derived_outputs sm sg c kop = kos /\
  CondPWL.pwl_row sm sg c kip kop x == mu * v + (1 - mu) * f.
Proof. intros Hm Hv Hnz ks kos f v mu.
  assert (D : CondPWL.derived_outputs sm sg c kop = kos).
  { unfold CondPWL.derived_outputs, CondPWL.split_missing, kos. rewrite Hm, Hv. reflexivity. }
  split; [exact D|].
  rewrite (pwl_row_equals_layer_any sm sg c kip kop x Hnz). rewrite missing_output_cases, Hm, Hv, D.
  unfold mixv, mu, f, v, ks, CondPWL.rng_out. reflexivity. Qed.

(* (b1) the whole function *)
Theorem pwl_fn_entries_equal_layer sm sg c inputs kip kop out b u :
  CondPWL.pwl_fn sm sg c inputs kip kop = Some out -> (b < length out)%nat -> (u < CondPWL.p_units c)%nat ->
  let kipS := slice_kip c kip b u in
  let kopS := slice_kop c kop b u in
  let x := slice_x c inputs b u in
  nonzero (CondPWL.key_deltas sm c kipS) ->
  let ks := layer_keypoints (CondPWL.p_imin c) (CondPWL.key_deltas sm c kipS) in
  nth u (nth b out []) 0 ==
  mixv (CondPWL.p_min c) (missing_output sg c kopS) x
       (PWLEval.pwl_fn (PWLEval.kp_lefts ks) (PWLEval.kp_diffs ks) (CondPWL.derived_outputs sm sg c kopS) x).
Proof. intros H Hb Hu kipS kopS x Hnz ks.
  rewrite (pwl_fn_entry sm sg c inputs kip kop out b u H Hb Hu).
  apply pwl_row_equals_layer_any. exact Hnz. Qed.

(* (b2) geometric mean: the deliberate exception, made precise *)
(* exp(mean_i log(M[i][u] + eps)) over the rows of the 'none' result M *)
Definition geo_of (ex lg : Q -> Q) (eps : Q) (units : nat) (M : mat) : mat :=
  [map (fun u => CDF.geo ex lg eps (length M) (column u M)) (seq 0 units)].

Theorem cdf_geometric_only_eps sg ex lg a units sf kernel scaling x :
  (forall p q, p == q -> sg p == sg q) ->
  length x = length kernel -> CDF.verify_cdf a CDF.RGeo (length x) units sf kernel = true ->
  let sp := Some (cdf_scaling_param (length x) scaling) in
  exists Mf Ml,
    CDF.cdf_fn sg ex lg a CDF.RNone units sf None x kernel sp = Some Mf /\
    CDF.cdf_layer sg ex lg a CDF.RNone units sf kernel scaling x = Some Ml /\
    meq Mf Ml /\
    CDF.cdf_fn sg ex lg a CDF.RGeo units sf None x kernel sp = Some (geo_of ex lg CDF.eps_fn units Mf) /\
    CDF.cdf_layer sg ex lg a CDF.RGeo units sf kernel scaling x = Some (geo_of ex lg CDF.eps_layer units Ml).
Proof. intros Hsg Hl Hv sp.
  assert (Hv0 : CDF.verify_cdf a CDF.RNone (length x) units sf kernel = true) by exact Hv.
  pose proof (cdf_fn_equals_layer sg ex lg a CDF.RNone units sf kernel scaling x Hsg (or_intror eq_refl) Hl Hv0) as EQ.
  fold sp in EQ. revert EQ.
  unfold CDF.cdf_fn, CDF.cdf_layer. rewrite Hv, Hv0. cbn [negb].
  pose proof Hv as Hv'. unfold CDF.verify_cdf in Hv'. repeat rewrite andb_true_iff in Hv'.
  destruct Hv' as [[[[[[Ha _] Hsf] Hu] Hd] _] _].
  rewrite <- Hl. rewrite Ha, Hsf, Hu, Hd, Nat.eqb_refl. cbn [andb orb negb CDF.red_ok].
  destruct (sf =? 1)%nat; cbn [opt_meq CDF.reduce]; intros EQ.
  - eexists. eexists. split; [reflexivity|]. split; [reflexivity|]. split; [exact EQ|].
    split; [reflexivity|]. unfold geo_of, CDF.layer_cells. rewrite map_length, seq_length, <- Hl. reflexivity.
  - eexists. eexists. split; [reflexivity|]. split; [reflexivity|]. split; [exact EQ|].
    split; [reflexivity|]. unfold geo_of, CDF.reshape2. rewrite map_length, seq_length. reflexivity. Qed.

(* the two epsilons are the documented ones *)
Lemma cdf_epsilons : CDF.eps_fn == 1 # 100000000 /\ CDF.eps_layer == 1 # 1000.
Proof. split; reflexivity. Qed.

(* Examples: hypotheses satisfiable *)
(* derived missing output: 1 interior keypoint, increasing, 3 parameters (the last one is the missing logit) *)
Definition ex_pcfg_d : CondPWL.pcfg :=
  CondPWL.mkP 0 1 0 1 1 CondPWL.MonoInc false false false (Some (-(1))) None.
Example ex_pwl_derived_missing_hyps :
  CondPWL.p_min ex_pcfg_d = Some (-(1)) /\ CondPWL.p_mout ex_pcfg_d = None /\
  nonzero (CondPWL.key_deltas ex_sm ex_pcfg_d (Some [1])) /\
  CondPWL.pwl_row ex_sm ex_sg ex_pcfg_d (Some [1]) [0; 0; 5] (-(1)) == 1 # 2.
Proof. split; [reflexivity|]. split; [reflexivity|]. split.
  - repeat constructor; cbv; discriminate.
  - vm_compute. reflexivity. Qed.

(* an accepted whole-function call (2 units, batch 2, shared rank-2 interior parameters) *)
Definition ex_pcfg_u2 : CondPWL.pcfg :=
  CondPWL.mkP 0 1 0 1 2 CondPWL.MonoInc false false false None None.
Example ex_pwl_fn_hyps :
  exists out, CondPWL.pwl_fn ex_sm ex_sg ex_pcfg_u2 [[1#4]; [3#4]] (Some (CondPWL.P2 [[1]])) (CondPWL.P3 [[[0; 0; 0]; [1; 2; 0]]]) = Some out /\
  length out = 2%nat /\
  nonzero (CondPWL.key_deltas ex_sm ex_pcfg_u2 (slice_kip ex_pcfg_u2 (Some (CondPWL.P2 [[1]])) 1 1)).
Proof. eexists. split. vm_compute. reflexivity. split. reflexivity. repeat constructor; cbv; discriminate. Qed.

Example ex_cdf_geo_hyps :
  CDF.verify_cdf CDF.Relu6 CDF.RGeo 2 1 1 ex_cdf_kernel = true /\ length [1#2; 1#4] = length ex_cdf_kernel.
Proof. split; reflexivity. Qed.

(* (b1) the derived parameters RETURNED by the function are the ones the
   entry theorem uses (broadcast read of pwl_derived = derivation of slice) *)
Definition bsel_ok {A} (i : nat) (l : list A) : Prop := length l = 1%nat \/ (i < length l)%nat.

Lemma bsel_map {A B} (f : A -> B) (da : A) (db : B) i l : bsel_ok i l ->
  CondPWL.bsel db i (map f l) = f (CondPWL.bsel da i l).
Proof. unfold bsel_ok, CondPWL.bsel. intros H. rewrite map_length.
  destruct (length l =? 1)%nat eqn:E.
  - apply Nat.eqb_eq in E. rewrite (nth_indep (map f l) db (f da)) by (rewrite map_length; lia). apply map_nth.
  - apply Nat.eqb_neq in E. destruct H as [H|H]; [contradiction|].
    rewrite (nth_indep (map f l) db (f da)) by (rewrite map_length; exact H). apply map_nth. Qed.

Theorem pwl_derived_slices sm sg c kip kop b u :
  let K := CondPWL.tile1 (CondPWL.p_units c) (CondPWL.to3 kop) in
  bsel_ok b K -> bsel_ok u (CondPWL.bsel [] b K) ->
  CondPWL.bsel [] u (CondPWL.bsel [] b (snd (CondPWL.pwl_derived sm sg c kip kop))) =
    CondPWL.derived_outputs sm sg c (slice_kop c kop b u) /\
  (forall t, kip = Some t ->
     let T := CondPWL.tile1 (CondPWL.p_units c) (CondPWL.to3 t) in
     bsel_ok b T -> bsel_ok u (CondPWL.bsel [] b T) ->
     Some (CondPWL.bsel [] u (CondPWL.bsel [] b (fst (CondPWL.pwl_derived sm sg c kip kop)))) =
       option_map (fun p => CondPWL.key_deltas sm c (Some p)) (slice_kip c kip b u)).
Proof. intros K HbK HuK. unfold CondPWL.pwl_derived, slice_kop, slice_kip. cbn [fst snd]. split.
  - rewrite (bsel_map _ [] [] b _ HbK). rewrite (bsel_map _ [] [] u _ HuK). reflexivity.
  - intros t -> HbT HuT. cbn [option_map].
    rewrite (bsel_map _ [] [] b _ HbT). rewrite (bsel_map _ [] [] u _ HuT). reflexivity. Qed.

Example ex_pwl_derived_slices_hyps :
  let K := CondPWL.tile1 2 (CondPWL.to3 (CondPWL.P3 [[[0; 0; 0]; [1; 2; 0]]])) in
  bsel_ok 1 K /\ bsel_ok 1 (CondPWL.bsel [] 1 K) /\
  let T := CondPWL.tile1 2 (CondPWL.to3 (CondPWL.P2 [[1]])) in bsel_ok 1 T /\ bsel_ok 1 (CondPWL.bsel [] 1 T).
Proof. cbv. repeat split; auto. Qed.
