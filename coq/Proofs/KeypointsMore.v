(* More lemmas about Model/Keypoints.v (property C18):
   - exactly when the model of compute_keypoints raises (weights of any sign);
   - the tail of _weighted_quantile (rint, pinning, repair, sort, take) gives
     valid keypoints for EVERY in-range index vector, i.e. whatever np.interp
     returned (negative example weights make its xp non-monotone, where the
     search NumPy performs is not the model's linear scan);
   - set_feature_keypoints over a whole dict, set_label_keypoints. *)
From TFL Require Import Model.Keypoints Proofs.Keypoints.
Open Scope Q_scope.

Definition ck_groups (vs : list Q) (ws : option (list Q)) (cmin cmax dv : option Q) : list grp :=
  sort_unique (prep vs ws cmin cmax dv).

Definition ck_raises (vs : list Q) (k : nat) (mode : kmode) (cmin cmax dv : option Q)
           (ws : option (list Q)) (red : reduction) : Prop :=
  let gs := ck_groups vs ws cmin cmax dv in
  mode = MOther \/ (ws <> None /\ red = ROther) \/ (mode = Uniform /\ gs = []) \/
  (mode = Quantiles /\ ws <> None /\ (2 < k)%nat /\ (k <= length gs)%nat /\ qsum (map (reduce red) gs) == 0).

Theorem ck_error_iff rnd strict vs k mode cmin cmax dv ws red :
  compute_keypoints rnd strict vs k mode cmin cmax dv ws red = None <-> ck_raises vs k mode cmin cmax dv ws red.
Proof.
  unfold ck_raises, compute_keypoints, ck_groups. cbv zeta. rewrite finish_none_iff.
  assert (Hw : is_some ws = true <-> ws <> None) by (destruct ws; cbn; split; congruence).
  rewrite Hw. reflexivity.
Qed.

(* all example weights zero, k = 3: the model raises (the code: IndexError on int(nan)) *)
Lemma zero_weights_raise :
  compute_keypoints rnd_he false [1; 2; 3; 4; 5; 6] 3 Quantiles None None None (Some [0; 0; 0; 0; 0; 0]) RMean = None /\
  compute_keypoints rnd_he false [1; 2; 3; 4; 5; 6] 2 Quantiles None None None (Some [0; 0; 0; 0; 0; 0]) RMean = Some [1; 6] /\
  (* negative weights whose group means cancel: values 1 (mean 1) and 2 (mean -1), 3 (0) *)
  compute_keypoints rnd_he false [1; 2; 3; 2] 3 Quantiles None None None (Some [1; -3; 0; 1]) RMean = None.
Proof. split; [|split]; vm_compute; reflexivity. Qed.

Definition idx_of_raws (rnd : nat -> Q -> Z) (n k : nat) (raws : list Q) : list Z :=
  zsort (repair n (pin_all n k (round_all rnd raws))).

Lemma weighted_idx_of_raws rnd strict n ws k :
  weighted_idx rnd strict n ws k = idx_of_raws rnd n k (wq_raw strict ws k).
Proof. reflexivity. Qed.

Theorem any_indices_valid rnd sv k raws :
  nearest rnd -> increasing sv -> (2 <= k)%nat -> (k <= length sv)%nat -> length raws = k ->
  (forall x, In x raws -> 0 <= x /\ x <= nq (length sv - 1)) ->
  let kps := take sv (idx_of_raws rnd (length sv) k raws) in
  increasing kps /\ length kps = k /\ pwl_keypoints_ok kps = true /\
  hd 0 kps == hd 0 sv /\ last kps 0 == last sv 0 /\ (forall x, In x kps -> In x sv).
Proof.
  intros Hn Hsv Hk2 Hkn Lraws Rraws kps.
  pose proof (idx_tail_ok rnd (length sv) k raws Hn Hkn Lraws Rraws) as W.
  pose proof (take_valid sv k _ Hsv Hkn W : kp_valid sv k Quantiles kps) as V.
  assert (Hinc : increasing kps) by (apply (kv_increasing V); lia).
  pose proof (kv_count_enough V Hkn) as Hlen.
  split; [exact Hinc|]. split; [exact Hlen|]. split.
  { unfold pwl_keypoints_ok. apply andb_true_iff. split; [apply Nat.leb_le; lia|apply strictly_inc_b_true; exact Hinc]. }
  split; [rewrite (kv_first V Hk2), hd_nth0; reflexivity|].
  split; [rewrite (kv_last V Hk2), last_nth; reflexivity|].
  intros x Hx. unfold kps, take in Hx. apply in_map_iff in Hx. destruct Hx as [i [<- Hi]].
  destruct W as [_ [_ [W3 _]]]. destruct (W3 i Hi). apply nth_In. lia.
Qed.

Lemma has_fc_set_first fcs name kps name' : has_fc (set_first fcs name kps) name' = has_fc fcs name'.
Proof.
  induction fcs as [|fc r IH]; cbn; [reflexivity|].
  destruct (fc_name fc =? name)%nat; cbn; [reflexivity|]. rewrite IH. reflexivity.
Qed.

Lemma has_fc_app fcs fc' name' : has_fc (fcs ++ [fc']) name' = has_fc fcs name' || (fc_name fc' =? name')%nat.
Proof.
  induction fcs as [|fc r IH]; cbn; [apply orb_false_r|]. rewrite IH. apply orb_assoc.
Qed.

Lemma has_fc_one_mono add fcs name kps name' :
  has_fc fcs name' = true -> has_fc (set_feature_keypoints_one add fcs name kps) name' = true.
Proof.
  intros H. unfold set_feature_keypoints_one. destruct (has_fc fcs name).
  - rewrite has_fc_set_first. exact H.
  - destruct add; [|exact H]. rewrite has_fc_app, H. reflexivity.
Qed.

Lemma set_fold_other add fk : forall fcs name',
  ~ In name' (map fst fk) -> fc_by_name (set_feature_keypoints add fcs fk) name' = fc_by_name fcs name'.
Proof.
  unfold set_feature_keypoints. induction fk as [|[n kps] fk IH]; intros fcs name' Hn; cbn [fold_left]; [reflexivity|].
  cbn [map fst In] in Hn. rewrite IH by tauto. cbn [fst snd].
  apply set_feature_keypoints_one_other. intro E. apply Hn. left. congruence.
Qed.

(* dict keys are distinct: NoDup (map fst fk) *)
Theorem set_feature_keypoints_spec add fk : forall fcs, NoDup (map fst fk) ->
  (forall name kps, In (name, kps) fk -> has_fc fcs name = true \/ add = true ->
     fc_spec (fc_by_name (set_feature_keypoints add fcs fk) name) = KGiven kps) /\
  (forall name, ~ In name (map fst fk) -> fc_by_name (set_feature_keypoints add fcs fk) name = fc_by_name fcs name).
Proof.
  intros fcs Hnd. split; [|intros name Hn; apply set_fold_other; exact Hn].
  revert fcs Hnd. induction fk as [|[n0 k0] fk IH]; intros fcs Hnd name kps Hin Hhas; [destruct Hin|].
  cbn [map fst] in Hnd. inversion Hnd as [|? ? Hnot Hnd']; subst.
  unfold set_feature_keypoints. cbn [fold_left fst snd]. fold (set_feature_keypoints add (set_feature_keypoints_one add fcs n0 k0) fk).
  destruct Hin as [E|Hin].
  - inversion E; subst. rewrite set_fold_other by exact Hnot.
    apply set_feature_keypoints_one_spec. exact Hhas.
  - apply IH; [exact Hnd'|exact Hin|]. destruct Hhas as [H|H]; [left; apply has_fc_one_mono; exact H|right; exact H].
Qed.

Lemma set_first_length fcs name kps : length (set_first fcs name kps) = length fcs.
Proof.
  induction fcs as [|fc r IH]; cbn; [reflexivity|]. destruct (fc_name fc =? name)%nat; cbn; [reflexivity|]. rewrite IH. reflexivity.
Qed.

(* without add_missing_feature_configs no config is added *)
Theorem set_feature_keypoints_length fk : forall fcs,
  length (set_feature_keypoints false fcs fk) = length fcs.
Proof.
  unfold set_feature_keypoints. induction fk as [|[n k] fk IH]; intros fcs; cbn [fold_left]; [reflexivity|].
  rewrite IH. cbn [fst snd]. unfold set_feature_keypoints_one. destruct (has_fc fcs n); [apply set_first_length|reflexivity].
Qed.

(* the numeric results of compute_feature_keypoints, as the dict handed to set_feature_keypoints *)
Fixpoint fk_dict (res : list (nat * fk_result)) : list (nat * list Q) :=
  match res with
  | [] => []
  | (n, FKeypoints kps) :: r => (n, kps) :: fk_dict r
  | _ :: r => fk_dict r
  end.

Lemma fk_dict_in res n kps : In (n, kps) (fk_dict res) <-> In (n, FKeypoints kps) res.
Proof.
  induction res as [|[m r] res IH]; cbn; [tauto|].
  destruct r; cbn; rewrite IH; intuition congruence.
Qed.

Lemma fk_dict_names res : forall n, In n (map fst (fk_dict res)) -> In n (map fst res).
Proof.
  induction res as [|[m r] res IH]; cbn; [tauto|]. intros n. specialize (IH n). destruct r; cbn; tauto.
Qed.

Lemma fk_dict_nodup res : NoDup (map fst res) -> NoDup (map fst (fk_dict res)).
Proof.
  induction res as [|[m r] res IH]; cbn; [constructor|]. intros H. inversion H as [|? ? Hn Hd]; subst.
  destruct r; cbn; try (apply IH; exact Hd). constructor; [|apply IH; exact Hd].
  intro Hin. apply Hn. apply fk_dict_names. exact Hin.
Qed.

(* compute_feature_keypoints followed by set_feature_keypoints(add_missing=True):
   every numeric feature's config then carries compute_keypoints of its data
   with the fields of the ORIGINAL config *)
Theorem compute_then_set rnd strict fcs features ws red name m :
  NoDup (map fst features) -> In name (map fst features) ->
  let fc := fc_by_name fcs name in
  fc_num_buckets fc = 0%nat -> fc_spec fc = KMode m ->
  let res := compute_feature_keypoints rnd strict fcs features ws red in
  (forall n r, In (n, r) res -> r <> FError) ->
  exists vs kps, In (name, vs) features /\
    compute_keypoints rnd strict vs (fc_num_keypoints fc) m (fc_clip_min fc) (fc_clip_max fc) (fc_default fc) ws red = Some kps /\
    fc_spec (fc_by_name (set_feature_keypoints true fcs (fk_dict res)) name) = KGiven kps.
Proof.
  intros Hnd Hin fc Hb Hs res Hok.
  apply in_map_iff in Hin. destruct Hin as [[nm vs] [E Hin]]. cbn in E. subst nm.
  assert (Hres : In (name, feature_keypoints_one rnd strict fc vs ws red) res).
  { subst res. unfold compute_feature_keypoints. apply in_map_iff. exists (name, vs). split; [reflexivity|exact Hin]. }
  destruct (fk_one_cases rnd strict fc vs ws red) as [_ [_ C3]]. specialize (C3 Hb m Hs).
  destruct (compute_keypoints rnd strict vs (fc_num_keypoints fc) m (fc_clip_min fc) (fc_clip_max fc) (fc_default fc) ws red)
    as [kps|] eqn:Eck.
  2:{ exfalso. rewrite C3 in Hres. exact (Hok _ _ Hres eq_refl). }
  exists vs, kps. split; [exact Hin|]. split; [exact Eck|].
  rewrite C3 in Hres.
  assert (Hnd' : NoDup (map fst (fk_dict res))).
  { apply fk_dict_nodup. subst res. unfold compute_feature_keypoints. rewrite map_map. cbn [fst]. exact Hnd. }
  destruct (set_feature_keypoints_spec true (fk_dict res) fcs Hnd') as [S _].
  apply S; [apply fk_dict_in; exact Hres|right; reflexivity].
Qed.

(* model_config.output_initialization = label_keypoints *)
Definition set_label_keypoints (lc : label_config) (kps : list Q) : label_config :=
  mklc (KGiven kps) (lc_num_keypoints lc) (lc_output_min lc) (lc_output_max lc).

Theorem set_label_keypoints_spec rnd strict lc kps labels logits ws red :
  let lc' := set_label_keypoints lc kps in
  lc_spec lc' = KGiven kps /\ lc_num_keypoints lc' = lc_num_keypoints lc /\
  lc_output_min lc' = lc_output_min lc /\ lc_output_max lc' = lc_output_max lc /\
  compute_label_keypoints rnd strict lc' labels logits ws red = FKeypoints kps.
Proof. cbv zeta. repeat split. Qed.

(* compute_label_keypoints then set_label_keypoints: the stored keypoints are
   compute_keypoints of the labels (mode given, no logits) *)
Theorem label_compute_then_set rnd strict lc labels ws red m kps :
  lc_spec lc = KMode m ->
  compute_label_keypoints rnd strict lc labels false ws red = FKeypoints kps ->
  compute_keypoints rnd strict (label_values labels) (lc_num_keypoints lc) m (lc_output_min lc) (lc_output_max lc)
                    None (label_weights labels ws) red = Some kps /\
  lc_spec (set_label_keypoints lc kps) = KGiven kps.
Proof.
  intros Hm H. split; [|reflexivity].
  destruct (label_keypoints_cases rnd strict lc labels false ws red) as [_ [_ C]].
  rewrite (C m Hm eq_refl) in H.
  destruct (compute_keypoints rnd strict (label_values labels) (lc_num_keypoints lc) m (lc_output_min lc)
                              (lc_output_max lc) None (label_weights labels ws) red); [inversion H; reflexivity|discriminate].
Qed.
