(* C10 x C12: a freshly built layer passes its own assert_constraints().
   The initialiser models of C10 (Model/LatticeInit.v, PWLInit.v, KFLInit.v,
   the categorical build-time projection) are fed to the assert models of C12
   (Model/Asserts.v); the C12 "complete" theorems reduce the boolean assert to
   a Prop-level feasibility predicate, which the C10 lemmas establish. *)
From TFL Require Import Model.Asserts Proofs.Asserts.
From TFL Require Import Model.LatticeInit Proofs.LatticeInit Proofs.LatticeInitFixed.
From Coq Require Import Permutation.
Open Scope Q_scope.

(* every asserted family, in the vocabulary of Proofs/LatticeSpec.v and
   Proofs/LatticeInit.v (all positions, all squares, all units) *)
Definition la_holds (c : la_cfg) (W : tens) : Prop :=
  let sh := a_shape c in
  (forall d, (d < length (a_monos c))%nat -> nth d (a_monos c) 0%Z = 1%Z -> mono_along sh d W) /\
  (forall t, In t (a_edge c) -> edgeworth_holds sh t W) /\
  (forall t, In t (a_trap c) -> trapezoid_holds sh t W) /\
  (forall p, In p (a_mdom c) -> mono_dominance_holds sh p W) /\
  (forall p, In p (a_rdom c) -> range_dominance_holds sh p W) /\
  (forall p, In p (a_jmono c) -> joint_mono_holds sh p W) /\
  lower_ok sh (a_min c) W /\ upper_ok sh (a_max c) W.

Lemma la_holds_passes c W eps : la_ok c -> 0 <= eps -> la_holds c W -> assert_lattice c W eps = true.
Proof. intros Hok He (Hmo & Hed & Htp & Hmd & Hrd & Hjm & Hlo & Hup).
  apply (assert_lattice_relax c W 0 eps Hok He). unfold assert_lattice. cbv zeta.
  rewrite !andb_true_iff, (assert_mono0 _ _ Hok), (forallb_iff _ _ _ (assert_edge0 _ _ Hok)),
    (forallb_iff _ _ _ (assert_trap0 _ _ Hok)), (forallb_iff _ _ _ (assert_mdom_iff c W 0 Hok)),
    (forallb_iff _ _ _ (assert_rdom_iff c W 0 Hok)), (forallb_iff _ _ _ (assert_jmono_iff c W 0 Hok)),
    (assert_lower0 _ _ Hok), (assert_upper0 _ _ Hok).
  repeat apply conj; try assumption; intros [p q] Hin b i j; unfold slack_within; cbn [covered slack fst snd].
  - pose proof (Hmd _ Hin b i j) as G. cbv zeta in G. split; intros (_ & Hv & Hi & Hj); specialize (G Hv Hi Hj); lra.
  - pose proof (Hrd _ Hin b i j) as G. intros (_ & Hv & Hi & Hj). specialize (G Hv Hi Hj). cbv zeta. lra.
  - pose proof (Hjm _ Hin b i j) as G. cbv zeta in G. split; intros (_ & Hv & Hi & Hj); specialize (G Hv Hi Hj); lra. Qed.

(* a kernel inside an initialisation range that is inside the output bounds respects the bounds *)
Lemma range_bounds_ok sh W imin imax omin omax : (forall i, valid sh i -> imin <= W i /\ W i <= imax) ->
  (forall lo, omin = Some lo -> lo <= imin) -> (forall hi, omax = Some hi -> imax <= hi) ->
  lower_ok sh omin W /\ upper_ok sh omax W.
Proof. intros Hr Hlo Hhi. unfold lower_ok, upper_ok. split.
  - destruct omin as [lo|]; [|exact I]. intros i Hv. destruct (Hr i Hv). pose proof (Hlo lo eq_refl). lra.
  - destruct omax as [hi|]; [|exact I]. intros i Hv. destruct (Hr i Hv). pose proof (Hhi hi eq_refl). lra. Qed.
Arguments range_bounds_ok {sh W imin imax omin omax}.

Lemma passes_assert_lattice_linear : forall (c : la_cfg) monos unis imin imax eps,
  let sizes := a_sizes c in
  let rank := length sizes in
  let zm := zeros_if_none rank monos in let zu := zeros_if_none rank unis in
  let em := lin_eff_monos sizes zm zu in
  (* what verify_hyperparameters guarantees *)
  la_ok c -> (forall s, In s sizes -> (2 <= s)%nat) -> (1 <= rank)%nat ->
  length zm = rank -> length zu = rank -> (forall d, nz (nth d zm 0%Z) && nz (nth d zu 0%Z) = false) ->
  (forall d, (d < length (a_monos c))%nat -> nth d (a_monos c) 0%Z = 1%Z -> nz (nth d zm 0%Z) = true) ->
  (forall m cd dir, In (m, cd, dir) (a_edge c ++ a_trap c) -> (m < rank)%nat /\ (cd < rank)%nat) ->
  (forall p q, In (p, q) (a_mdom c ++ a_rdom c ++ a_jmono c) -> (p < rank)%nat /\ (q < rank)%nat) ->
  (forall p q, In (p, q) (a_mdom c ++ a_rdom c) -> nz (nth p em 0%Z) = true /\ nz (nth q em 0%Z) = true) ->
  (* the initialisation range is non-empty and inside the output bounds *)
  imin <= imax -> (forall lo, a_min c = Some lo -> lo <= imin) -> (forall hi, a_max c = Some hi -> imax <= hi) ->
  (* outside known finding D6 *)
  (forall m cd dir, In (m, cd, dir) (a_trap c) -> nz (nth cd em 0%Z) = false /\ nz (nth cd zu 0%Z) = false) ->
  (forall p q, In (p, q) (a_mdom c) -> (nth p sizes 0 <= nth q sizes 0)%nat) ->
  (forall p q, In (p, q) (a_jmono c) ->
     (nz (nth p em 0%Z) = true \/ nz (nth p zu 0%Z) = false) /\ (nz (nth q em 0%Z) = true \/ nz (nth q zu 0%Z) = false)) ->
  0 <= eps ->
  assert_lattice c (linear_init sizes imin imax monos unis (a_units c)) eps = true.
Proof. intros c monos unis imin imax eps sizes rank zm zu em Hok Hs Hr Hlm Hlu Hdisj Hmon Htd Hpd Hdm Hb Hlo Hhi Gt Gm Gj He.
  pose proof Hok as (Hp & _ & Htr & Hpq).
  assert (Hu : (1 <= a_units c)%nat) by (apply Hp; unfold a_shape; apply in_app_iff; right; left; reflexivity).
  pose proof (linear_range sizes imin imax monos unis (a_units c) Hs Hu Hr Hlm Hlu Hdisj Hb) as [Hrng _].
  apply la_holds_passes; [assumption|assumption|]. unfold la_holds, a_shape. fold sizes. cbv zeta.
  split; [|split; [|split; [|split; [|split; [|split]]]]].
  - intros d Hd E. pose proof (Hmon d Hd E) as Hnz.
    assert (Hdr : (d < rank)%nat).
    { destruct (Nat.ltb_spec d rank); [assumption|]. fold zm in Hnz. rewrite nth_overflow in Hnz by lia. discriminate. }
    apply linear_mono_dim; [exact Hb|exact Hdr|]. apply configured_mono_dim. exact Hnz.
  - intros [[m cd] dir] Hin. assert (Hin' : In (m, cd, dir) (a_edge c ++ a_trap c)) by (rewrite in_app_iff; auto).
    destruct (Htd m cd dir Hin') as [Hm Hc]. destruct (Htr m cd dir Hin') as [Hne _].
    apply linear_edgeworth; assumption.
  - intros [[m cd] dir] Hin. assert (Hin' : In (m, cd, dir) (a_edge c ++ a_trap c)) by (rewrite in_app_iff; auto).
    destruct (Htd m cd dir Hin') as [Hm Hc]. destruct (Htr m cd dir Hin') as [Hne _]. destruct (Gt m cd dir Hin) as [G1 G2].
    apply linear_trapezoid_free_cond; assumption.
  - intros [p q] Hin. destruct (Hpd p q ltac:(rewrite !in_app_iff; auto)) as [H1 H2].
    pose proof (Hpq p q ltac:(rewrite !in_app_iff; auto)) as Hne. destruct (Hdm p q ltac:(rewrite in_app_iff; auto)) as [M1 M2].
    apply linear_mono_dominance; try assumption. exact (Gm p q Hin).
  - intros [p q] Hin. destruct (Hpd p q ltac:(rewrite !in_app_iff; auto)) as [H1 H2].
    pose proof (Hpq p q ltac:(rewrite !in_app_iff; auto)) as Hne. destruct (Hdm p q ltac:(rewrite in_app_iff; auto)) as [M1 M2].
    apply linear_range_dominance; assumption.
  - intros [p q] Hin. destruct (Hpd p q ltac:(rewrite !in_app_iff; auto)) as [H1 H2].
    pose proof (Hpq p q ltac:(rewrite !in_app_iff; auto)) as Hne. destruct (Gj p q Hin) as [J1 J2].
    apply linear_joint_mono; assumption.
  - exact (range_bounds_ok Hrng Hlo Hhi). Qed.

(* non-decreasing along both dimensions of a pair implies joint monotonicity *)
Lemma mono_joint_mono sh p q W : p <> q -> mono_along sh p W -> mono_along sh q W -> joint_mono_holds sh (p, q) W.
Proof. intros Hne Hp Hq b i j Hv Hi Hj. cbv zeta.
  pose proof (nth_pos_lt _ _ _ Hi) as Hpl. pose proof (nth_pos_lt _ _ _ Hj) as Hql.
  assert (Hlb : length b = length sh) by (apply valid_length; exact Hv).
  assert (V00 : valid sh (at2 b p q i j)) by (apply at2_valid; [exact Hv|lia|lia]).
  assert (V10 : valid sh (at2 b p q (S i) j)) by (apply at2_valid; [exact Hv|lia|lia]).
  assert (V01 : valid sh (at2 b p q i (S j))) by (apply at2_valid; [exact Hv|lia|lia]).
  (* (i,j) -> (i+1,j) along p;  (i,j) -> (i,j+1) along q;  (i+1,j) -> (i+1,j+1) along q;  (i,j+1) -> (i+1,j+1) along p *)
  pose proof (Hp (at2 b p q i j) V00) as A1. rewrite at2_nth_m in A1 by (auto; lia). rewrite at2_upd_m in A1 by exact Hne.
  pose proof (Hq (at2 b p q i j) V00) as A2. rewrite at2_nth_c in A2 by lia. rewrite at2_upd_c in A2.
  pose proof (Hq (at2 b p q (S i) j) V10) as A3. rewrite at2_nth_c in A3 by lia. rewrite at2_upd_c in A3.
  pose proof (Hp (at2 b p q i (S j)) V01) as A4. rewrite at2_nth_m in A4 by (auto; lia). rewrite at2_upd_m in A4 by exact Hne.
  specialize (A1 Hi). specialize (A2 Hj). specialize (A3 Hj). specialize (A4 Hi). lra. Qed.

Lemma passes_assert_lattice_random_monotonic : forall (c : la_cfg) order samples imin imax eps,
  let sizes := a_sizes c in
  let rank := length sizes in
  la_ok c ->
  (forall p q, In (p, q) (a_jmono c) -> (p < rank)%nat /\ (q < rank)%nat) ->
  (* the oracles: np.random.shuffle leaves each level in SOME order, the samples are sorted, one per vertex, in range *)
  Forall2 (@Permutation idx) order (levels sizes) ->
  (forall a b, (a <= b)%nat -> (b < length samples)%nat -> nth a samples 0 <= nth b samples 0) ->
  length samples = length (concat order) ->
  (forall x, In x samples -> imin <= x /\ x <= imax) ->
  (* the initialisation range is inside the output bounds *)
  (forall lo, a_min c = Some lo -> lo <= imin) -> (forall hi, a_max c = Some hi -> imax <= hi) ->
  (* outside known finding D24: nothing but monotonicity, joint monotonicity and bounds is configured *)
  a_edge c = [] -> a_trap c = [] -> a_mdom c = [] -> a_rdom c = [] ->
  0 <= eps ->
  assert_lattice c (random_mono_init sizes (a_units c) order samples) eps = true.
Proof. intros c order samples imin imax eps sizes rank Hok Hjd Ho Hs Hl Hr Hlo Hhi E1 E2 E3 E4 He.
  pose proof Hok as (Hp & Hml & _ & Hpq).
  apply la_holds_passes; [assumption|assumption|]. unfold la_holds, a_shape. fold sizes. cbv zeta.
  rewrite E1, E2, E3, E4.
  assert (Hmono : forall d, (d < rank)%nat -> mono_along (sizes ++ [a_units c]) d (random_mono_init sizes (a_units c) order samples)).
  { intros d Hd. apply random_mono_all_dims; assumption. }
  split; [|split; [|split; [|split; [|split; [|split]]]]]; [|intros ? []|intros ? []|intros ? []|intros ? []| |].
  - intros d Hd _. apply Hmono. fold sizes rank in Hml. lia.
  - intros [p q] Hin. destruct (Hjd p q Hin) as [H1 H2].
    pose proof (Hpq p q ltac:(rewrite E3, E4; exact Hin)) as Hne.
    apply mono_joint_mono; [exact Hne|apply Hmono; exact H1|apply Hmono; exact H2].
  - exact (range_bounds_ok (random_mono_in_range sizes (a_units c) order samples imin imax Ho Hl Hr) Hlo Hhi). Qed.

Lemma set_nth_z_length : forall l i v, length (set_nth_z i v l) = length l.
Proof. induction l as [|x l IH]; intros [|i] v; cbn; auto. Qed.
Lemma merge_unimodalities_length rank unis juni : length (merge_unimodalities rank unis juni) = rank.
Proof. unfold merge_unimodalities.
  set (base := map _ (seq 0 rank)). assert (Hb : length base = rank) by (unfold base; rewrite map_length, seq_length; reflexivity).
  clearbody base. revert base Hb. induction juni as [|g juni IH]; intros base Hb; cbn [fold_left]. exact Hb.
  apply IH. generalize (fst g). intros ds. revert base Hb. induction ds as [|d ds IHd]; intros base Hb; cbn [fold_left]. exact Hb.
  apply IHd. rewrite set_nth_z_length. exact Hb. Qed.

Lemma default_init_params_ok omin omax : (forall a b, omin = Some a -> omax = Some b -> a <= b) ->
  fst (default_init_params omin omax) <= snd (default_init_params omin omax) /\
  (forall lo, omin = Some lo -> lo <= fst (default_init_params omin omax)) /\
  (forall hi, omax = Some hi -> snd (default_init_params omin omax) <= hi).
Proof. intros H. unfold default_init_params. destruct omin as [a|], omax as [b|]; cbn [fst snd].
  - pose proof (H a b eq_refl eq_refl). split; [assumption|]. split; intros ? E; inversion E; subst; lra.
  - split; [qcases; lra|]. split; intros ? E; inversion E; subst; lra.
  - split; [qcases; lra|]. split; intros ? E; inversion E; subst; lra.
  - split; [lra|]. split; intros ? E; inversion E. Qed.

Definition monos_list (monos : option (list Z)) : list Z := match monos with Some l => l | None => [] end.

(* the layer: create_kernel_initializer + the initialiser it selects *)
Lemma passes_assert_lattice_layer : forall (c : la_cfg) id monos unis juni override order samples W eps,
  let sizes := a_sizes c in
  let rank := length sizes in
  let zm := zeros_if_none rank monos in
  let zu := merge_unimodalities rank unis juni in
  let em := lin_eff_monos sizes zm zu in
  let ch := create_kernel_initializer id sizes monos (a_min c) (a_max c) unis juni override in
  (* the fresh kernel is the one a library initialiser produced (excludes the Keras fall-back, D25) *)
  lattice_init_kernel ch sizes (a_units c) order samples = Some W ->
  (* what verify_hyperparameters guarantees *)
  la_ok c -> (forall s, In s sizes -> (2 <= s)%nat) -> (1 <= rank)%nat -> length zm = rank ->
  (forall d, nz (nth d zm 0%Z) && nz (nth d zu 0%Z) = false) ->
  a_monos c = monos_list monos ->
  (forall m cd dir, In (m, cd, dir) (a_edge c ++ a_trap c) -> (m < rank)%nat /\ (cd < rank)%nat) ->
  (forall p q, In (p, q) (a_mdom c ++ a_rdom c ++ a_jmono c) -> (p < rank)%nat /\ (q < rank)%nat) ->
  (forall p q, In (p, q) (a_mdom c ++ a_rdom c) -> nth p (a_monos c) 0%Z = 1%Z /\ nth q (a_monos c) 0%Z = 1%Z) ->
  (forall a b, a_min c = Some a -> a_max c = Some b -> a <= b) ->
  (* a user-given init range is non-empty and inside the output bounds *)
  (forall p, override = Some p -> fst p <= snd p /\
     (forall lo, a_min c = Some lo -> lo <= fst p) /\ (forall hi, a_max c = Some hi -> snd p <= hi)) ->
  match ch with
  | UseLinear _ _ _ _ =>
      (* outside known finding D6 *)
      (forall m cd dir, In (m, cd, dir) (a_trap c) -> nz (nth cd em 0%Z) = false /\ nz (nth cd zu 0%Z) = false) /\
      (forall p q, In (p, q) (a_mdom c) -> (nth p sizes 0 <= nth q sizes 0)%nat) /\
      (forall p q, In (p, q) (a_jmono c) ->
         (nz (nth p em 0%Z) = true \/ nz (nth p zu 0%Z) = false) /\ (nz (nth q em 0%Z) = true \/ nz (nth q zu 0%Z) = false))
  | UseRandomMono imin imax =>
      (* outside known finding D24 *)
      (a_edge c = [] /\ a_trap c = [] /\ a_mdom c = [] /\ a_rdom c = []) /\
      (* the random oracles *)
      Forall2 (@Permutation idx) order (levels sizes) /\
      (forall a b, (a <= b)%nat -> (b < length samples)%nat -> nth a samples 0 <= nth b samples 0) /\
      length samples = length (concat order) /\
      (forall x, In x samples -> imin <= x /\ x <= imax)
  | UseKeras => True
  end ->
  0 <= eps ->
  assert_lattice c W eps = true.
Proof. intros c id monos unis juni override order samples W eps sizes rank zm zu em ch.
  intros HW Hok Hs Hr Hlm Hdisj Hmon Htd Hpd Hdm Hbnd Hov G He.
  assert (Hrange : fst (init_range (a_min c) (a_max c) override) <= snd (init_range (a_min c) (a_max c) override) /\
    (forall lo, a_min c = Some lo -> lo <= fst (init_range (a_min c) (a_max c) override)) /\
    (forall hi, a_max c = Some hi -> snd (init_range (a_min c) (a_max c) override) <= hi)).
  { unfold init_range. destruct override as [p|]; [exact (Hov p eq_refl)|apply default_init_params_ok; exact Hbnd]. }
  destruct Hrange as (Hb & Hlo & Hhi).
  (* the remaining hypotheses of the linear initialiser, from the layer's configuration *)
  assert (Hlu : length (zeros_if_none rank (Some zu)) = rank) by apply merge_unimodalities_length.
  assert (Hz : forall d, nth d (a_monos c) 0%Z = 1%Z -> nz (nth d zm 0%Z) = true).
  { intros d E. rewrite Hmon in E. destruct monos as [l|]; cbn [monos_list] in E; [|destruct d; discriminate].
    unfold zm. cbn [zeros_if_none]. rewrite E. reflexivity. }
  assert (Hdm' : forall p q, In (p, q) (a_mdom c ++ a_rdom c) -> nz (nth p em 0%Z) = true /\ nz (nth q em 0%Z) = true).
  { intros p q Hin. destruct (Hdm p q Hin) as [E1 E2].
    split; apply (configured_mono_dim sizes monos (Some zu)); apply Hz; assumption. }
  unfold ch, create_kernel_initializer in HW, G. cbv zeta in HW, G. fold sizes rank zu in HW, G.
  destruct (init_range (a_min c) (a_max c) override) as [imin imax]. cbn [fst snd] in *.
  destruct id; [| |destruct (juni_contains_all rank juni)|]; cbn [lattice_init_kernel] in HW; try discriminate;
    injection HW as <-.
  - destruct G as (Gt & Gm & Gj). apply passes_assert_lattice_linear; auto.
  - destruct G as ((E1 & E2 & E3 & E4) & Ho & Hso & Hl & Hra).
    apply (passes_assert_lattice_random_monotonic c order samples imin imax); try assumption.
    intros p q Hin. apply (Hpd p q). apply in_or_app; right. apply in_or_app; right. exact Hin.
  - destruct G as (Gt & Gm & Gj). apply passes_assert_lattice_linear; auto. Qed.

(* the C01 configuration record (monotonicity, trusts, bounds): assert_lattice (la_of c) *)
Lemma passes_assert_lattice_linear_cfg : forall (c : lat_cfg) unis eps,
  let rank := length (l_sizes c) in
  let zu := zeros_if_none rank unis in
  let imin := fst (default_init_params (l_min c) (l_max c)) in
  let imax := snd (default_init_params (l_min c) (l_max c)) in
  cfg_valid c -> l_sizes c <> [] ->
  length zu = rank -> (forall d, nz (nth d (l_monos c) 0%Z) && nz (nth d zu 0%Z) = false) ->
  (* outside D6: the conditional feature of a trapezoid trust is neither monotone nor unimodal *)
  (forall m cd dir, In (m, cd, dir) (l_trap c) -> nth cd (l_monos c) 0%Z = 0%Z /\ nth cd zu 0%Z = 0%Z) ->
  0 <= eps ->
  assert_lattice (la_of c) (linear_init (l_sizes c) imin imax (Some (l_monos c)) unis (l_units c)) eps = true.
Proof. intros c unis eps rank zu imin imax Hc Hne Hlu Hdisj Gt He.
  pose proof Hc as (Hs & Hu & Hlm & Hm01 & Htok & _ & _ & Hbnd).
  assert (Hr : (1 <= rank)%nat) by (unfold rank; destruct (l_sizes c); [congruence|cbn; lia]).
  assert (Hdp : imin <= imax /\ (forall lo, l_min c = Some lo -> lo <= imin) /\ (forall hi, l_max c = Some hi -> imax <= hi)).
  { apply default_init_params_ok. intros a b Ea Eb. rewrite Ea, Eb in Hbnd. lra. }
  destruct Hdp as (Hb & Hlo & Hhi).
  apply (passes_assert_lattice_linear (la_of c) (Some (l_monos c)) unis imin imax eps);
    cbn [la_of a_sizes a_units a_monos a_edge a_trap a_mdom a_rdom a_jmono a_min a_max zeros_if_none app]; try assumption;
    try (intros ? ? Hf; destruct Hf; fail).
  - apply la_of_ok; exact Hc.
  - intros d Hd E. rewrite E. reflexivity.
  - intros m cd dir Hin. destruct (cfg_trust_dims c m cd dir Hc Hin) as (H1 & H2 & _). unfold l_ud in *. auto.
  - intros m cd dir Hin. destruct (Gt m cd dir Hin) as [G1 G2]. fold rank zu. split; [|rewrite G2; reflexivity].
    destruct (Htok (m, cd, dir) ltac:(unfold all_trusts; apply in_or_app; right; exact Hin)) as (Hm & _ & Em & _).
    rewrite eff_monos_same. rewrite G1; reflexivity.
    assert (Hnz : nz (nth m (l_monos c) 0%Z) = true) by (rewrite Em; reflexivity).
    pose proof (count_nz_pos (l_monos c) m Hnz). lia. Qed.

Lemma passes_assert_lattice_linear_mono_bounds_cfg : forall c eps, cfg_valid c -> mono_bounds_only c -> l_sizes c <> [] ->
  let imin := fst (default_init_params (l_min c) (l_max c)) in
  let imax := snd (default_init_params (l_min c) (l_max c)) in
  0 <= eps ->
  assert_lattice (la_of c) (linear_init (l_sizes c) imin imax (Some (l_monos c)) None (l_units c)) eps = true.
Proof. intros c eps Hc [_ Ht] Hne imin imax He.
  apply (passes_assert_lattice_linear_cfg c None eps); try assumption.
  - cbn [zeros_if_none]. apply repeat_length.
  - intros d. cbn [zeros_if_none]. rewrite nth_repeat. apply andb_false_r.
  - rewrite Ht. intros ? ? ? []. Qed.

Lemma passes_assert_lattice_random_monotonic_cfg : forall (c : lat_cfg) order samples eps,
  let imin := fst (default_init_params (l_min c) (l_max c)) in
  let imax := snd (default_init_params (l_min c) (l_max c)) in
  cfg_valid c -> mono_bounds_only c ->
  Forall2 (@Permutation idx) order (levels (l_sizes c)) ->
  (forall a b, (a <= b)%nat -> (b < length samples)%nat -> nth a samples 0 <= nth b samples 0) ->
  length samples = length (concat order) ->
  (forall x, In x samples -> imin <= x /\ x <= imax) ->
  0 <= eps ->
  assert_lattice (la_of c) (random_mono_init (l_sizes c) (l_units c) order samples) eps = true.
Proof. intros c order samples eps imin imax Hc Hmb Ho Hs Hl Hr He.
  apply assert_accepts_feasible; [exact Hc| |exact He]. apply random_init_feasible; assumption. Qed.

From TFL Require Import Model.PWLInit Proofs.PWLInit.

Lemma cumsum_from_nth l : forall acc k, (k < length l)%nat ->
  nth k (cumsum_from acc l) 0 == acc + qsum (firstn (S k) l).
Proof. induction l as [|x l IH]; intros acc k Hk; cbn [length] in Hk. lia.
  destruct k as [|k]. cbn. lra.
  cbn [cumsum_from nth]. rewrite IH by lia. cbn [firstn qsum]. lra. Qed.

Lemma convert_init_eq omin omax cmn cmx :
  (forall a, omin = Some a -> fst (fst (fst (convert_all_constraints omin omax cmn cmx))) = a) /\
  (forall b, omax = Some b -> snd (fst (fst (convert_all_constraints omin omax cmn cmx))) = b).
Proof. unfold convert_all_constraints, convert_constraints. destruct omin as [a|], omax as [b|]; cbn;
  split; intros ? E; inversion E; reflexivity. Qed.

(* PWLCalibration.build: missing_init = (_output_init_min + _output_init_max) / 2, shape [1, units] *)
Definition pwl_missing_output_init (units : nat) (omin omax : option Q) (clamp_min clamp_max : bool) : list Q :=
  let '(imin, imax, _, _) := convert_all_constraints omin omax clamp_min clamp_max in
  repeat ((imin + imax) * (1#2)) units.

Lemma qsum_firstn1_column u (K : list (list Q)) : qsum (firstn 1 (column u K)) == nth u (nth 0 K []) 0.
Proof. unfold column. destruct K as [|r rest]; cbn; [destruct u; cbn; lra|lra]. Qed.

(* a height in the configured direction, as the assert measures it *)
Lemma dir_sign mono h : (mono = -1 \/ mono = 0 \/ mono = 1)%Z -> (if (mono =? -1)%Z then h <= 0 else 0 <= h) ->
  0 <= h * inject_Z mono.
Proof. intros [-> | [-> | ->]]; unfold inject_Z; cbn [Z.eqb Pos.eqb]; intros; lra. Qed.

Section PwlFresh.
Variables (nk units : nat) (imin imax : Q) (mono : Z) (kps : option (list Q)) (cyclic : bool).
Hypothesis Hb : imin <= imax.
Hypothesis Hn : (2 <= nk)%nat.
Hypothesis Hk : kps_ok nk kps.
Hypothesis Hmono : (mono = -1 \/ mono = 0 \/ mono = 1)%Z.
Let col := pwl_linear_init_col nk imin imax mono kps.
Let kernel := pwl_linear_init nk units imin imax mono kps.
Let outs := pwl_keypoint_outputs units cyclic kernel.

Lemma fresh_kernel_length : length kernel = nk.
Proof. unfold kernel, pwl_linear_init. rewrite map_length. apply col_length; assumption. Qed.
Lemma fresh_kernel_nonempty : kernel <> [].
Proof. intros E. pose proof fresh_kernel_length as HL. rewrite E in HL. cbn in HL. lia. Qed.
Lemma fresh_outs_length : length outs = (nk + (if cyclic then 1 else 0))%nat.
Proof. unfold outs. rewrite keypoint_outputs_length, fresh_kernel_length by exact fresh_kernel_nonempty. reflexivity. Qed.

Lemma fresh_val_range k : (k < nk)%nat -> imin <= nth k (pwl_keypoint_values col) 0 /\ nth k (pwl_keypoint_values col) 0 <= imax.
Proof. intros Hkk. apply (vals_range nk imin imax mono kps Hb Hn Hk), nth_In.
  unfold pwl_keypoint_values, cumsum. rewrite cumsum_from_length, col_length; assumption. Qed.

Section Unit.
Variable u : nat.
Hypothesis Hu : (u < units)%nat.

Lemma fresh_out_val k : (k < nk)%nat -> out_at outs k u == nth k (pwl_keypoint_values col) 0.
Proof. intros Hkk. unfold outs. rewrite keypoint_outputs_at by (rewrite ?fresh_kernel_length; assumption).
  unfold kernel. rewrite pwl_init_units by exact Hu. fold col.
  unfold pwl_keypoint_values, cumsum. rewrite cumsum_from_nth by (unfold col; rewrite col_length; assumption). lra. Qed.

Lemma fresh_out_range k : (k < length outs)%nat -> imin <= out_at outs k u /\ out_at outs k u <= imax.
Proof. intros Hkk. rewrite fresh_outs_length in Hkk.
  destruct (Nat.ltb_spec k nk) as [Hlt|Hge].
  - rewrite (fresh_out_val k Hlt). apply fresh_val_range, Hlt.
  - assert (Ec : cyclic = true) by (clear - Hkk Hge; destruct cyclic; [reflexivity|lia]).
    replace k with (length kernel) by (rewrite fresh_kernel_length, Ec in *; lia).
    (* the closing point repeats the bias, which is the first output *)
    pose proof (fresh_out_val 0 ltac:(lia)) as E0. unfold outs in *. rewrite Ec in *.
    rewrite keypoint_outputs_at in E0 by (rewrite ?fresh_kernel_length; lia || assumption).
    rewrite keypoint_outputs_cyclic_last, <- qsum_firstn1_column, E0 by (exact fresh_kernel_nonempty || exact Hu).
    apply fresh_val_range. lia. Qed.

Lemma fresh_out_step k : (S k < nk)%nat -> 0 <= (out_at outs (S k) u - out_at outs k u) * inject_Z mono.
Proof. intros Hkk. pose proof (col_length nk imin imax mono kps Hn Hk) as HL. fold col in HL.
  rewrite (fresh_out_val (S k) Hkk), (fresh_out_val k ltac:(lia)).
  unfold pwl_keypoint_values, cumsum. rewrite !cumsum_from_nth, (qsum_firstn_S col (S k)) by lia.
  assert (G : 0 <= nth (S k) col 0 * inject_Z mono).
  { apply (dir_sign mono _ Hmono), (col_direction nk imin imax mono kps Hb Hn Hk). fold col.
    destruct col as [|x l]; [cbn in HL; lia|]. cbn [tl nth]. apply nth_In. cbn [length] in HL. lia. }
  lra. Qed.

(* both ends of the init range are reached, at the first and the last keypoint (swapped when decreasing) *)
Lemma fresh_reaches :
  (exists k, (k < length outs)%nat /\ out_at outs k u == imin) /\ (exists k, (k < length outs)%nat /\ out_at outs k u == imax).
Proof. pose proof (Qeq_trans _ _ _ (fresh_out_val 0 ltac:(lia)) (vals_first nk imin imax mono kps)) as F.
  pose proof (Qeq_trans _ _ _ (fresh_out_val (nk - 1) ltac:(lia)) (vals_last nk imin imax mono kps Hn Hk)) as L.
  rewrite fresh_outs_length.
  destruct (mono =? -1)%Z; split; [exists (nk - 1)%nat|exists 0%nat|exists 0%nat|exists (nk - 1)%nat];
    (split; [lia|assumption]). Qed.
End Unit.

(* the fresh outputs are feasible for output bounds that are the ends of the init range *)
Lemma fresh_pwl_feasible omin omax cmn cmx eps : 0 <= eps ->
  (forall lo, omin = Some lo -> lo = imin) -> (forall hi, omax = Some hi -> hi = imax) -> (cyclic = true -> mono = 0%Z) ->
  pwl_feasible (mkPA units mono omin omax cmn cmx) outs eps.
Proof. intros He Emin Emax Hcyc. unfold pwl_feasible. cbn [pa_min pa_max pa_units pa_clamp_min pa_clamp_max pa_mono].
  split; [|split].
  - intros lo u E Hu. rewrite (Emin lo E). split.
    + intros k Hkk. destruct (fresh_out_range u Hu k Hkk). lra.
    + intros _. destruct (fresh_reaches u Hu) as [[k [Hkk Ek]] _]. exists k. split; [exact Hkk|]. rewrite Ek. lra.
  - intros hi u E Hu. rewrite (Emax hi E). split.
    + intros k Hkk. destruct (fresh_out_range u Hu k Hkk). lra.
    + intros _. destruct (fresh_reaches u Hu) as [_ [k [Hkk Ek]]]. exists k. split; [exact Hkk|]. rewrite Ek. lra.
  - intros Hm0 k u Hkk Hu. rewrite fresh_outs_length in Hkk.
    assert (Ec : cyclic = false) by (clear - Hm0 Hcyc; destruct cyclic; [destruct (Hm0 (Hcyc eq_refl))|reflexivity]).
    rewrite Ec in Hkk. pose proof (fresh_out_step u Hu k ltac:(lia)). lra. Qed.
End PwlFresh.

Lemma passes_assert_pwl : forall kps units omin omax clamp_min clamp_max mono (is_cyclic slopes learned_missing : bool) eps,
  let nw := (length kps - (if is_cyclic then 1 else 0))%nat in
  (* what verify_hyperparameters guarantees (is_cyclic excludes monotonicity; with
     'equal_slopes' the initialiser needs one keypoint per weight row, which rules out is_cyclic) *)
  (2 <= nw)%nat ->
  (slopes = true -> is_cyclic = false /\ forall l, In l (kp_lengths kps) -> 0 < l) ->
  (forall a b, omin = Some a -> omax = Some b -> a <= b) ->
  (mono = (-1)%Z \/ mono = 0%Z \/ mono = 1%Z) ->
  (is_cyclic = true -> mono = 0%Z) ->
  0 <= eps ->
  assert_pwl_layer
    (mkPL (mkPA units mono omin omax clamp_min clamp_max) is_cyclic
          (if learned_missing then Some (pwl_missing_output_init units omin omax clamp_min clamp_max) else None))
    (pwl_layer_init kps units omin omax clamp_min clamp_max mono is_cyclic slopes) eps = true.
Proof. intros kps units omin omax cmn cmx mono cyc slopes lm eps nw Hn Hsl Hbnd Hmono Hcyc He.
  pose proof (convert_range omin omax cmn cmx Hbnd) as Hcr.
  pose proof (convert_init_eq omin omax cmn cmx) as [Hemin Hemax].
  unfold pwl_layer_init, pwl_missing_output_init. fold nw.
  destruct (convert_all_constraints omin omax cmn cmx) as [[[imin imax] k1] k2]. cbn [fst snd] in *.
  destruct Hcr as (Hb & Hlo & Hhi).
  set (ko := if slopes then Some kps else None).
  assert (Hk : kps_ok nw ko).
  { unfold ko. destruct slopes; [|exact I]. destruct (Hsl eq_refl) as [-> Hp]. split; [unfold nw; lia|exact Hp]. }
  apply pwl_layer_exact; [exact (fresh_kernel_nonempty nw units imin imax mono ko Hn Hk)|exact He|].
  cbn [pl_cfg pl_cyclic pl_missing pa_units]. split.
  - apply fresh_pwl_feasible; try assumption; intros ? E; symmetry; [apply Hemin|apply Hemax]; exact E.
  - unfold missing_feasible. cbn [pl_missing pl_cfg pa_units pa_min pa_max]. intros mo u E Hu.
    destruct lm; [|discriminate]. injection E as <-.
    rewrite nth_indep with (d' := (imin + imax) * (1#2)), nth_repeat by (rewrite repeat_length; exact Hu). split.
    + intros lo El. pose proof (Hlo lo El). lra.
    + intros hi Eh. pose proof (Hhi hi Eh). lra. Qed.

From TFL Require Import Model.LinearProject Proofs.PartialOrder Proofs.TopoSort Proofs.LinearProject Proofs.CategoricalInit.

(* CategoricalCalibration.build: the initializer value is passed through the
   constraint object whenever one exists (a bound or a non-empty monotonicity
   list); otherwise it is used as it is *)
Definition cat_build_kernel (ps : pairs) (lo hi : option Q) (units : nat) (raw : list (list Q)) : option (list (list Q)) :=
  match ps, lo, hi with
  | [], None, None => Some raw
  | _, _, _ => cat_project ps lo hi units raw
  end.

Lemma cat_project_length ps lo hi units W R : cat_project ps lo hi units W = Some R -> length R = length W.
Proof. unfold cat_project. destruct (opt_map_all _ _) as [cols|]; [|discriminate]. intros E. inversion E.
  unfold transpose. rewrite map_length, seq_length. reflexivity. Qed.

(* the projected kernel is feasible, unit by unit: the bounds and the order of every configured pair *)
Lemma cat_project_feasible ps lo hi units raw K eps : cat_project ps lo hi units raw = Some K ->
  acyclic ps -> (forall i j, In (i, j) ps -> (i < length raw)%nat /\ (j < length raw)%nat) ->
  (forall l h, lo = Some l -> hi = Some h -> l <= h) -> 0 <= eps ->
  cat_feasible (mkCatA units lo hi ps) K eps.
Proof. intros E Hac Hr Hbnd He.
  assert (Hcol : forall u, (u < units)%nat -> cat_project_col ps lo hi (column u raw) = Some (column u K)).
  { intros u Hu. destruct (cat_per_unit ps lo hi units raw K u E Hu) as [r [Er <-]]. exact Er. }
  assert (Hin : forall b u, (b < length K)%nat -> In (kat K b u) (column u K)).
  { intros b u Hb. rewrite <- nth_column_kat. apply nth_In. rewrite column_length. exact Hb. }
  split; [|split]; cbn [ca_min ca_max ca_units ca_pairs].
  - intros l b u -> Hb Hu. destruct (cat_bounds _ _ _ _ _ (Hcol u Hu) _ (Hin b u Hb)) as [_ G].
    pose proof (G l eq_refl (fun h => Hbnd l h eq_refl)). lra.
  - intros h b u -> Hb Hu. destruct (cat_bounds _ _ _ _ _ (Hcol u Hu) _ (Hin b u Hb)) as [G _].
    pose proof (G h eq_refl). lra.
  - intros i j u Hij Hu. assert (Hps : ps <> []) by (intros ->; destruct Hij).
    assert (Hpr : pairs_in_range ps (column u raw)) by (intros a b Hab; rewrite column_length; apply Hr; exact Hab).
    pose proof (cat_pairs ps lo hi _ _ Hps Hac Hpr (Hcol u Hu) i j Hij) as G. rewrite !nth_column_kat in G. lra. Qed.

Lemma passes_assert_categorical : forall ps lo hi units raw K eps,
  cat_build_kernel ps lo hi units raw = Some K ->
  (* what verify_hyperparameters guarantees: at least one bucket and one unit, pairs of existing
     buckets without a cycle, output_min <= output_max *)
  raw <> [] -> (1 <= units)%nat ->
  acyclic ps -> (forall i j, In (i, j) ps -> (i < length raw)%nat /\ (j < length raw)%nat) ->
  (forall l h, lo = Some l -> hi = Some h -> l <= h) ->
  0 <= eps ->
  assert_categorical (mkCatA units lo hi ps) K eps = true.
Proof. intros ps lo hi units raw K eps EK Hne Hu Hac Hr Hbnd He.
  assert (Hproj : cat_project ps lo hi units raw = Some K -> assert_categorical (mkCatA units lo hi ps) K eps = true).
  { intros E. apply cat_complete; [|exact Hu|exact He|apply (cat_project_feasible ps lo hi units raw); assumption].
    intros ->. apply cat_project_length in E. destruct raw; [congruence|discriminate]. }
  (* without a constraint object the raw value is used, and nothing is asserted *)
  unfold cat_build_kernel in EK.
  destruct ps as [|p0 ps']; [destruct lo as [l|]; [|destruct hi as [h|]]|]; try (apply Hproj; exact EK).
  injection EK as <-. reflexivity. Qed.

From TFL Require Import Model.KFLInit Proofs.KFLInit.

(* the two models of tf.sign agree *)
Lemma qsign_models_agree x : TFL.Model.Asserts.qsign x = TFL.Model.KFLInit.qsign x.
Proof. unfold TFL.Model.Asserts.qsign, TFL.Model.KFLInit.qsign. destruct (qlt 0 x); [reflexivity|]. destruct (qlt x 0); reflexivity. Qed.

(* utils.count_non_zeros(monotonicities) > 0 *)
Definition kfl_any_mono (monos : list Z) : bool := existsb nz monos.
(* the fresh kernel (1, L, units * dims, terms), reshaped as the assert reshapes it:
   entry [k; u; d; t] is entry k of the column the initialiser builds for
   (unit u, dimension d, term t) from its raw uniform samples and the fresh scale *)
Definition kfl_fresh_kernel (monos : list Z) (Sc : list (list Q)) (samples : nat -> nat -> nat -> list Q) : tens :=
  fun i => match i with
           | [k; u; d; t] => nth k (kfl_init_col (kfl_any_mono monos) (nz (nth d monos 0%Z)) (sc_at Sc u t) (samples u d t)) 0
           | _ => 0
           end.

Lemma qprod_ones {A} (ds : list A) : TFL.Model.Asserts.qprod (map (fun _ => 1) ds) == 1.
Proof. induction ds as [|d ds IH]; cbn [map TFL.Model.Asserts.qprod]. reflexivity. rewrite IH. lra. Qed.

(* the fresh scale: +-(hi - lo)/2 alternating over the terms with two bounds, 1 or -1 with one, +-1 with none *)
Lemma kfl_fresh_scale units terms omin omax u t : (u < units)%nat -> (t < terms)%nat ->
  let s := sc_at (kfl_scale_init units terms omin omax) u t in
  match omin, omax with
  | Some a, Some b => s == (b - a) * (1#2) \/ s == - ((b - a) * (1#2))
  | Some _, None => s = 1
  | None, Some _ => s = -1
  | None, None => s = 1 \/ s = -1
  end.
Proof. intros Hu Ht. unfold sc_at.
  destruct (kfl_scale_row units terms omin omax (nth u (kfl_scale_init units terms omin omax) [])) as [Hlen Hrow].
  { apply nth_In. unfold kfl_scale_init. rewrite repeat_length. exact Hu. }
  apply Hrow, nth_In. rewrite Hlen. exact Ht. Qed.

Lemma kfl_fresh_scale_nz units terms omin omax : (forall a b, omin = Some a -> omax = Some b -> a < b) ->
  forall u t, (u < units)%nat -> (t < terms)%nat -> ~ sc_at (kfl_scale_init units terms omin omax) u t == 0.
Proof. intros Hbnd u t Hu Ht. pose proof (kfl_fresh_scale units terms omin omax u t Hu Ht) as H. cbv zeta in H.
  destruct omin as [a|], omax as [b|].
  - pose proof (Hbnd a b eq_refl eq_refl). destruct H as [H|H]; rewrite H; lra.
  - rewrite H. lra.
  - rewrite H. lra.
  - destruct H as [H|H]; rewrite H; lra. Qed.

(* the fresh kernel over any scale without zero entries, from the oracle: one raw column of L samples
   from [imin, imax] per (unit, dimension, term) *)
Section KflFresh.
Variables (L units dims terms : nat) (monos : list Z) (Sc : list (list Q)) (samples : nat -> nat -> nat -> list Q) (imin imax : Q).
Let K := kfl_fresh_kernel monos Sc samples.
Hypothesis Hnz : forall u t, (u < units)%nat -> (t < terms)%nat -> ~ sc_at Sc u t == 0.
Hypothesis Hor : forall u d t, (u < units)%nat -> (d < dims)%nat -> (t < terms)%nat ->
  length (samples u d t) = L /\ forall s, In s (samples u d t) -> imin <= s /\ s <= imax.

Section Term.
Variables u t : nat.
Hypothesis Hu : (u < units)%nat.
Hypothesis Ht : (t < terms)%nat.

Lemma kfl_fresh_entry k d : (k < L)%nat -> (d < dims)%nat -> imin <= K [k; u; d; t] /\ K [k; u; d; t] <= imax.
Proof. intros Hk Hd. destruct (Hor u d t Hu Hd Ht) as [Hlen Hr]. unfold K. cbn [kfl_fresh_kernel].
  apply (kfl_col_in_range (kfl_any_mono monos) (nz (nth d monos 0%Z)) _ _ imin imax (Hnz u t Hu Ht) Hr).
  apply nth_In. rewrite kfl_col_length, Hlen. exact Hk. Qed.

(* with all entries in [0, 1] every product of one entry per dimension is at most 1 *)
Lemma kfl_fresh_product (v : nat -> nat) : 0 <= imin -> imax <= 1 -> (forall d, (d < dims)%nat -> (v d < L)%nat) ->
  TFL.Model.Asserts.qprod (map (fun d => qabs (K [v d; u; d; t])) (seq 0 dims)) <= 1.
Proof. intros H0 H1 Hv.
  eapply Qle_trans; [apply (TFL.Proofs.Asserts.qprod_le _ (fun _ => 1))|rewrite qprod_ones; lra].
  intros d Hd. apply in_seq in Hd. destruct (kfl_fresh_entry (v d) d (Hv d ltac:(lia)) ltac:(lia)).
  split; [apply qabs_nonneg|]. qcases; lra. Qed.

(* the column of a monotone dimension is sorted in the direction of the sign of its scale *)
Lemma kfl_fresh_step d j : (d < length monos)%nat -> (d < dims)%nat -> nth d monos 0%Z <> 0%Z -> (S j < L)%nat ->
  qsign (sc_at Sc u t) * K [j; u; d; t] <= qsign (sc_at Sc u t) * K [S j; u; d; t].
Proof. intros Hdm Hd Hm Hj. unfold K. cbn [kfl_fresh_kernel].
  assert (Hm' : nz (nth d monos 0%Z) = true) by (apply negb_true_iff, Z.eqb_neq, Hm).
  assert (Hany : kfl_any_mono monos = true).
  { apply existsb_exists. exists (nth d monos 0%Z). split; [apply nth_In, Hdm|exact Hm']. }
  rewrite Hany, Hm'. destruct (Hor u d t Hu Hd Ht) as [Hlen _].
  apply (kfl_col_sorted true true _ _ (Hnz u t Hu Ht) j eq_refl eq_refl). rewrite kfl_col_length, Hlen. exact Hj. Qed.
End Term.

Lemma kfl_fresh_nonneg i : 0 <= imin -> valid [L; units; dims; terms] i -> 0 <= K i.
Proof. intros H0 Hv.
  inversion Hv as [|? ? k r1 Hk Hv1]; subst. inversion Hv1 as [|? ? u r2 Hu Hv2]; subst.
  inversion Hv2 as [|? ? d r3 Hd Hv3]; subst. inversion Hv3 as [|? ? t r4 Ht Hv4]; subst. inversion Hv4; subst.
  destruct (kfl_fresh_entry u t Hu Ht k d Hk Hd). lra. Qed.
End KflFresh.
Arguments kfl_fresh_nonneg {L units dims terms} monos {Sc samples imin imax} Hnz Hor.
Arguments kfl_fresh_product {L units dims terms} monos {Sc samples imin imax} Hnz Hor.
Arguments kfl_fresh_step {L units dims terms} monos {Sc samples imin imax} Hnz Hor.

Lemma passes_assert_kfl_init_range : forall L units dims terms monos omin omax samples imin imax eps,
  let Sc := kfl_scale_init units terms omin omax in
  (1 <= L)%nat ->
  (forall a b, omin = Some a -> omax = Some b -> a < b) ->
  (* the oracle: one raw column of L uniform samples from [imin, imax] per (unit, dimension, term) *)
  (forall u d t, (u < units)%nat -> (d < dims)%nat -> (t < terms)%nat ->
     length (samples u d t) = L /\ forall s, In s (samples u d t) -> imin <= s /\ s <= imax) ->
  (* with a bound configured the init range is inside [0, 1] (the default is exactly [0, 1]) *)
  (forall b, omin = Some b \/ omax = Some b -> 0 <= imin /\ imax <= 1) ->
  0 <= eps ->
  assert_kfl (mkKA L units dims terms monos omin omax) Sc (kfl_fresh_kernel monos Sc samples) eps = true.
Proof. intros L units dims terms monos omin omax samples imin imax eps Sc HL Hbnd Hor Hir He.
  apply kfl_complete; [exact HL|exact He|].
  pose proof (kfl_fresh_scale_nz units terms omin omax Hbnd) as Hnz. fold Sc in Hnz.
  pose proof (kfl_fresh_scale units terms omin omax) as Hsc. cbv zeta in Hsc. fold Sc in Hsc.
  split; cbn [k_monos k_dims k_L k_units k_terms k_min k_max k_shape].
  - intros d j u t Hd Hm Hj Hu Ht. rewrite !qsign_models_agree.
    pose proof (kfl_fresh_step monos Hnz Hor u t Hu Ht d j ltac:(lia) ltac:(lia) Hm Hj). lra.
  - destruct omin as [a|] eqn:Ea, omax as [b|] eqn:Eb.
    + destruct (Hir a (or_introl eq_refl)) as [H0 H1]. split.
      * intros u t v Hu Ht Hv.
        pose proof (kfl_fresh_product monos Hnz Hor u t Hu Ht v H0 H1 Hv). lra.
      * intros u t Hu Ht. pose proof (Hbnd a b eq_refl eq_refl). destruct (Hsc u t Hu Ht) as [E|E]; rewrite E; lra.
    + split; [intros i; apply (kfl_fresh_nonneg monos Hnz Hor), (Hir a); left; reflexivity|].
      intros u t Hu Ht. rewrite (Hsc u t Hu Ht). lra.
    + split; [intros i; apply (kfl_fresh_nonneg monos Hnz Hor), (Hir b); right; reflexivity|].
      intros u t Hu Ht. rewrite (Hsc u t Hu Ht). lra.
    + exact I. Qed.

Lemma kfl_default_init_range_ok omin omax b : omin = Some b \/ omax = Some b ->
  0 <= fst (kfl_default_init_params omin omax) /\ snd (kfl_default_init_params omin omax) <= 1.
Proof. unfold kfl_default_init_params. intros [-> | ->]; [|destruct omin]; cbn; lra. Qed.

Lemma passes_assert_kfl : forall L units dims terms monos omin omax samples eps,
  let Sc := kfl_scale_init units terms omin omax in
  let imin := fst (kfl_default_init_params omin omax) in
  let imax := snd (kfl_default_init_params omin omax) in
  (1 <= L)%nat ->
  (forall a b, omin = Some a -> omax = Some b -> a < b) ->
  (forall u d t, (u < units)%nat -> (d < dims)%nat -> (t < terms)%nat ->
     length (samples u d t) = L /\ forall s, In s (samples u d t) -> imin <= s /\ s <= imax) ->
  0 <= eps ->
  assert_kfl (mkKA L units dims terms monos omin omax) Sc (kfl_fresh_kernel monos Sc samples) eps = true.
Proof. intros L units dims terms monos omin omax samples eps Sc imin imax HL Hbnd Hor He.
  apply (passes_assert_kfl_init_range L units dims terms monos omin omax samples imin imax eps); try assumption.
  intros b Hb. apply (kfl_default_init_range_ok omin omax b Hb). Qed.

(* Examples: the hypotheses of every implication are satisfiable *)
Ltac in_cases' H := cbn in H; repeat (destruct H as [H|H]; [first [progress subst | inversion H; subst; clear H]|]); try (destruct H).
Ltac nat_cases d := do 4 (destruct d as [|d]; [try reflexivity|]); try (destruct d; reflexivity).

(* Lattice, linear initialiser: 4 dimensions (monotone, monotone, valley, free), 2 units, one
   constraint of every asserted family, both bounds *)
Definition ex_lin_la : la_cfg :=
  mkLA [2; 3; 3; 2]%nat 2 [1; 1; 0; 0]%Z [(0, 2, 1%Z)]%nat [(1, 3, (-1)%Z)]%nat [(0, 1)]%nat [(1, 0)]%nat [(0, 3)]%nat
       (Some (-(1))) (Some 3).
Definition ex_lin_monos : option (list Z) := Some [1; 1; 0; 0]%Z.
Definition ex_lin_unis : option (list Z) := Some [0; 0; 1; 0]%Z.
Example ex_lin_la_ok : la_ok ex_lin_la.
Proof. split; [|split; [|split]].
  - intros s Hs. in_cases' Hs; lia.
  - cbn. lia.
  - intros m cd dir Hin. in_cases' Hin; (split; [discriminate|auto]).
  - intros p q Hin. in_cases' Hin; discriminate. Qed.
Example ex_passes_assert_lattice_linear :
  assert_lattice ex_lin_la (linear_init (a_sizes ex_lin_la) (-(1)) 3 ex_lin_monos ex_lin_unis (a_units ex_lin_la)) (1#1000000) = true.
Proof. apply passes_assert_lattice_linear; try exact ex_lin_la_ok; try reflexivity; try lra; try (cbn; lia).
  - intros d. cbn. nat_cases d.
  - intros d Hd. cbn in Hd |- *. destruct d as [|[|[|[|d]]]]; intros E; first [reflexivity | discriminate | lia].
  - intros m cd dir Hin. in_cases' Hin; cbn; lia.
  - intros p q Hin. in_cases' Hin; cbn; lia.
  - intros p q Hin. in_cases' Hin; split; reflexivity.
  - intros lo E. injection E as <-. lra.
  - intros hi E. injection E as <-. lra.
  - intros m cd dir Hin. in_cases' Hin. split; reflexivity.
  - intros p q Hin. in_cases' Hin. cbn. lia.
  - intros p q Hin. in_cases' Hin. split; [left|right]; reflexivity. Qed.
(* the same by running the model of the assert on the model of the fresh kernel *)
Example ex_passes_assert_lattice_linear_computed :
  assert_lattice ex_lin_la (linear_init (a_sizes ex_lin_la) (-(1)) 3 ex_lin_monos ex_lin_unis (a_units ex_lin_la)) 0 = true.
Proof. vm_compute. reflexivity. Qed.

(* the layer: default initialiser id, the same configuration *)
Example ex_passes_assert_lattice_layer : exists W,
  lattice_init_kernel (create_kernel_initializer IdUniformOrLinear (a_sizes ex_lin_la) ex_lin_monos (a_min ex_lin_la) (a_max ex_lin_la)
                         ex_lin_unis [] None) (a_sizes ex_lin_la) (a_units ex_lin_la) [] [] = Some W /\
  assert_lattice ex_lin_la W (1#1000000) = true.
Proof. eexists. split; [reflexivity|].
  eapply (passes_assert_lattice_layer ex_lin_la IdUniformOrLinear ex_lin_monos ex_lin_unis [] None [] []);
    try exact ex_lin_la_ok; try reflexivity; try lra; try (cbn; lia).
  - intros d. cbn. nat_cases d.
  - intros m cd dir Hin. in_cases' Hin; cbn; lia.
  - intros p q Hin. in_cases' Hin; cbn; lia.
  - intros p q Hin. in_cases' Hin; split; reflexivity.
  - intros a b E1 E2. injection E1 as <-. injection E2 as <-. lra.
  - intros p E. discriminate.
  - cbn. split; [|split].
    + intros m cd dir Hin. in_cases' Hin. split; reflexivity.
    + intros p q Hin. in_cases' Hin. cbn. lia.
    + intros p q Hin. in_cases' Hin. split; [left|right]; reflexivity. Qed.

(* Lattice, random monotonic initialiser: monotonicity, a joint monotonicity, both bounds *)
Definition ex_rnd_la : la_cfg := mkLA [3; 2]%nat 2 [1; 0]%Z [] [] [] [] [(0, 1)]%nat (Some 0) (Some 5).
Example ex_rnd_la_ok : la_ok ex_rnd_la.
Proof. split; [|split; [|split]].
  - intros s Hs. in_cases' Hs; lia.
  - cbn. lia.
  - intros m cd dir Hin. in_cases' Hin.
  - intros p q Hin. in_cases' Hin; discriminate. Qed.
Example ex_passes_assert_lattice_random_monotonic :
  assert_lattice ex_rnd_la (random_mono_init (a_sizes ex_rnd_la) (a_units ex_rnd_la) (levels [3; 2]%nat) [0; 1; 2; 3; 4; 5]) (1#1000000) = true.
Proof. apply (passes_assert_lattice_random_monotonic ex_rnd_la (levels [3; 2]%nat) [0; 1; 2; 3; 4; 5] 0 5);
    try exact ex_rnd_la_ok; try reflexivity; try lra.
  - intros p q Hin. in_cases' Hin; cbn; lia.
  - cbn [ex_rnd_la a_sizes]. induction (levels [3; 2]%nat); constructor; auto.
  - intros a b Hab Hb. cbn in Hb.
    do 6 (destruct b as [|b]; [do 6 (destruct a as [|a]; [cbn; first [lra|lia]|]); lia|]). lia.
  - intros x Hx. in_cases' Hx; lra.
  - intros lo E. injection E as <-. lra.
  - intros hi E. injection E as <-. lra. Qed.
Example ex_passes_assert_lattice_random_monotonic_computed :
  assert_lattice ex_rnd_la (random_mono_init (a_sizes ex_rnd_la) (a_units ex_rnd_la) (levels [3; 2]%nat) [0; 1; 2; 3; 4; 5]) 0 = true.
Proof. vm_compute. reflexivity. Qed.

(* Lattice, C01 configuration record: monotone main feature with an Edgeworth and a trapezoid trust on free conditional features *)
Definition ex_c01_cfg : lat_cfg := mkLat [2; 2; 3]%nat 1 [1; 0; 0]%Z [(0, 1, 1%Z)]%nat [(0, 2, (-1)%Z)]%nat (Some 0) None.
Example ex_c01_cfg_valid : cfg_valid ex_c01_cfg.
Proof. apply cfg_validb_ok. reflexivity. Qed.
Example ex_passes_assert_lattice_linear_cfg :
  assert_lattice (la_of ex_c01_cfg) (linear_init (l_sizes ex_c01_cfg) 0 1 (Some (l_monos ex_c01_cfg)) None (l_units ex_c01_cfg)) (1#1000000) = true.
Proof. apply (passes_assert_lattice_linear_cfg ex_c01_cfg None (1#1000000)); try exact ex_c01_cfg_valid; try reflexivity; try lra.
  - discriminate.
  - intros d. cbn. nat_cases d.
  - intros m cd dir Hin. in_cases' Hin. split; reflexivity. Qed.

Definition ex_mb_cfg : lat_cfg := mkLat [3; 2]%nat 2 [1; 0]%Z [] [] (Some (-2)) None.
Example ex_mb_cfg_valid : cfg_valid ex_mb_cfg /\ mono_bounds_only ex_mb_cfg /\ l_sizes ex_mb_cfg <> [].
Proof. unfold cfg_valid, mono_bounds_only. cbn. repeat split; try congruence; try lia; try lra. Qed.
Example ex_passes_assert_lattice_random_monotonic_cfg :
  assert_lattice (la_of ex_mb_cfg) (random_mono_init (l_sizes ex_mb_cfg) (l_units ex_mb_cfg) (levels [3; 2]%nat) [-2; -1; 0; 0; 1#2; 1]) (1#1000000) = true.
Proof. destruct ex_mb_cfg_valid as (H1 & H2 & _).
  apply (passes_assert_lattice_random_monotonic_cfg ex_mb_cfg (levels [3; 2]%nat) [-2; -1; 0; 0; 1#2; 1]); try assumption; try reflexivity; try lra.
  - cbn [ex_mb_cfg l_sizes]. induction (levels [3; 2]%nat); constructor; auto.
  - intros a b Hab Hb. cbn in Hb.
    do 6 (destruct b as [|b]; [do 6 (destruct a as [|a]; [cbn; first [lra|lia]|]); lia|]). lia.
  - intros x Hx. cbn [ex_mb_cfg l_min l_max default_init_params fst snd]. in_cases' Hx; qcases; lra. Qed.

(* PWLCalibration: decreasing, equal slopes, both bounds with a clamp, learned missing output *)
Example ex_passes_assert_pwl :
  assert_pwl_layer
    (mkPL (mkPA 2 (-1) (Some (-3)) (Some (-1)) true false) false
          (Some (pwl_missing_output_init 2 (Some (-3)) (Some (-1)) true false)))
    (pwl_layer_init [0; 1; 3; 7#2] 2 (Some (-3)) (Some (-1)) true false (-1) false true) (1#1000000) = true.
Proof. apply (passes_assert_pwl [0; 1; 3; 7#2] 2 (Some (-3)) (Some (-1)) true false (-1)%Z false true true); try lra; try (cbn; lia); auto.
  - intros _. split; [reflexivity|]. intros l Hl. in_cases' Hl; lra.
  - intros a b E1 E2. injection E1 as <-. injection E2 as <-. lra. Qed.
Example ex_passes_assert_pwl_computed :
  assert_pwl_layer
    (mkPL (mkPA 2 (-1) (Some (-3)) (Some (-1)) true false) false
          (Some (pwl_missing_output_init 2 (Some (-3)) (Some (-1)) true false)))
    (pwl_layer_init [0; 1; 3; 7#2] 2 (Some (-3)) (Some (-1)) true false (-1) false true) 0 = true /\
  (* cyclic, no monotonicity, only an upper bound *)
  assert_pwl_layer (mkPL (mkPA 1 0 None (Some 5) false true) true None)
    (pwl_layer_init [0; 1; 2; 4] 1 None (Some 5) false true 0 true false) 0 = true.
Proof. split; vm_compute; reflexivity. Qed.
Example ex_passes_assert_pwl_cyclic :
  assert_pwl_layer (mkPL (mkPA 1 0 None (Some 5) false true) true None)
    (pwl_layer_init [0; 1; 2; 4] 1 None (Some 5) false true 0 true false) (1#1000000) = true.
Proof. apply (passes_assert_pwl [0; 1; 2; 4] 1 None (Some 5) false true 0%Z true false false); try lra; try (cbn; lia); auto.
  intros a b E1. discriminate. Qed.

(* CategoricalCalibration: 3 buckets, 2 units, a chain of two pairs, both bounds, an infeasible raw value *)
Definition ex_cat_raw : list (list Q) := [[7#8; 0]; [-(1#4); 3]; [1#8; -2]].
Example ex_passes_assert_categorical : exists K,
  cat_build_kernel [(0, 1); (1, 2)]%nat (Some 0) (Some 1) 2 ex_cat_raw = Some K /\
  assert_categorical (mkCatA 2 (Some 0) (Some 1) [(0, 1); (1, 2)]%nat) K (1#1000000) = true.
Proof. destruct (cat_build_kernel [(0, 1); (1, 2)]%nat (Some 0) (Some 1) 2 ex_cat_raw) as [K|] eqn:E; [|vm_compute in E; discriminate].
  exists K. split; [reflexivity|].
  apply (passes_assert_categorical [(0, 1); (1, 2)]%nat (Some 0) (Some 1) 2 ex_cat_raw K); try exact E; try lra; try (cbn; lia).
  - discriminate.
  - apply (acyclic_rank _ (fun x => x)). intros a b H. in_cases' H; lia.
  - intros i j Hin. in_cases' Hin; cbn; lia.
  - intros l h E1 E2. injection E1 as <-. injection E2 as <-. lra. Qed.

(* KroneckerFactoredLattice: L = 3, 2 units, 2 dims (the first monotone), 2 terms, both bounds *)
Definition ex_kfl_samples (u d t : nat) : list Q := if Nat.even (u + d + t) then [1#2; 1; 1#8] else [0; 3#4; 1#4].
Example ex_passes_assert_kfl :
  assert_kfl (mkKA 3 2 2 2 [1; 0]%Z (Some (-1)) (Some 3)) (kfl_scale_init 2 2 (Some (-1)) (Some 3))
             (kfl_fresh_kernel [1; 0]%Z (kfl_scale_init 2 2 (Some (-1)) (Some 3)) ex_kfl_samples) (1#1000000) = true.
Proof. apply passes_assert_kfl; try lra; try lia.
  - intros a b E1 E2. injection E1 as <-. injection E2 as <-. lra.
  - intros u d t _ _ _. unfold ex_kfl_samples. cbn [kfl_default_init_params fst snd].
    destruct (Nat.even (u + d + t)); (split; [reflexivity|]); intros s Hs; in_cases' Hs; lra. Qed.
Example ex_passes_assert_kfl_computed :
  assert_kfl (mkKA 3 2 2 2 [1; 0]%Z (Some (-1)) (Some 3)) (kfl_scale_init 2 2 (Some (-1)) (Some 3))
             (kfl_fresh_kernel [1; 0]%Z (kfl_scale_init 2 2 (Some (-1)) (Some 3)) ex_kfl_samples) 0 = true.
Proof. vm_compute. reflexivity. Qed.

(* the guards are needed: outside them the fresh kernel FAILS the layer's own assert
   (known findings D6 a/b/c and D24, here on the models, eps = 1e-6 as in Lattice.assert_constraints) *)
Lemma fresh_lattice_fails_assert_outside_guards :
  (* D6a: trapezoid trust whose conditional feature is monotone *)
  assert_lattice (mkLA [2; 2]%nat 1 [1; 1]%Z [] [(0, 1, 1%Z)]%nat [] [] [] None None)
                 (linear_init [2; 2]%nat 0 1 (Some [1; 1]%Z) None 1) (1#1000000) = false /\
  (* D6b: monotonic dominance whose dominant dimension has more vertices *)
  assert_lattice (mkLA [3; 2]%nat 1 [1; 1]%Z [] [] [(0, 1)]%nat [] [] None None)
                 (linear_init [3; 2]%nat 0 1 (Some [1; 1]%Z) None 1) (1#1000000) = false /\
  (* D6c: joint monotonicity touching a unimodal dimension *)
  assert_lattice (mkLA [4; 3]%nat 1 [1; 0]%Z [] [] [] [] [(0, 1)]%nat None None)
                 (linear_init [4; 3]%nat 0 1 (Some [1; 0]%Z) (Some [0; 1]%Z) 1) (1#1000000) = false /\
  (* D24: random monotonic initialiser with a trapezoid trust *)
  assert_lattice (mkLA [2; 2]%nat 1 [1; 0]%Z [] [(0, 1, 1%Z)]%nat [] [] [] None None)
                 (random_mono_init [2; 2]%nat 1 (levels [2; 2]%nat) [0; 1#4; 1#2; 1]) (1#1000000) = false.
Proof. repeat split; vm_compute; reflexivity. Qed.
