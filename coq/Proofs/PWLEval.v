(* What PWLCalibration and CategoricalCalibration compute (Model/PWLEval.v,
   Model/CategoricalEval.v).  The keypoint tables of a layer enter only through
   [segments]; [fixed_segments] and [learned_segments] show that both keypoint
   modes produce it. *)
From TFL Require Import Model.PWLEval Model.CategoricalEval.
Open Scope Q_scope.

(* one segment weight clip((x - k) / l, 0, 1), for l > 0 *)
Definition seg_w (x k l : Q) : Q := qmax (qmin ((x - k) / l) 1) 0.

Lemma seg_w_range x k l : 0 <= seg_w x k l /\ seg_w x k l <= 1.
Proof. apply (qclip_range 0 1). lra. Qed.
Lemma seg_w_zero x k l : 0 < l -> x <= k -> seg_w x k l == 0.
Proof. intros Hl Hx. pose proof (Qle_shift_div_r (x - k) l 0 Hl ltac:(lra)). unfold seg_w. qcases; lra. Qed.
Lemma seg_w_one x k l : 0 < l -> k + l <= x -> seg_w x k l == 1.
Proof. intros Hl Hx. pose proof (Qle_shift_div_l 1 (x - k) l Hl ltac:(lra)). unfold seg_w. qcases; lra. Qed.
Lemma seg_w_mid x k l : 0 < l -> k <= x -> x <= k + l -> seg_w x k l == (x - k) / l.
Proof. intros Hl H1 H2. apply (qclip_id 0 1).
  apply Qle_shift_div_l; [exact Hl|lra]. apply Qle_shift_div_r; [exact Hl|lra]. Qed.
Lemma seg_w_mono x y k l : 0 < l -> x <= y -> seg_w x k l <= seg_w y k l.
Proof. intros Hl Hxy. apply (qclip_mono 0 1), qdiv_le_mono; [exact Hl|lra]. Qed.

Lemma dot_nil_r a : dot a [] = 0. Proof. destruct a; reflexivity. Qed.
Lemma nth_nil_Q n : nth n (@nil Q) 0 = 0. Proof. destruct n; reflexivity. Qed.

Lemma interp_w_cons x k kps l lens :
  interp_w x (k :: kps) (l :: lens) = seg_w x k l :: interp_w x kps lens.
Proof. reflexivity. Qed.

(* Segments: left keypoints [kps], lengths [lens], right end [e]: every length is
   positive, each keypoint is its predecessor plus the predecessor's length, and the
   last keypoint plus the last length is e.  The complete keypoint list is kps ++ [e]. *)
Fixpoint segments (kps lens : list Q) (e : Q) : Prop :=
  match kps, lens with
  | [], [] => True
  | k :: kps', l :: lens' =>
      0 < l /\ (match kps' with k' :: _ => k' == k + l | [] => e == k + l end) /\ segments kps' lens' e
  | _, _ => False
  end.

(* the keypoint after k is the head of the rest, or the end *)
Lemma segments_cons k kps l lens e :
  segments (k :: kps) (l :: lens) e <-> 0 < l /\ hd e kps == k + l /\ segments kps lens e.
Proof. destruct kps; reflexivity. Qed.
Lemma nth0_all_keypoints kps e : nth 0 (kps ++ [e]) 0 = hd e kps.
Proof. destruct kps; reflexivity. Qed.

Lemma segments_length kps : forall lens e, segments kps lens e -> length lens = length kps.
Proof. induction kps as [|k kps IH]; intros [|l lens] e H; cbn in *; try tauto.
  destruct H as [_ [_ H]]. f_equal. eapply IH; eauto. Qed.

Lemma segments_pos kps : forall lens e, segments kps lens e -> Forall (fun l => 0 < l) lens.
Proof. induction kps as [|k kps IH]; intros [|l lens] e H; cbn in H; try tauto; constructor.
  tauto. apply (IH lens e). tauto. Qed.

Lemma segments_nth_ge kps : forall lens e j, segments kps lens e -> (j <= length kps)%nat ->
  hd e kps <= nth j (kps ++ [e]) 0.
Proof. induction kps as [|k kps IH]; intros [|l lens] e j H Hj; try (cbn in H; tauto).
  - destruct j; [cbn; lra|cbn in Hj; lia].
  - apply segments_cons in H. destruct H as (Hl & Hk & H). destruct j as [|j]; [cbn; lra|].
    specialize (IH lens e j H ltac:(cbn in Hj; lia)). cbn [app nth hd]. lra. Qed.
Lemma segments_hd_le_end kps lens e : segments kps lens e -> hd e kps <= e.
Proof. intros H. pose proof (segments_nth_ge kps lens e (length kps) H (le_n _)) as G.
  rewrite app_nth2, Nat.sub_diag in G by lia. exact G. Qed.

Lemma segments_increasing kps : forall lens e j, segments kps lens e ->
  (j < length kps)%nat -> nth (S j) (kps ++ [e]) 0 == nth j kps 0 + nth j lens 0 /\ 0 < nth j lens 0.
Proof. induction kps as [|k kps IH]; intros [|l lens] e j H Hj; cbn in Hj; try lia; [cbn in H; tauto|].
  apply segments_cons in H. destruct H as (Hl & Hk & H). destruct j as [|j].
  - cbn [app nth]. rewrite nth0_all_keypoints. split; assumption.
  - apply (IH lens e j H). lia. Qed.

Lemma dot_zero_left kps : forall lens e hs x, segments kps lens e ->
  x <= hd e kps -> dot (interp_w x kps lens) hs == 0.
Proof. induction kps as [|k kps IH]; intros [|l lens] e hs x H Hx; try reflexivity.
  apply segments_cons in H. destruct H as (Hl & Hk & H). rewrite interp_w_cons. destruct hs as [|h hs]; [reflexivity|].
  cbn [dot hd] in *. rewrite (seg_w_zero x k l Hl Hx), (IH lens e hs x H) by lra. lra. Qed.

Lemma dot_all_right kps : forall lens e hs x, segments kps lens e -> length hs = length kps ->
  e <= x -> dot (interp_w x kps lens) hs == qsum hs.
Proof. induction kps as [|k kps IH]; intros [|l lens] e hs x H Hh Hx; try (cbn in H; tauto).
  - destruct hs; [reflexivity|discriminate].
  - destruct hs as [|h hs]; [discriminate|]. injection Hh as Hh. apply segments_cons in H. destruct H as (Hl & Hk & H).
    pose proof (segments_hd_le_end kps lens e H). rewrite interp_w_cons. cbn [dot qsum].
    rewrite (seg_w_one x k l Hl), (IH lens e hs x H Hh Hx) by lra. lra. Qed.

(* x inside segment j: full weight on the segments before it, none after *)
Lemma dot_segment kps : forall lens e hs x j, segments kps lens e ->
  (j < length kps)%nat -> nth j kps 0 <= x -> x <= nth (S j) (kps ++ [e]) 0 ->
  dot (interp_w x kps lens) hs == qsum (firstn j hs) + (x - nth j kps 0) / nth j lens 0 * nth j hs 0.
Proof. induction kps as [|k kps IH]; intros [|l lens] e hs x j H Hj H1 H2; cbn in Hj; try lia; [cbn in H; tauto|].
  destruct hs as [|h hs]; [rewrite dot_nil_r, firstn_nil, nth_nil_Q; cbn; lra|].
  apply segments_cons in H. destruct H as (Hl & Hk & H).
  rewrite interp_w_cons. destruct j as [|j]; cbn [dot app nth firstn qsum] in *.
  - rewrite nth0_all_keypoints in H2.
    rewrite (seg_w_mid x k l Hl H1), (dot_zero_left kps lens e hs x H) by lra. cbn [qsum]. lra.
  - pose proof (segments_nth_ge kps lens e j H ltac:(lia)) as G. rewrite app_nth1 in G by lia.
    rewrite (seg_w_one x k l Hl), (IH lens e hs x j H ltac:(lia) H1 H2) by lra. cbn [qsum]. lra. Qed.

Lemma pwl_fn_cons kps lens b hs x : pwl_fn kps lens (b :: hs) x == b + dot (interp_w x kps lens) hs.
Proof. unfold pwl_fn, interpolation_weights. cbn [dot]. lra. Qed.

(* value at the j-th keypoint of kps ++ [e] *)
Theorem pwl_at_keypoints kps lens e b hs x j : segments kps lens e -> length hs = length kps ->
  (j <= length kps)%nat -> x == nth j (kps ++ [e]) 0 ->
  pwl_fn kps lens (b :: hs) x == b + qsum (firstn j hs).
Proof. intros H Hh Hj Hx. rewrite pwl_fn_cons. destruct (Nat.eq_dec j (length kps)) as [->|Hne].
  - rewrite app_nth2, Nat.sub_diag in Hx by lia. cbn in Hx.
    rewrite (dot_all_right kps lens e hs x H Hh ltac:(lra)). rewrite <- Hh, firstn_all. reflexivity.
  - assert (Hj' : (j < length kps)%nat) by lia. rewrite app_nth1 in Hx by lia.
    destruct (segments_increasing kps lens e j H Hj') as [E Hl].
    rewrite (dot_segment kps lens e hs x j H Hj' ltac:(lra) ltac:(lra)), Hx. unfold Qdiv. lra. Qed.

(* between keypoints j and j+1: the linear interpolation of the two
   cumulative sums y_j = b + sum_{i<j} h_i and y_{j+1} *)
Theorem pwl_linear_between kps lens e b hs x j : segments kps lens e -> length hs = length kps ->
  (j < length kps)%nat -> nth j (kps ++ [e]) 0 <= x -> x <= nth (S j) (kps ++ [e]) 0 ->
  let kj := nth j (kps ++ [e]) 0 in let kj1 := nth (S j) (kps ++ [e]) 0 in
  let yj := b + qsum (firstn j hs) in let yj1 := b + qsum (firstn (S j) hs) in
  pwl_fn kps lens (b :: hs) x == yj + (x - kj) / (kj1 - kj) * (yj1 - yj).
Proof. intros H Hh Hj H1 H2. cbv zeta. rewrite pwl_fn_cons. rewrite (app_nth1 kps [e] 0 Hj) in *.
  destruct (segments_increasing kps lens e j H Hj) as [E Hl].
  rewrite (dot_segment kps lens e hs x j H Hj H1 H2).
  rewrite (qsum_firstn_S hs j ltac:(lia)).
  assert (El : nth (S j) (kps ++ [e]) 0 - nth j kps 0 == nth j lens 0) by lra.
  rewrite El. lra. Qed.

Theorem pwl_constant_left kps lens e b hs x : segments kps lens e -> x <= hd e kps ->
  pwl_fn kps lens (b :: hs) x == b.
Proof. intros H Hx. rewrite pwl_fn_cons, (dot_zero_left kps lens e hs x H Hx). lra. Qed.
Theorem pwl_constant_right kps lens e b hs x : segments kps lens e -> length hs = length kps -> e <= x ->
  pwl_fn kps lens (b :: hs) x == b + qsum hs.
Proof. intros H Hh Hx. rewrite pwl_fn_cons, (dot_all_right kps lens e hs x H Hh Hx). lra. Qed.

(* cyclic: heights followed by minus their sum *)
Theorem pwl_cyclic_ends_equal kps lens e b hs : segments kps lens e -> length kps = S (length hs) ->
  let col := (b :: hs) ++ [- qsum hs] in
  pwl_fn kps lens col (hd e kps) == pwl_fn kps lens col e.
Proof. intros H Hl. cbv zeta. change ((b :: hs) ++ [- qsum hs]) with (b :: (hs ++ [- qsum hs])).
  rewrite (pwl_constant_left kps lens e b (hs ++ [- qsum hs]) (hd e kps) H (Qle_refl _)).
  rewrite (pwl_constant_right kps lens e b (hs ++ [- qsum hs]) e H ltac:(rewrite app_length; cbn; lia) (Qle_refl _)).
  rewrite qsum_app. cbn. lra. Qed.

(* the list of keypoint outputs of a column (bias :: heights) *)
Definition kp_outs (col : list Q) : list Q := cumsum_incl 0 col.

(* The sign s covers both directions: s = 1 for non-decreasing, s = -1 for non-increasing.
   Each weight is non-decreasing in x, so heights of one sign give a sum monotone in x. *)
Lemma dot_interp_mono s kps : forall lens hs x y, Forall (fun l => 0 < l) lens ->
  Forall (fun h => 0 <= s * h) hs -> x <= y ->
  s * dot (interp_w x kps lens) hs <= s * dot (interp_w y kps lens) hs.
Proof. induction kps as [|k kps IH]; intros [|l lens] hs x y Hl Hh Hxy; cbn [interp_w dot]; try lra.
  destruct hs as [|h hs]; cbn [dot]; [lra|].
  apply Forall_cons_iff in Hl as [Hl0 Hl]. apply Forall_cons_iff in Hh as [Hh0 Hh].
  pose proof (IH lens hs x y Hl Hh Hxy). fold (seg_w x k l). fold (seg_w y k l).
  pose proof (qmul_le_l (s * h) _ _ Hh0 (seg_w_mono x y k l Hl0 Hxy)). lra. Qed.

(* keypoint outputs = cumsum of the kernel column: s-ordered outputs have heights of sign s *)
Lemma cumsum_steps s hs : forall acc,
  (forall j, (j < length hs)%nat ->
     s * nth j (acc :: cumsum_incl acc hs) 0 <= s * nth (S j) (acc :: cumsum_incl acc hs) 0) ->
  Forall (fun h => 0 <= s * h) hs.
Proof. induction hs as [|h hs IH]; intros acc H; constructor.
  - specialize (H 0%nat ltac:(cbn; lia)). cbn in H. lra.
  - apply (IH (acc + h)). intros j Hj. exact (H (S j) ltac:(cbn; lia)). Qed.

Theorem pwl_signed_monotone s kps lens col x y : Forall (fun l => 0 < l) lens ->
  (forall j, (S j < length col)%nat -> s * nth j (kp_outs col) 0 <= s * nth (S j) (kp_outs col) 0) ->
  x <= y -> s * pwl_fn kps lens col x <= s * pwl_fn kps lens col y.
Proof. intros Hl Hs Hxy. destruct col as [|b hs]. unfold pwl_fn; cbn; lra.
  rewrite !pwl_fn_cons. unfold kp_outs in Hs. cbn [cumsum_incl] in Hs.
  pose proof (dot_interp_mono s kps lens hs x y Hl
    (cumsum_steps s hs (0 + b) (fun j Hj => Hs j ltac:(cbn; lia))) Hxy). lra. Qed.

Theorem pwl_monotone_function kps lens col x y : Forall (fun l => 0 < l) lens ->
  (forall j, (S j < length col)%nat -> nth j (kp_outs col) 0 <= nth (S j) (kp_outs col) 0) ->
  x <= y -> pwl_fn kps lens col x <= pwl_fn kps lens col y.
Proof. intros Hl Hs Hxy. enough (1 * pwl_fn kps lens col x <= 1 * pwl_fn kps lens col y) by lra.
  apply pwl_signed_monotone; try assumption. intros j Hj. specialize (Hs j Hj). lra. Qed.
Theorem pwl_antitone_function kps lens col x y : Forall (fun l => 0 < l) lens ->
  (forall j, (S j < length col)%nat -> nth (S j) (kp_outs col) 0 <= nth j (kp_outs col) 0) ->
  x <= y -> pwl_fn kps lens col y <= pwl_fn kps lens col x.
Proof. intros Hl Hs Hxy. enough (- (1) * pwl_fn kps lens col x <= - (1) * pwl_fn kps lens col y) by lra.
  apply pwl_signed_monotone; try assumption. intros j Hj. specialize (Hs j Hj). lra. Qed.

(* Past segment k the running value is the next keypoint output and the rest decides;
   otherwise the later weights vanish and the value lies between two keypoint outputs. *)
Lemma dot_interp_bounded lo hi x kps : forall lens e hs acc, segments kps lens e ->
  lo <= acc <= hi -> (forall y, In y (cumsum_incl acc hs) -> lo <= y <= hi) ->
  lo <= acc + dot (interp_w x kps lens) hs <= hi.
Proof. induction kps as [|k kps IH]; intros [|l lens] e hs acc H Ha Hy; try (cbn in H; tauto).
  - cbn. lra.
  - destruct hs as [|h hs]; [rewrite dot_nil_r; lra|]. apply segments_cons in H. destruct H as (Hl & Hk & H).
    rewrite interp_w_cons. cbn [dot].
    assert (Hah : lo <= acc + h <= hi) by (apply Hy; left; reflexivity).
    destruct (Qlt_le_dec (k + l) x) as [Hx|Hx].
    + rewrite (seg_w_one x k l Hl ltac:(lra)).
      pose proof (IH lens e hs (acc + h) H Hah (fun y Iy => Hy y (or_intror Iy))). lra.
    + rewrite (dot_zero_left kps lens e hs x H) by lra.
      pose proof (between_bounds lo hi _ acc (acc + h) (seg_w_range x k l) Ha Hah). lra. Qed.

Theorem pwl_bounded_function kps lens e col lo hi x : segments kps lens e -> length col = S (length kps) ->
  (forall y, In y (kp_outs col) -> lo <= y <= hi) -> lo <= pwl_fn kps lens col x <= hi.
Proof. intros H Hl Hy. destruct col as [|b hs]; [discriminate|]. unfold kp_outs in Hy. cbn [cumsum_incl] in Hy.
  pose proof (dot_interp_bounded lo hi x kps lens e hs (0 + b) H
    ltac:(apply Hy; left; reflexivity) ltac:(intros y Iy; apply Hy; right; exact Iy)) as G.
  rewrite pwl_fn_cons. lra. Qed.

(* strictly increasing input_keypoints (enforced by verify_hyperparameters) *)
Fixpoint increasing (ks : list Q) : Prop :=
  match ks with a :: ((b :: _) as r) => a < b /\ increasing r | _ => True end.

Lemma fixed_segments ks : increasing ks -> segments (kp_lefts ks) (kp_diffs ks) (last ks 0).
Proof. induction ks as [|a [|b r] IH]; intros H; try exact I. destruct H as [Hab H].
  apply segments_cons. split; [lra|]. split; [|exact (IH H)]. destruct r; cbn; lra. Qed.

Lemma fixed_all_keypoints ks : ks <> [] -> kp_lefts ks ++ [last ks 0] = ks.
Proof. induction ks as [|a [|b r] IH]; intros H; [congruence|reflexivity|].
  change (a :: (kp_lefts (b :: r) ++ [last (b :: r) 0]) = a :: b :: r). f_equal. apply IH. discriminate. Qed.

Lemma fixed_lefts_length ks : length (kp_lefts ks) = pred (length ks).
Proof. induction ks as [|a [|b r] IH]; try reflexivity.
  change (S (length (kp_lefts (b :: r))) = S (pred (length (b :: r)))). f_equal. exact IH. Qed.

Lemma segments_end_proper kps : forall lens e e', e == e' -> segments kps lens e -> segments kps lens e'.
Proof. induction kps as [|k kps IH]; intros [|l lens] e e' E H; cbn in *; try tauto.
  destruct H as [A [B C]]. split; [assumption|]. split; [destruct kps; lra|]. eapply IH; eauto. Qed.

(* cumsum(lengths, exclusive) + c *)
Lemma cumsum_segments lens : forall acc c, Forall (fun l => 0 < l) lens ->
  segments (map (fun s => s + c) (cumsum_excl acc lens)) lens (acc + qsum lens + c).
Proof. induction lens as [|l lens IH]; intros acc c H; [exact I|]. inversion H; subst.
  cbn [cumsum_excl map]. split; [assumption|]. split.
  - destruct lens as [|l' lens]; cbn; lra.
  - apply (segments_end_proper _ _ (acc + l + qsum lens + c)). cbn [qsum]; lra. apply IH; assumption. Qed.

Lemma cumsum_excl_length l : forall acc, length (cumsum_excl acc l) = length l.
Proof. induction l; intros; cbn; auto. Qed.

Lemma segments_last kps : forall lens e, segments kps lens e -> kps <> [] ->
  last kps 0 + last lens 0 == e.
Proof. induction kps as [|k [|k' kps] IH]; intros [|l [|l' lens]] e H Hne; try (cbn in H; tauto); try congruence.
  - cbn in *. lra.
  - destruct H as (_ & _ & H). exact (IH (l' :: lens) e H ltac:(discriminate)). Qed.

(* keypoints_inputs' way of re-adding the last keypoint agrees with kps ++ [e] *)
Lemma nth_all_keypoints kps lens e j : segments kps lens e -> kps <> [] ->
  nth j (kps ++ [last kps 0 + last lens 0]) 0 == nth j (kps ++ [e]) 0.
Proof. intros H Hne. destruct (Nat.lt_ge_cases j (length kps)) as [Hj|Hj].
  - rewrite !app_nth1 by assumption. reflexivity.
  - rewrite !app_nth2 by assumption. destruct (j - length kps)%nat as [|[|m]]; cbn; try reflexivity.
    apply (segments_last kps lens e H Hne). Qed.

Section Learned.
  Variable softmax : list Q -> list Q.
  Hypothesis softmax_length : forall l, length (softmax l) = length l.
  Hypothesis softmax_pos : forall l s, In s (softmax l) -> 0 < s.
  Hypothesis softmax_sum : forall l, l <> [] -> qsum (softmax l) == 1.

  Lemma learned_segments ks logits : logits <> [] -> hd 0 ks < last ks 0 ->
    segments (learned_lefts ks (softmax logits)) (learned_lengths ks (softmax logits)) (last ks 0).
  Proof. intros Hne Hr. unfold learned_lefts.
    assert (Hpos : Forall (fun l => 0 < l) (learned_lengths ks (softmax logits))).
    { apply Forall_forall. intros q Hq. unfold learned_lengths in Hq. apply in_map_iff in Hq.
      destruct Hq as [s [<- Hs]]. pose proof (softmax_pos logits s Hs). unfold keypoint_range. nra. }
    pose proof (cumsum_segments _ 0 (keypoint_min ks) Hpos) as G.
    eapply segments_end_proper; [|exact G].
    unfold learned_lengths at 1. rewrite (qsum_map_ext _ (fun s => keypoint_range ks * s)) by (intros; lra).
    rewrite (qsum_map_scale (fun s => s) (keypoint_range ks)). rewrite map_id.
    rewrite (softmax_sum logits Hne). unfold keypoint_range, keypoint_min. lra. Qed.

  Lemma learned_lefts_length ks logits : length (learned_lefts ks (softmax logits)) = length logits.
  Proof. unfold learned_lefts, learned_lengths. rewrite map_length, cumsum_excl_length, map_length. apply softmax_length. Qed.

  (* all keypoints as keypoints_inputs() reports them, for one unit *)
  Definition learned_all (ks logits : list Q) : list Q :=
    let kps := learned_lefts ks (softmax logits) in let lens := learned_lengths ks (softmax logits) in
    kps ++ [last kps 0 + last lens 0].

  Theorem learned_keypoints_ordered ks logits : logits <> [] -> hd 0 ks < last ks 0 ->
    let all := learned_all ks logits in
    length all = S (length logits) /\
    (forall j, (S j < length all)%nat -> nth j all 0 < nth (S j) all 0) /\
    hd 0 all == hd 0 ks /\ last all 0 == last ks 0.
  Proof. intros Hne Hr all. subst all. unfold learned_all.
    pose proof (learned_lefts_length ks logits) as Hlen.
    assert (Hhd : hd 0 (learned_lefts ks (softmax logits)) == hd 0 ks).
    { unfold learned_lefts in *.
      destruct (learned_lengths ks (softmax logits)) as [|l ls]; [destruct logits; cbn in *; congruence|].
      cbn. unfold keypoint_min. lra. }
    pose proof (learned_segments ks logits Hne Hr) as H.
    set (kps := learned_lefts ks (softmax logits)) in *. set (lens := learned_lengths ks (softmax logits)) in *.
    assert (Hk : kps <> []) by (destruct kps; [destruct logits; cbn in *; congruence|discriminate]).
    split; [rewrite app_length; cbn; lia|]. split; [|split].
    - intros j Hj. rewrite app_length in Hj. cbn in Hj.
      rewrite !(nth_all_keypoints kps lens _ _ H Hk).
      destruct (segments_increasing kps lens _ j H ltac:(lia)) as [E P]. rewrite E.
      rewrite app_nth1 by lia. lra.
    - destruct kps; [congruence|exact Hhd].
    - rewrite last_last. apply (segments_last kps lens _ H Hk). Qed.
End Learned.

Definition unit_fn (L : pwl_layer) (u : nat) (x : Q) : Q :=
  pwl_fn (unit_lefts L u) (unit_lens L u) (column u (bias_and_heights L)) x.

(* a single input column feeds every unit *)
Lemma calib_row_single L x u : (u < p_units L)%nat -> nth u (calib_row L [x]) 0 = unit_fn L u x.
Proof. intros Hu. unfold calib_row, expands, unit_fn, pwl_fn. change (length [x]) with 1%nat.
  change (1 <? 1)%nat with false. change (1 =? 1)%nat with true. cbn [orb].
  destruct (p_learned L && (1 <? p_units L)%nat) eqn:E.
  - rewrite nth_map_seq by assumption. reflexivity.
  - rewrite nth_map_seq by assumption. unfold unit_lefts, unit_lens, unit_row.
    destruct (p_learned L) eqn:El; [|reflexivity]. rewrite andb_true_l in E. apply Nat.ltb_ge in E.
    assert (u = 0)%nat by lia. subst u. reflexivity. Qed.

(* one input column per unit *)
Lemma calib_row_per_unit L row u : (u < p_units L)%nat -> length row = p_units L ->
  nth u (calib_row L row) 0 = unit_fn L u (nth u row 0).
Proof. intros Hu Hlen. destruct (Nat.eq_dec (p_units L) 1) as [E1|E1].
  - destruct row as [|x [|? ?]]; cbn in Hlen; try lia. assert (u = 0)%nat by lia. subst u.
    rewrite calib_row_single by lia. reflexivity.
  - unfold calib_row, expands, unit_fn, pwl_fn. rewrite Hlen.
    assert (Hgt : (1 <? p_units L)%nat = true) by (apply Nat.ltb_lt; lia). rewrite Hgt. cbn [orb].
    rewrite nth_map_seq by assumption. apply Nat.eqb_neq in E1. rewrite E1. reflexivity. Qed.

Theorem calib_broadcast L x u : (u < p_units L)%nat ->
  nth u (calib_row L [x]) 0 = nth u (calib_row L (repeat x (p_units L))) 0.
Proof. intros Hu. rewrite calib_row_single by assumption.
  rewrite calib_row_per_unit by (rewrite ?repeat_length; auto). rewrite nth_repeat_lt by assumption. reflexivity. Qed.

(* cyclic: the column of unit u gets the closing height -sum(heights) *)
Lemma column_bh_cyclic L u : p_cyclic L = true -> (u < p_units L)%nat ->
  column u (bias_and_heights L) = column u (p_kernel L) ++ [- qsum (tl (column u (p_kernel L)))].
Proof. intros Hc Hu. unfold bias_and_heights. rewrite Hc, column_app. f_equal. cbn. f_equal.
  unfold closing_row. rewrite nth_map_seq by assumption. rewrite column_tl. reflexivity. Qed.
Lemma column_bh_plain L u : p_cyclic L = false -> column u (bias_and_heights L) = column u (p_kernel L).
Proof. intros Hc. unfold bias_and_heights. rewrite Hc. reflexivity. Qed.

Theorem layer_cyclic_ends_equal L u e : p_cyclic L = true -> (u < p_units L)%nat ->
  segments (unit_lefts L u) (unit_lens L u) e -> length (unit_lefts L u) = length (p_kernel L) ->
  p_kernel L <> [] -> unit_fn L u (hd e (unit_lefts L u)) == unit_fn L u e.
Proof. intros Hc Hu H Hlen Hne. unfold unit_fn. rewrite (column_bh_cyclic L u Hc Hu).
  pose proof (column_length u (p_kernel L)) as Hcl.
  destruct (column u (p_kernel L)) as [|b hs] eqn:Ecol.
  - destruct (p_kernel L); [congruence|discriminate].
  - cbn [tl]. apply (pwl_cyclic_ends_equal _ _ e b hs H). cbn in Hcl. lia. Qed.

Lemma nth_mix_row L m res u : (u < p_units L)%nat ->
  nth u (mix_row L m res) 0 =
  (let mu := nth (if (length m =? 1)%nat then 0 else u) m 0 in
   mu * nth u (p_missing_output L) 0 + (1 - mu) * nth u res 0).
Proof. intros Hu. unfold mix_row. rewrite nth_map_seq by assumption. reflexivity. Qed.

(* which input / flag column unit u reads *)
Definition col_of (n u : nat) : nat := if (n =? 1)%nat then 0%nat else u.

Theorem missing_flag_given L row m u : p_impute L = true -> (u < p_units L)%nat ->
  (nth (col_of (length m) u) m 0 == 1 -> nth u (call_row L row (Some m)) 0 == nth u (p_missing_output L) 0) /\
  (nth (col_of (length m) u) m 0 == 0 -> nth u (call_row L row (Some m)) 0 == nth u (calib_row L row) 0).
Proof. intros Hi Hu. unfold call_row. rewrite Hi. rewrite nth_mix_row by assumption. unfold col_of. cbn zeta.
  split; intros E; rewrite E; lra. Qed.

Lemma equal_flags_length v row : length (equal_flags v row) = length row.
Proof. unfold equal_flags. apply map_length. Qed.
Lemma nth_equal_flags v row i : (i < length row)%nat ->
  nth i (equal_flags v row) 0 = if Qeq_bool (nth i row 0) v then 1 else 0.
Proof. apply (nth_map_lt (fun x => if Qeq_bool x v then 1 else 0)). Qed.

Theorem missing_by_value L row v u : p_impute L = true -> p_missing_input L = Some v ->
  (u < p_units L)%nat -> (col_of (length row) u < length row)%nat ->
  (nth (col_of (length row) u) row 0 == v ->
     nth u (call_row L row None) 0 == nth u (p_missing_output L) 0) /\
  (~ nth (col_of (length row) u) row 0 == v ->
     nth u (call_row L row None) 0 == nth u (calib_row L row) 0).
Proof. intros Hi Hv Hu Hc. unfold call_row. rewrite Hi, Hv. rewrite nth_mix_row by assumption.
  rewrite equal_flags_length. cbn zeta. fold (col_of (length row) u). rewrite nth_equal_flags by assumption.
  split; intros E.
  - apply Qeq_bool_iff in E. rewrite E. lra.
  - destruct (Qeq_bool (nth (col_of (length row) u) row 0) v) eqn:B; [apply Qeq_bool_iff in B; contradiction|]. lra. Qed.

Theorem no_impute_is_calibration L row : p_impute L = false -> call_row L row None = calib_row L row.
Proof. intros H. unfold call_row. rewrite H. reflexivity. Qed.

Lemma missing_output_fixed units v w u : (u < units)%nat -> nth u (build_missing_output units (Some v) w) 0 = v.
Proof. intros. cbn. apply nth_repeat_lt; assumption. Qed.
Lemma missing_output_learned units w : build_missing_output units None w = w.
Proof. reflexivity. Qed.

Lemma nth_cumsum_incl l : forall acc j, (j < length l)%nat ->
  nth j (cumsum_incl acc l) 0 == acc + qsum (firstn (S j) l).
Proof. induction l as [|a l IH]; intros acc j Hj; cbn in Hj; [lia|]. destruct j as [|j].
  - cbn. lra.
  - cbn [cumsum_incl nth]. rewrite IH by lia.
    change (firstn (S (S j)) (a :: l)) with (a :: firstn (S j) l). cbn [qsum]. lra. Qed.
Lemma cumsum_incl_length l : forall acc, length (cumsum_incl acc l) = length l.
Proof. induction l; intros; cbn; auto. Qed.

(* at the j-th reported input the function takes the j-th keypoint output of its column *)
Lemma reported_plain kps lens e b hs j : segments kps lens e -> kps <> [] -> length hs = length kps ->
  (j <= length kps)%nat ->
  pwl_fn kps lens (b :: hs) (nth j (kps ++ [last kps 0 + last lens 0]) 0) == nth j (kp_outs (b :: hs)) 0.
Proof. intros H Hne Hh Hj. unfold kp_outs.
  rewrite (pwl_at_keypoints kps lens e b hs _ j H Hh Hj (nth_all_keypoints kps lens e j H Hne)).
  rewrite nth_cumsum_incl by (cbn; lia). change (firstn (S j) (b :: hs)) with (b :: firstn j hs). cbn [qsum]. lra. Qed.

(* the keypoint outputs of a cyclically closed column are those of the column, then the first one again *)
Lemma kp_outs_cyclic b hs j : (j <= S (length hs))%nat ->
  nth j (kp_outs ((b :: hs) ++ [- qsum hs])) 0 == nth j (kp_outs (b :: hs) ++ firstn 1 (kp_outs (b :: hs))) 0.
Proof. intros Hj. unfold kp_outs. rewrite nth_cumsum_incl by (rewrite app_length; cbn; lia).
  assert (Hc : length (cumsum_incl 0 (b :: hs)) = S (length hs)) by apply cumsum_incl_length.
  destruct (Nat.eq_dec j (S (length hs))) as [->|Hn].
  - rewrite app_nth2, Hc, Nat.sub_diag by lia. rewrite firstn_all2 by (rewrite app_length; cbn; lia).
    rewrite qsum_app. cbn. lra.
  - rewrite app_nth1 by lia. rewrite nth_cumsum_incl, firstn_app_le by (cbn; lia). reflexivity. Qed.

Theorem layer_reported_points L u e j : (u < p_units L)%nat ->
  segments (unit_lefts L u) (unit_lens L u) e -> unit_lefts L u <> [] ->
  length (column u (bias_and_heights L)) = S (length (unit_lefts L u)) ->
  (j <= length (unit_lefts L u))%nat ->
  unit_fn L u (nth j (keypoints_inputs_col L u) 0) == nth j (keypoints_outputs_col L u) 0.
Proof. intros Hu H Hne Hlen Hj. unfold unit_fn, keypoints_inputs_col, keypoints_outputs_col.
  destruct (p_cyclic L) eqn:Hc.
  - rewrite (column_bh_cyclic L u Hc Hu) in *. rewrite app_length in Hlen.
    destruct (column u (p_kernel L)) as [|b hs]; cbn in Hlen; [destruct (unit_lefts L u); cbn in *; [congruence|lia]|].
    cbn [tl]. change ((b :: hs) ++ [- qsum hs]) with (b :: (hs ++ [- qsum hs])) at 1.
    rewrite (reported_plain _ _ e b _ j H Hne) by (rewrite ?app_length; cbn; lia). apply kp_outs_cyclic. lia.
  - rewrite (column_bh_plain L u Hc) in *.
    destruct (column u (p_kernel L)) as [|b hs]; [discriminate|].
    apply (reported_plain _ _ e b hs j H Hne); [cbn in Hlen; lia|assumption]. Qed.

(* indicator weights over the positions s, ..., s + n - 1 *)
Lemma dot_indicator_out n : forall s col i, ~ (Z.of_nat s <= i < Z.of_nat (s + n))%Z ->
  dot (map (fun b => if (Z.of_nat b =? i)%Z then 1 else 0) (seq s n)) col == 0.
Proof. induction n as [|n IH]; intros s [|c col] i H; cbn [seq map dot]; try reflexivity.
  destruct (Z.eqb_spec (Z.of_nat s) i); [lia|]. rewrite IH by lia. lra. Qed.
Lemma dot_indicator_in n : forall s col i, (Z.of_nat s <= i < Z.of_nat (s + n))%Z ->
  dot (map (fun b => if (Z.of_nat b =? i)%Z then 1 else 0) (seq s n)) col == nth (Z.to_nat i - s) col 0.
Proof. induction n as [|n IH]; intros s col i H; [lia|]. cbn [seq map].
  destruct col as [|c col]; [rewrite dot_nil_r, nth_nil_Q; reflexivity|]. cbn [dot].
  destruct (Z.eqb_spec (Z.of_nat s) i).
  - rewrite dot_indicator_out by lia. replace (Z.to_nat i - s)%nat with 0%nat by lia. cbn [nth]. lra.
  - rewrite IH by lia. replace (Z.to_nat i - s)%nat with (S (Z.to_nat i - S s)) by lia. cbn [nth]. lra. Qed.

(* one-hot lookup: row i of the column, 0 outside [0, depth) *)
Lemma dot_one_hot_in depth col i : (0 <= i < Z.of_nat depth)%Z ->
  dot (one_hot depth i) col == nth (Z.to_nat i) col 0.
Proof. intros Hi. unfold one_hot. rewrite dot_indicator_in, Nat.sub_0_r by (cbn; lia). reflexivity. Qed.
Lemma dot_one_hot_out depth col i : ~ (0 <= i < Z.of_nat depth)%Z -> dot (one_hot depth i) col == 0.
Proof. intros Hi. apply dot_indicator_out. cbn. lia. Qed.

(* the (replaced) index unit u looks up *)
Definition cat_index (L : cat_layer) (row : list Q) (u : nat) : Z :=
  replace_default L (cast_int (nth (col_of (length row) u) row 0)).

Lemma cat_row_unit L row u : (u < c_units L)%nat -> (col_of (length row) u < length row)%nat ->
  (c_units L = 1%nat -> length row = 1%nat) ->
  nth u (cat_row L row) 0 = dot (one_hot (c_buckets L) (cat_index L row u)) (column u (c_kernel L)).
Proof. intros Hu Hc H1. unfold cat_row, cat_index.
  pose proof (fun i => nth_map_lt (fun x => replace_default L (cast_int x)) row i 0%Z 0) as Hn.
  destruct (c_units L =? 1)%nat eqn:E.
  - apply Nat.eqb_eq in E. assert (u = 0)%nat by lia. subst u. cbn [nth]. specialize (H1 E).
    unfold col_of. rewrite H1. cbn [Nat.eqb]. rewrite Hn by lia. reflexivity.
  - rewrite nth_map_seq by assumption. fold (col_of (length row) u). rewrite Hn by assumption. reflexivity. Qed.

Lemma replace_default_other L i : c_default L <> Some i -> replace_default L i = i.
Proof. unfold replace_default. destruct (c_default L) as [d|]; [|reflexivity]. intros H.
  destruct (Z.eqb_spec i d); [subst; congruence|reflexivity]. Qed.

Theorem categorical_lookup L row u i : (u < c_units L)%nat -> (col_of (length row) u < length row)%nat ->
  (c_units L = 1%nat -> length row = 1%nat) ->
  cast_int (nth (col_of (length row) u) row 0) = i -> c_default L <> Some i ->
  (0 <= i < Z.of_nat (c_buckets L))%Z ->
  nth u (cat_row L row) 0 == nth (Z.to_nat i) (column u (c_kernel L)) 0.
Proof. intros Hu Hc H1 Hi Hd Hr. rewrite cat_row_unit by assumption. unfold cat_index.
  rewrite Hi, (replace_default_other L i Hd). apply dot_one_hot_in. exact Hr. Qed.

Theorem categorical_default L row u d : (u < c_units L)%nat -> (col_of (length row) u < length row)%nat ->
  (c_units L = 1%nat -> length row = 1%nat) ->
  c_default L = Some d -> cast_int (nth (col_of (length row) u) row 0) = d -> (0 < c_buckets L)%nat ->
  nth u (cat_row L row) 0 == nth (c_buckets L - 1) (column u (c_kernel L)) 0.
Proof. intros Hu Hc H1 Hd Hi Hb. rewrite cat_row_unit by assumption. unfold cat_index. rewrite Hi.
  unfold replace_default. rewrite Hd, Z.eqb_refl. rewrite dot_one_hot_in by lia.
  replace (Z.to_nat (Z.of_nat (c_buckets L) - 1)) with (c_buckets L - 1)%nat by lia. reflexivity. Qed.

(* an index outside [0, num_buckets) that is not the default value yields 0
   (outside the property's domain; not a property theorem and not generated by the tie) *)
Theorem categorical_out_of_range L row u i : (u < c_units L)%nat -> (col_of (length row) u < length row)%nat ->
  (c_units L = 1%nat -> length row = 1%nat) ->
  cast_int (nth (col_of (length row) u) row 0) = i -> c_default L <> Some i ->
  ~ (0 <= i < Z.of_nat (c_buckets L))%Z -> nth u (cat_row L row) 0 == 0.
Proof. intros Hu Hc H1 Hi Hd Hr. rewrite cat_row_unit by assumption. unfold cat_index.
  rewrite Hi, (replace_default_other L i Hd). apply dot_one_hot_out. exact Hr. Qed.

Lemma cast_int_Z z : cast_int (inject_Z z) = z.
Proof. unfold cast_int. destruct (Qle_bool 0 (inject_Z z)); [apply Qfloor_Z|apply Qceiling_Z]. Qed.

Lemma map_zip_opt_none {A} (f : list Q -> option (list Q) -> A) xs :
  map (fun xm => f (fst xm) (snd xm)) (zip_opt xs None) = map (fun x => f x None) xs.
Proof. induction xs as [|x xs IH]; cbn; [reflexivity|]. rewrite IH. reflexivity. Qed.
Lemma map_zip_opt_some {A} (f : list Q -> option (list Q) -> A) xs : forall ms, length ms = length xs ->
  map (fun xm => f (fst xm) (snd xm)) (zip_opt xs (Some ms)) = map2 (fun x m => f x (Some m)) xs ms.
Proof. induction xs as [|x xs IH]; intros [|m ms] H; cbn in *; try lia; try reflexivity.
  f_equal. apply IH. lia. Qed.
Lemma zip_opt_some xs : forall ms, length ms = length xs ->
  map (fun xm => (fst xm, snd xm)) (zip_opt xs (Some ms)) = map2 (fun x m => (x, Some m)) xs ms.
Proof. exact (map_zip_opt_some pair xs). Qed.

Lemma cols_accepted (cols units : nat) : cols = units \/ cols = 1%nat ->
  ((cols =? units)%nat || (cols =? 1)%nat)%bool = true.
Proof. intros [-> | ->]; rewrite Nat.eqb_refl; [reflexivity|apply orb_true_r]. Qed.

Theorem pwl_call_tensor L as_list inputs :
  let cols := length (hd [] inputs) in
  all_len cols inputs = true -> (cols = p_units L \/ cols = 1%nat) ->
  (if p_impute L then p_missing_input L <> None else as_list = false) ->
  pwl_call L as_list inputs None = Some (split_result L (map (fun r => call_row L r None) inputs)).
Proof. intros cols Hall Hc Hi. unfold pwl_call. fold cols. rewrite Hall, (cols_accepted _ _ Hc), map_zip_opt_none.
  cbn [negb orb andb]. rewrite orb_false_r. destruct (p_impute L).
  - destruct (p_missing_input L); [|congruence]. rewrite !andb_false_r. reflexivity.
  - subst as_list. reflexivity. Qed.

Theorem pwl_call_flagged L inputs ms :
  let cols := length (hd [] inputs) in
  p_impute L = true -> length ms = length inputs -> all_len cols ms = true ->
  all_len cols inputs = true -> (cols = p_units L \/ cols = 1%nat) ->
  pwl_call L true inputs (Some ms) =
  Some (split_result L (map2 (fun r m => call_row L r (Some m)) inputs ms)).
Proof. intros cols Hi Hl Hms Hall Hc. unfold pwl_call. fold cols.
  rewrite Hi, Hall, Hms, Hl, Nat.eqb_refl, (cols_accepted _ _ Hc), (map_zip_opt_some (call_row L) inputs ms Hl).
  reflexivity. Qed.

(* split_outputs: output u is column u as a [batch, 1] matrix *)
Theorem split_result_unit L res u : (1 < p_units L)%nat -> p_split L = true -> (u < p_units L)%nat ->
  nth u (split_result L res) [] = map (fun r => [nth u r 0]) res.
Proof. intros H1 Hs Hu. unfold split_result. apply Nat.ltb_lt in H1. rewrite H1, Hs. cbn [andb].
  apply (nth_map_seq (fun u => map (fun r => [nth u r 0]) res) (p_units L) u [] Hu). Qed.
Theorem split_result_off L res : ((1 <? p_units L)%nat && p_split L)%bool = false -> split_result L res = [res].
Proof. intros H. unfold split_result. rewrite H. reflexivity. Qed.

Example increasing_example : increasing [0; 1; 3; 7#2] /\ [0; 1; 3; 7#2] <> [].
Proof. cbn. repeat split; try lra. discriminate. Qed.
Example segments_example : segments [0; 1; 3] [1; 2; 1#2] (7#2).
Proof. cbn. repeat split; lra. Qed.
Example at_keypoints_example :
  pwl_fn [0; 1; 3] [1; 2; 1#2] [1#2; 1; -(2); 4] 3 == (1#2) + qsum (firstn 2 [1; -(2); 4]).
Proof. apply (pwl_at_keypoints _ _ (7#2)); [exact segments_example|reflexivity|cbn; lia|reflexivity]. Qed.
Definition example_col : list Q := [1#2; 1; 0; 4].
Example monotone_hyp_example :
  forall j, (S j < length example_col)%nat -> nth j (kp_outs example_col) 0 <= nth (S j) (kp_outs example_col) 0.
Proof. intros [|[|[|j]]] H; cbn in *; try lia; lra. Qed.
Example bounded_hyp_example : forall y, In y (kp_outs [1#2; 1; -(2); 4]) -> -(1) <= y <= 4.
Proof. unfold kp_outs. cbn [cumsum_incl In]. intros y H.
  repeat (destruct H as [<-|H]; [split; lra|]). destruct H. Qed.

(* a softmax-like function meeting the three oracle hypotheses exists: uniform weights *)
Definition uniform_sm (l : list Q) : list Q := map (fun _ => 1 / inject_Z (Z.of_nat (length l))) l.
Example softmax_oracle_satisfiable :
  (forall l, length (uniform_sm l) = length l) /\
  (forall l s, In s (uniform_sm l) -> 0 < s) /\
  (forall l, l <> [] -> qsum (uniform_sm l) == 1).
Proof. unfold uniform_sm. split; [intros; apply map_length|].
  assert (Hpos : forall l : list Q, l <> [] -> 0 < inject_Z (Z.of_nat (length l)))
    by (intros l Hl; apply qofnat_pos; destruct l; [congruence|cbn; lia]).
  split.
  - intros l s Hs. apply in_map_iff in Hs. destruct Hs as [x [<- Hx]].
    assert (Hl : l <> []) by (destruct l; [destruct Hx|discriminate]).
    apply Qlt_shift_div_l; [apply Hpos; exact Hl|]. lra.
  - intros l Hl. rewrite qsum_const. specialize (Hpos l Hl).
    set (n := inject_Z (Z.of_nat (length l))) in *. field. intro E. rewrite E in Hpos. lra. Qed.

(* a concrete cyclic two-unit layer with imputation meeting the layer-level hypotheses *)
Definition example_layer : pwl_layer :=
  build_fixed 2 [0; 1; 3; 7#2] true [[1#2; 0]; [1; 2]; [-(2); 1]] true (Some (-(1))) None [5; 6] true.
Example layer_hyp_example :
  p_cyclic example_layer = true /\ p_impute example_layer = true /\
  segments (unit_lefts example_layer 1) (unit_lens example_layer 1) (7#2) /\
  length (unit_lefts example_layer 1) = length (p_kernel example_layer) /\
  unit_lefts example_layer 1 <> [] /\
  length (column 1 (bias_and_heights example_layer)) = S (length (unit_lefts example_layer 1)).
Proof. cbn. repeat split; try lra; discriminate. Qed.
Example layer_call_example :
  option_map (map (map (map Qred))) (pwl_call example_layer false [[1#2]; [-(1)]; [7#2]] None) =
  Some [[[1]; [5]; [1#2]]; [[1]; [6]; [0]]].
Proof. vm_compute. reflexivity. Qed.

Definition example_cat : cat_layer := mkCat 3 2 [[1; 2]; [3; 4]; [5; 6]] (Some (-1)%Z) false.
Example cat_hyp_example :
  cast_int (nth (col_of 1 1) [1] 0) = 1%Z /\ c_default example_cat <> Some 1%Z /\
  (0 <= 1 < Z.of_nat (c_buckets example_cat))%Z /\ cast_int (-(1)) = (-1)%Z /\
  map (map (map Qred)) (cat_call example_cat [[1]; [-(1)]; [5#2]]) = [[[3; 4]; [5; 6]; [5; 6]]].
Proof. vm_compute. repeat split; congruence. Qed.
