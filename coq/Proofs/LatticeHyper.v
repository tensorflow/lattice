(* Hypercube (multilinear) interpolation: theory of Model/LatticeInterp.v's
   interp_w / hyper_unit.  Everything is by induction over the list of lattice
   sizes, so it holds for every rank and every size. *)
From TFL Require Export Model.LatticeInterp Proofs.Interp1D.
Open Scope Q_scope.

(* G sizes K z: interpolation with the plain hat weights of the point z *)
Definition G (sizes : list nat) (K : tens) (z : list Q) : Q := interp_w sizes (map hat z) K.

(* z lies in the lattice range: 0 <= z_d <= size_d - 1 *)
Definition inr (sizes : list nat) (z : list Q) : Prop :=
  Forall2 (fun s zd => 0 <= zd /\ zd <= qn s - 1) sizes z.

Lemma interp_w_cons s ss w ws K :
  interp_w (s :: ss) (w :: ws) K == wsum s w (fun k => interp_w ss ws (fun i => K (k :: i))).
Proof. cbn [interp_w]. rewrite rsum_qsum. reflexivity. Qed.

Lemma G_cons s ss K zd zs : G (s :: ss) K (zd :: zs) == interp1 s (fun k => G ss (fun i => K (k :: i)) zs) zd.
Proof. unfold G. cbn [map]. rewrite interp_w_cons. reflexivity. Qed.

Lemma inr_length sizes z : inr sizes z -> length z = length sizes.
Proof. induction 1; cbn; congruence. Qed.

Lemma interp_w_ext_K : forall sizes ws K K', length ws = length sizes ->
  (forall i, valid sizes i -> K i == K' i) -> interp_w sizes ws K == interp_w sizes ws K'.
Proof. induction sizes as [|s ss IH]; intros ws K K' Hl HK; destruct ws as [|w ws]; try discriminate.
  - cbn. apply HK. constructor.
  - rewrite !interp_w_cons. apply wsum_ext. reflexivity. intros k Hk. apply IH. cbn in Hl; lia.
    intros i Hi. apply HK. constructor; assumption. Qed.

Lemma interp_w_ext_w : forall sizes ws ws' K, length ws = length sizes -> length ws' = length sizes ->
  (forall d k, (d < length sizes)%nat -> (k < nth d sizes 0%nat)%nat -> nth d ws (fun _ => 0) k == nth d ws' (fun _ => 0) k) ->
  interp_w sizes ws K == interp_w sizes ws' K.
Proof. induction sizes as [|s ss IH]; intros ws ws' K Hl Hl' Hw; destruct ws as [|w ws]; destruct ws' as [|w' ws']; try discriminate.
  - reflexivity.
  - rewrite !interp_w_cons. apply wsum_ext.
    + intros k Hk. apply (Hw 0%nat k); cbn; lia.
    + intros k Hk. apply IH; cbn in *; try lia. intros d k' Hd Hk'. apply (Hw (S d) k'); cbn; lia. Qed.

Lemma G_ext_K sizes K K' z : length z = length sizes -> (forall i, valid sizes i -> K i == K' i) ->
  G sizes K z == G sizes K' z.
Proof. intros Hl H. apply interp_w_ext_K. rewrite map_length; exact Hl. exact H. Qed.

Lemma G_ext_z : forall sizes K z z', Forall2 Qeq z z' -> G sizes K z == G sizes K z'.
Proof. induction sizes as [|s ss IH]; intros K z z' H.
  - unfold G. destruct H; reflexivity.
  - destruct H as [|zd zd' zs zs' Hd H]. reflexivity. rewrite !G_cons. unfold interp1. apply wsum_ext.
    intros k _. rewrite Hd. reflexivity. intros k _. apply IH. exact H. Qed.

Lemma G_minus_K : forall sizes K1 K2 z, G sizes (fun i => K1 i - K2 i) z == G sizes K1 z - G sizes K2 z.
Proof. induction sizes as [|s ss IH]; intros K1 K2 z; destruct z as [|zd zs]; try reflexivity.
  rewrite !G_cons. unfold interp1. rewrite <- wsum_minus_a. apply wsum_ext. reflexivity.
  intros k _. apply (IH (fun i => K1 (k :: i)) (fun i => K2 (k :: i))). Qed.

Lemma G_plus_K : forall sizes K1 K2 z, G sizes (fun i => K1 i + K2 i) z == G sizes K1 z + G sizes K2 z.
Proof. induction sizes as [|s ss IH]; intros K1 K2 z; destruct z as [|zd zs]; try reflexivity.
  rewrite !G_cons. unfold interp1. rewrite <- wsum_plus_a. apply wsum_ext. reflexivity.
  intros k _. apply (IH (fun i => K1 (k :: i)) (fun i => K2 (k :: i))). Qed.

Lemma G_scale_K : forall sizes c K z, G sizes (fun i => c * K i) z == c * G sizes K z.
Proof. induction sizes as [|s ss IH]; intros c K z; destruct z as [|zd zs]; try reflexivity.
  rewrite !G_cons. unfold interp1. rewrite <- wsum_scale_a. apply wsum_ext. reflexivity.
  intros k _. apply (IH c (fun i => K (k :: i))). Qed.

Lemma G_le_K : forall sizes K K' z, length z = length sizes -> (forall i, valid sizes i -> K i <= K' i) ->
  G sizes K z <= G sizes K' z.
Proof. induction sizes as [|s ss IH]; intros K K' z Hl HK; destruct z as [|zd zs]; try discriminate.
  - unfold G; cbn. apply HK. constructor.
  - rewrite !G_cons. unfold interp1. apply wsum_le_a. intros; apply hat_nonneg.
    intros k Hk. apply IH. cbn in Hl; lia. intros i Hi. apply HK. constructor; assumption. Qed.

Lemma G_bounds : forall sizes K z lo hi, inr sizes z -> (forall i, valid sizes i -> lo <= K i /\ K i <= hi) ->
  lo <= G sizes K z /\ G sizes K z <= hi.
Proof. induction sizes as [|s ss IH]; intros K z lo hi Hr HK; inversion Hr; subst.
  - unfold G; cbn. apply HK. constructor.
  - rewrite G_cons. apply interp1_bounds; try tauto. intros k Hk. apply IH. assumption.
    intros i Hi. apply HK. constructor; assumption. Qed.

Lemma G_vertex : forall sizes K v, valid sizes v -> G sizes K (map qn v) == K v.
Proof. intros sizes K v Hv. revert K. induction Hv as [|s sh k r Hk Hr IH]; intros K.
  - reflexivity.
  - cbn [map]. rewrite G_cons, interp1_at_int by exact Hk. apply IH. Qed.

(* the 2^d-corner formula of the cell with lower corner c *)
Fixpoint multilin (K : tens) (c : list nat) (z : list Q) : Q :=
  match c, z with
  | cd :: cs, zd :: zs =>
      (1 - (zd - qn cd)) * multilin (fun i => K (cd :: i)) cs zs + (zd - qn cd) * multilin (fun i => K (S cd :: i)) cs zs
  | _, _ => K []
  end.

(* z lies in the (closed) cell with lower corner c *)
Inductive in_cell : list nat -> list nat -> list Q -> Prop :=
| ic_nil : in_cell [] [] []
| ic_cons s ss cd cs zd zs : (S cd < s)%nat -> qn cd <= zd -> zd <= qn cd + 1 -> in_cell ss cs zs ->
    in_cell (s :: ss) (cd :: cs) (zd :: zs).

Lemma G_multilin {sizes c z} K : in_cell sizes c z -> G sizes K z == multilin K c z.
Proof. intros H. revert K. induction H as [|s ss cd cs zd zs Hc H1 H2 H IH]; intros K.
  - reflexivity.
  - rewrite G_cons, interp1_cell by eassumption. cbn [multilin]. rewrite !IH. reflexivity. Qed.

(* corners of the cell *)
Inductive corner_of : list nat -> list nat -> Prop :=
| co_nil : corner_of [] []
| co_lo cd cs i : corner_of cs i -> corner_of (cd :: cs) (cd :: i)
| co_hi cd cs i : corner_of cs i -> corner_of (cd :: cs) (S cd :: i).

Lemma multilin_bounds : forall sizes c z K lo hi, in_cell sizes c z ->
  (forall i, corner_of c i -> lo <= K i /\ K i <= hi) -> lo <= multilin K c z /\ multilin K c z <= hi.
Proof. intros sizes c z K lo hi H. revert K. induction H as [|s ss cd cs zd zs Hc H1 H2 H IH]; intros K HK.
  - cbn. apply HK. constructor.
  - cbn [multilin]. (* binders typed idx as in the goal: lra compares atoms syntactically *)
    destruct (IH (fun i : idx => K (cd :: i))) as [A B]. intros i Hi; apply HK; constructor; assumption.
    destruct (IH (fun i : idx => K (S cd :: i))) as [C D]. intros i Hi; apply HK; constructor; assumption.
    destruct (between_bounds lo hi (zd - qn cd) _ _ ltac:(split; lra) (conj A B) (conj C D)). split; lra. Qed.

(* the kernel is non-decreasing along dimension d *)
Definition knondecr (sizes : list nat) (K : tens) (d : nat) : Prop :=
  forall i, valid sizes i -> (S (nth d i 0%nat) < nth d sizes 0%nat)%nat -> K i <= K (upd i d (S (nth d i 0%nat))).

Lemma knondecr_tail s ss K d k : (k < s)%nat -> knondecr (s :: ss) K (S d) -> knondecr ss (fun i => K (k :: i)) d.
Proof. intros Hk H i Hi Hd. exact (H (k :: i) (v_cons s ss k i Hk Hi) Hd). Qed.

Lemma G_monotone : forall sizes K z d zd', inr sizes z -> inr sizes (set_nth d zd' z) ->
  nth d z 0 <= zd' -> knondecr sizes K d -> G sizes K z <= G sizes K (set_nth d zd' z).
Proof. induction sizes as [|s ss IH]; intros K z d zd' Hr Hr' Hle HK; inversion Hr; subst. apply Qle_refl.
  destruct d as [|d]; cbn [set_nth nth] in *; inversion Hr'; subst; rewrite !G_cons.
  - apply interp1_monotone; try tauto.
    intros k Hk. apply G_le_K. eapply inr_length; eassumption.
    intros i Hi. exact (HK (k :: i) (v_cons s ss k i ltac:(lia) Hi) Hk).
  - unfold interp1. apply wsum_le_a. intros; apply hat_nonneg.
    intros k Hk. apply IH; try assumption. eapply knondecr_tail; eassumption. Qed.

(* the increase of K along [m] does not shrink as the index along [c] grows *)
Definition kedge (sizes : list nat) (K : tens) (m c : nat) : Prop :=
  forall i, valid sizes i -> (S (nth m i 0%nat) < nth m sizes 0%nat)%nat -> (S (nth c i 0%nat) < nth c sizes 0%nat)%nat ->
    K (upd i m (S (nth m i 0%nat))) - K i <=
    K (upd (upd i c (S (nth c i 0%nat))) m (S (nth m i 0%nat))) - K (upd i c (S (nth c i 0%nat))).

Lemma set_nth_comm : forall (l : list Q) i j a b, i <> j -> set_nth i a (set_nth j b l) = set_nth j b (set_nth i a l).
Proof. induction l as [|x l IH]; intros [|i] [|j] a b H; cbn; try reflexivity; try lia. f_equal. apply IH. lia. Qed.

Lemma inr_set_nth : forall sizes z d v, inr sizes z -> 0 <= v -> v <= qn (nth d sizes 0%nat) - 1 -> inr sizes (set_nth d v z).
Proof. intros sizes z d v H. revert d. induction H as [|s zd ss zs Hs H IH]; intros d H0 H1. destruct d; constructor.
  destruct d; cbn [set_nth nth] in *; constructor; auto. apply IH; assumption. Qed.

(* The first coordinate moves from zd to zd', coordinate c of the rest to zc'.
   Both orders of the two dimensions of kedge reduce to this case: each says
   that the increments of K along the first dimension are non-decreasing
   along c. *)
Lemma G_edgeworth_head s ss K zd zd' zs c zc' :
  inr (s :: ss) (zd :: zs) -> inr (s :: ss) (zd' :: zs) -> inr ss (set_nth c zc' zs) -> zd <= zd' -> nth c zs 0 <= zc' ->
  (forall k, (S k < s)%nat -> knondecr ss (fun i => K (S k :: i) - K (k :: i)) c) ->
  G (s :: ss) K (zd' :: zs) - G (s :: ss) K (zd :: zs) <=
  G (s :: ss) K (zd' :: set_nth c zc' zs) - G (s :: ss) K (zd :: set_nth c zc' zs).
Proof. intros Hr Hr' Hc Lm Lc HK. inversion Hr; subst. inversion Hr'; subst. rewrite !G_cons.
  assert (P : 0 <= wsum s (fun k => hat zd' k - hat zd k)
                (fun k => G ss (fun i => K (k :: i)) (set_nth c zc' zs) - G ss (fun i => K (k :: i)) zs)).
  { apply hat_diff_mp; try tauto. intros k Hk.
    pose proof (G_monotone ss _ zs c zc' ltac:(assumption) Hc Lc (HK k Hk)) as M.
    rewrite !(G_minus_K ss (fun i => K (S k :: i)) (fun i => K (k :: i))) in M. lra. }
  rewrite wsum_minus_w, !wsum_minus_a in P. unfold interp1. lra. Qed.

(* second mixed difference of the output in (x_m, x_c) is non-negative *)
Lemma G_edgeworth : forall sizes K z m c zm' zc', inr sizes z -> inr sizes (set_nth m zm' z) -> inr sizes (set_nth c zc' z) ->
  m <> c -> nth m z 0 <= zm' -> nth c z 0 <= zc' -> kedge sizes K m c ->
  G sizes K (set_nth m zm' z) - G sizes K z <=
  G sizes K (set_nth m zm' (set_nth c zc' z)) - G sizes K (set_nth c zc' z).
Proof. induction sizes as [|s ss IH]; intros K z m c zm' zc' Hr Hm Hc Hmc Lm Lc HK;
  inversion Hr as [|? zd ? zs]; subst. apply Qle_refl.
  destruct m as [|m]; destruct c as [|c]; try lia; cbn [set_nth nth] in *.
  - apply G_edgeworth_head; try assumption. inversion Hc; assumption.
    intros k Hk i Hi Hd. exact (HK (k :: i) (v_cons s ss k i ltac:(lia) Hi) Hk Hd).
  - enough (G (s :: ss) K (zc' :: zs) - G (s :: ss) K (zd :: zs) <=
            G (s :: ss) K (zc' :: set_nth m zm' zs) - G (s :: ss) K (zd :: set_nth m zm' zs)) by lra.
    apply G_edgeworth_head; try assumption. inversion Hm; assumption.
    intros k Hk i Hi Hd. pose proof (HK (k :: i) (v_cons s ss k i ltac:(lia) Hi) Hd Hk) as HQ. cbn in HQ. cbn. lra.
  - inversion Hm; subst. inversion Hc; subst. rewrite !G_cons. unfold interp1. rewrite <- !wsum_minus_a.
    apply wsum_le_a. intros; apply hat_nonneg. intros k Hk. apply IH; try assumption; try lia.
    intros i Hi Hdm Hdc. exact (HK (k :: i) (v_cons s ss k i Hk Hi) Hdm Hdc). Qed.

(* the point actually interpolated: clipped onto the lattice range if requested *)
Definition eff (clip : bool) (sizes : list nat) (x : list Q) : list Q := if clip then clip_onto sizes x else x.
(* verify_hyperparameters: every lattice size is at least 2 *)
Definition sizes_ok (sizes : list nat) : Prop := Forall (fun s => (2 <= s)%nat) sizes.
(* inputs the property speaks about: right length, clipped or in range *)
Definition ok_input (clip : bool) (sizes : list nat) (x : list Q) : Prop :=
  length x = length sizes /\ (clip = true \/ inr sizes x).

(* one coordinate of eff *)
Definition effc (clip : bool) (s : nat) (x : Q) : Q := if clip then qclip 0 (qn s - 1) x else x.

Lemma eff_cons clip s ss xd xs : eff clip (s :: ss) (xd :: xs) = effc clip s xd :: eff clip ss xs.
Proof. destruct clip; reflexivity. Qed.

Lemma effc_range clip s x : (2 <= s)%nat -> clip = true \/ (0 <= x /\ x <= qn s - 1) ->
  0 <= effc clip s x /\ effc clip s x <= qn s - 1.
Proof. intros Hs [->|H]. apply clip_range_in; lia. destruct clip; [apply clip_range_in; lia|exact H]. Qed.

Lemma effc_mono clip s x y : x <= y -> effc clip s x <= effc clip s y.
Proof. intros H. destruct clip; [apply qclip_mono|]; exact H. Qed.

Lemma eff_length clip sizes x : length x = length sizes -> length (eff clip sizes x) = length sizes.
Proof. intros H. destruct clip; [|exact H]. unfold eff, clip_onto. rewrite map2_length. lia. Qed.

Lemma clip_onto_length sizes x : length x = length sizes -> length (clip_onto sizes x) = length sizes.
Proof. apply (eff_length true). Qed.

Lemma nth_eff clip sizes x d : (d < length sizes)%nat -> length x = length sizes ->
  nth d (eff clip sizes x) 0 = effc clip (nth d sizes 0%nat) (nth d x 0).
Proof. intros Hd Hl. destruct clip; [|reflexivity].
  exact (nth_map2 (fun s xd => qclip 0 (qn s - 1) xd) sizes x d 0%nat 0 0 Hd ltac:(lia)). Qed.

Lemma eff_set_nth clip : forall sizes x d v,
  eff clip sizes (set_nth d v x) = set_nth d (effc clip (nth d sizes 0%nat) v) (eff clip sizes x).
Proof. destruct clip; [|reflexivity].
  induction sizes as [|s ss IH]; intros x d v; destruct x as [|xd xs]; destruct d; try reflexivity.
  cbn [eff set_nth clip_onto map2 nth] in *. f_equal. apply IH. Qed.

Lemma inr_or_cons {clip s ss xd xs} : clip = true \/ inr (s :: ss) (xd :: xs) ->
  (clip = true \/ (0 <= xd /\ xd <= qn s - 1)) /\ (clip = true \/ inr ss xs).
Proof. intros [H|H]. split; left; exact H. inversion H; subst. split; right; assumption. Qed.

Lemma eff_inr clip : forall sizes x, sizes_ok sizes -> ok_input clip sizes x -> inr sizes (eff clip sizes x).
Proof. induction sizes as [|s ss IH]; intros x Hs [Hl Hr]; destruct x as [|xd xs]; try discriminate.
  - destruct clip; constructor.
  - inversion Hs; subst. destruct (inr_or_cons Hr) as [Hd Hr']. rewrite eff_cons.
    constructor. apply effc_range; assumption. apply IH. assumption. split; [cbn in Hl; lia|exact Hr']. Qed.

Lemma clip_onto_inr sizes x : sizes_ok sizes -> length x = length sizes -> inr sizes (clip_onto sizes x).
Proof. intros Hs Hl. apply (eff_inr true); [exact Hs|split; [exact Hl|left; reflexivity]]. Qed.

Lemma eff_proper_in clip sizes x : inr sizes x -> Forall2 Qeq (eff clip sizes x) x.
Proof. intros H. destruct clip; [|apply qleq_refl].
  induction H as [|s xd ss xs Hs H IH]; cbn [eff clip_onto map2]; constructor. apply qclip_id; tauto. exact IH. Qed.

(* the 2^d special case computes the same weights as the general path *)
Lemma fast_weights_eq clip xd k : (k < 2)%nat -> clip = true \/ (0 <= xd /\ xd <= qn 2 - 1) ->
  w_fast clip xd k == hat (effc clip 2 xd) k.
Proof. intros Hk H. assert (E : qn 2 - 1 == 1) by reflexivity.
  destruct (effc_range clip 2 xd (le_n 2) H) as [Z0 Z1]. rewrite E in Z1.
  (* the point lies in the cell [0, 1], where only keypoints 0 and 1 have weight *)
  rewrite (hat_cell _ 0 k) by (rewrite qn_0; lra).
  unfold w_fast, effc in *.
  destruct k as [|[|k]]; [| |lia]; cbn [Nat.eqb]; rewrite qn_0; destruct clip.
  - (* k = 0, clipped: clipping 1 - xd to [0,1] against 1 - (xd clipped) *)
    rewrite E. unfold qclip. qcases; lra.
  - ring.
  - (* k = 1, clipped: the same clipped value on both sides *)
    rewrite E. ring.
  - ring. Qed.

Lemma fast_path_eq clip : forall sizes x K, all2 sizes = true -> ok_input clip sizes x ->
  interp_w sizes (map (w_fast clip) x) K == interp_w sizes (map hat (eff clip sizes x)) K.
Proof. induction sizes as [|s ss IH]; intros x K Ha [Hl Hr]; destruct x as [|xd xs]; try discriminate.
  - destruct clip; reflexivity.
  - cbn [all2 forallb] in Ha. apply andb_true_iff in Ha. destruct Ha as [Hs Ha]. apply Nat.eqb_eq in Hs. subst s.
    destruct (inr_or_cons Hr) as [Hd Hr']. rewrite eff_cons. cbn [map]. rewrite !interp_w_cons. apply wsum_ext.
    + intros k Hk. apply fast_weights_eq; assumption.
    + intros k Hk. apply IH. exact Ha. split; [cbn in Hl; lia|exact Hr']. Qed.

Lemma hyper_unit_G tensor clip sizes K x : ok_input clip sizes x ->
  hyper_unit tensor clip sizes K x == G sizes K (eff clip sizes x).
Proof. intros Hok. unfold hyper_unit, hyper_weights, G.
  destruct (all2 sizes && tensor) eqn:E.
  - apply andb_true_iff in E. destruct E as [Ha _]. apply fast_path_eq; assumption.
  - reflexivity. Qed.

Lemma vertex_inr : forall sizes v, valid sizes v -> inr sizes (map qn v).
Proof. induction 1 as [|s sh k r Hk Hr IH]; cbn [map]; constructor; auto.
  split. apply qn_nonneg. pose proof (qn_lt k s Hk). lra. Qed.

Lemma vertex_ok clip sizes v : valid sizes v -> ok_input clip sizes (map qn v).
Proof. intros Hv. split; [rewrite map_length; apply valid_length; exact Hv|right; apply vertex_inr; exact Hv]. Qed.

Theorem hyper_vertex tensor clip sizes K v : valid sizes v -> hyper_unit tensor clip sizes K (map qn v) == K v.
Proof. intros Hv. rewrite hyper_unit_G by (apply vertex_ok; exact Hv).
  rewrite (G_ext_z sizes K _ _ (eff_proper_in clip sizes _ (vertex_inr sizes v Hv))). apply G_vertex; exact Hv. Qed.

(* convex combination: output inside every interval containing the kernel *)
Theorem hyper_bounds tensor clip sizes K x lo hi : sizes_ok sizes -> ok_input clip sizes x ->
  (forall i, valid sizes i -> lo <= K i /\ K i <= hi) ->
  lo <= hyper_unit tensor clip sizes K x /\ hyper_unit tensor clip sizes K x <= hi.
Proof. intros Hs Hok HK. rewrite hyper_unit_G by exact Hok. apply G_bounds. apply eff_inr; assumption. exact HK. Qed.

Theorem hyper_monotone tensor clip sizes K x d yd : sizes_ok sizes -> (d < length sizes)%nat ->
  ok_input clip sizes x -> ok_input clip sizes (set_nth d yd x) -> nth d x 0 <= yd -> knondecr sizes K d ->
  hyper_unit tensor clip sizes K x <= hyper_unit tensor clip sizes K (set_nth d yd x).
Proof. intros Hs Hd Hx Hy Hle HK. rewrite !hyper_unit_G by assumption.
  pose proof (eff_inr clip sizes _ Hs Hy) as Ry. rewrite eff_set_nth in *.
  apply G_monotone; try assumption. apply eff_inr; assumption.
  rewrite (nth_eff clip sizes x d Hd (proj1 Hx)). apply effc_mono. exact Hle. Qed.

Theorem hyper_multilinear tensor clip sizes K x c : ok_input clip sizes x -> in_cell sizes c (eff clip sizes x) ->
  hyper_unit tensor clip sizes K x == multilin K c (eff clip sizes x).
Proof. intros Hok Hc. rewrite hyper_unit_G by exact Hok. apply G_multilin; exact Hc. Qed.

(* a point on a face shared by two cells gets the same value from both cells' formulas *)
Theorem hyper_continuous sizes K z c c' : in_cell sizes c z -> in_cell sizes c' z -> multilin K c z == multilin K c' z.
Proof. intros H H'. rewrite <- (G_multilin K H), <- (G_multilin K H'). reflexivity. Qed.

(* Edgeworth trust: the effect of the main input grows with the conditional input *)
Theorem hyper_edgeworth tensor clip sizes K x m c ym yc : sizes_ok sizes ->
  (m < length sizes)%nat -> (c < length sizes)%nat -> m <> c ->
  ok_input clip sizes x -> ok_input clip sizes (set_nth m ym x) ->
  ok_input clip sizes (set_nth c yc x) -> ok_input clip sizes (set_nth m ym (set_nth c yc x)) ->
  nth m x 0 <= ym -> nth c x 0 <= yc -> kedge sizes K m c ->
  hyper_unit tensor clip sizes K (set_nth m ym x) - hyper_unit tensor clip sizes K x <=
  hyper_unit tensor clip sizes K (set_nth m ym (set_nth c yc x)) - hyper_unit tensor clip sizes K (set_nth c yc x).
Proof. intros Hs Hm Hc Hmc Hx Hxm Hxc Hxmc Lm Lc HK. rewrite !hyper_unit_G by assumption.
  pose proof (eff_inr clip sizes _ Hs Hxm) as Rm. pose proof (eff_inr clip sizes _ Hs Hxc) as Rc.
  rewrite !eff_set_nth in *.
  apply G_edgeworth; try assumption. apply eff_inr; assumption.
  rewrite (nth_eff clip sizes x m Hm (proj1 Hx)). apply effc_mono. exact Lm.
  rewrite (nth_eff clip sizes x c Hc (proj1 Hx)). apply effc_mono. exact Lc. Qed.
