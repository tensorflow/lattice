(* C03 x C10: the parameters with which a KroneckerFactoredLattice layer
   is built by the premade builders (build_lattice_layer / build_rtl_layer with
   parameterization='kronecker_factored') satisfy kfl_feasible, the invariant of
   C03_reachable_feasible_kfl:
     scale   ScaleInitializer(output_min, output_max)            (MK.scale_init, C07's model)
     bias    BiasInitializer(output_min, output_max)             (MK.bias_init)
     kernel  kfl_random_monotonic_initializer(monotonicities, init range, scale = the
             initial scale)  per column: KFLInit.kfl_init_col (C10's model), for EVERY
             tf.random.uniform draw inside the init range
   init range = kfl_lib.default_init_params(output_min, output_max) (premade_lib._output_range)
   or [0, 1] under an output calibrator. *)
From TFL Require Import Proofs.Premade Model.PremadeKFL Proofs.PremadeKFL Proofs.PremadeInit.
From TFL Require Import Model.KFLInit Proofs.C10Pack.
Open Scope Q_scope.

Definition kfl_monos_list (c : MK.config) : list bool := match MK.c_monos c with Some l => l | None => [] end.

(* samples u t d = the raw tf.random.uniform column of (unit u, term t, input dimension d) *)
Definition premade_kfl_init (c : MK.config) (dims units terms : nat) (samples : nat -> nat -> nat -> list Q) : MK.params :=
  let ms := kfl_monos_list c in
  let any := (0 <? MK.count_true ms)%nat in
  MK.mkPar
    (map (fun u => map (fun t => map (fun d =>
        kfl_init_col any (nth d ms false) (MK.scale_init1 (MK.c_min c) (MK.c_max c) t) (samples u t d))
      (seq 0 dims)) (seq 0 terms)) (seq 0 units))
    (MK.scale_init c units terms) (MK.bias_init c units).

Definition kfl_samples_ok (c : MK.config) (dims units terms : nat) (imin imax : Q)
           (samples : nat -> nat -> nat -> list Q) : Prop :=
  forall u t d, (u < units)%nat -> (t < terms)%nat -> (d < dims)%nat ->
    length (samples u t d) = MK.c_size c /\ forall x, In x (samples u t d) -> imin <= x /\ x <= imax.

Lemma mk_qprod_le1 l : Forall (fun x => 0 <= x /\ x <= 1) l -> 0 <= MK.qprod l /\ MK.qprod l <= 1.
Proof. induction 1 as [|x l [H0 H1] _ IH]; cbn [MK.qprod]. lra. destruct IH as [I0 I1].
  split. apply qmul_nonneg; assumption. pose proof (qmul_le_l x (MK.qprod l) 1 H0 I1). lra. Qed.
Lemma maxabs_unit v : (forall x, In x v -> 0 <= x /\ x <= 1) -> 0 <= MK.maxabs v /\ MK.maxabs v <= 1.
Proof. intros H. split. apply PK.maxabs_nonneg. unfold MK.maxabs. destruct v as [|a v]. cbn; lra.
  apply qmaxl_lub. cbn; congruence. intros y Hy. apply in_map_iff in Hy. destruct Hy as [x [<- Hx]].
  destruct (H x Hx). qcases; lra. Qed.

Lemma prodmax_unit vs : Forall (fun v => forall x, In x v -> 0 <= x /\ x <= 1) vs -> PK.prodmax vs <= 1.
Proof. intros H. unfold PK.prodmax. apply mk_qprod_le1. apply Forall_map_impl with (1 := H). exact maxabs_unit. Qed.

Lemma canon_some c ms : MK.canon_monos (MK.c_monos c) = Some ms -> kfl_monos_list c = ms.
Proof. unfold MK.canon_monos, kfl_monos_list. destruct (MK.c_monos c) as [[|b l]|]; intros H; inversion H; reflexivity. Qed.

Lemma scale_init1_nonzero lo hi t : PK.bounds_ok lo hi -> ~ MK.scale_init1 lo hi t == 0.
Proof. intros Hb. unfold MK.scale_init1. destruct lo as [a|], hi as [b|]; try (destruct (Nat.even t)); try lra.
  all: specialize (Hb a b eq_refl eq_refl); lra. Qed.
Lemma scale_init1_sgood c t : PK.bounds_ok (MK.c_min c) (MK.c_max c) -> PK.sgood c (MK.scale_init1 (MK.c_min c) (MK.c_max c) t).
Proof. intros Hb. unfold PK.sgood, MK.scale_init1. destruct (MK.c_min c) as [a|], (MK.c_max c) as [b|]; try lra; try exact I.
  specialize (Hb a b eq_refl eq_refl). destruct (Nat.even t); split; lra. Qed.

Lemma kfl_init_term c dims imin imax s (smp : nat -> list Q) :
  PK.cfg_ok c dims -> 0 <= imin -> (MK.has_bounds c = true -> imax <= 1) -> ~ s == 0 ->
  (forall d, (d < dims)%nat -> length (smp d) = MK.c_size c /\ forall x, In x (smp d) -> imin <= x /\ x <= imax) ->
  let ms := kfl_monos_list c in
  let vs := map (fun d => kfl_init_col (0 <? MK.count_true ms)%nat (nth d ms false) s (smp d)) (seq 0 dims) in
  PK.tshape (MK.c_size c) dims vs /\ PK.kgood c s vs.
Proof. intros (HL & Hd & Hb & Hms) Hi0 Hi1 Hs Hsmp ms vs.
  set (any := (0 <? MK.count_true ms)%nat) in *.
  (* C10's facts about every column *)
  pose proof (fun d Hdd => pack_C10_kfl_init_kernel any (nth d ms false) s (smp d) imin imax Hs (proj2 (Hsmp d Hdd)))
    as Hcol. cbv zeta in Hcol.
  assert (Hrange : Forall (fun v => forall x, In x v -> 0 <= x /\ x <= imax) vs).
  { apply Forall_map_seq. intros d Hdd x Hx. destruct (Hcol d ltac:(lia)) as (_ & B & _). destruct (B x Hx). split; lra. }
  assert (Hnn : PK.tnonneg vs).
  { eapply Forall_impl; [|exact Hrange]. intros v Hv. apply Forall_forall. intros x Hx. apply (Hv x Hx). }
  split; [|split; [|split]].
  - split. unfold vs. rewrite map_length, seq_length. reflexivity.
    apply Forall_map_seq. intros d Hdd. destruct (Hcol d ltac:(lia)) as [-> _]. apply Hsmp; lia.
  - intros ms' E Hc. pose proof (canon_some c ms' E) as Ems. fold ms in Ems.
    assert (Hany : any = true) by (unfold any; rewrite Ems; apply Nat.ltb_lt; exact Hc).
    apply PK.term_good_of_dir; [exact Hnn|].
    assert (Hlen : length ms = dims) by (rewrite Ems; exact (Hms ms' E)).
    rewrite <- Ems. apply (Forall2_nth_intro _ false []). unfold vs. rewrite map_length, seq_length. exact Hlen.
    intros d Hdd Hm. rewrite Hlen in Hdd. unfold vs. rewrite (nth_map_seq _ dims d [] Hdd).
    apply (Hcol d); assumption.
  - intros H1 H2. assert (Hhb : MK.has_bounds c = true) by (unfold MK.has_bounds; rewrite H1; reflexivity).
    specialize (Hi1 Hhb). apply prodmax_unit. eapply Forall_impl; [|exact Hrange].
    intros v Hv x Hx. destruct (Hv x Hx). split; lra.
  - intros _. exact Hnn. Qed.

Theorem kfl_init_feasible c dims units terms imin imax samples :
  PK.cfg_ok c dims -> 0 <= imin -> (MK.has_bounds c = true -> imax <= 1) ->
  kfl_samples_ok c dims units terms imin imax samples ->
  kfl_feasible c dims (premade_kfl_init c dims units terms samples).
Proof. intros Hc Hi0 Hi1 Hsm. pose proof Hc as (_ & _ & Hb & _). split.
  - cbn [premade_kfl_init MK.p_scale MK.p_kern]. unfold MK.scale_init.
    apply Forall2_repeat_map_seq. intros u Hu. apply Forall2_map_seq. intros t Ht.
    destruct (kfl_init_term c dims imin imax (MK.scale_init1 (MK.c_min c) (MK.c_max c) t) (samples u t) Hc Hi0 Hi1
                (scale_init1_nonzero _ _ t Hb)) as [A B].
    { intros d Hd. apply Hsm; lia. }
    split. exact A. split. exact B. apply scale_init1_sgood. exact Hb.
  - intros _. cbn [premade_kfl_init MK.p_bias]. unfold MK.bias_init. apply Forall_forall. intros b Hin.
    apply repeat_spec in Hin. subst b. reflexivity. Qed.

Record kfl_spec := mkKflS {
  ks_root : nat -> Q -> Q; ks_cfg : MK.config; ks_dims : nat; ks_steps : list MK.step;
  ks_units : nat; ks_terms : nat; ks_range : layer_range; ks_samples : nat -> nat -> nat -> list Q }.
Definition kfl_spec_init (s : kfl_spec) : MK.params :=
  premade_kfl_init (ks_cfg s) (ks_dims s) (ks_units s) (ks_terms s) (ks_samples s).
Definition kfl_spec_desc (s : kfl_spec) : kfl_desc :=
  mkKflD (ks_root s) (ks_cfg s) (ks_dims s) (ks_steps s) (kfl_spec_init s).
(* validity of the configuration and of the random oracle; NO statement about the
   initial parameters.  The layer is the model output or feeds the output calibrator. *)
Definition kfl_spec_ok (s : kfl_spec) : Prop :=
  PK.root_ok (ks_root s) /\ PK.cfg_ok (ks_cfg s) (ks_dims s) /\
  PK.hasK (ks_steps s) = true /\ PK.hasS (ks_steps s) = true /\
  (forall z, ks_range s <> InputToLattice z) /\
  MK.c_min (ks_cfg s) = fst (output_range (ks_range s)) /\ MK.c_max (ks_cfg s) = snd (output_range (ks_range s)) /\
  kfl_samples_ok (ks_cfg s) (ks_dims s) (ks_units s) (ks_terms s)
    (fst (premade_init_range (ks_range s) true [])) (snd (premade_init_range (ks_range s) true [])) (ks_samples s).

Lemma kfl_default_range_ok c :
  0 <= fst (kfl_default_init_params (MK.c_min c) (MK.c_max c)) /\
  (MK.has_bounds c = true -> snd (kfl_default_init_params (MK.c_min c) (MK.c_max c)) <= 1).
Proof. unfold MK.has_bounds, kfl_default_init_params. destruct (MK.c_min c), (MK.c_max c); cbn; split; intros; try lra; discriminate. Qed.
Lemma kfl_init_range_ok c r : (forall z, r <> InputToLattice z) ->
  MK.c_min c = fst (output_range r) -> MK.c_max c = snd (output_range r) ->
  0 <= fst (premade_init_range r true []) /\ (MK.has_bounds c = true -> snd (premade_init_range r true []) <= 1).
Proof. intros Hn E1 E2. destruct r as [z|lo hi|]; cbn [premade_init_range output_range fst snd] in *.
  - destruct (Hn z eq_refl).
  - rewrite <- E1, <- E2. apply kfl_default_range_ok.
  - split; intros; lra. Qed.

Theorem init_feasible_kfl s : kfl_spec_ok s -> kfl_inv (kfl_spec_desc s) (kfl_spec_init s).
Proof. intros (_ & Hc & _ & _ & Hn & E1 & E2 & Hsm). destruct (kfl_init_range_ok _ _ Hn E1 E2) as [H0 H1].
  unfold kfl_inv, kfl_spec_desc, kfl_spec_init; cbn [kd_cfg kd_dims].
  exact (kfl_init_feasible _ _ _ _ _ _ _ Hc H0 H1 Hsm). Qed.

Lemma kfl_spec_desc_ok s : kfl_spec_ok s -> kfl_desc_ok (kfl_spec_desc s).
Proof. intros H. pose proof (init_feasible_kfl s H) as Hi. destruct H as (Hr & Hc & HK & HS & _).
  split. exact Hr. split. exact Hc. split. exact HK. split. exact HS. exact Hi. Qed.

Theorem reachable_feasible_kfl_from_init ss ops : (forall s, In s ss -> kfl_spec_ok s) ->
  ops_shaped MK.params kfl_desc kfl_shape (map kfl_spec_desc ss) ops ->
  forall st, In st (run (map kfl_var (map kfl_spec_desc ss)) ops) -> Forall2 kfl_inv (map kfl_spec_desc ss) st.
Proof. intros H. apply reachable_feasible_kfl.
  apply all_map. intros s Hs. apply kfl_spec_desc_ok, H, Hs. Qed.

(* the hypotheses are satisfiable: one unit, two terms (scales +1 and -1), one
   monotone input, bounds [-1, 1]; the same unsorted draw for both terms *)
Definition ex_kfl (steps : list MK.step) : kfl_spec :=
  mkKflS (fun _ x => x) lk_cfg 1 steps 1 2 (ModelOutput (Some (-(1))) (Some 1)) (fun _ _ _ => [3#4; 1#4]).
Example ex_kfl_ok : kfl_spec_ok (ex_kfl [MK.StepS; MK.StepK]) /\ kfl_spec_ok (ex_kfl [MK.StepK; MK.StepS]).
Proof. split; (split; [exact PK.root_ok_id|split; [exact lk_cfg_ok|split; [reflexivity|split; [reflexivity|]]]]);
  (split; [intros z; discriminate|split; [reflexivity|split; [reflexivity|]]]);
  intros u t d _ _ _; (split; [reflexivity|]); intros x Hx; cbn in Hx |- *;
  destruct Hx as [<-|[<-|[]]]; lra. Qed.
Example ex_kfl_value : forall steps,
  MK.p_kern (kfl_spec_init (ex_kfl steps)) = [[ [[1#4; 3#4]]; [[3#4; 1#4]] ]] /\
  Forall2 (Forall2 Qeq) (MK.p_scale (kfl_spec_init (ex_kfl steps))) [[1; -(1)]].
Proof. intros steps. split. vm_compute. reflexivity. repeat constructor; vm_compute; reflexivity. Qed.
