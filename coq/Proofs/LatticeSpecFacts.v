(* Facts about the specification vocabulary of Proofs/LatticeSpec.v that every
   C01 proof file needs: [teq] is an equivalence under which every Spec
   predicate is invariant, index lemmas for [upd] / [at2] / [behind], the
   unit axis of  sizes ++ [units], [pmono] (the common form of the order
   predicates), and how a fold of passes establishes every item of its list. *)
From TFL Require Export Proofs.LatticeSpec.
From Coq Require Import Sorted.
Open Scope Q_scope.

Lemma teq_refl sh f : teq sh f f.
Proof. intros i _. reflexivity. Qed.
Lemma teq_sym sh f g : teq sh f g -> teq sh g f.
Proof. intros H i Hv. symmetry. apply H; assumption. Qed.
Lemma teq_trans sh f g h : teq sh f g -> teq sh g h -> teq sh f h.
Proof. intros H1 H2 i Hv. rewrite (H1 i Hv). apply H2; assumption. Qed.
Global Instance teq_equiv sh : Equivalence (teq sh).
Proof. split. intro f; apply teq_refl. intros f g; apply teq_sym. intros f g h; apply teq_trans. Qed.

Lemma memo_teq sh f : teq sh (memo sh f) f.
Proof. intros i Hv. rewrite memo_ok by assumption. reflexivity. Qed.
Lemma memo_teq_ext sh f g : (forall i, valid sh i -> f i == g i) -> teq sh (memo sh f) (memo sh g).
Proof. intros H i Hv. rewrite !memo_ok by assumption. apply H; assumption. Qed.
Lemma memo_teq_l sh f g : (forall i, valid sh i -> f i == g i) -> teq sh (memo sh f) g.
Proof. intros H i Hv. rewrite memo_ok by assumption. apply H; assumption. Qed.

Lemma SS_total {A} (R : A -> A -> Prop) l : (forall a b, R a b) -> StronglySorted R l.
Proof. intros H. induction l; constructor. assumption. apply Forall_forall. intros; apply H. Qed.

(* every pass establishes its own item and keeps the items that stand before it in the list
   (R q p: q may stand before p); the second disjunct is the strengthening for the induction *)
Section FoldPasses.
Context {A T : Type} (step : T -> A -> T) (holds : T -> A -> Prop) (R : A -> A -> Prop) (Dom : A -> Prop).
Hypothesis fixes : forall W p, Dom p -> holds (step W p) p.
Hypothesis keeps : forall W p q, Dom p -> Dom q -> R q p -> holds W q -> holds (step W p) q.
Lemma fold_left_establishes : forall l W q, Forall Dom l -> StronglySorted R l -> Dom q ->
  In q l \/ (holds W q /\ Forall (R q) l) -> holds (fold_left step l W) q.
Proof. induction l as [|p l IH]; intros W q Hl HS Hq H; cbn [fold_left].
  - destruct H as [[]|[H _]]. exact H.
  - apply Forall_cons_iff in Hl. destruct Hl as [Hp Hl]. apply StronglySorted_inv in HS. destruct HS as [HS HF].
    apply IH; try assumption. destruct H as [[->|H]|[H HR]].
    + right. split. apply fixes; assumption. exact HF.
    + left. exact H.
    + apply Forall_cons_iff in HR. destruct HR as [Rp HR]. right. split. apply keeps; assumption. exact HR. Qed.
End FoldPasses.

(* the order hypothesis of fold_left_establishes, read off the list: R holds of every two
   items in the order in which they stand in l *)
Lemma StronglySorted_splits {A} (R : A -> A -> Prop) l :
  (forall l1 a l2 b l3, l = l1 ++ a :: l2 ++ b :: l3 -> R a b) -> StronglySorted R l.
Proof. induction l as [|a l IH]; intros H; constructor.
  - apply IH. intros l1 x l2 y l3 E. apply (H (a :: l1) x l2 y l3). rewrite E. reflexivity.
  - apply Forall_forall. intros b Hb. destruct (in_split _ _ Hb) as (l2 & l3 & E).
    apply (H [] a l2 b l3). rewrite E. reflexivity. Qed.

(* all-cases form of nth_upd_same / nth_upd_other *)
Lemma nth_upd i d e k :
  nth e (upd i d k) 0%nat = if ((e =? d) && (d <? length i))%nat then k else nth e i 0%nat.
Proof. destruct (Nat.eqb_spec e d) as [->|Hne]; cbn [andb].
  - destruct (Nat.ltb_spec d (length i)). apply nth_upd_same; assumption.
    rewrite upd_oob by assumption. reflexivity.
  - apply nth_upd_other. auto. Qed.

Lemma upd_eq_self i d k : nth d i 0%nat = k -> upd i d k = i.
Proof. intros <-. apply upd_self. Qed.

Lemma valid_pos sh i d : valid sh i -> (d < length sh)%nat -> (0 < nth d sh 0)%nat.
Proof. intros Hv Hd. pose proof (valid_nth sh i d Hv Hd). lia. Qed.

(* moving along d inside the valid range: the index that mono_along talks about *)
Lemma upd_succ_valid sh i d : valid sh i -> (S (nth d i 0) < nth d sh 0)%nat -> valid sh (upd i d (S (nth d i 0%nat))).
Proof. intros. apply upd_valid; assumption. Qed.

Lemma at2_length b m c i j : length (at2 b m c i j) = length b.
Proof. unfold at2. rewrite !upd_length. reflexivity. Qed.

Lemma at2_valid sh b m c i j :
  valid sh b -> (i < nth m sh 0)%nat -> (j < nth c sh 0)%nat -> valid sh (at2 b m c i j).
Proof. intros Hv Hi Hj. unfold at2. apply upd_valid; [apply upd_valid|]; assumption. Qed.

Lemma at2_valid_gen sh b m c i j :
  valid sh b -> ((m < length sh)%nat -> (i < nth m sh 0)%nat) ->
  ((c < length sh)%nat -> (j < nth c sh 0)%nat) -> valid sh (at2 b m c i j).
Proof. intros Hv Hi Hj. unfold at2. apply upd_valid_gen; [apply upd_valid_gen|]; assumption. Qed.

Lemma at2_nth_m b m c i j : m <> c -> (m < length b)%nat -> nth m (at2 b m c i j) 0%nat = i.
Proof. intros Hne Hm. unfold at2. rewrite nth_upd_other by auto. apply nth_upd_same; assumption. Qed.
Lemma at2_nth_c b m c i j : (c < length b)%nat -> nth c (at2 b m c i j) 0%nat = j.
Proof. intros Hc. unfold at2. apply nth_upd_same. rewrite upd_length. assumption. Qed.
Lemma at2_nth_other b m c i j d : d <> m -> d <> c -> nth d (at2 b m c i j) 0%nat = nth d b 0%nat.
Proof. intros H1 H2. unfold at2. rewrite !nth_upd_other by auto. reflexivity. Qed.

Lemma at2_self x m c : at2 x m c (nth m x 0%nat) (nth c x 0%nat) = x.
Proof. unfold at2. rewrite (upd_self x m). apply upd_self. Qed.
Lemma at2_eq_self x m c i j : nth m x 0%nat = i -> nth c x 0%nat = j -> at2 x m c i j = x.
Proof. intros <- <-. apply at2_self. Qed.

Lemma at2_at2 b m c i j i' j' : m <> c -> at2 (at2 b m c i j) m c i' j' = at2 b m c i' j'.
Proof. intros Hne. unfold at2.
  rewrite (upd_comm (upd b m i) c m j i') by auto. rewrite upd_upd.
  rewrite upd_upd. reflexivity. Qed.

Lemma at2_upd_m b m c i j i' : m <> c -> upd (at2 b m c i j) m i' = at2 b m c i' j.
Proof. intros Hne. unfold at2. rewrite (upd_comm (upd b m i) c m j i') by auto. rewrite upd_upd. reflexivity. Qed.
Lemma at2_upd_c b m c i j j' : upd (at2 b m c i j) c j' = at2 b m c i j'.
Proof. unfold at2. apply upd_upd. Qed.
Lemma at2_upd_other b m c i j d k : d <> m -> d <> c -> upd (at2 b m c i j) d k = at2 (upd b d k) m c i j.
Proof. intros H1 H2. unfold at2.
  rewrite (upd_comm (upd b m i) c d j k) by auto.
  rewrite (upd_comm b m d i k) by auto. reflexivity. Qed.
(* the base point of a column only matters up to its m and c coordinates *)
Lemma at2_base b m c i0 j0 i j : m <> c -> at2 (at2 b m c i0 j0) m c i j = at2 b m c i j.
Proof. apply at2_at2. Qed.

(* v written at every coordinate listed in keep *)
Definition upd_all (v : nat) (keep : list nat) (x : list nat) : list nat :=
  fold_left (fun s d => upd s d v) keep x.
Lemma upd_all_length v keep : forall x, length (upd_all v keep x) = length x.
Proof. induction keep as [|d r IH]; intros x; cbn. reflexivity. unfold upd_all in IH. rewrite IH. apply upd_length. Qed.
Lemma upd_all_nth v keep : forall x e, (e < length x)%nat ->
  nth e (upd_all v keep x) 0%nat = if mem_nat e keep then v else nth e x 0%nat.
Proof. induction keep as [|d r IH]; intros x e He. reflexivity.
  change (upd_all v (d :: r) x) with (upd_all v r (upd x d v)).
  rewrite IH by (rewrite upd_length; assumption).
  unfold mem_nat at 2. cbn [existsb]. fold (mem_nat e r).
  destruct (mem_nat e r); [rewrite orb_true_r; reflexivity|]. rewrite orb_false_r.
  rewrite nth_upd. destruct (Nat.eqb_spec e d) as [->|Hne]; cbn [andb]; [|reflexivity].
  destruct (Nat.ltb_spec d (length x)); [reflexivity|lia]. Qed.

Lemma behind_unfold sh keep : behind sh keep = all_idx (upd_all 1 keep sh).
Proof. reflexivity. Qed.

Lemma behind_iff sh keep b :
  In b (behind sh keep) <->
  length b = length sh /\
  forall e, (e < length sh)%nat ->
    if mem_nat e keep then nth e b 0%nat = 0%nat else (nth e b 0 < nth e sh 0)%nat.
Proof. rewrite behind_unfold, all_idx_valid, valid_iff, upd_all_length.
  split; intros [Hl H]; (split; [exact Hl|]); intros e He; specialize (H e He);
    rewrite upd_all_nth in * by assumption; destruct (mem_nat e keep); lia. Qed.

Lemma behind_zero sh keep b d : In b (behind sh keep) -> In d keep -> nth d b 0%nat = 0%nat.
Proof. intros Hb Hd. apply behind_iff in Hb. destruct Hb as [Hl H].
  destruct (Nat.ltb_spec d (length sh)) as [Hlt|Hge].
  - specialize (H d Hlt). apply mem_nat_true in Hd. rewrite Hd in H. exact H.
  - apply nth_overflow. lia. Qed.

Lemma behind_valid sh keep b :
  (forall d, In d keep -> (d < length sh)%nat -> (1 <= nth d sh 0)%nat) ->
  In b (behind sh keep) -> valid sh b.
Proof. intros Hpos Hb. apply behind_iff in Hb. destruct Hb as [Hl H]. apply valid_iff. split. exact Hl.
  intros e He. specialize (H e He). destruct (mem_nat e keep) eqn:E; [|exact H].
  apply mem_nat_true in E. specialize (Hpos e E He). lia. Qed.

Lemma behind_intro sh keep b :
  valid sh b -> (forall d, In d keep -> nth d b 0%nat = 0%nat) -> In b (behind sh keep).
Proof. intros Hv Hz. apply behind_iff. apply valid_iff in Hv. destruct Hv as [Hl H]. split. exact Hl.
  intros e He. destruct (mem_nat e keep) eqn:E. apply Hz. apply mem_nat_true; exact E. apply H; exact He. Qed.

(* projecting a valid index onto the behind set *)
Definition zero_at : list nat -> idx -> idx := upd_all 0.
Lemma behind_proj sh keep x : valid sh x -> In (zero_at keep x) (behind sh keep).
Proof. intros Hv. apply valid_iff in Hv. destruct Hv as [Hl H]. apply behind_iff. split.
  rewrite <- Hl. apply upd_all_length.
  intros e He. unfold zero_at. rewrite upd_all_nth by lia. destruct (mem_nat e keep). reflexivity. apply H; exact He. Qed.

Lemma behind1_proj sh ud x : valid sh x -> In (upd x ud 0%nat) (behind sh [ud]).
Proof. apply (behind_proj sh [ud] x). Qed.
Lemma behind3_proj sh m c ud x :
  valid sh x -> In (upd (upd (upd x m 0%nat) c 0%nat) ud 0%nat) (behind sh [m; c; ud]).
Proof. apply (behind_proj sh [m; c; ud] x). Qed.

(* a valid index is recovered from its projection onto behind [m;c;ud] *)
Lemma behind3_recover x m c ud : m <> c -> m <> ud -> c <> ud ->
  upd (at2 (upd (upd (upd x m 0%nat) c 0%nat) ud 0%nat) m c (nth m x 0%nat) (nth c x 0%nat)) ud (nth ud x 0%nat) = x.
Proof. intros Hmc Hmu Hcu. unfold at2.
  set (i := nth m x 0%nat). set (j := nth c x 0%nat). set (u := nth ud x 0%nat).
  rewrite (upd_comm (upd (upd x m 0%nat) c 0%nat) ud m 0%nat i) by auto.
  rewrite (upd_comm (upd x m 0%nat) c m 0%nat i) by auto. rewrite upd_upd.
  rewrite (upd_comm (upd (upd x m i) c 0%nat) ud c 0%nat j) by auto. rewrite upd_upd.
  rewrite upd_upd. unfold i, j, u. rewrite (upd_self x m), (upd_self x c). apply upd_self. Qed.

(* behind [m;c;ud] holds a representative of the (m, c)-grid through every valid index *)
Lemma behind3_repr sh m c ud x : m <> c -> m <> ud -> c <> ud -> valid sh x ->
  exists b, In b (behind sh [m; c; ud]) /\ forall i j, at2 (upd b ud (nth ud x 0%nat)) m c i j = at2 x m c i j.
Proof. intros Hmc Hmu Hcu Hv. exists (upd (upd (upd x m 0%nat) c 0%nat) ud 0%nat). split.
  apply behind3_proj; assumption.
  intros i j. rewrite upd_upd.
  rewrite (upd_comm (upd x m 0%nat) c ud) by auto. rewrite (upd_comm x m ud) by auto. rewrite upd_self.
  change (upd (upd x m 0%nat) c 0%nat) with (at2 x m c 0%nat 0%nat). apply at2_at2; assumption. Qed.

Lemma unit_axis_lt (sizes : list nat) (units : nat) : (length sizes < length (sizes ++ [units]))%nat.
Proof. rewrite app_length. cbn. lia. Qed.
Lemma unit_axis_nth (sizes : list nat) (units : nat) : nth (length sizes) (sizes ++ [units]) 0%nat = units.
Proof. rewrite app_nth2 by lia. rewrite Nat.sub_diag. reflexivity. Qed.
Lemma size_axis_nth (sizes : list nat) (units d : nat) : (d < length sizes)%nat -> nth d (sizes ++ [units]) 0%nat = nth d sizes 0%nat.
Proof. intros. apply app_nth1. assumption. Qed.
Lemma l_ud_lt c : (l_ud c < length (l_shape c))%nat.
Proof. apply unit_axis_lt. Qed.
Lemma l_ud_units c : nth (l_ud c) (l_shape c) 0%nat = l_units c.
Proof. apply unit_axis_nth. Qed.
Lemma l_shape_length c : length (l_shape c) = S (length (l_sizes c)).
Proof. unfold l_shape. rewrite app_length. cbn. lia. Qed.

Lemma unit_lt sh ud units x : (ud < length sh)%nat -> nth ud sh 0%nat = units -> valid sh x -> (nth ud x 0 < units)%nat.
Proof. intros Hud <- Hv. apply valid_nth; assumption. Qed.

(* W x is one of the values reduced over for its own unit *)
Lemma unit_vals_in sh ud W x : valid sh x -> In (W x) (unit_vals sh ud W (nth ud x 0%nat)).
Proof. intros Hv. unfold unit_vals. apply in_map_iff. exists (upd x ud 0%nat). split.
  rewrite upd_upd, upd_self. reflexivity. apply behind1_proj. assumption. Qed.
(* and every reduced value is W at a valid index of that unit *)
Lemma unit_vals_inv sh ud W u v : (u < nth ud sh 0)%nat -> In v (unit_vals sh ud W u) ->
  exists x, valid sh x /\ nth ud x 0%nat = u /\ v = W x.
Proof. intros Hu Hin. unfold unit_vals in Hin. apply in_map_iff in Hin. destruct Hin as [b [<- Hb]].
  pose proof (nth_pos_lt sh ud u Hu) as Hd.
  assert (Hvb : valid sh b).
  { apply (behind_valid sh [ud]); [|assumption]. intros d [<-|[]] _. lia. }
  exists (upd b ud u). split. apply upd_valid; assumption. split; [|reflexivity].
  apply nth_upd_same. rewrite (valid_length sh b Hvb). assumption. Qed.

Lemma unit_viols_length ud units B g : length (unit_viols ud units B g) = units.
Proof. unfold unit_viols. rewrite map_length, seq_length. reflexivity. Qed.
Lemma unit_viols_nth ud units B g u : (u < units)%nat ->
  nth u (unit_viols ud units B g) 0 = maxl0 (map (fun b => g (upd b ud u)) B).
Proof. intros. unfold unit_viols. apply (nth_map_seq (fun u => maxl0 (map (fun b => g (upd b ud u)) B))). assumption. Qed.

Lemma mono_along_teq sh d f g : teq sh f g -> mono_along sh d f -> mono_along sh d g.
Proof. intros E H i Hv Hs.
  rewrite <- (E i Hv), <- (E _ (upd_valid _ _ _ _ Hv Hs)). apply H; assumption. Qed.

Lemma esq_teq sh f g m c i j b : teq sh f g -> valid sh b ->
  (S i < nth m sh 0)%nat -> (S j < nth c sh 0)%nat -> esq f m c i j b == esq g m c i j b.
Proof. intros E Hv Hi Hj. unfold esq.
  pose proof (E _ (at2_valid sh b m c (S i) j Hv ltac:(lia) ltac:(lia))).
  pose proof (E _ (at2_valid sh b m c i j Hv ltac:(lia) ltac:(lia))).
  pose proof (E _ (at2_valid sh b m c (S i) (S j) Hv ltac:(lia) ltac:(lia))).
  pose proof (E _ (at2_valid sh b m c i (S j) Hv ltac:(lia) ltac:(lia))). lra. Qed.

Lemma edgeworth_holds_teq sh t f g : teq sh f g -> edgeworth_holds sh t f -> edgeworth_holds sh t g.
Proof. destruct t as [[m c] dir]. intros E H b i j Hv Hi Hj. specialize (H b i j Hv Hi Hj).
  pose proof (esq_teq sh f g m c i j b E Hv Hi Hj). destruct (0 <? dir)%Z; lra. Qed.

(* a trapezoid trust only compares points that differ in the conditional coordinate: it passes
   from f to g as soon as g keeps the order between such points *)
Lemma trapezoid_holds_transfer sh m c dir f g :
  (forall p q, valid sh p -> valid sh q -> (forall d, d <> c -> nth d p 0%nat = nth d q 0%nat) -> f p <= f q -> g p <= g q) ->
  trapezoid_holds sh (m, c, dir) f -> trapezoid_holds sh (m, c, dir) g.
Proof. intros T H b j Hv Hj. specialize (H b j Hv Hj). cbv zeta in *.
  set (mx := (nth m sh 0 - 1)%nat) in *.
  assert (V : forall i k, (i = 0 \/ i = mx)%nat -> (k = j \/ k = S j)%nat -> valid sh (at2 b m c i k)).
  { intros i k Hi Hk. apply at2_valid_gen. assumption.
    - intros Hm. pose proof (valid_pos sh b m Hv Hm). unfold mx in Hi. lia.
    - intros _. lia. }
  assert (U : forall i k k' d, d <> c -> nth d (at2 b m c i k) 0%nat = nth d (at2 b m c i k') 0%nat).
  { intros. unfold at2. rewrite (nth_upd_other _ c d k), (nth_upd_other _ c d k') by auto. reflexivity. }
  destruct (0 <? dir)%Z; destruct H as [H1 H2]; split; apply T; auto. Qed.

Lemma trapezoid_holds_teq sh t f g : teq sh f g -> trapezoid_holds sh t f -> trapezoid_holds sh t g.
Proof. destruct t as [[m c] dir]. intros E. apply trapezoid_holds_transfer.
  intros p q Hp Hq _. rewrite (E p Hp), (E q Hq). auto. Qed.

Lemma lower_ok_teq sh omin f g : teq sh f g -> lower_ok sh omin f -> lower_ok sh omin g.
Proof. destruct omin as [lo|]; cbn; [|auto]. intros E H i Hv. rewrite <- (E i Hv). apply H; assumption. Qed.
Lemma upper_ok_teq sh omax f g : teq sh f g -> upper_ok sh omax f -> upper_ok sh omax g.
Proof. destruct omax as [hi|]; cbn; [|auto]. intros E H i Hv. rewrite <- (E i Hv). apply H; assumption. Qed.

Lemma monotone_kernel_teq c f g : teq (l_shape c) f g -> monotone_kernel c f -> monotone_kernel c g.
Proof. intros E H d Hd. apply (mono_along_teq _ _ f g E). apply H; assumption. Qed.
Lemma feasible_kernel_teq c f g : teq (l_shape c) f g -> feasible_kernel c f -> feasible_kernel c g.
Proof. intros E (H1 & H2 & H3 & H4 & H5). repeat split.
  - apply (monotone_kernel_teq c f g E H1).
  - intros t Ht. apply (edgeworth_holds_teq _ _ f g E). apply H2; assumption.
  - intros t Ht. apply (trapezoid_holds_teq _ _ f g E). apply H3; assumption.
  - apply (lower_ok_teq _ _ f g E H4).
  - apply (upper_ok_teq _ _ f g E H5). Qed.

(* order between neighbours along d on a slice P, in either direction: the common form of
   mono_along and of the two halves of a trapezoid trust *)
Definition pmono (sh : list nat) (P : idx -> Prop) (d : nat) (up : bool) (f : tens) : Prop :=
  forall x, valid sh x -> P x -> (S (nth d x 0%nat) < nth d sh 0%nat)%nat ->
  if up then f x <= f (upd x d (S (nth d x 0%nat))) else f (upd x d (S (nth d x 0%nat))) <= f x.
Definition stable_along (d : nat) (P : idx -> Prop) : Prop := forall x k, P x -> P (upd x d k).

Lemma slice_stable m i0 d : m <> d -> stable_along d (fun x => nth m x 0%nat = i0).
Proof. intros Hne x k Hx. rewrite nth_upd_other by auto. exact Hx. Qed.

Lemma mono_along_pmono sh d f : mono_along sh d f <-> pmono sh (fun _ => True) d true f.
Proof. unfold mono_along, pmono. split; intros H x Hv; [intros _|]; auto. Qed.

Lemma trapezoid_pmono sh m c dir f : m <> c -> (m < length sh)%nat -> (c < length sh)%nat -> (1 <= nth m sh 0%nat)%nat ->
  (trapezoid_holds sh (m, c, dir) f <->
   pmono sh (fun x => nth m x 0%nat = 0%nat) c (negb (0 <? dir)%Z) f /\
   pmono sh (fun x => nth m x 0%nat = (nth m sh 0%nat - 1)%nat) c (0 <? dir)%Z f).
Proof. intros Hmc Hm Hc H1. unfold trapezoid_holds, pmono. cbv zeta. split.
  - intros H. split; intros x Hv Px Hs; specialize (H x (nth c x 0%nat) Hv Hs);
      rewrite !(at2_eq_self x m c _ (nth c x 0%nat) Px eq_refl) in H;
      unfold at2 in H; rewrite !(upd_eq_self x m _ Px) in H;
      destruct (0 <? dir)%Z; cbn [negb]; tauto.
  - intros [H0 Hx] b j Hv Hj.
    assert (Hl : length b = length sh) by (apply valid_length; assumption).
    assert (V0 : valid sh (at2 b m c 0%nat j)) by (apply at2_valid; [assumption|lia|lia]).
    assert (Vx : valid sh (at2 b m c (nth m sh 0%nat - 1)%nat j)) by (apply at2_valid; [assumption|lia|lia]).
    specialize (H0 _ V0). specialize (Hx _ Vx).
    rewrite at2_nth_m, at2_nth_c, at2_upd_c in H0, Hx by (auto; lia).
    specialize (H0 eq_refl Hj). specialize (Hx eq_refl Hj).
    destruct (0 <? dir)%Z; cbn [negb] in *; tauto. Qed.

(* any two positions, not only neighbours *)
Lemma pmono_le sh P d up f x : pmono sh P d up f -> stable_along d P -> valid sh x -> P x ->
  forall k2 k1, (k1 <= k2)%nat -> (k2 < nth d sh 0)%nat ->
  if up then f (upd x d k1) <= f (upd x d k2) else f (upd x d k2) <= f (upd x d k1).
Proof. intros Hm Hs Hv Px. induction k2 as [|k2 IH]; intros k1 Hle Hk.
  - assert (k1 = 0%nat) as -> by lia. destruct up; lra.
  - destruct (Nat.eq_dec k1 (S k2)) as [->|Hne]. destruct up; lra.
    specialize (IH k1 ltac:(lia) ltac:(lia)).
    assert (Hv2 : valid sh (upd x d k2)) by (apply upd_valid; [assumption|lia]).
    pose proof (Hm _ Hv2 (Hs x k2 Px)) as Hstep.
    rewrite nth_upd_same in Hstep by (rewrite (valid_length sh x Hv); exact (nth_pos_lt sh d _ Hk)).
    rewrite upd_upd in Hstep. specialize (Hstep Hk). destruct up; lra. Qed.

Lemma mono_along_le sh d f i : mono_along sh d f -> valid sh i ->
  forall k2 k1, (k1 <= k2)%nat -> (k2 < nth d sh 0)%nat -> f (upd i d k1) <= f (upd i d k2).
Proof. intros Hm Hv. apply (pmono_le sh (fun _ => True) d true f i); try assumption.
  apply mono_along_pmono; assumption. intros x k _; exact I. exact I. Qed.

Lemma forall_valid_check sh (P : idx -> bool) :
  forallb P (all_idx sh) = true -> forall i, valid sh i -> P i = true.
Proof. intros H i Hv. rewrite forallb_forall in H. apply H. apply all_idx_valid. assumption. Qed.

Definition mono_alongb (sh : list nat) (d : nat) (f : tens) : bool :=
  forallb (fun i => if (S (nth d i 0) <? nth d sh 0)%nat then Qle_bool (f i) (f (upd i d (S (nth d i 0%nat)))) else true)
          (all_idx sh).
Lemma mono_alongb_ok sh d f : mono_alongb sh d f = true -> mono_along sh d f.
Proof. intros H i Hv Hs. pose proof (forall_valid_check sh _ H i Hv) as Hc. cbv beta in Hc.
  apply Nat.ltb_lt in Hs. rewrite Hs in Hc. apply Qle_bool_iff. exact Hc. Qed.
Definition teqb (sh : list nat) (f g : tens) : bool := forallb (fun i => Qeq_bool (f i) (g i)) (all_idx sh).
Lemma teqb_ok sh f g : teqb sh f g = true -> teq sh f g.
Proof. intros H i Hv. pose proof (forall_valid_check sh _ H i Hv) as Hc. apply Qeq_bool_iff. exact Hc. Qed.
Definition in_rangeb (sh : list nat) (omin omax : option Q) (f : tens) : bool :=
  forallb (fun i => match omin with Some lo => Qle_bool lo (f i) | None => true end &&
                    match omax with Some hi => Qle_bool (f i) hi | None => true end) (all_idx sh).
Lemma in_rangeb_ok sh omin omax f : in_rangeb sh omin omax f = true -> lower_ok sh omin f /\ upper_ok sh omax f.
Proof. intros H. split; [destruct omin as [lo|]|destruct omax as [hi|]]; cbn; auto; intros i Hv;
  pose proof (forall_valid_check sh _ H i Hv) as Hc; cbv beta in Hc; apply andb_prop in Hc; destruct Hc as [H1 H2];
  apply Qle_bool_iff; assumption. Qed.

Definition edgeworth_holdsb (sh : list nat) (t : trust) (f : tens) : bool :=
  let '(m, c, dir) := t in
  forallb (fun b =>
    forallb (fun i =>
      forallb (fun j => if (0 <? dir)%Z then Qle_bool (esq f m c i j b) 0 else Qle_bool 0 (esq f m c i j b))
              (seq 0 (nth c sh 0%nat - 1)))
            (seq 0 (nth m sh 0%nat - 1)))
          (all_idx sh).
Lemma edgeworth_holdsb_ok sh t f : edgeworth_holdsb sh t f = true -> edgeworth_holds sh t f.
Proof. destruct t as [[m c] dir]. intros H b i j Hv Hi Hj.
  pose proof (forall_valid_check sh _ H b Hv) as Hb. cbv beta in Hb.
  rewrite forallb_forall in Hb. specialize (Hb i ltac:(apply in_seq; lia)).
  rewrite forallb_forall in Hb. specialize (Hb j ltac:(apply in_seq; lia)).
  destruct (0 <? dir)%Z; apply Qle_bool_iff; exact Hb. Qed.

Definition trapezoid_holdsb (sh : list nat) (t : trust) (f : tens) : bool :=
  let '(m, c, dir) := t in
  let mx := (nth m sh 0%nat - 1)%nat in
  forallb (fun b =>
    forallb (fun j =>
      if (0 <? dir)%Z
      then Qle_bool (f (at2 b m c 0%nat (S j))) (f (at2 b m c 0%nat j)) && Qle_bool (f (at2 b m c mx j)) (f (at2 b m c mx (S j)))
      else Qle_bool (f (at2 b m c 0%nat j)) (f (at2 b m c 0%nat (S j))) && Qle_bool (f (at2 b m c mx (S j))) (f (at2 b m c mx j)))
            (seq 0 (nth c sh 0%nat - 1)))
          (all_idx sh).
Lemma trapezoid_holdsb_ok sh t f : trapezoid_holdsb sh t f = true -> trapezoid_holds sh t f.
Proof. destruct t as [[m c] dir]. intros H b j Hv Hj.
  pose proof (forall_valid_check sh _ H b Hv) as Hb. cbv beta zeta in Hb.
  rewrite forallb_forall in Hb. specialize (Hb j ltac:(apply in_seq; lia)).
  destruct (0 <? dir)%Z; apply andb_prop in Hb; destruct Hb as [H1 H2]; split; apply Qle_bool_iff; assumption. Qed.

(* cfg_valid decided, for concrete configurations *)
Definition trust_okb (c : lat_cfg) (t : trust) : bool :=
  let '(m, cd, dir) := t in
  (m <? length (l_sizes c))%nat && (cd <? length (l_sizes c))%nat && (nth m (l_monos c) 0 =? 1)%Z &&
  ((dir =? 1) || (dir =? -1))%Z.
Definition all_pairsb {A} (r : A -> A -> bool) (l : list A) : bool := forallb (fun a => forallb (r a) l) l.
Definition cfg_validb (c : lat_cfg) : bool :=
  forallb (Nat.leb 2) (l_sizes c) && (1 <=? l_units c)%nat && (length (l_monos c) =? length (l_sizes c))%nat &&
  forallb (fun m => (m =? 0) || (m =? 1))%Z (l_monos c) && forallb (trust_okb c) (all_trusts c) &&
  all_pairsb (fun t1 t2 => negb (fst (fst t1) =? snd (fst t2))%nat) (all_trusts c) &&
  all_pairsb (fun t1 t2 => negb ((fst (fst t1) =? fst (fst t2))%nat && (snd (fst t1) =? snd (fst t2))%nat)
                           || (snd t1 =? snd t2)%Z) (all_trusts c) &&
  match l_min c, l_max c with Some lo, Some hi => negb (Qle_bool hi lo) | _, _ => true end.
Lemma all_pairsb_ok {A} r (l : list A) : all_pairsb r l = true -> forall a b, In a l -> In b l -> r a b = true.
Proof. intros H a b Ha Hb. unfold all_pairsb in H. rewrite forallb_forall in H. specialize (H a Ha).
  rewrite forallb_forall in H. exact (H b Hb). Qed.
Lemma cfg_validb_ok c : cfg_validb c = true -> cfg_valid c.
Proof. unfold cfg_validb. rewrite !andb_true_iff. intros (((((((H1 & H2) & H3) & H4) & H5) & H6) & H7) & H8).
  rewrite forallb_forall in H1, H4, H5. repeat split.
  - intros s Hs. apply Nat.leb_le. apply H1; exact Hs.
  - apply Nat.leb_le; exact H2.
  - apply Nat.eqb_eq; exact H3.
  - intros m Hm. specialize (H4 m Hm). apply orb_true_iff in H4. destruct H4 as [E|E]; apply Z.eqb_eq in E; auto.
  - intros [[m cd] dir] Ht. specialize (H5 _ Ht). unfold trust_okb in H5.
    rewrite !andb_true_iff, orb_true_iff, !Z.eqb_eq, !Nat.ltb_lt in H5. cbn. tauto.
  - intros t1 t2 Ht1 Ht2 E. pose proof (all_pairsb_ok _ _ H6 t1 t2 Ht1 Ht2) as H.
    cbv beta in H. rewrite E, Nat.eqb_refl in H. discriminate.
  - intros t1 t2 Ht1 Ht2 E. pose proof (all_pairsb_ok _ _ H7 t1 t2 Ht1 Ht2) as H.
    cbv beta in H. rewrite E, !Nat.eqb_refl in H. apply Z.eqb_eq; exact H.
  - destruct (l_min c), (l_max c); try exact I. apply Qnot_le_lt. intros Hle. apply Qle_bool_iff in Hle.
    rewrite Hle in H8. discriminate. Qed.

Lemma cfg_trust_dims c m cd dir : cfg_valid c -> In (m, cd, dir) (all_trusts c) ->
  (m < l_ud c)%nat /\ (cd < l_ud c)%nat /\ m <> cd /\ (dir = 1%Z \/ dir = (-1)%Z).
Proof. intros (_ & _ & _ & _ & Hok & Hmc & _) Hin. pose proof (Hok _ Hin) as (H1 & H2 & _ & H4).
  unfold l_ud. repeat split; auto. exact (Hmc _ _ Hin Hin). Qed.
Lemma cfg_trust_cross c t1 t2 : cfg_valid c -> In t1 (all_trusts c) -> In t2 (all_trusts c) ->
  fst (fst t1) <> snd (fst t2).
Proof. intros (_ & _ & _ & _ & _ & H & _). apply H. Qed.
Lemma cfg_trust_dir c t1 t2 : cfg_valid c -> In t1 (all_trusts c) -> In t2 (all_trusts c) ->
  fst t1 = fst t2 -> snd t1 = snd t2.
Proof. intros (_ & _ & _ & _ & _ & _ & H & _). apply H. Qed.
Lemma edge_in_all c t : In t (l_edge c) -> In t (all_trusts c).
Proof. intros H. apply in_or_app. left; exact H. Qed.
Lemma trap_in_all c t : In t (l_trap c) -> In t (all_trusts c).
Proof. intros H. apply in_or_app. right; exact H. Qed.
Lemma cfg_edge_dims c m cd dir : cfg_valid c -> In (m, cd, dir) (l_edge c) ->
  (m < l_ud c)%nat /\ (cd < l_ud c)%nat /\ m <> cd /\ (dir = 1%Z \/ dir = (-1)%Z).
Proof. intros Hc Hin. apply cfg_trust_dims; auto. apply edge_in_all; assumption. Qed.
Lemma cfg_trap_dims c m cd dir : cfg_valid c -> In (m, cd, dir) (l_trap c) ->
  (m < l_ud c)%nat /\ (cd < l_ud c)%nat /\ m <> cd /\ (dir = 1%Z \/ dir = (-1)%Z).
Proof. intros Hc Hin. apply cfg_trust_dims; auto. apply trap_in_all; assumption. Qed.
