(* C14 - alternative representations agree: lemmas.
   (a) KroneckerFactoredLattice == Lattice on dense_of_kfl
   (b) pwl_calibration_fn / cdf_fn == PWLCalibration / CDF layers
   (c) ParallelCombination  (d) Aggregation  (e) RTL call *)
From TFL Require Export Model.Representations.
From TFL Require Import Proofs.LatticeInterp.
Open Scope Q_scope.

(* (a) KFL == dense Lattice *)

(* partition of unity: a constant kernel interpolates to the constant *)
Lemma G_const sizes b z : inr sizes z -> G sizes (fun _ => b) z == b.
Proof. intros Hr. destruct (G_bounds sizes (fun _ => b) z b b Hr) as [H1 H2]. intros; lra. lra. Qed.
Lemma G_zero : forall sizes z, G sizes (fun _ => 0) z == 0.
Proof. induction sizes as [|s ss IH]; intros [|zd zs]; try reflexivity.
  rewrite G_cons. apply qsum_seq_zero. intros k _. cbv beta. rewrite IH. ring. Qed.

(* sum over the terms *)
Lemma G_qsum_map2 {A B} sizes z (F : A -> B -> idx -> Q) : forall su ku,
  G sizes (fun i => qsum (map2 (fun s vs => F s vs i) su ku)) z ==
  qsum (map2 (fun s vs => G sizes (F s vs) z) su ku).
Proof. induction su as [|s su IH]; intros ku.
  - cbn [map2 qsum]. apply G_zero.
  - destruct ku as [|vs ku]; cbn [map2 qsum]. apply G_zero.
    rewrite <- IH. apply (G_plus_K sizes (F s vs) (fun i => qsum (map2 (fun s0 vs0 => F s0 vs0 i) su ku))). Qed.

(* one dimension: depthwise_conv2d column == interp1 *)
(* sum_k w_k * v[k] with zip truncation == the weighted sum against v padded with zeros *)
Lemma conv_wsum (w : nat -> Q) : forall n off (v : list Q),
  qsum (map2 Qmult (map w (seq off n)) v) == qsum (map (fun k => w k * nth (k - off) v 0) (seq off n)).
Proof. induction n as [|n IH]; intros off v; cbn [seq map map2 qsum]. reflexivity.
  destruct v as [|a v]; cbn [map2 qsum].
  - rewrite (qsum_map_zero (fun k => w k * nth (k - off) [] 0)). destruct (off - off)%nat; cbn [nth]; ring.
    intros k _. destruct (k - off)%nat; cbn [nth]; ring.
  - rewrite IH. rewrite Nat.sub_diag. cbn [nth].
    rewrite (qsum_map_ext (fun k => w k * nth (k - S off) v 0) (fun k => w k * nth (k - off) (a :: v) 0)). reflexivity.
    intros k Hk. apply in_seq in Hk. replace (k - off)%nat with (S (k - S off)) by lia. reflexivity. Qed.

Lemma kfl_weights_hat L x k : (2 <= L)%nat -> 0 <= x -> x <= qn L - 1 -> (k < L)%nat ->
  nth k (KFL.interp_weights L x) 0 == hat x k.
Proof. intros HL H0 H1 Hk. unfold KFL.interp_weights. destruct (Nat.eqb_spec L 2) as [->|Hne].
  - assert (E2 : qn 2 == 2) by reflexivity. rewrite E2 in H1.
    destruct k as [|[|k]]; try lia; cbn [nth]; unfold hat.
    + rewrite qn_0. qcases; lra.
    + assert (E1 : qn 1 == 1) by reflexivity. rewrite E1. qcases; lra.
  - rewrite (nth_map_seq (fun i => KFL.hat (KFL.qn i - x)) L k 0 Hk). unfold KFL.hat, hat.
    change (KFL.qn k) with (qn k). qcases; lra. Qed.

Lemma pwl1d_interp1 clip L v x : (2 <= L)%nat -> clip = true \/ (0 <= x /\ x <= qn L - 1) ->
  KFL.pwl1d L v (KFL.clip_in clip L x) == interp1 L (fun k => nth k v 0) (effc clip L x).
Proof. intros HL Hx. unfold KFL.pwl1d.
  assert (Ez : KFL.clip_in clip L x = effc clip L x) by reflexivity. rewrite Ez.
  set (z := effc clip L x).
  assert (Hz : 0 <= z /\ z <= qn L - 1) by (apply effc_range; assumption).
  assert (Ew : KFL.interp_weights L z = map (fun k => nth k (KFL.interp_weights L z) 0) (seq 0 L)).
  { unfold KFL.interp_weights. destruct (Nat.eqb_spec L 2) as [->|Hne]. reflexivity.
    apply map_ext_in. intros k Hk. apply in_seq in Hk.
    rewrite (nth_map_seq (fun i => KFL.hat (KFL.qn i - z)) L k 0) by lia. reflexivity. }
  rewrite Ew, conv_wsum. unfold interp1, wsum. apply qsum_seq_ext. intros k Hk.
  rewrite Nat.sub_0_r. rewrite kfl_weights_hat by (try lia; tauto). reflexivity. Qed.

Lemma qprod_proper_cons a a' r r' : a == a' -> KFL.qprod r == KFL.qprod r' -> KFL.qprod (a :: r) == KFL.qprod (a' :: r').
Proof. intros Ha Hr. cbn [KFL.qprod]. rewrite Ha, Hr. reflexivity. Qed.

(* hypercube interpolation of an outer product is the product of the 1-D interpolants *)
Lemma G_outer_product clip L : (2 <= L)%nat -> forall dims (vs : KFL.term) xs,
  length vs = dims -> length xs = dims -> clip = true \/ inr (repeat L dims) xs ->
  G (repeat L dims) (fun i => KFL.qprod (map2 (fun (v : list Q) (k : nat) => nth k v 0) vs i))
    (eff clip (repeat L dims) xs) ==
  KFL.qprod (map2 (KFL.pwl1d L) vs (map (KFL.clip_in clip L) xs)).
Proof. intros HL. induction dims as [|dims IH]; intros vs xs Hv Hx Hr.
  - destruct vs; [|discriminate]. destruct xs; [|discriminate]. destruct clip; reflexivity.
  - destruct vs as [|v vs]; [discriminate|]. destruct xs as [|xd xs]; [discriminate|].
    cbn [repeat] in *. rewrite eff_cons, G_cons. cbn [map map2 KFL.qprod].
    destruct (inr_or_cons Hr) as [Hd Hr'].
    rewrite (pwl1d_interp1 clip L v xd HL Hd).
    rewrite <- (IH vs xs ltac:(cbn in Hv; lia) ltac:(cbn in Hx; lia) Hr').
    unfold interp1. rewrite Qmult_comm, <- wsum_scale_a. apply wsum_ext. reflexivity.
    intros k _. rewrite G_scale_K. ring. Qed.

Lemma qmean_G {A B} sizes z (F : A -> B -> idx -> Q) su ku : length z = length sizes ->
  G sizes (fun i => KFL.qmean (map2 (fun s vs => F s vs i) su ku)) z ==
  KFL.qmean (map2 (fun s vs => G sizes (F s vs) z) su ku).
Proof. intros Hl. unfold KFL.qmean.
  set (c := / KFL.qn (Nat.min (length su) (length ku))).
  transitivity (G sizes (fun i => c * qsum (map2 (fun s vs => F s vs i) su ku)) z).
  - apply G_ext_K. exact Hl. intros i _. rewrite map2_length. unfold Qdiv, c. ring.
  - rewrite G_scale_K, (G_qsum_map2 sizes z F su ku), map2_length. unfold Qdiv, c. ring. Qed.

Definition terms_wf (dims : nat) (ku : list KFL.term) : Prop := Forall (fun vs : KFL.term => length vs = dims) ku.

Lemma kfl_unit_dense clip L dims su ku b xs : (2 <= L)%nat -> terms_wf dims ku -> length xs = dims ->
  clip = true \/ inr (repeat L dims) xs ->
  KFL.unit_eval clip L su ku b xs ==
  G (repeat L dims) (dense_vertex su ku b) (eff clip (repeat L dims) xs).
Proof. intros HL Hwf Hx Hr. unfold KFL.unit_eval, dense_vertex.
  assert (Hl : length (eff clip (repeat L dims) xs) = length (repeat L dims))
    by (apply eff_length; rewrite repeat_length; exact Hx).
  assert (Hin : inr (repeat L dims) (eff clip (repeat L dims) xs)).
  { apply eff_inr. unfold sizes_ok. apply Forall_forall. intros s Hs. apply repeat_spec in Hs. lia.
    split. rewrite repeat_length; exact Hx. exact Hr. }
  rewrite (G_plus_K (repeat L dims) (fun i => KFL.qmean (map2 (fun s vs => term_vertex s vs i) su ku)) (fun _ => b)).
  rewrite G_const by exact Hin. rewrite (qmean_G (repeat L dims) _ term_vertex su ku Hl).
  unfold KFL.qmean, Qdiv. rewrite !map2_length. apply Qplus_comp; [|reflexivity]. apply Qmult_comp; [|reflexivity].
  apply qsum_map2_ext_in. intros s vs Hvs. unfold KFL.term_out, term_vertex.
  rewrite G_scale_K. rewrite (G_outer_product clip L HL dims vs xs). reflexivity.
  unfold terms_wf in Hwf. rewrite Forall_forall in Hwf. apply Hwf; exact Hvs. exact Hx. exact Hr. Qed.

Lemma kern_dense L dims units p u i : (u < units)%nat -> valid (kfl_sizes L dims) i ->
  kern (kfl_sizes L dims) (dense_of_kfl L dims units p) u i ==
  dense_vertex (nth u (KFL.p_scale p) []) (nth u (KFL.p_kern p) []) (nth u (KFL.p_bias p) 0) i.
Proof. intros Hu Hi. unfold kern, of_list. rewrite memo_ok by exact Hi. rewrite nth_column.
  unfold dense_of_kfl. rewrite (nth_map_lt _ _ _ [] []) by (rewrite all_idx_length; apply flat_lt, Hi).
  rewrite nth_flat_all_idx by exact Hi.
  rewrite (nth_map_seq _ units u 0 Hu). apply Qred_correct. Qed.

Theorem kfl_equals_dense tensor c p u xs dims units :
  (2 <= KFL.c_size c)%nat -> (1 <= dims)%nat -> (u < units)%nat ->
  terms_wf dims (nth u (KFL.p_kern p) []) -> length xs = dims ->
  KFL.c_clip c = true \/ inr (kfl_sizes (KFL.c_size c) dims) xs ->
  KFL.unit_out c p u xs ==
  unit_fn Hypercube tensor (KFL.c_clip c) units (kfl_sizes (KFL.c_size c) dims)
          (dense_of_kfl (KFL.c_size c) dims units p) u xs.
Proof. intros HL Hd Hu Hwf Hx Hr. unfold kfl_sizes in *.
  rewrite unit_fn_hyper.
  2:{ rewrite repeat_length; exact Hx. }
  2:{ destruct dims; [lia|discriminate]. }
  rewrite hyper_unit_G by (split; [rewrite repeat_length; exact Hx|exact Hr]).
  unfold KFL.unit_out. rewrite (kfl_unit_dense _ _ dims _ _ _ _ HL Hwf Hx Hr).
  apply G_ext_K.
  - apply eff_length. rewrite repeat_length; exact Hx.
  - intros i Hi. symmetry. apply (kern_dense (KFL.c_size c) dims units p u i Hu Hi). Qed.

(* (c) ParallelCombination *)
Lemma map_seq_nth {A B} (F : A -> B) (d : A) : forall m : list A,
  map (fun b => F (nth b m d)) (seq 0 (length m)) = map F m.
Proof. intros m. rewrite <- (map_map (fun b => nth b m d) F), map_nth_seq. reflexivity. Qed.

Lemma skipn_nth_cons {A} (d : A) : forall (r : list A) off, (off < length r)%nat ->
  skipn off r = nth off r d :: skipn (S off) r.
Proof. induction r as [|a r IH]; intros off H; cbn in H. lia.
  destruct off as [|off]. reflexivity. cbn [skipn nth]. rewrite (IH off) by lia. reflexivity. Qed.

Definition app1 (g : Q -> Q) (x : Q) : Q := g x.

(* row b of the concatenated outputs of pointwise calibrators *)
Lemma pc_row (m : mat) b : (b < length m)%nat -> forall (gs : list (Q -> Q)) off,
  length (nth b m []) = (off + length gs)%nat ->
  concat (map (fun o : mat => nth b o [])
              (map2 (fun (f : layer_fn) c => f c) (map pointwise gs)
                    (map (fun j => map (fun r : list Q => [nth j r 0]) m) (seq off (length gs))))) =
  map2 app1 gs (skipn off (nth b m [])).
Proof. intros Hb. induction gs as [|g gs IH]; intros off Hl. reflexivity.
  cbn [length seq map map2 concat]. rewrite (skipn_nth_cons 0 (nth b m []) off) by (cbn in Hl; lia).
  cbn [map2]. rewrite IH by (cbn in Hl; lia). unfold pointwise at 1. rewrite map_map. cbn [nth].
  rewrite (nth_map_lt (fun r : list Q => [g (nth off r 0)]) m b [] []) by exact Hb. reflexivity. Qed.

Theorem pc_pointwise (gs : list (Q -> Q)) (m : mat) : gs <> [] -> m <> [] ->
  (forall r, In r m -> length r = length gs) ->
  pc_call (map pointwise gs) true (PCTensor m) = Some (PCSingle (map (fun r => map2 app1 gs r) m)).
Proof. intros Hg Hm Hr. unfold pc_call.
  assert (Hw : width m = length gs).
  { unfold width. destruct m as [|r0 m]; [congruence|]. apply Hr. left; reflexivity. }
  unfold split_cols. rewrite !map_length, seq_length, Hw, Nat.eqb_refl. cbn [negb].
  set (outs := map2 _ _ _).
  assert (Hb : length (hd [] outs) = length m).
  { unfold outs. destruct gs as [|g gs]; [congruence|]. cbn [length seq map map2 hd]. unfold pointwise.
    rewrite !map_length. reflexivity. }
  rewrite Hb. unfold concat_cols. f_equal. f_equal.
  rewrite <- (map_seq_nth (fun r => map2 app1 gs r) [] m). apply map_ext_in. intros b Hbb. apply in_seq in Hbb.
  unfold outs. apply (pc_row m b ltac:(lia) gs 0%nat).
  cbn [Nat.add]. apply Hr. apply nth_In. lia. Qed.

(* for ARBITRARY layer functions: tensor input == list input of its columns;
   single_output == concat of the list output; the list output is the list of
   the layers applied to their own column *)
Lemma pc_forms (layers : list layer_fn) (m : mat) (cols : list mat) :
  (forall single, pc_call layers single (PCTensor m) = pc_call layers single (PCList (split_cols m))) /\
  (length cols = length layers ->
   pc_call layers false (PCList cols) = Some (PCMulti (map2 (fun (f : layer_fn) c => f c) layers cols)) /\
   pc_call layers true (PCList cols) =
     Some (PCSingle (concat_cols (length (hd [] (map2 (fun (f : layer_fn) c => f c) layers cols)))
                                 (map2 (fun (f : layer_fn) c => f c) layers cols)))) /\
  (length cols <> length layers -> forall single, pc_call layers single (PCList cols) = None).
Proof. split; [|split].
  - reflexivity.
  - intros H. unfold pc_call. rewrite H, Nat.eqb_refl. split; reflexivity.
  - intros H single. unfold pc_call. apply Nat.eqb_neq in H. rewrite H. reflexivity. Qed.

(* (d) Aggregation *)
Lemma firstn_skipn_app {A} : forall (a b : list A), firstn (length a) (a ++ b) = a /\ skipn (length a) (a ++ b) = b.
Proof. induction a as [|x a IH]; intros b; cbn [length app firstn skipn]. split; reflexivity.
  destruct (IH b) as [H1 H2]. rewrite H1, H2. split; reflexivity. Qed.

Lemma unflatten_concat {A B} (g : A -> B) : forall x : list (list A),
  unflatten (map (@length _) x) (map g (concat x)) = map (map g) x.
Proof. induction x as [|r x IH]; cbn [map concat unflatten]. reflexivity.
  rewrite map_app. rewrite <- (map_length g r).
  destruct (firstn_skipn_app (map g r) (map g (concat x))) as [H1 H2]. rewrite H1, H2, IH. reflexivity. Qed.

(* for every row-wise model and ragged rows of any lengths *)
Theorem aggregation_mean (g : list Q -> Q) (x : list (list (list Q))) :
  aggregation (rowwise g) x = map (fun row => KFL.qmean (map g row)) x.
Proof. unfold aggregation, rowwise. rewrite unflatten_concat, map_map. reflexivity. Qed.

(* (e) RTL call *)
Lemma entry_out_unitwise ufn flat e :
  entry_out (unitwise ufn) flat e =
  map (slot_out ufn flat) (map (fun u => (fst e, u, nth u (snd e) [])) (seq 0 (length (snd e)))).
Proof. unfold entry_out, unitwise. rewrite map_length, map_map. apply map_ext. intros u.
  unfold slot_out. cbn [fst snd]. f_equal.
  change (@nil Q) with (gather flat []) at 1. apply map_nth. Qed.

Lemma bucket_slots ufn flat s label :
  concat (bucket (unitwise ufn) flat s label) = map (slot_out ufn flat) (lattice_slots s label).
Proof. unfold bucket, lattice_slots. induction (entries s label) as [|e l IH]; cbn [map concat flat_map]. reflexivity.
  rewrite map_app, IH, entry_out_unitwise. reflexivity. Qed.

(* the slots are exactly the lattices RTLStructure.rtl_outputs attributes to the label *)
Lemma slots_are_rtl_outputs s :
  map snd (lattice_slots s 0) = fst (RTLStructure.rtl_outputs s) /\
  map snd (lattice_slots s 1) = snd (RTLStructure.rtl_outputs s).
Proof. unfold lattice_slots, RTLStructure.rtl_outputs. cbn [fst snd].
  assert (H : forall l : RTLStructure.structure,
    map snd (flat_map (fun e => map (fun u => (fst e, u, nth u (snd e) [])) (seq 0 (length (snd e)))) l) =
    concat (map snd l)).
  { induction l as [|e l IH]; cbn [flat_map map concat]. reflexivity.
    rewrite map_app, IH, map_map. cbn [snd]. rewrite (map_seq_nth (fun i : list nat => i) [] (snd e)), map_id. reflexivity. }
  split; apply H. Qed.

Theorem rtl_is_gather ufn s inc unc :
  let flat := rtl_flat inc unc in
  let o0 := map (slot_out ufn flat) (lattice_slots s 0) in
  let o1 := map (slot_out ufn flat) (lattice_slots s 1) in
  rtl_call (unitwise ufn) s false false inc unc = RJoint (o0 ++ o1) /\
  rtl_call (unitwise ufn) s false true inc unc = RJoint [KFL.qmean (o0 ++ o1)] /\
  (forall average, rtl_call (unitwise ufn) s true average inc unc = RSep (if_entries s 0 o0) (if_entries s 1 o1)).
Proof. intros flat o0 o1. unfold rtl_call. fold flat. rewrite concat_app, !bucket_slots. fold o0 o1.
  split; [reflexivity|split; [reflexivity|]]. intros _.
  assert (H : forall label, opt_concat (bucket (unitwise ufn) flat s label) =
                            if_entries s label (map (slot_out ufn flat) (lattice_slots s label))).
  { intros label. rewrite <- bucket_slots. unfold bucket, if_entries. destruct (entries s label); reflexivity. }
  rewrite !H. reflexivity. Qed.

(* (b1) pwl_calibration_fn == PWLCalibration on the derived parameters *)
Definition nonzero (l : list Q) : Prop := Forall (fun d => ~ d == 0) l.

Lemma wclip_nonzero x kp len : ~ len == 0 -> CondPWL.wclip x kp len = qmax (qmin ((x - kp) / len) 1) 0.
Proof. intros H. unfold CondPWL.wclip. destruct (Qeq_bool len 0) eqn:E.
  apply Qeq_bool_iff in E. contradiction. reflexivity. Qed.

(* the interpolation stage, segment by segment: keypoint a == acc + imin *)
Lemma pwl_segments x imin : forall ds a acc kos, a == acc + imin -> nonzero ds ->
  qsum (map2 Qmult (map2 (CondPWL.wclip x) (map (fun s => s + imin) (CondPWL.cumsum_excl acc ds)) ds) kos) ==
  PWLEval.dot (PWLEval.interp_w x (PWLEval.kp_lefts (a :: PWLEval.cumsum_incl a ds))
                                  (PWLEval.kp_diffs (a :: PWLEval.cumsum_incl a ds))) kos.
Proof. induction ds as [|d ds IH]; intros a acc kos Ha Hnz. reflexivity.
  inversion Hnz as [|d' ds' Hd Hds]; subst.
  cbn [PWLEval.cumsum_incl CondPWL.cumsum_excl map map2 PWLEval.kp_lefts PWLEval.kp_diffs].
  cbn [PWLEval.interp_w]. destruct kos as [|k kos]; cbn [map2 qsum PWLEval.dot]. reflexivity.
  rewrite (IH (a + d) (acc + d) kos) by (try assumption; rewrite Ha; ring).
  rewrite wclip_nonzero by exact Hd.
  assert (E : (x - (acc + imin)) / d == (x - a) / (a + d - a)).
  { assert (E1 : a + d - a == d) by ring. rewrite E1, Ha. reflexivity. }
  rewrite E. reflexivity. Qed.

Theorem pwl_interp_equals_layer x imin deltas kos : nonzero deltas ->
  CondPWL.interp x (map (fun s => s + imin) (CondPWL.cumsum_excl 0 deltas)) deltas kos ==
  PWLEval.pwl_fn (PWLEval.kp_lefts (layer_keypoints imin deltas)) (PWLEval.kp_diffs (layer_keypoints imin deltas)) kos x.
Proof. intros Hnz. unfold CondPWL.interp, CondPWL.interp_weights, PWLEval.pwl_fn, PWLEval.interpolation_weights, layer_keypoints.
  destruct kos as [|k kos]; cbn [map2 qsum PWLEval.dot]. reflexivity.
  rewrite (pwl_segments x imin deltas imin 0 kos) by (try assumption; ring). reflexivity. Qed.

(* the whole per-(row, unit) function of pwl_calibration_fn, for ANY softmax /
   sigmoid whose derived keypoint deltas are non-zero, when no missing value
   is configured: the PWLCalibration calibration function on the derived
   keypoints and the derived kernel column [y0, dy1, dy2, ...] *)
Theorem pwl_fn_equals_layer sm sg c kip kop x :
  CondPWL.p_min c = None -> nonzero (CondPWL.key_deltas sm c kip) ->
  let ks := layer_keypoints (CondPWL.p_imin c) (CondPWL.key_deltas sm c kip) in
  CondPWL.pwl_row sm sg c kip kop x ==
  PWLEval.pwl_fn (PWLEval.kp_lefts ks) (PWLEval.kp_diffs ks) (CondPWL.derived_outputs sm sg c kop) x.
Proof. intros Hm Hnz ks. unfold CondPWL.pwl_row. rewrite Hm. unfold CondPWL.keypoints, CondPWL.derived_outputs.
  apply pwl_interp_equals_layer. exact Hnz. Qed.

(* the multi-unit layer with shared keypoints: unit u applies the calibration
   function of kernel column u to its own input, or to the only one *)
Theorem pwl_layer_call_multi units ks kernel row :
  length row = units \/ length row = 1%nat ->
  PWLEval.pwl_call (PWLEval.build_fixed units ks false kernel false None None [] false) false [row] None =
  Some [[map (fun u => PWLEval.pwl_fn (PWLEval.kp_lefts ks) (PWLEval.kp_diffs ks) (column u kernel)
                         (nth (if (length row =? 1)%nat then 0%nat else u) row 0))
             (seq 0 units)]].
Proof. intros Hlen. unfold PWLEval.pwl_call, PWLEval.build_fixed.
  cbn -[PWLEval.pwl_fn PWLEval.kp_lefts PWLEval.kp_diffs column Nat.eqb Nat.ltb seq].
  rewrite Nat.eqb_refl. cbn [andb negb orb].
  assert (C : ((length row =? units) || (length row =? 1))%nat = true).
  { destruct Hlen as [->| ->]. rewrite Nat.eqb_refl. reflexivity. apply orb_true_r. }
  rewrite C. cbn [negb].
  unfold PWLEval.split_result, PWLEval.call_row, PWLEval.calib_row, PWLEval.expands, PWLEval.bias_and_heights,
    PWLEval.unit_lefts, PWLEval.unit_lens, PWLEval.unit_row.
  cbn -[PWLEval.pwl_fn PWLEval.kp_lefts PWLEval.kp_diffs column Nat.eqb Nat.ltb seq PWLEval.interpolation_weights PWLEval.dot].
  rewrite andb_false_r. rewrite orb_false_r.
  destruct (1 <? length row)%nat eqn:E1.
  - reflexivity.
  - destruct (length row =? 1)%nat eqn:E2; [reflexivity|].
    apply Nat.ltb_ge in E1. apply Nat.eqb_neq in E2.
    assert (U : units = 0%nat) by (destruct Hlen; lia). subst units. reflexivity. Qed.

(* one unit, kernel column [y0, dy1, dy2, ...]: the calibration function of
   pwl_fn_equals_layer is what the built single-unit layer's call() returns *)
Theorem pwl_layer_call ks kos x :
  PWLEval.pwl_call (PWLEval.build_fixed 1 ks false (map (fun v => [v]) kos) false None None [] false)
                   false [[x]] None =
  Some [[[PWLEval.pwl_fn (PWLEval.kp_lefts ks) (PWLEval.kp_diffs ks) kos x]]].
Proof. rewrite (pwl_layer_call_multi 1 ks _ [x]) by (left; reflexivity).
  cbn [seq map length Nat.eqb nth]. rewrite column0_singletons. reflexivity. Qed.

(* missing value with a given missing_output_value: tf.where(equal(x, m), v, out)
   on the functional side, is_missing * v + (1 - is_missing) * out in the layer *)
Theorem pwl_fn_equals_layer_missing sm sg c kip kop x m v :
  CondPWL.p_min c = Some m -> CondPWL.p_mout c = Some v -> nonzero (CondPWL.key_deltas sm c kip) ->
  let ks := layer_keypoints (CondPWL.p_imin c) (CondPWL.key_deltas sm c kip) in
  let f := PWLEval.pwl_fn (PWLEval.kp_lefts ks) (PWLEval.kp_diffs ks) (CondPWL.derived_outputs sm sg c kop) x in
  let mu := if Qeq_bool x m then 1 else 0 in
  CondPWL.pwl_row sm sg c kip kop x == mu * v + (1 - mu) * f.
Proof. intros Hm Hv Hnz ks f mu. unfold CondPWL.pwl_row, CondPWL.split_missing. rewrite Hm, Hv. cbn [fst snd].
  unfold mu. destruct (Qeq_bool x m). ring.
  unfold f, ks, CondPWL.keypoints, CondPWL.derived_outputs, CondPWL.split_missing. rewrite Hm, Hv. cbn [snd].
  rewrite pwl_interp_equals_layer by exact Hnz. ring. Qed.

Theorem pwl_layer_call_missing ks kos x m v :
  PWLEval.pwl_call (PWLEval.build_fixed 1 ks false (map (fun v => [v]) kos) true (Some m) (Some v) [] false)
                   false [[x]] None =
  Some [[[(if Qeq_bool x m then 1 else 0) * v +
          (1 - (if Qeq_bool x m then 1 else 0)) * PWLEval.pwl_fn (PWLEval.kp_lefts ks) (PWLEval.kp_diffs ks) kos x]]].
Proof. unfold PWLEval.pwl_call, PWLEval.build_fixed. cbn -[PWLEval.pwl_fn PWLEval.kp_lefts PWLEval.kp_diffs column].
  unfold PWLEval.call_row, PWLEval.mix_row, PWLEval.calib_row, PWLEval.expands, PWLEval.bias_and_heights, PWLEval.equal_flags.
  cbn -[PWLEval.pwl_fn PWLEval.kp_lefts PWLEval.kp_diffs column PWLEval.interpolation_weights PWLEval.dot Qeq_bool Qmult Qplus Qminus].
  rewrite column0_singletons. reflexivity. Qed.

(* (b2) cdf_fn == CDF layer (mean / none reductions) *)
Definition leq (a b : list Q) : Prop := Forall2 Qeq a b.
Definition meq (a b : mat) : Prop := Forall2 leq a b.
Definition opt_meq (a b : option mat) : Prop :=
  match a, b with Some x, Some y => meq x y | None, None => True | _, _ => False end.

Lemma meq_column u a b : meq a b -> leq (column u a) (column u b).
Proof. unfold column. induction 1 as [|x y a b H _ IH]; cbn [map]; constructor. apply qleq_nth; exact H. exact IH. Qed.
Lemma meq_concat a b : meq a b -> leq (concat a) (concat b).
Proof. induction 1 as [|x y a b H _ IH]; cbn [concat]. constructor. apply qleq_app; assumption. Qed.
Lemma cdf_qmean_proper a b : leq a b -> CDF.qmean a == CDF.qmean b.
Proof. exact (qavg_proper a b). Qed.

Lemma reshape2_proper rows cols a b : meq a b -> meq (CDF.reshape2 rows cols a) (CDF.reshape2 rows cols b).
Proof. intros H. unfold CDF.reshape2. apply Forall2_map_seq. intros i _. apply Forall2_map_seq. intros u _.
  apply qleq_nth. apply meq_concat. exact H. Qed.

Lemma reduce_proper ex lg r eps eps' n n' units a b : r = CDF.RMean \/ r = CDF.RNone -> meq a b ->
  meq (CDF.reduce ex lg r eps n units a) (CDF.reduce ex lg r eps' n' units b).
Proof. intros [->| ->] H; cbn [CDF.reduce]. 2: exact H.
  constructor; [|constructor]. apply Forall2_map_seq. intros u _. apply cdf_qmean_proper. apply meq_column. exact H. Qed.

Lemma basis_proper sg a zs zs' : (forall p q, p == q -> sg p == sg q) -> leq zs zs' -> CDF.basis sg a zs == CDF.basis sg a zs'.
Proof. intros Hsg H. assert (M : forall f : Q -> Q, (forall p q, p == q -> f p == f q) -> leq (map f zs) (map f zs')).
  { intros f Hf. induction H as [|x y zs zs' E _ IH]; cbn [map]; constructor. apply Hf; exact E. exact IH. }
  assert (R : leq (map CDF.relu6 zs) (map CDF.relu6 zs')).
  { apply M. intros p q E. unfold CDF.relu6. rewrite E. reflexivity. }
  assert (S : leq (map sg zs) (map sg zs')) by (apply M; exact Hsg).
  unfold CDF.basis. destruct a; try rewrite (cdf_qmean_proper _ _ R); try rewrite (cdf_qmean_proper _ _ S); reflexivity. Qed.

(* the scaling_parameters tensor built from the layer's input_scaling reads back that scaling *)
Lemma cdf_scaling_read D scaling i k v : (i < D)%nat ->
  CondPWL.bsel 0 v (CondPWL.bsel [] k (CondPWL.bsel [] i (cdf_scaling_param D scaling))) = CondPWL.bsel 0 i scaling.
Proof. intros Hi. unfold cdf_scaling_param.
  assert (E : CondPWL.bsel [] i (map (fun i0 => [[CondPWL.bsel 0 i0 scaling]]) (seq 0 D)) = [[CondPWL.bsel 0 i scaling]]).
  { unfold CondPWL.bsel at 1. rewrite map_length, seq_length. destruct (Nat.eqb_spec D 1) as [->|Hne].
    - assert (i = 0%nat) by lia. subst i. reflexivity.
    - rewrite (nth_map_seq (fun i0 => [[CondPWL.bsel 0 i0 scaling]]) D i [] Hi). reflexivity. }
  rewrite E. reflexivity. Qed.

Lemma cdf_cells_eq sg ex a kernel scaling x uf : (forall p q, p == q -> sg p == sg q) -> length x = length kernel ->
  meq (CDF.cdf_cells sg ex a None x kernel (Some (cdf_scaling_param (length x) scaling)) uf)
      (CDF.layer_cells sg a kernel scaling x uf).
Proof. intros Hsg Hl. unfold CDF.cdf_cells, CDF.layer_cells. rewrite <- Hl. apply Forall2_map_seq. intros i Hi.
  apply Forall2_map_seq. intros v _. apply basis_proper. exact Hsg. apply Forall2_map_seq. intros k _.
  rewrite cdf_scaling_read by apply Hi. cbn [CDF.scale_of].
  assert (E : CondPWL.bsel 0 i x = nth i x 0).
  { unfold CondPWL.bsel. destruct (Nat.eqb_spec (length x) 1) as [E1|_]; [|reflexivity].
    assert (i = 0%nat) by lia. subst i. reflexivity. }
  rewrite E. ring. Qed.

Theorem cdf_fn_equals_layer sg ex lg a r units sf kernel scaling x :
  (forall p q, p == q -> sg p == sg q) -> r = CDF.RMean \/ r = CDF.RNone ->
  length x = length kernel -> CDF.verify_cdf a r (length x) units sf kernel = true ->
  opt_meq (CDF.cdf_fn sg ex lg a r units sf None x kernel (Some (cdf_scaling_param (length x) scaling)))
          (CDF.cdf_layer sg ex lg a r units sf kernel scaling x).
Proof. intros Hsg Hr Hl Hv. unfold CDF.cdf_fn, CDF.cdf_layer. rewrite Hv. cbn [negb].
  pose proof Hv as Hv'. unfold CDF.verify_cdf in Hv'. repeat rewrite andb_true_iff in Hv'.
  destruct Hv' as [[[[[[Ha Hrd] Hsf] Hu] Hd] _] _].
  rewrite <- Hl. rewrite Ha, Hrd, Hsf, Hu, Hd, Nat.eqb_refl. cbn [andb orb negb].
  pose proof (cdf_cells_eq sg ex a kernel scaling x (units / sf) Hsg Hl) as C.
  destruct (sf =? 1)%nat; cbn [opt_meq].
  - apply reduce_proper; assumption.
  - apply reduce_proper. assumption. apply reshape2_proper. exact C. Qed.

(* Examples: the hypotheses of every implication are satisfiable *)
Definition ex_cfg (clip : bool) : KFL.config := KFL.mkCfg 3 None None None clip.
(* 2 units, 2 terms, 2 dims, 3 vertices *)
Definition ex_par : KFL.params :=
  KFL.mkPar [ [ [[1; 2; 4]; [0; 1; -1]]; [[1#2; 0; 3]; [2; 2; 1]] ];
              [ [[-1; 0; 1]; [1; 3; 2]];  [[0; 1; 0]; [1; -2; 5]] ] ]
            [[1; -2]; [3#2; 1#4]] [1#2; -3].
Example ex_kfl_hyps_in_range :
  (2 <= KFL.c_size (ex_cfg false))%nat /\ (1 <= 2)%nat /\ (1 < 2)%nat /\
  terms_wf 2 (nth 1 (KFL.p_kern ex_par) []) /\ length [1#2; 3#2] = 2%nat /\
  (KFL.c_clip (ex_cfg false) = true \/ inr (kfl_sizes 3 2) [1#2; 3#2]) /\
  Qeq_bool (KFL.unit_out (ex_cfg false) ex_par 1 [1#2; 3#2])
           (unit_fn Hypercube true false 2 (kfl_sizes 3 2) (dense_of_kfl 3 2 2 ex_par) 1 [1#2; 3#2]) = true.
Proof. repeat split; try (cbn; lia); try reflexivity.
  - repeat constructor.
  - right. unfold inr, kfl_sizes. cbn [repeat].
    assert (E : qn 3 - 1 == 2) by reflexivity.
    repeat (constructor; [rewrite E; split; lra|]). constructor.
Qed.
Example ex_kfl_hyps_clipped :
  KFL.c_clip (ex_cfg true) = true /\
  Qeq_bool (KFL.unit_out (ex_cfg true) ex_par 0 [-(1#2); 7#2])
           (unit_fn Hypercube true true 2 (kfl_sizes 3 2) (dense_of_kfl 3 2 2 ex_par) 0 [-(1#2); 7#2]) = true.
Proof. split; reflexivity. Qed.

(* a stand-in softmax (uniform) and sigmoid for the satisfiability examples *)
Definition ex_sm (l : list Q) : list Q := map (fun _ => 1 / inject_Z (Z.of_nat (length l))) l.
Definition ex_sg (z : Q) : Q := 1 # 2.
Definition ex_pcfg (mi mo : option Q) : CondPWL.pcfg :=
  CondPWL.mkP (-1) 3 0 2 1 CondPWL.MonoInc false true false mi mo.
Ltac nonzero_tac := unfold nonzero; vm_compute; repeat (constructor; [discriminate|]); constructor.
Example ex_pwl_hyps :
  CondPWL.p_min (ex_pcfg None None) = None /\
  nonzero (CondPWL.key_deltas ex_sm (ex_pcfg None None) (Some [1; 2; 3])).
Proof. split. reflexivity. nonzero_tac. Qed.
Example ex_pwl_missing_hyps :
  CondPWL.p_min (ex_pcfg (Some 7) (Some 5)) = Some 7 /\ CondPWL.p_mout (ex_pcfg (Some 7) (Some 5)) = Some 5 /\
  nonzero (CondPWL.key_deltas ex_sm (ex_pcfg (Some 7) (Some 5)) None).
Proof. split; [reflexivity|split; [reflexivity|nonzero_tac]]. Qed.

(* input_dim 2, 3 keypoints, units 2, sparsity 2 -> last kernel axis 1 *)
Definition ex_cdf_kernel : list (list (list Q)) := [[[0]; [1#2]; [1]]; [[1#4]; [1#2]; [3#4]]].
Example ex_cdf_hyps :
  (forall p q, p == q -> CDF.relu6 p == CDF.relu6 q) /\ length [1#3; 2] = length ex_cdf_kernel /\
  CDF.verify_cdf CDF.Relu6 CDF.RNone (length [1#3; 2]) 2 2 ex_cdf_kernel = true /\
  CDF.verify_cdf CDF.Sigmoid CDF.RMean (length [1#3; 2]) 2 2 ex_cdf_kernel = true.
Proof. split. intros p q E. unfold CDF.relu6. rewrite E. reflexivity. repeat split; reflexivity. Qed.

Example ex_pc_hyps : [CDF.relu6; Qplus 1] <> [] /\ [[1; 2]; [3; 4]] <> [] /\
  (forall r, In r [[1; 2]; [3; 4]] -> length r = length [CDF.relu6; Qplus 1]).
Proof. split; [discriminate|split; [discriminate|]]. intros r [<-|[<-|[]]]; reflexivity. Qed.

(* (a) at the level of the whole layers: all units of one batch point *)
Lemma map2_seq_nth {B} (F : nat -> list Q -> B) : forall (pt : list (list Q)) off,
  map2 (fun (f : list Q -> B) x => f x) (map F (seq off (length pt))) pt =
  map (fun u => F u (nth (u - off) pt [])) (seq off (length pt)).
Proof. induction pt as [|r pt IH]; intros off; cbn [length seq map map2]. reflexivity.
  rewrite Nat.sub_diag. cbn [nth]. f_equal. rewrite IH. apply map_ext_in. intros u Hu. apply in_seq in Hu.
  replace (u - off)%nat with (S (u - S off)) by lia. reflexivity. Qed.

Theorem kfl_layer_equals_dense tensor c p pt dims :
  let units := length (KFL.p_scale p) in
  let sizes := kfl_sizes (KFL.c_size c) dims in
  (2 <= KFL.c_size c)%nat -> (1 <= dims)%nat -> length pt = units ->
  (forall u, (u < units)%nat -> terms_wf dims (nth u (KFL.p_kern p) []) /\ length (nth u pt []) = dims /\
                                (KFL.c_clip c = true \/ inr sizes (nth u pt []))) ->
  leq (KFL.layer_out c p pt)
      (nth 0 (lattice_eval Hypercube tensor (KFL.c_clip c) units sizes
                           (dense_of_kfl (KFL.c_size c) dims units p) [pt]) []).
Proof. intros units sizes HL Hd Hl H. unfold lattice_eval, KFL.layer_out. cbn [map nth]. fold units.
  rewrite <- Hl. rewrite (map2_seq_nth (unit_fn Hypercube tensor (KFL.c_clip c) (length pt) sizes
                                                (dense_of_kfl (KFL.c_size c) dims (length pt) p)) pt 0).
  apply Forall2_map_seq. intros u [_ Hu]. rewrite Nat.sub_0_r. rewrite Hl in *.
  destruct (H u Hu) as [Hwf [Hx Hr]]. apply kfl_equals_dense; assumption. Qed.
