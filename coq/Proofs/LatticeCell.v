(* Layer-level statements of "convex combination of the containing cell's
   corner values" and "continuous across cell boundaries" for the Lattice
   forward pass: the helper-level lemmas about multilin / scell composed with
   the theorems that the layer function unit_fn IS the cell formula. *)
From TFL Require Import Proofs.LatticeInterp.
Open Scope Q_scope.

Lemma corner_of_length c i : corner_of c i -> length i = length c.
Proof. induction 1; cbn; congruence. Qed.

Lemma dec_inv_cons s ss c cs r rs z zs : dec (s :: ss) (c :: cs) (r :: rs) (z :: zs) ->
  (S c < s)%nat /\ 0 <= r /\ r <= 1 /\ z == qn c + r /\ dec ss cs rs zs.
Proof. intros H. inversion H; subst. tauto. Qed.

Lemma qn_lt_inv a b : qn a < qn b -> (a < b)%nat.
Proof. intros H. destruct (Nat.lt_ge_cases a b) as [L|L]. exact L. pose proof (qn_le _ _ L). lra. Qed.

Lemma L_hyper_layer_cell_convex tensor clip units sizes Kmat u x c lo hi : sizes <> [] ->
  ok_input clip sizes x -> in_cell sizes c (eff clip sizes x) ->
  (forall i, corner_of c i -> lo <= kern sizes Kmat u i /\ kern sizes Kmat u i <= hi) ->
  lo <= unit_fn Hypercube tensor clip units sizes Kmat u x /\ unit_fn Hypercube tensor clip units sizes Kmat u x <= hi.
Proof. intros Hne Hx Hc HK. rewrite (L_hyper_is_multilinear tensor clip units sizes Kmat u x c Hne Hx Hc).
  eapply multilin_bounds; eassumption. Qed.

(* the cell the simplex code selects *)
Lemma L_simplex_layer_cell_convex tensor clip units sizes Kmat u x lo hi :
  sizes_ok sizes -> wfK units Kmat u -> ok_input clip sizes x ->
  (forall i, corner_of (mcorner sizes (eff clip sizes x)) i -> lo <= kern sizes Kmat u i /\ kern sizes Kmat u i <= hi) ->
  lo <= unit_fn Simplex tensor clip units sizes Kmat u x /\ unit_fn Simplex tensor clip units sizes Kmat u x <= hi.
Proof. intros Hs Hw Hx HK. destruct (L_simplex_cell_formula tensor clip units sizes Kmat u x Hs Hw Hx) as [D E].
  rewrite E. eapply scell_corner_bounds; eassumption. Qed.

(* hypercube: a point on a face shared by several cells is the multilinear
   formula of EVERY cell containing it: the per-cell formulas glue continuously *)
Lemma L_hyper_layer_continuous tensor clip units sizes Kmat u x c c' : sizes <> [] ->
  ok_input clip sizes x -> in_cell sizes c (eff clip sizes x) -> in_cell sizes c' (eff clip sizes x) ->
  unit_fn Hypercube tensor clip units sizes Kmat u x == multilin (kern sizes Kmat u) c (eff clip sizes x) /\
  unit_fn Hypercube tensor clip units sizes Kmat u x == multilin (kern sizes Kmat u) c' (eff clip sizes x).
Proof. intros Hne Hx Hc Hc'. split; apply L_hyper_is_multilinear; assumption. Qed.

Lemma dec_app {s1 c1 r1 z1 s2 c2 r2 z2} : dec s1 c1 r1 z1 -> dec s2 c2 r2 z2 ->
  dec (s1 ++ s2) (c1 ++ c2) (r1 ++ r2) (z1 ++ z2).
Proof. induction 1; intros D2; cbn [app]. exact D2. constructor; auto. Qed.

Lemma set_nth_app_here : forall (pre : list Q) r rs x, set_nth (length pre) x (pre ++ r :: rs) = pre ++ x :: rs.
Proof. induction pre as [|p pre IH]; intros; cbn. reflexivity. f_equal. apply IH. Qed.

(* Two decompositions of one point are turned into one another coordinate by
   coordinate (F_eq: the same cell, or the two sides of a face), behind a common
   prefix that grows. *)
Lemma scell_dec_unique_pre K : forall ss cs rs zs, dec ss cs rs zs -> forall cs' rs', dec ss cs' rs' zs ->
  forall ps pc pr pz, dec ps pc pr pz -> scell K (pc ++ cs) (pr ++ rs) == scell K (pc ++ cs') (pr ++ rs').
Proof. induction 1 as [|s ss c cs r rs z zs Hc H0 H1 Hz D IH]; intros cs' rs' D' ps pc pr pz P;
  inversion D' as [|? ? c' cs'' r' rs'' ? ? Hc' H0' H1' Hz' D'']; subst. reflexivity.
  pose proof (dec_clength P) as Lc. pose proof (dec_length P) as Lr.
  assert (Dc : dec (s :: ss) (c :: cs) (r :: rs) (z :: zs)) by (constructor; assumption).
  assert (D1 : dec [s] [c'] [r'] [z]) by (apply dec_cons; [assumption..|apply dec_nil]).
  (* coordinate (length pc) of the whole point, in cell c with residual r, or in cell c' with r' *)
  assert (Hd : (length pc < length (ps ++ s :: ss))%nat) by (rewrite app_length; cbn [length]; lia).
  assert (Ez : qn c + r == qn c' + r') by (rewrite <- Hz; exact Hz').
  pose proof (F_eq _ K (length pc) _ _ _ (dec_app P Dc) Hd c c' r r' H0 H1 H0' H1' Ez) as E.
  unfold F in E. rewrite !upd_app_here in E. rewrite Lc, <- Lr in E. rewrite !set_nth_app_here in E. rewrite E.
  (* the prefix now includes that coordinate *)
  pose proof (IH cs'' rs'' D'' _ _ _ _ (dec_app P D1)) as E'.
  rewrite <- !app_assoc in E'. exact E'. Qed.

(* simplex: every decomposition z = c + rs of the point (every cell that
   contains it, whichever side of each face) gives the same cell formula *)
Theorem scell_dec_unique K sizes c rs c' rs' z : dec sizes c rs z -> dec sizes c' rs' z ->
  scell K c rs == scell K c' rs'.
Proof. intros D D'. exact (scell_dec_unique_pre K _ _ _ _ D _ _ D' _ _ _ _ dec_nil). Qed.

(* layer level: the simplex output is the cell formula of EVERY cell that contains the (clipped) point *)
Lemma L_simplex_layer_continuous tensor clip units sizes Kmat u x c rs :
  sizes_ok sizes -> wfK units Kmat u -> ok_input clip sizes x -> dec sizes c rs (eff clip sizes x) ->
  unit_fn Simplex tensor clip units sizes Kmat u x == scell (kern sizes Kmat u) c rs.
Proof. intros Hs Hw Hx D. destruct (L_simplex_cell_formula tensor clip units sizes Kmat u x Hs Hw Hx) as [D0 E].
  rewrite E. eapply scell_dec_unique; eassumption. Qed.

(* ... hence a convex combination of the corner values of any such cell *)
Lemma L_simplex_layer_any_cell_convex tensor clip units sizes Kmat u x c rs lo hi :
  sizes_ok sizes -> wfK units Kmat u -> ok_input clip sizes x -> dec sizes c rs (eff clip sizes x) ->
  (forall i, corner_of c i -> lo <= kern sizes Kmat u i /\ kern sizes Kmat u i <= hi) ->
  lo <= unit_fn Simplex tensor clip units sizes Kmat u x /\ unit_fn Simplex tensor clip units sizes Kmat u x <= hi.
Proof. intros Hs Hw Hx D HK. rewrite (L_simplex_layer_continuous tensor clip units sizes Kmat u x c rs Hs Hw Hx D).
  eapply scell_corner_bounds; eassumption. Qed.

(* clip_inputs as such: the clipped call is the unclipped call on the clipped point *)
Lemma L_hyper_clip tensor tensor' units sizes Kmat u x : sizes <> [] -> sizes_ok sizes -> length x = length sizes ->
  unit_fn Hypercube tensor true units sizes Kmat u x == unit_fn Hypercube tensor' false units sizes Kmat u (clip_onto sizes x).
Proof. intros Hne Hs Hl.
  assert (Hx : ok_input true sizes x) by (split; [exact Hl|left; reflexivity]).
  assert (Hc : ok_input false sizes (clip_onto sizes x))
    by (split; [apply clip_onto_length; exact Hl|right; apply clip_onto_inr; assumption]).
  rewrite !unit_fn_hyper_ok by assumption.
  rewrite (hyper_unit_G tensor true sizes _ x Hx), (hyper_unit_G tensor' false sizes _ _ Hc). reflexivity. Qed.

Lemma L_simplex_clip tensor tensor' units sizes Kmat u x :
  unit_fn Simplex tensor true units sizes Kmat u x = unit_fn Simplex tensor' false units sizes Kmat u (clip_onto sizes x).
Proof. rewrite !unit_fn_simplex. apply simplex_unit_clip. Qed.

(* the point (1/2, 1) of the 2 x 3 example lattice lies on the face between the cells (0,0) and (0,1) *)
Example ex_two_decs : dec ex_sizes [0; 0]%nat [1#2; 1] [1#2; 1] /\ dec ex_sizes [0; 1]%nat [1#2; 0] [1#2; 1].
Proof. split; repeat constructor; try lra; try lia; vm_compute; reflexivity. Qed.
Example ex_two_decs_value : scell (kern ex_sizes ex_K 0) [0; 0]%nat [1#2; 1] == 3#2 /\
  scell (kern ex_sizes ex_K 0) [0; 1]%nat [1#2; 0] == 3#2 /\ unit_fn Simplex true false 2 ex_sizes ex_K 0 [1#2; 1] == 3#2.
Proof. repeat split; vm_compute; reflexivity. Qed.
Example ex_corner_bounds : forall i, corner_of [0; 1]%nat i -> 1 <= kern ex_sizes ex_K 0 i /\ kern ex_sizes ex_K 0 i <= 9#2.
Proof. intros i H. inversion H as [| ? ? i1 H1 | ? ? i1 H1]; subst; inversion H1 as [| ? ? i2 H2 | ? ? i2 H2]; subst;
  inversion H2; subst; vm_compute; split; discriminate. Qed.
