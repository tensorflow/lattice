(* C06: "weights that already satisfy the constraints are returned unchanged" for a
   feasible column whose norm is numerically zero (< 1e-8) under normalization
   order 1 or 2: tf.where(norm < eps, 1.0, norm) divides by 1, so the column is
   returned as it is (not scaled up to unit norm). *)
From TFL Require Import Model.LinearProject Proofs.PartialOrder Proofs.LinearProject.
Open Scope Q_scope.

Lemma lin_fixed_small_l1 rt c n w r : lin_valid c n -> length w = n -> lc_norm c = 1%nat ->
  lin_feasible c w -> qsum (map qabs w) < norm_eps -> lin_project_col rt c w = Some r -> peq r w.
Proof. intros V L N F U E. apply (lin_fixed_norm V L F E). rewrite N. intros w3 P.
  apply normalize_small. cbn [col_norm]. rewrite (qsum_abs_peq P). exact U. Qed.

Lemma lin_fixed_small_l2 rt c n w r : (forall x y, x == y -> rt x == rt y) ->
  lin_valid c n -> length w = n -> lc_norm c = 2%nat ->
  lin_feasible c w -> rt (qsum (map (fun x => x * x) w)) < norm_eps -> lin_project_col rt c w = Some r -> peq r w.
Proof. intros Hrt V L N F U E. apply (lin_fixed_norm V L F E). rewrite N. intros w3 P.
  apply normalize_small. cbn [col_norm]. rewrite (Hrt _ _ (qsum_sq_peq P)). exact U. Qed.

(* satisfiable: the all-zero column is feasible for the example configuration
   (7 inputs, monotonic and range dominances, L1 norm) and has norm 0 < 1e-8 *)
Example small_norm_example :
  lin_valid ex_cfg 7 /\ lc_norm ex_cfg = 1%nat /\ lin_feasible ex_cfg (repeat 0 7) /\
  qsum (map qabs (repeat 0 7)) < norm_eps /\ lin_project_col qsqrt ex_cfg (repeat 0 7) = Some (repeat 0 7).
Proof. split; [|split; [|split; [|split]]].
  - exact ex_cfg_valid.
  - reflexivity.
  - apply lin_feasible_zero.
  - vm_compute. reflexivity.
  - vm_compute. reflexivity. Qed.
