From TFL Require Import Model.LinearEval.
Open Scope Q_scope.

(* Relation between two input points for one coordinate, given its
   monotonicity flag and kernel entry. *)
Definition coord_ok (m : Z) (kq xq yq : Q) : Prop :=
  if (m =? 1)%Z then 0 <= kq /\ xq <= yq
  else if (m =? -1)%Z then kq <= 0 /\ yq <= xq
  else xq == yq.

Fixpoint coords_ok (ms : list Z) (k x y : list Q) : Prop :=
  match ms, k, x, y with
  | m :: ms', kq :: k', xq :: x', yq :: y' => coord_ok m kq xq yq /\ coords_ok ms' k' x' y'
  | _, _, _, _ => True
  end.

Lemma clip_opt_proper lo hi x y : x == y -> clip_opt lo hi x == clip_opt lo hi y.
Proof. intros H. unfold clip_opt, clip_lo, clip_hi. destruct lo, hi; rewrite ?H; reflexivity. Qed.

Lemma lin_sum_monotone : forall ms k bs x y,
  length ms = length k -> length x = length k -> length y = length k ->
  coords_ok ms k x y -> lin_sum k bs x <= lin_sum k bs y.
Proof.
  induction ms as [|m ms IH]; intros k bs x y Hm Hx Hy Hok.
  - destruct k; cbn in *; [|discriminate]. lra.
  - destruct k as [|kq k]; [discriminate|]. destruct x as [|xq x]; [discriminate|]. destruct y as [|yq y]; [discriminate|].
    destruct bs as [|[lo hi] bs]; cbn [lin_sum]. lra.
    cbn in Hok. destruct Hok as [Hc Hrest].
    assert (Hr : lin_sum k bs x <= lin_sum k bs y) by (apply (IH k bs x y); cbn in *; try lia; assumption).
    unfold coord_ok in Hc. destruct (m =? 1)%Z; [|destruct (m =? -1)%Z].
    + destruct Hc as [Hk Hle]. pose proof (qmul_le_l kq _ _ Hk (clip_opt_mono lo hi _ _ Hle)). lra.
    + destruct Hc as [Hk Hle]. pose proof (qmul_le_l_neg kq _ _ Hk (clip_opt_mono lo hi _ _ Hle)). lra.
    + rewrite (clip_opt_proper lo hi _ _ Hc). lra.
Qed.

Theorem lin_unit_monotone ms k b bs x y :
  length ms = length k -> length x = length k -> length y = length k ->
  coords_ok ms k x y -> lin_unit k b bs x <= lin_unit k b bs y.
Proof. intros H1 H2 H3 H4. unfold lin_unit. pose proof (lin_sum_monotone ms k bs x y H1 H2 H3 H4). lra. Qed.

Definition nob : bound := (None, None).
(* Effect of moving one coordinate. *)
Lemma lin_sum_set : forall k bs x i v, (i < length k)%nat -> (i < length bs)%nat -> (i < length x)%nat ->
  lin_sum k bs (set_nth i v x) - lin_sum k bs x ==
  nth i k 0 * (clip_opt (fst (nth i bs nob)) (snd (nth i bs nob)) v
               - clip_opt (fst (nth i bs nob)) (snd (nth i bs nob)) (nth i x 0)).
Proof.
  induction k as [|kq k IH]; intros bs x i v Hk Hb Hx; cbn in Hk; [lia|].
  destruct bs as [|[lo hi] bs]; cbn in Hb; [lia|]. destruct x as [|xq x]; cbn in Hx; [lia|].
  destruct i as [|i]; cbn [set_nth lin_sum nth fst snd].
  - lra.
  - rewrite <- (IH bs x i v) by lia. lra.
Qed.

Lemma clip_opt_step lo hi v d : 0 <= d -> 0 <= clip_opt lo hi (v + d) - clip_opt lo hi v <= d.
Proof. intros H. unfold clip_opt, clip_lo, clip_hi. destruct lo, hi; qcases; lra. Qed.
Lemma clip_opt_at_hi l h : l <= h -> clip_opt (Some l) (Some h) h == h.
Proof. intros H. unfold clip_opt, clip_lo, clip_hi. qcases; lra. Qed.
Lemma clip_opt_at_lo l h : l <= h -> clip_opt (Some l) (Some h) l == l.
Proof. intros H. unfold clip_opt, clip_lo, clip_hi. qcases; lra. Qed.

(* one input i of a unit whose kernel, bounds and input have the same length *)
Section OneInput.
  Variables (k : list Q) (b : Q) (bs : list bound) (x : list Q) (i : nat).
  Hypotheses (Hk : (i < length k)%nat) (Lb : length bs = length k) (Lx : length x = length k).

  Lemma lin_unit_set_diff v v' :
    lin_unit k b bs (set_nth i v' x) - lin_unit k b bs (set_nth i v x) ==
    nth i k 0 * (clip_opt (fst (nth i bs nob)) (snd (nth i bs nob)) v'
                 - clip_opt (fst (nth i bs nob)) (snd (nth i bs nob)) v).
  Proof. unfold lin_unit.
    pose proof (lin_sum_set k bs x i v' Hk ltac:(lia) ltac:(lia)). pose proof (lin_sum_set k bs x i v Hk ltac:(lia) ltac:(lia)). lra. Qed.

  Lemma lin_unit_set_diff0 v' :
    lin_unit k b bs (set_nth i v' x) - lin_unit k b bs x ==
    nth i k 0 * (clip_opt (fst (nth i bs nob)) (snd (nth i bs nob)) v'
                 - clip_opt (fst (nth i bs nob)) (snd (nth i bs nob)) (nth i x 0)).
  Proof. unfold lin_unit. pose proof (lin_sum_set k bs x i v' Hk ltac:(lia) ltac:(lia)). lra. Qed.

  (* a step d >= 0 of an input whose weight is at most K >= 0 moves the output
     by at most K * d, whether the input is clipped or not *)
  Lemma lin_step_bound d K : 0 <= d -> nth i k 0 <= K -> 0 <= K ->
    lin_unit k b bs (set_nth i (nth i x 0 + d) x) - lin_unit k b bs x <= K * d.
  Proof. intros Hd Hle HK. rewrite lin_unit_set_diff0.
    destruct (clip_opt_step (fst (nth i bs nob)) (snd (nth i bs nob)) (nth i x 0) d Hd) as [Hm Hs].
    set (s := clip_opt _ _ (nth i x 0 + d) - clip_opt _ _ (nth i x 0)) in *.
    destruct (Qlt_le_dec (nth i k 0) 0) as [Hneg|Hpos].
    - pose proof (qmul_nonneg (- nth i k 0) s ltac:(lra) Hm). pose proof (qmul_nonneg K d HK Hd). lra.
    - pose proof (qmul_le_l (nth i k 0) _ _ Hpos Hs). pose proof (qmul_le_l d _ _ Hd Hle). lra. Qed.

  Lemma sweep_effect l h : nth i bs nob = (Some l, Some h) -> l <= h ->
    lin_unit k b bs (set_nth i h x) - lin_unit k b bs (set_nth i l x) == nth i k 0 * (h - l).
  Proof. intros Eb Hlh. rewrite (lin_unit_set_diff l h), Eb. cbn [fst snd].
    rewrite clip_opt_at_hi, clip_opt_at_lo by exact Hlh. reflexivity. Qed.
End OneInput.

(* Monotonic dominance: unclipped unit move along the dominant input changes
   the output at least as much as along the weak input. *)
Theorem lin_dominance_effect k b bs x dom weak d :
  (dom < length k)%nat -> (weak < length k)%nat -> length bs = length k -> length x = length k ->
  nth dom bs nob = (None, None) -> nth weak bs nob = (None, None) ->
  0 <= d -> nth weak k 0 <= nth dom k 0 ->
  lin_unit k b bs (set_nth weak (nth weak x 0 + d) x) - lin_unit k b bs x <=
  lin_unit k b bs (set_nth dom (nth dom x 0 + d) x) - lin_unit k b bs x.
Proof.
  intros Hd Hw Hbs Hx Ed Ew Hpos Hle.
  rewrite (lin_unit_set_diff0 k b bs x dom), (lin_unit_set_diff0 k b bs x weak) by assumption.
  rewrite Ed, Ew. cbn [fst snd clip_opt clip_lo clip_hi].
  pose proof (qmul_le_l d _ _ Hpos Hle). lra.
Qed.

(* The same for bounded inputs, ANY weights with k_weak <= k_dom, 0 <= k_dom: the
   weak step moves the output by at most k_dom * d, the dominant step by
   k_dom * (clip(x_dom + d) - clip(x_dom)), which is between 0 and k_dom * d. *)
Theorem mdom_effect_general k b bs x dom weak d :
  (dom < length k)%nat -> (weak < length k)%nat -> length bs = length k -> length x = length k ->
  0 <= d -> nth weak k 0 <= nth dom k 0 -> 0 <= nth dom k 0 ->
  let cd v := clip_opt (fst (nth dom bs nob)) (snd (nth dom bs nob)) v in
  lin_unit k b bs (set_nth weak (nth weak x 0 + d) x) - lin_unit k b bs x <= nth dom k 0 * d /\
  lin_unit k b bs (set_nth dom (nth dom x 0 + d) x) - lin_unit k b bs x ==
    nth dom k 0 * (cd (nth dom x 0 + d) - cd (nth dom x 0)) /\
  0 <= lin_unit k b bs (set_nth dom (nth dom x 0 + d) x) - lin_unit k b bs x /\
  lin_unit k b bs (set_nth dom (nth dom x 0 + d) x) - lin_unit k b bs x <= nth dom k 0 * d.
Proof. intros Hdn Hwn Lb Lx Hd Hle Hk0 cd.
  pose proof (lin_unit_set_diff0 k b bs x dom Hdn Lb Lx (nth dom x 0 + d)) as H1.
  destruct (clip_opt_step (fst (nth dom bs nob)) (snd (nth dom bs nob)) (nth dom x 0) d Hd) as [Nd Sd].
  fold (cd (nth dom x 0 + d)) in H1, Sd, Nd. fold (cd (nth dom x 0)) in H1, Sd, Nd.
  split; [|split; [exact H1|split]].
  - apply lin_step_bound; assumption.
  - rewrite H1. apply qmul_nonneg; assumption.
  - rewrite H1. exact (qmul_le_l (nth dom k 0) _ _ Hk0 Sd). Qed.

(* Range dominance: sweeping the dominant input across its whole range changes
   the output at least as much as sweeping the weak input across its range. *)
Theorem lin_range_dominance_effect k b bs x dom weak ld hd lw hw :
  (dom < length k)%nat -> (weak < length k)%nat -> length bs = length k -> length x = length k ->
  nth dom bs nob = (Some ld, Some hd) -> nth weak bs nob = (Some lw, Some hw) ->
  ld <= hd -> lw <= hw ->
  (hw - lw) * nth weak k 0 <= (hd - ld) * nth dom k 0 ->
  lin_unit k b bs (set_nth weak hw x) - lin_unit k b bs (set_nth weak lw x) <=
  lin_unit k b bs (set_nth dom hd x) - lin_unit k b bs (set_nth dom ld x).
Proof.
  intros Hd Hw Hbs Hx Ed Ew Hdr Hwr Hle.
  rewrite (sweep_effect k b bs x dom), (sweep_effect k b bs x weak) by assumption. lra.
Qed.

(* the decreasing orientation *)
Theorem rdom_effect_decreasing k b bs x dom weak ld hd lw hw :
  (dom < length k)%nat -> (weak < length k)%nat -> length bs = length k -> length x = length k ->
  nth dom bs nob = (Some ld, Some hd) -> nth weak bs nob = (Some lw, Some hw) ->
  ld <= hd -> lw <= hw ->
  (hd - ld) * nth dom k 0 <= (hw - lw) * nth weak k 0 ->
  lin_unit k b bs (set_nth weak lw x) - lin_unit k b bs (set_nth weak hw x) <=
  lin_unit k b bs (set_nth dom ld x) - lin_unit k b bs (set_nth dom hd x).
Proof. intros Hd Hw Lb Lx Ed Ew Hdr Hwr Hle.
  pose proof (sweep_effect k b bs x dom Hd Lb Lx ld hd Ed Hdr). pose proof (sweep_effect k b bs x weak Hw Lb Lx lw hw Ew Hwr).
  lra. Qed.

(* both orientations at once: |k_weak| * (weak range) <= |k_dom| * (dominant range) *)
Theorem rdom_effect_abs k b bs x dom weak ld hd lw hw :
  (dom < length k)%nat -> (weak < length k)%nat -> length bs = length k -> length x = length k ->
  nth dom bs nob = (Some ld, Some hd) -> nth weak bs nob = (Some lw, Some hw) ->
  ld <= hd -> lw <= hw ->
  qabs (nth weak k 0) * (hw - lw) <= qabs (nth dom k 0) * (hd - ld) ->
  qabs (lin_unit k b bs (set_nth weak hw x) - lin_unit k b bs (set_nth weak lw x)) <=
  qabs (lin_unit k b bs (set_nth dom hd x) - lin_unit k b bs (set_nth dom ld x)).
Proof. intros Hd Hw Lb Lx Ed Ew Hdr Hwr Hle.
  rewrite (sweep_effect k b bs x dom), (sweep_effect k b bs x weak) by assumption.
  rewrite !qabs_mul_nonneg by lra. exact Hle. Qed.

(* Weighted average: non-negative weights summing to one, no bias. *)
Fixpoint clipped (bs : list bound) (x : list Q) : list Q :=
  match bs, x with (lo, hi) :: bs', xq :: x' => clip_opt lo hi xq :: clipped bs' x' | _, _ => [] end.

Lemma lin_sum_bounds : forall k bs x lo hi,
  length bs = length k -> length x = length k ->
  (forall q, In q k -> 0 <= q) -> (forall c, In c (clipped bs x) -> lo <= c /\ c <= hi) ->
  lo * qsum k <= lin_sum k bs x /\ lin_sum k bs x <= hi * qsum k.
Proof.
  induction k as [|kq k IH]; intros bs x lo hi Hb Hx Hk Hc; cbn [lin_sum qsum]. lra.
  destruct bs as [|[l h] bs]; [discriminate|]. destruct x as [|xq x]; [discriminate|].
  cbn [clipped] in Hc.
  destruct (IH bs x lo hi) as [A B]; cbn in *; try lia.
  - intros; apply Hk; right; assumption.
  - intros; apply Hc; right; assumption.
  - pose proof (Hk kq (or_introl eq_refl)). destruct (Hc _ (or_introl eq_refl)). cbn [lin_sum]. split; nra.
Qed.

Theorem lin_weighted_average k bs x lo hi :
  length bs = length k -> length x = length k ->
  (forall q, In q k -> 0 <= q) -> qsum k == 1 ->
  (forall c, In c (clipped bs x) -> lo <= c /\ c <= hi) ->
  lo <= lin_unit k 0 bs x /\ lin_unit k 0 bs x <= hi.
Proof. intros Hb Hx Hk Hs Hc. unfold lin_unit. destruct (lin_sum_bounds k bs x lo hi Hb Hx Hk Hc) as [A B].
  rewrite Hs in A, B. lra. Qed.

(* The layer output of unit u is the per-unit formula applied to column u. *)
Theorem linear_eval_unit units K bias bs xs u : (u < units)%nat ->
  nth u (linear_eval units K bias bs xs) 0 = lin_unit (column u K) (nth u bias 0) bs (nth u xs []).
Proof. intros Hu. unfold linear_eval. exact (nth_map_seq (fun u => lin_unit (column u K) (nth u bias 0) bs (nth u xs [])) units u 0 Hu). Qed.

(* Non-vacuity: concrete weights and points meeting the hypotheses. *)
Example coords_ok_example :
  coords_ok [1; -1; 0]%Z [2; -3; 5] [0; 1; 7] [1; 0; 7].
Proof. cbn. unfold coord_ok; cbn. repeat split; lra. Qed.
