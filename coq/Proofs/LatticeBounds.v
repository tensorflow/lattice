(* _approximately_project_bounds (approx_bounds) and the final clip of
   LatticeConstraints.__call__ (clip_bounds).

   approx_bounds is, per unit, a positive affine map  w |-> a(u) * w + b(u);
   therefore it keeps monotonicity and both kinds of trust (all points of one
   inequality share the unit coordinate), lands inside the configured bounds,
   and is the identity on kernels already inside them.

   Everything is stated for an arbitrary shape [sh] with a unit axis [ud]:
     Hud : ud < length sh       Hun : nth ud sh 0 = units
   For sh = sizes ++ [units], ud = length sizes these are
   LatticeSpecFacts.unit_axis_lt / unit_axis_nth (l_ud_lt / l_ud_units). *)
From TFL Require Import Proofs.LatticeSpecFacts Proofs.LatticeMono.
Open Scope Q_scope.

(* the side condition on the configured bounds (last conjunct of cfg_valid) *)
Definition bounds_ordered (omin omax : option Q) : Prop :=
  match omin, omax with Some lo, Some hi => lo < hi | _, _ => True end.
Definition bounds_weakly_ordered (omin omax : option Q) : Prop :=
  match omin, omax with Some lo, Some hi => lo <= hi | _, _ => True end.
Lemma bounds_ordered_weaken omin omax : bounds_ordered omin omax -> bounds_weakly_ordered omin omax.
Proof. destruct omin, omax; cbn; auto. apply Qlt_le_weak. Qed.
Lemma cfg_valid_bounds_ordered c : cfg_valid c -> bounds_ordered (l_min c) (l_max c).
Proof. intros H. apply H. Qed.

Section Affine.
Variables (sh : list nat) (ud : nat) (a b : nat -> Q) (f g : tens).
Hypothesis Ha : forall u, 0 <= a u.
Hypothesis Hg : forall x, valid sh x -> g x == a (nth ud x 0%nat) * f x + b (nth ud x 0%nat).

Lemma affine_le p q : valid sh p -> valid sh q -> nth ud p 0%nat = nth ud q 0%nat -> f p <= f q -> g p <= g q.
Proof. intros Hp Hq E H. rewrite (Hg p Hp), (Hg q Hq), E.
  pose proof (qmul_le_l (a (nth ud q 0%nat)) _ _ (Ha _) H). lra. Qed.

Lemma affine_mono d : d <> ud -> mono_along sh d f -> mono_along sh d g.
Proof. intros Hd Hm i Hv Hs. apply affine_le. assumption. apply upd_valid; assumption.
  rewrite nth_upd_other by auto. reflexivity. apply Hm; assumption. Qed.

Lemma affine_esq m c i j p : m <> ud -> c <> ud -> valid sh p ->
  (S i < nth m sh 0)%nat -> (S j < nth c sh 0)%nat ->
  esq g m c i j p == a (nth ud p 0%nat) * esq f m c i j p.
Proof. intros Hm Hc Hv Hi Hj. unfold esq.
  pose proof (Hg _ (at2_valid sh p m c (S i) j Hv ltac:(lia) ltac:(lia))) as H1.
  pose proof (Hg _ (at2_valid sh p m c i j Hv ltac:(lia) ltac:(lia))) as H2.
  pose proof (Hg _ (at2_valid sh p m c (S i) (S j) Hv ltac:(lia) ltac:(lia))) as H3.
  pose proof (Hg _ (at2_valid sh p m c i (S j) Hv ltac:(lia) ltac:(lia))) as H4.
  rewrite at2_nth_other in H1, H2, H3, H4 by auto.
  rewrite H1, H2, H3, H4. ring. Qed.

Lemma affine_edgeworth m c dir : m <> ud -> c <> ud ->
  edgeworth_holds sh (m, c, dir) f -> edgeworth_holds sh (m, c, dir) g.
Proof. intros Hm Hc H p i j Hv Hi Hj. specialize (H p i j Hv Hi Hj).
  pose proof (affine_esq m c i j p Hm Hc Hv Hi Hj) as He. pose proof (Ha (nth ud p 0%nat)) as Hp.
  destruct (0 <? dir)%Z; rewrite He.
  - pose proof (qmul_le_l _ _ _ Hp H). lra.
  - apply qmul_nonneg; assumption. Qed.

Lemma affine_trapezoid m c dir : c <> ud ->
  trapezoid_holds sh (m, c, dir) f -> trapezoid_holds sh (m, c, dir) g.
Proof. intros Hc. apply trapezoid_holds_transfer. intros p q Hp Hq Hd. apply affine_le; auto. Qed.
End Affine.

Section Bounds.
Variables (sh : list nat) (ud units : nat).
Hypothesis Hud : (ud < length sh)%nat.
Hypothesis Hun : nth ud sh 0%nat = units.

(* per-unit violations, as in the code *)
Definition bnd_minv (lo : Q) (W : tens) (u : nat) : Q := qmax (lo - qminl (unit_vals sh ud W u)) 0.
Definition bnd_maxv (hi : Q) (W : tens) (u : nat) : Q := qmax (qmaxl (unit_vals sh ud W u) - hi) 0.
Definition bnd_den (lo hi : Q) (W : tens) (u : nat) : Q := (hi + bnd_maxv hi W u) - (lo - bnd_minv lo W u).

Lemma unit_vals_bounds W x : valid sh x ->
  qminl (unit_vals sh ud W (nth ud x 0%nat)) <= W x /\ W x <= qmaxl (unit_vals sh ud W (nth ud x 0%nat)).
Proof. intros Hv. pose proof (unit_vals_in sh ud W x Hv). split. apply qminl_le; assumption. apply qmaxl_ge; assumption. Qed.

Lemma bnd_minv_nonneg lo W u : 0 <= bnd_minv lo W u. Proof. unfold bnd_minv. apply qmax_r. Qed.
Lemma bnd_maxv_nonneg hi W u : 0 <= bnd_maxv hi W u. Proof. unfold bnd_maxv. apply qmax_r. Qed.
Lemma bnd_den_pos lo hi W u : lo < hi -> 0 < bnd_den lo hi W u.
Proof. intros H. unfold bnd_den. pose proof (bnd_minv_nonneg lo W u). pose proof (bnd_maxv_nonneg hi W u). lra. Qed.
Lemma bnd_scale_pos lo hi W u : lo < hi -> 0 < (hi - lo) / bnd_den lo hi W u.
Proof. intros H. apply Qlt_shift_div_l. apply bnd_den_pos; assumption. lra. Qed.

Lemma bnd_minv_zero lo W x : valid sh x -> lower_ok sh (Some lo) W -> bnd_minv lo W (nth ud x 0%nat) == 0.
Proof. intros Hv Hl. cbn in Hl. unfold bnd_minv.
  assert (lo <= qminl (unit_vals sh ud W (nth ud x 0%nat))).
  { apply qminl_glb. intros E. pose proof (unit_vals_in sh ud W x Hv) as Hin. rewrite E in Hin. destruct Hin.
    intros v Hin. apply unit_vals_inv in Hin. destruct Hin as [y [Hy [_ ->]]]. apply Hl; assumption.
    apply valid_nth; assumption. }
  qcases; lra. Qed.
Lemma bnd_maxv_zero hi W x : valid sh x -> upper_ok sh (Some hi) W -> bnd_maxv hi W (nth ud x 0%nat) == 0.
Proof. intros Hv Hl. cbn in Hl. unfold bnd_maxv.
  assert (qmaxl (unit_vals sh ud W (nth ud x 0%nat)) <= hi).
  { apply qmaxl_lub. intros E. pose proof (unit_vals_in sh ud W x Hv) as Hin. rewrite E in Hin. destruct Hin.
    intros v Hin. apply unit_vals_inv in Hin. destruct Hin as [y [Hy [_ ->]]]. apply Hl; assumption.
    apply valid_nth; assumption. }
  qcases; lra. Qed.

Lemma approx_bounds_val omin omax W x : valid sh x ->
  approx_bounds sh ud units omin omax W x ==
  match omin, omax with
  | None, None => W x
  | Some lo, None => W x + bnd_minv lo W (nth ud x 0%nat)
  | None, Some hi => W x - bnd_maxv hi W (nth ud x 0%nat)
  | Some lo, Some hi =>
      (W x + (bnd_minv lo W (nth ud x 0%nat) - lo)) * ((hi - lo) / bnd_den lo hi W (nth ud x 0%nat)) + lo
  end.
Proof. intros Hv. pose proof (unit_lt sh ud units x Hud Hun Hv) as Hu. unfold approx_bounds.
  destruct omin as [lo|], omax as [hi|]; cbv zeta; try reflexivity;
    rewrite memo_ok by assumption; rewrite Qred_correct; rewrite !nth_map_seq by assumption; reflexivity. Qed.

Definition bnd_a (omin omax : option Q) (W : tens) (u : nat) : Q :=
  match omin, omax with Some lo, Some hi => (hi - lo) / bnd_den lo hi W u | _, _ => 1 end.
Definition bnd_b (omin omax : option Q) (W : tens) (u : nat) : Q :=
  match omin, omax with
  | None, None => 0
  | Some lo, None => bnd_minv lo W u
  | None, Some hi => - bnd_maxv hi W u
  | Some lo, Some hi => (bnd_minv lo W u - lo) * ((hi - lo) / bnd_den lo hi W u) + lo
  end.
Lemma bnd_a_pos omin omax W u : bounds_ordered omin omax -> 0 < bnd_a omin omax W u.
Proof. intros Hc. unfold bnd_a. destruct omin as [lo|], omax as [hi|]; try lra. apply bnd_scale_pos. exact Hc. Qed.
Lemma bnd_a_nonneg omin omax W : bounds_ordered omin omax -> forall u, 0 <= bnd_a omin omax W u.
Proof. intros Hc u. apply Qlt_le_weak. apply bnd_a_pos; assumption. Qed.
Lemma approx_bounds_affine_eq omin omax W x : valid sh x ->
  approx_bounds sh ud units omin omax W x ==
  bnd_a omin omax W (nth ud x 0%nat) * W x + bnd_b omin omax W (nth ud x 0%nat).
Proof. intros Hv. rewrite approx_bounds_val by assumption. unfold bnd_a, bnd_b.
  destruct omin as [lo|], omax as [hi|]; ring. Qed.

Lemma approx_bounds_affine omin omax W : bounds_ordered omin omax ->
  exists a b : nat -> Q, (forall u, 0 < a u) /\
    forall x, valid sh x ->
      approx_bounds sh ud units omin omax W x == a (nth ud x 0%nat) * W x + b (nth ud x 0%nat).
Proof. intros Hc. exists (bnd_a omin omax W), (bnd_b omin omax W). split.
  intros u; apply bnd_a_pos; assumption. apply approx_bounds_affine_eq. Qed.

Lemma approx_bounds_mono omin omax W d : bounds_ordered omin omax -> d <> ud ->
  mono_along sh d W -> mono_along sh d (approx_bounds sh ud units omin omax W).
Proof. intros Hc. exact (affine_mono sh ud (bnd_a omin omax W) (bnd_b omin omax W) W _
           (bnd_a_nonneg omin omax W Hc) (approx_bounds_affine_eq omin omax W) d). Qed.

Lemma approx_bounds_edgeworth omin omax W m c dir : bounds_ordered omin omax -> m <> ud -> c <> ud ->
  edgeworth_holds sh (m, c, dir) W -> edgeworth_holds sh (m, c, dir) (approx_bounds sh ud units omin omax W).
Proof. intros Hc. exact (affine_edgeworth sh ud (bnd_a omin omax W) (bnd_b omin omax W) W _
           (bnd_a_nonneg omin omax W Hc) (approx_bounds_affine_eq omin omax W) m c dir). Qed.

Lemma approx_bounds_trapezoid omin omax W m c dir : bounds_ordered omin omax -> m <> ud -> c <> ud ->
  trapezoid_holds sh (m, c, dir) W -> trapezoid_holds sh (m, c, dir) (approx_bounds sh ud units omin omax W).
Proof. intros Hc _. exact (affine_trapezoid sh ud (bnd_a omin omax W) (bnd_b omin omax W) W _
           (bnd_a_nonneg omin omax W Hc) (approx_bounds_affine_eq omin omax W) m c dir). Qed.

Lemma approx_bounds_lower omin omax W : bounds_ordered omin omax ->
  lower_ok sh omin (approx_bounds sh ud units omin omax W).
Proof. intros Hc. destruct omin as [lo|]; [|exact I]. intros x Hv.
  rewrite approx_bounds_val by assumption. destruct (unit_vals_bounds W x Hv) as [Hlo Hhi].
  set (u := nth ud x 0%nat) in *. destruct omax as [hi|].
  - pose proof (bnd_scale_pos lo hi W u Hc) as Hs.
    assert (Ht : 0 <= W x + (bnd_minv lo W u - lo)) by (unfold bnd_minv; qcases; lra).
    pose proof (qmul_nonneg _ _ Ht (Qlt_le_weak _ _ Hs)). lra.
  - unfold bnd_minv. qcases; lra. Qed.

Lemma approx_bounds_upper omin omax W : bounds_ordered omin omax ->
  upper_ok sh omax (approx_bounds sh ud units omin omax W).
Proof. intros Hc. destruct omax as [hi|]; [|exact I]. intros x Hv.
  rewrite approx_bounds_val by assumption. destruct (unit_vals_bounds W x Hv) as [Hlo Hhi].
  set (u := nth ud x 0%nat) in *. destruct omin as [lo|].
  - pose proof (bnd_scale_pos lo hi W u Hc) as Hs. pose proof (bnd_den_pos lo hi W u Hc) as Hd.
    assert (Ht : W x + (bnd_minv lo W u - lo) <= bnd_den lo hi W u) by (unfold bnd_den, bnd_maxv; qcases; lra).
    pose proof (Qmult_le_compat_r _ _ _ Ht (Qlt_le_weak _ _ Hs)) as Hm.
    assert (Hq : bnd_den lo hi W u * ((hi - lo) / bnd_den lo hi W u) == hi - lo).
    { apply Qmult_div_r. intros E. rewrite E in Hd. lra. }
    rewrite Hq in Hm. lra.
  - unfold bnd_maxv. qcases; lra. Qed.

Lemma approx_bounds_fixed omin omax W : bounds_ordered omin omax ->
  lower_ok sh omin W -> upper_ok sh omax W -> teq sh (approx_bounds sh ud units omin omax W) W.
Proof. intros Hc Hl Hu x Hv. rewrite approx_bounds_val by assumption.
  destruct omin as [lo|], omax as [hi|].
  - unfold bnd_den. rewrite (bnd_minv_zero lo W x Hv Hl), (bnd_maxv_zero hi W x Hv Hu).
    cbn in Hc. field. lra.
  - rewrite (bnd_minv_zero lo W x Hv Hl). ring.
  - rewrite (bnd_maxv_zero hi W x Hv Hu). ring.
  - reflexivity. Qed.
End Bounds.

Lemma clip_bounds_val sh omin omax W x : valid sh x ->
  clip_bounds sh omin omax W x = clip_hi omax (clip_lo omin (W x)).
Proof. intros Hv. unfold clip_bounds. rewrite memo_ok by assumption. reflexivity. Qed.

Lemma clip_bounds_mono sh omin omax W d : mono_along sh d W -> mono_along sh d (clip_bounds sh omin omax W).
Proof. intros Hm i Hv Hs. rewrite !clip_bounds_val by (try apply upd_valid; assumption).
  specialize (Hm i Hv Hs). unfold clip_hi, clip_lo. destruct omin, omax; qcases; lra. Qed.

Lemma clip_bounds_upper sh omin omax W : upper_ok sh omax (clip_bounds sh omin omax W).
Proof. destruct omax as [hi|]; [|exact I]. intros x Hv. rewrite clip_bounds_val by assumption.
  unfold clip_hi. apply qmin_r. Qed.
Lemma clip_bounds_lower sh omin omax W : bounds_weakly_ordered omin omax ->
  lower_ok sh omin (clip_bounds sh omin omax W).
Proof. intros Hc. destruct omin as [lo|]; [|exact I]. intros x Hv. rewrite clip_bounds_val by assumption.
  unfold clip_hi, clip_lo. destruct omax as [hi|]; cbn in Hc; qcases; lra. Qed.
Lemma clip_bounds_in sh omin omax W : bounds_weakly_ordered omin omax ->
  lower_ok sh omin (clip_bounds sh omin omax W) /\ upper_ok sh omax (clip_bounds sh omin omax W).
Proof. intros Hc. split. apply clip_bounds_lower; assumption. apply clip_bounds_upper. Qed.

Lemma clip_bounds_id sh omin omax W : lower_ok sh omin W -> upper_ok sh omax W ->
  teq sh (clip_bounds sh omin omax W) W.
Proof. intros Hl Hu x Hv. rewrite clip_bounds_val by assumption. unfold clip_hi, clip_lo.
  destruct omin as [lo|], omax as [hi|]; cbn in Hl, Hu;
    try specialize (Hl x Hv); try specialize (Hu x Hv); qcases; lra. Qed.

(* clip only reads valid positions *)
Lemma clip_bounds_teq sh omin omax W W' : teq sh W W' -> teq sh (clip_bounds sh omin omax W) (clip_bounds sh omin omax W').
Proof. intros E x Hv. rewrite !clip_bounds_val by assumption. specialize (E x Hv).
  unfold clip_hi, clip_lo. destruct omin, omax; rewrite E; reflexivity. Qed.

Section CfgBounds.
Variable c : lat_cfg.
Hypothesis Hc : cfg_valid c.
Local Notation sh := (l_shape c).
Local Notation AB W := (approx_bounds (l_shape c) (l_ud c) (l_units c) (l_min c) (l_max c) W).
Local Notation CB W := (clip_bounds (l_shape c) (l_min c) (l_max c) W).

Lemma approx_bounds_cfg_lower W : lower_ok sh (l_min c) (AB W).
Proof. apply approx_bounds_lower. apply l_ud_lt. apply l_ud_units. apply cfg_valid_bounds_ordered; exact Hc. Qed.
Lemma approx_bounds_cfg_upper W : upper_ok sh (l_max c) (AB W).
Proof. apply approx_bounds_upper. apply l_ud_lt. apply l_ud_units. apply cfg_valid_bounds_ordered; exact Hc. Qed.
Lemma approx_bounds_cfg_mono W d : In d (mono_dims (l_monos c)) -> mono_along sh d W -> mono_along sh d (AB W).
Proof. intros Hd. apply approx_bounds_mono. apply l_ud_lt. apply l_ud_units.
  apply cfg_valid_bounds_ordered; exact Hc. pose proof (cfg_mono_dims_lt c d Hc Hd). lia. Qed.
Lemma approx_bounds_cfg_edgeworth W t : In t (all_trusts c) ->
  edgeworth_holds sh t W -> edgeworth_holds sh t (AB W).
Proof. destruct t as [[m cd] dir]. intros Hin. destruct (cfg_trust_dims c m cd dir Hc Hin) as (H1 & H2 & _).
  apply approx_bounds_edgeworth. apply l_ud_lt. apply l_ud_units. apply cfg_valid_bounds_ordered; exact Hc. lia. lia. Qed.
Lemma approx_bounds_cfg_trapezoid W t : In t (all_trusts c) ->
  trapezoid_holds sh t W -> trapezoid_holds sh t (AB W).
Proof. destruct t as [[m cd] dir]. intros Hin. destruct (cfg_trust_dims c m cd dir Hc Hin) as (H1 & H2 & _).
  apply approx_bounds_trapezoid. apply l_ud_lt. apply l_ud_units. apply cfg_valid_bounds_ordered; exact Hc. lia. lia. Qed.
Lemma approx_bounds_cfg_fixed W : lower_ok sh (l_min c) W -> upper_ok sh (l_max c) W -> teq sh (AB W) W.
Proof. apply approx_bounds_fixed. apply l_ud_lt. apply l_ud_units. apply cfg_valid_bounds_ordered; exact Hc. Qed.

Lemma clip_bounds_cfg_in W : lower_ok sh (l_min c) (CB W) /\ upper_ok sh (l_max c) (CB W).
Proof. apply clip_bounds_in. apply bounds_ordered_weaken. apply cfg_valid_bounds_ordered; exact Hc. Qed.
(* after approx_bounds the final clip changes nothing *)
Lemma clip_after_bounds_id W : teq sh (CB (AB W)) (AB W).
Proof. apply clip_bounds_id. apply approx_bounds_cfg_lower. apply approx_bounds_cfg_upper. Qed.
End CfgBounds.

(* the hypotheses are satisfiable: a 2 x 3 lattice with 2 units *)
Definition exb_sh : list nat := [2; 3; 2]%nat.
Definition exb_w : tens := of_list exb_sh [0; 1; 1; 1; 2; 3;  1; 2; 2; 5#2; 4; 3].
Definition exb_w_out : tens := of_list exb_sh [-3; 0; 1; 5; 2; -1;  1; 4; 0; 2; -2; 7].

Example exb_axis : (2 < length exb_sh)%nat /\ nth 2 exb_sh 0%nat = 2%nat.
Proof. split; cbn; lia. Qed.

(* inside [0, 4]: hypotheses of approx_bounds_fixed / clip_bounds_id hold *)
Example approx_bounds_fixed_hyps :
  bounds_ordered (Some 0) (Some 4) /\ lower_ok exb_sh (Some 0) exb_w /\ upper_ok exb_sh (Some 4) exb_w.
Proof. split. cbn; lra. apply in_rangeb_ok. vm_compute. reflexivity. Qed.
Example approx_bounds_fixed_ex : teq exb_sh (approx_bounds exb_sh 2 2 (Some 0) (Some 4) exb_w) exb_w.
Proof. destruct exb_axis, approx_bounds_fixed_hyps as (? & ? & ?). apply approx_bounds_fixed; assumption. Qed.

(* outside [0, 1]: the projection really moves the kernel, and lands inside *)
Example approx_bounds_out_ex :
  ~ lower_ok exb_sh (Some 0) exb_w_out /\
  lower_ok exb_sh (Some 0) (approx_bounds exb_sh 2 2 (Some 0) (Some 1) exb_w_out) /\
  upper_ok exb_sh (Some 1) (approx_bounds exb_sh 2 2 (Some 0) (Some 1) exb_w_out).
Proof. destruct exb_axis as [Hx1 Hx2]. split; [|split].
  - intros Hf. specialize (Hf [0; 0; 0]%nat ltac:(repeat constructor)). vm_compute in Hf. apply Hf. reflexivity.
  - apply approx_bounds_lower; try assumption. cbn; lra.
  - apply approx_bounds_upper; try assumption. cbn; lra. Qed.
(* the concrete numbers: unit 0 has min -3, max 2 (w |-> (w+3)/5); unit 1 has min -1, max 7 (w |-> (w+1)/8) *)
Example approx_bounds_out_values :
  map Qred (to_list exb_sh (approx_bounds exb_sh 2 2 (Some 0) (Some 1) exb_w_out)) =
  map Qred [0; 1#8; 4#5; 3#4; 1; 0;  4#5; 5#8; 3#5; 3#8; 1#5; 1].
Proof. vm_compute. reflexivity. Qed.

(* a kernel with Edgeworth and trapezoid trust (main 0, conditional 1, direction +) that is monotone
   along dim 0 and violates the bounds [1, 3]: the preservation lemmas apply non-vacuously *)
Definition exb_w_trust : tens := of_list exb_sh [2; 1; 1; 1; 0; 1;  2; 1; 3; 1; 4; 2].
Example approx_bounds_keeps_ex :
  let W' := approx_bounds exb_sh 2 2 (Some 1) (Some 3) exb_w_trust in
  ~ lower_ok exb_sh (Some 1) exb_w_trust /\
  (mono_along exb_sh 0%nat exb_w_trust /\ edgeworth_holds exb_sh (0, 1, 1%Z)%nat exb_w_trust /\
   trapezoid_holds exb_sh (0, 1, 1%Z)%nat exb_w_trust) /\
  (mono_along exb_sh 0%nat W' /\ edgeworth_holds exb_sh (0, 1, 1%Z)%nat W' /\
   trapezoid_holds exb_sh (0, 1, 1%Z)%nat W' /\ lower_ok exb_sh (Some 1) W' /\ upper_ok exb_sh (Some 3) W').
Proof. destruct exb_axis as [Hx1 Hx2]. cbv zeta.
  assert (Hm : mono_along exb_sh 0%nat exb_w_trust) by (apply mono_alongb_ok; vm_compute; reflexivity).
  assert (He : edgeworth_holds exb_sh (0, 1, 1%Z)%nat exb_w_trust) by (apply edgeworth_holdsb_ok; vm_compute; reflexivity).
  assert (Ht : trapezoid_holds exb_sh (0, 1, 1%Z)%nat exb_w_trust) by (apply trapezoid_holdsb_ok; vm_compute; reflexivity).
  assert (Ho : bounds_ordered (Some 1) (Some 3)) by (cbn; lra).
  split; [|split; [auto|]].
  - intros Hf. specialize (Hf [0; 2; 0]%nat ltac:(repeat constructor; lia)). vm_compute in Hf. apply Hf. reflexivity.
  - split; [|split; [|split; [|split]]].
    + apply approx_bounds_mono; auto.
    + apply approx_bounds_edgeworth; auto.
    + apply approx_bounds_trapezoid; auto.
    + apply approx_bounds_lower; auto.
    + apply approx_bounds_upper; auto. Qed.

Print Assumptions approx_bounds_affine.
Print Assumptions approx_bounds_lower.
Print Assumptions approx_bounds_upper.
Print Assumptions approx_bounds_mono.
Print Assumptions approx_bounds_edgeworth.
Print Assumptions approx_bounds_trapezoid.
Print Assumptions approx_bounds_fixed.
Print Assumptions clip_bounds_mono.
Print Assumptions clip_bounds_in.
Print Assumptions clip_bounds_id.
Print Assumptions clip_after_bounds_id.
