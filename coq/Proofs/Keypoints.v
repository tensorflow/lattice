(* Lemmas about Model/Keypoints.v (property C18).  Every way [finish] returns
   gives keypoints that are [kp_valid] for the sorted distinct values: on the
   quantile paths because the index vector is [idx_ok] (increasing, in range,
   from 0 to n-1) for every rounding to a nearest integer.  The ck_* theorems
   are read off that record. *)
From Coq Require Import FinFun.
From TFL Require Import Model.Keypoints.
Open Scope Q_scope.

Fixpoint chain {A} (R : A -> A -> Prop) (l : list A) : Prop :=
  match l with
  | x :: ((y :: _) as r) => R x y /\ chain R r
  | _ => True
  end.

Lemma chain_tl {A} {R : A -> A -> Prop} {x l} : chain R (x :: l) -> chain R l.
Proof. destruct l; cbn; tauto. Qed.

Lemma chain_nth {A} (R : A -> A -> Prop) (d : A) l :
  (forall j, (S j < length l)%nat -> R (nth j l d) (nth (S j) l d)) -> chain R l.
Proof.
  induction l as [|x l IH]; intros H; [exact I|].
  destruct l as [|y l]; [exact I|]. split.
  - apply (H 0%nat). cbn; lia.
  - apply IH. intros j Hj. apply (H (S j)). cbn in *; lia.
Qed.

Lemma chain_nth_inv {A} (R : A -> A -> Prop) (d : A) l :
  chain R l -> forall j, (S j < length l)%nat -> R (nth j l d) (nth (S j) l d).
Proof.
  induction l as [|x l IH]; intros H j Hj; [cbn in Hj; lia|].
  destruct l as [|y l]; [cbn in Hj; lia|]. destruct H as [H1 H2].
  destruct j; [exact H1|]. apply (IH H2 j). cbn in *; lia.
Qed.

Lemma chain_map {A B} (R : A -> A -> Prop) (R' : B -> B -> Prop) (f : A -> B) l :
  (forall x y, In x l -> In y l -> R x y -> R' (f x) (f y)) -> chain R l -> chain R' (map f l).
Proof.
  induction l as [|x l IH]; intros H Hc; [exact I|].
  destruct l as [|y l]; [exact I|]. destruct Hc as [H1 H2]. split.
  - apply H; cbn; auto.
  - apply IH; [|exact H2]. intros a b Ha Hb. apply H; right; assumption.
Qed.

Lemma chain_head {A} (R : A -> A -> Prop) {x l} : (forall a b c, R a b -> R b c -> R a c) ->
  chain R (x :: l) -> forall y, In y l -> R x y.
Proof.
  intros Ht. revert x; induction l as [|z l IH]; intros x H y Hy; [destruct Hy|].
  destruct H as [H1 H2]. destruct Hy as [<-|Hy]; [exact H1|].
  apply Ht with z; [exact H1|]. apply IH; assumption.
Qed.

Definition increasing (l : list Q) : Prop := chain Qlt l.

Lemma increasing_nth l : increasing l -> forall i j, (i < j)%nat -> (j < length l)%nat -> nth i l 0 < nth j l 0.
Proof.
  induction l as [|x l IH]; intros H i j Hij Hj; [cbn in Hj; lia|].
  destruct j; [lia|]. destruct i.
  - cbn [nth]. apply (chain_head Qlt Qlt_trans H). apply nth_In. cbn in Hj; lia.
  - cbn [nth]. apply IH; [exact (chain_tl H)| lia | cbn in Hj; lia].
Qed.

Lemma increasing_nth_le l : increasing l -> forall i j, (i <= j)%nat -> (j < length l)%nat -> nth i l 0 <= nth j l 0.
Proof.
  intros H i j Hij Hj. destruct (Nat.eq_dec i j) as [->|Hne]; [apply Qle_refl|].
  apply Qlt_le_weak. apply increasing_nth; [assumption|lia|assumption].
Qed.

Lemma strictly_inc_b_true l : strictly_inc_b l = true <-> increasing l.
Proof.
  induction l as [|x l IH]; [cbn; tauto|]. destruct l as [|y l]; [cbn; tauto|].
  change (strictly_inc_b (x :: y :: l)) with (qlt x y && strictly_inc_b (y :: l)).
  change (increasing (x :: y :: l)) with (x < y /\ increasing (y :: l)).
  rewrite andb_true_iff, qlt_true, IH. tauto.
Qed.

Definition zincreasing (l : list Z) : Prop := chain Z.lt l.

Definition in_range (n : nat) (i : Z) : Prop := (0 <= i < Z.of_nat n)%Z.

Lemma take_length sv idx : length (take sv idx) = length idx.
Proof. apply map_length. Qed.

Lemma take_increasing sv idx :
  increasing sv -> zincreasing idx -> (forall i, In i idx -> in_range (length sv) i) ->
  increasing (take sv idx).
Proof.
  intros Hsv Hidx Hr. unfold take, increasing.
  apply (chain_map Z.lt Qlt); [|exact Hidx].
  intros a b Ha Hb Hab. destruct (Hr a Ha), (Hr b Hb).
  apply increasing_nth; [exact Hsv|lia|lia].
Qed.

Lemma take_in_bounds sv idx x :
  increasing sv -> (forall i, In i idx -> in_range (length sv) i) -> In x (take sv idx) ->
  nth 0 sv 0 <= x /\ x <= nth (length sv - 1) sv 0.
Proof.
  intros Hsv Hr Hx. unfold take in Hx. apply in_map_iff in Hx. destruct Hx as [i [<- Hi]].
  destruct (Hr i Hi). split; apply increasing_nth_le; try assumption; lia.
Qed.

Definition nearest (rnd : nat -> Q -> Z) : Prop :=
  forall j x, qabs (inject_Z (rnd j x) - x) <= 1#2.

Lemma inject_Z_le_inv a b : inject_Z a <= inject_Z b -> (a <= b)%Z.
Proof. intro H. rewrite Zle_Qle. exact H. Qed.
Lemma inject_Z_plus1 a : inject_Z (a + 1) == inject_Z a + 1.
Proof. rewrite inject_Z_plus. reflexivity. Qed.
Lemma inject_Z_minus1 a : inject_Z (a - 1) == inject_Z a - 1.
Proof. unfold Z.sub. rewrite inject_Z_plus. reflexivity. Qed.

Lemma round_tie_nearest up x : qabs (inject_Z (round_tie up x) - x) <= 1#2.
Proof.
  unfold round_tie. pose proof (Qfloor_le x) as Hlo. pose proof (Qlt_floor x) as Hhi.
  rewrite inject_Z_plus1 in Hhi.
  destruct (qlt (x - inject_Z (Qfloor x)) (1#2)) eqn:E1.
  - apply qlt_true in E1. qcases; lra.
  - apply qlt_false in E1. destruct (qlt (1#2) (x - inject_Z (Qfloor x))) eqn:E2.
    + apply qlt_true in E2. rewrite inject_Z_plus1. qcases; lra.
    + apply qlt_false in E2. destruct up; [rewrite inject_Z_plus1|]; qcases; lra.
Qed.

Lemma rnd_he_nearest : nearest rnd_he.
Proof. intros j x. apply round_tie_nearest. Qed.

Lemma half_bounds r x a b : qabs (inject_Z r - x) <= 1#2 -> inject_Z a <= x -> x <= inject_Z b -> (a <= r <= b)%Z.
Proof.
  intros H Ha Hb. split.
  - assert (A : inject_Z (a - 1) < inject_Z r) by (rewrite inject_Z_minus1; qcases; lra).
    rewrite <- Zlt_Qlt in A. lia.
  - assert (B : inject_Z r < inject_Z (b + 1)) by (rewrite inject_Z_plus1; qcases; lra).
    rewrite <- Zlt_Qlt in B. lia.
Qed.

(* an integer within 1/2 of an integer-valued rational is that integer *)
Lemma nearest_of_int rnd j x z : nearest rnd -> x == inject_Z z -> rnd j x = z.
Proof.
  intros Hn Hx. destruct (half_bounds (rnd j x) x z z (Hn j x)); [lra|lra|lia].
Qed.

Lemma nearest_in_range rnd n j x : nearest rnd -> (1 <= n)%nat -> 0 <= x -> x <= nq (n - 1) -> in_range n (rnd j x).
Proof.
  intros Hn Hn1 H0 H1. destruct (half_bounds (rnd j x) x 0 (Z.of_nat (n - 1)) (Hn j x) H0 H1).
  unfold in_range. lia.
Qed.

Lemma nearest_strict rnd i j x y : nearest rnd -> x + 1 < y -> (rnd i x < rnd j y)%Z.
Proof.
  intros Hn Hxy. pose proof (Hn i x) as H1. pose proof (Hn j y) as H2.
  rewrite Zlt_Qlt. qcases; lra.
Qed.

Lemma round_all_length rnd raws : length (round_all rnd raws) = length raws.
Proof. unfold round_all. rewrite map_length, combine_length, seq_length. lia. Qed.

Lemma round_all_nth rnd raws j : (j < length raws)%nat ->
  nth j (round_all rnd raws) 0%Z = rnd j (nth j raws 0).
Proof.
  intros Hj. unfold round_all.
  rewrite nth_map_lt with (d' := (0%nat, 0)) by (rewrite combine_length, seq_length; lia).
  rewrite combine_nth by apply seq_length. rewrite seq_nth by exact Hj. reflexivity.
Qed.

Lemma nq_S n : nq (S n) == nq n + 1. Proof. exact (qofnat_S n). Qed.
Lemma nq_0 : nq 0 == 0. Proof. reflexivity. Qed.
Lemma nq_nonneg n : 0 <= nq n. Proof. exact (qofnat_nonneg n). Qed.
Lemma nq_pos n : (0 < n)%nat -> 0 < nq n. Proof. exact (qofnat_pos n). Qed.
Lemma nq_le a b : (a <= b)%nat -> nq a <= nq b. Proof. exact (qofnat_le a b). Qed.
Lemma nq_lt a b : (a < b)%nat -> nq a < nq b. Proof. exact (qofnat_lt a b). Qed.

Lemma quantiles_length k : length (quantiles k) = k.
Proof. unfold quantiles. rewrite map_length, seq_length. reflexivity. Qed.

Lemma quantiles_nth k j : (j < k)%nat -> nth j (quantiles k) 0 == nq j / nq (k - 1).
Proof.
  intros H. unfold quantiles. rewrite nth_map_seq by exact H. apply Qred_correct.
Qed.

Lemma quantile_first k : (0 < k)%nat -> nth 0 (quantiles k) 0 == 0.
Proof. intros H. rewrite quantiles_nth by exact H. unfold Qdiv. rewrite nq_0. lra. Qed.

Lemma quantile_last k : (2 <= k)%nat -> nth (k - 1) (quantiles k) 0 == 1.
Proof.
  intros H. rewrite quantiles_nth by lia. pose proof (nq_pos (k - 1) ltac:(lia)).
  field. lra.
Qed.

Lemma linspace_length a b k : length (linspace a b k) = k.
Proof. unfold linspace. rewrite map_length, seq_length. reflexivity. Qed.

Lemma linspace_nth a b k j : (j < k)%nat -> nth j (linspace a b k) 0 == a + nq j * ((b - a) / nq (k - 1)).
Proof.
  intros H. unfold linspace. rewrite nth_map_seq by exact H. apply Qred_correct.
Qed.

Lemma linspace_first a b k : (1 <= k)%nat -> nth 0 (linspace a b k) 0 == a.
Proof. intros H. rewrite linspace_nth by lia. rewrite nq_0. lra. Qed.

Lemma linspace_last a b k : (2 <= k)%nat -> nth (k - 1) (linspace a b k) 0 == b.
Proof. intros H. rewrite linspace_nth by lia. pose proof (nq_pos (k - 1) ltac:(lia)). field. lra. Qed.

Lemma linspace_step a b k j : (S j < k)%nat ->
  nth (S j) (linspace a b k) 0 - nth j (linspace a b k) 0 == (b - a) / nq (k - 1).
Proof. intros H. rewrite !linspace_nth by lia. rewrite nq_S. ring. Qed.

Lemma linspace_increasing a b k : a < b -> increasing (linspace a b k).
Proof.
  intros Hab. apply (chain_nth Qlt 0). intros j Hj. rewrite linspace_length in Hj.
  pose proof (linspace_step a b k j Hj) as E.
  assert (0 < (b - a) / nq (k - 1)).
  { apply Qlt_shift_div_l; [apply nq_pos; lia|lra]. }
  lra.
Qed.

Lemma linspace_range a b k x : a <= b -> In x (linspace a b k) -> a <= x /\ x <= b.
Proof.
  intros Hab Hx. apply (In_nth _ _ 0) in Hx. destruct Hx as [j [Hj <-]]. rewrite linspace_length in Hj.
  rewrite linspace_nth by exact Hj.
  destruct (Nat.eq_dec k 1) as [->|Hk].
  - assert (j = 0%nat) by lia. subst. rewrite nq_0. lra.
  - pose proof (nq_pos (k - 1) ltac:(lia)) as Hp. pose proof (nq_le j (k - 1) ltac:(lia)) as Hj1.
    (* the step d is non-negative and k - 1 steps lead from a to b *)
    assert (E : nq (k - 1) * ((b - a) / nq (k - 1)) == b - a) by (field; lra).
    assert (Hd : 0 <= (b - a) / nq (k - 1)) by (apply Qle_shift_div_l; lra).
    set (d := (b - a) / nq (k - 1)) in *.
    pose proof (qmul_nonneg (nq j) d (nq_nonneg j) Hd).
    pose proof (qmul_nonneg (nq (k - 1) - nq j) d ltac:(lra) Hd).
    lra.
Qed.

Definition uidx (rnd : nat -> Q -> Z) (n k : nat) : list Z := round_all rnd (nq_raw n k).

Lemma nq_raw_length n k : length (nq_raw n k) = k.
Proof. unfold nq_raw. rewrite map_length. apply quantiles_length. Qed.

(* the raw ranks are n - 1 times the quantiles: k equally spaced points on [0, n-1] *)
Lemma nq_raw_nth n k j : (j < k)%nat -> nth j (nq_raw n k) 0 == nth j (linspace 0 (nq (n - 1)) k) 0.
Proof.
  intros H. unfold nq_raw. rewrite nth_map_lt with (d' := 0) by (rewrite quantiles_length; exact H).
  rewrite Qred_correct, quantiles_nth, linspace_nth by exact H. unfold Qdiv. ring.
Qed.

Lemma uidx_length rnd n k : length (uidx rnd n k) = k.
Proof. unfold uidx. rewrite round_all_length. apply nq_raw_length. Qed.

Lemma uidx_nth rnd n k j : (j < k)%nat -> nth j (uidx rnd n k) 0%Z = rnd j (nth j (nq_raw n k) 0).
Proof. intros H. unfold uidx. apply round_all_nth. rewrite nq_raw_length. exact H. Qed.

Lemma uidx_increasing rnd n k : nearest rnd -> (k <= n)%nat -> zincreasing (uidx rnd n k).
Proof.
  intros Hn Hkn. apply (chain_nth Z.lt 0%Z). intros j Hj. rewrite uidx_length in Hj.
  rewrite !uidx_nth by lia.
  pose proof (nq_raw_nth n k j ltac:(lia)) as E1. pose proof (nq_raw_nth n k (S j) ltac:(lia)) as E2.
  pose proof (nq_pos (k - 1) ltac:(lia)) as Hp.
  destruct (Nat.eq_dec n k) as [->|Hne].
  - (* step exactly 1: the raw ranks are the integers j *)
    rewrite (nearest_of_int rnd j _ (Z.of_nat j) Hn), (nearest_of_int rnd (S j) _ (Z.of_nat (S j)) Hn). lia.
    + rewrite E2, linspace_nth by lia. fold (nq (S j)). field. lra.
    + rewrite E1, linspace_nth by lia. fold (nq j). field. lra.
  - (* step > 1 *)
    apply nearest_strict; [exact Hn|]. pose proof (linspace_step 0 (nq (n - 1)) k j Hj) as E.
    assert (D : 1 < (nq (n - 1) - 0) / nq (k - 1)).
    { apply Qlt_shift_div_l; [exact Hp|]. pose proof (nq_lt (k - 1) (n - 1) ltac:(lia)). lra. }
    lra.
Qed.

Lemma count_le_props strict x l :
  (count_le strict x l <= length l)%nat /\
  (forall i, (i < count_le strict x l)%nat -> nth i l 0 <= x) /\
  ((count_le strict x l < length l)%nat -> x <= nth (count_le strict x l) l 0).
Proof.
  induction l as [|y l IH]; cbn [count_le length].
  - split; [lia|]. split; intros; lia.
  - destruct IH as [I1 [I2 I3]].
    destruct (if strict then qlt y x else qle y x) eqn:E.
    + assert (Hy : y <= x).
      { destruct strict. apply qlt_true in E; lra. apply qle_true in E; exact E. }
      split; [lia|]. split.
      * intros i Hi. destruct i; cbn [nth]; [exact Hy|]. apply I2; lia.
      * intros H. cbn [nth]. apply I3; lia.
    + assert (Hy : x <= y).
      { destruct strict. apply qlt_false in E; exact E. apply qle_false in E; lra. }
      split; [lia|]. split; [intros; lia|]. intros _. cbn [nth]. exact Hy.
Qed.

(* the interpolation weight of x strictly inside [a, b] *)
Lemma frac_unit a x b : a <= x -> x <= b -> ~ a == x -> 0 <= (x - a) / (b - a) /\ (x - a) / (b - a) <= 1.
Proof.
  intros H1 H2 H3. assert (Hd : 0 < b - a) by (destruct (Qlt_le_dec a x); [lra|exfalso; apply H3; lra]).
  split; [apply Qle_shift_div_l|apply Qle_shift_div_r]; lra.
Qed.

(* np.interp's index lies within [0, n-1] *)
Lemma interp_idx_range strict x xp :
  0 <= interp_idx strict x xp /\ interp_idx strict x xp <= nq (length xp - 1).
Proof.
  destruct xp as [|x0 rest]; [split; apply Qle_refl|]. unfold interp_idx. cbv zeta.
  replace (length (x0 :: rest) - 1)%nat with (length rest) by (cbn; lia).
  pose proof (nq_nonneg (length rest)) as Hnn.
  destruct (qlt x x0) eqn:E0; [lra|]. apply qlt_false in E0.
  destruct (qlt (last (x0 :: rest) 0) x); [lra|].
  destruct (count_le_props strict x rest) as [C1 [C2 C3]]. set (j := count_le strict x rest) in *.
  pose proof (nq_nonneg j) as Hj0.
  destruct (Nat.eqb_spec j (length rest)) as [Ej|Ej]; [rewrite Ej; lra|].
  pose proof (nq_le (S j) (length rest) ltac:(lia)) as Hj1. rewrite nq_S in Hj1.
  destruct (Qeq_bool (nth j (x0 :: rest) 0) x) eqn:Eh; [lra|]. apply Qeq_bool_neq in Eh. rewrite Qred_correct.
  destruct (frac_unit (nth j (x0 :: rest) 0) x (nth (S j) (x0 :: rest) 0)) as [R0 R1]; [| |exact Eh|lra].
  - destruct j as [|j']; cbn [nth]; [exact E0|apply C2; lia].
  - cbn [nth]. apply C3. lia.
Qed.

Lemma wq_from_length acc S ws : length (wq_from acc S ws) = length ws.
Proof. revert acc; induction ws as [|w r IH]; intros acc; cbn; [reflexivity|]. rewrite IH. reflexivity. Qed.
Lemma wquantiles_length ws : length (wquantiles ws) = length ws.
Proof. apply wq_from_length. Qed.

Lemma wq_raw_length strict ws k : length (wq_raw strict ws k) = k.
Proof. unfold wq_raw. rewrite map_length. apply quantiles_length. Qed.

Lemma wq_raw_range strict ws k x : In x (wq_raw strict ws k) -> 0 <= x /\ x <= nq (length ws - 1).
Proof.
  intros Hx. unfold wq_raw in Hx. apply in_map_iff in Hx. destruct Hx as [q [<- _]].
  rewrite <- (wquantiles_length ws). apply interp_idx_range.
Qed.

Lemma round_all_in rnd raws i : In i (round_all rnd raws) -> exists j x, In x raws /\ i = rnd j x.
Proof.
  unfold round_all. intros H. apply in_map_iff in H. destruct H as [[j x] [<- Hp]].
  apply in_combine_r in Hp. exists j, x. split; [exact Hp|reflexivity].
Qed.

Lemma pin_range n q i : in_range n i -> in_range n (pin n q i).
Proof. intros Hi. unfold pin, in_range in *. destruct (qle 1 q); [lia|]. destruct (qle q 0); lia. Qed.

Lemma pin_all_length n k idx : length idx = k -> length (pin_all n k idx) = k.
Proof. intros H. unfold pin_all. rewrite map2_length, quantiles_length. lia. Qed.

Lemma pin_all_range n k idx i : (forall x, In x idx -> in_range n x) -> In i (pin_all n k idx) -> in_range n i.
Proof.
  intros Hr Hi. unfold pin_all in Hi. destruct (in_map2 _ _ _ _ Hi) as [q [x [_ [Hx ->]]]].
  apply pin_range, Hr, Hx.
Qed.

Lemma pin_all_nth n k idx j : length idx = k -> (j < k)%nat ->
  nth j (pin_all n k idx) 0%Z = pin n (nth j (quantiles k) 0) (nth j idx 0%Z).
Proof.
  intros Hl Hj. unfold pin_all. apply nth_map2; [rewrite quantiles_length; exact Hj|lia].
Qed.

Lemma pin_all_first n k idx : length idx = k -> (1 <= k)%nat -> nth 0 (pin_all n k idx) 0%Z = 0%Z.
Proof.
  intros Hl Hk. rewrite pin_all_nth by lia. unfold pin.
  pose proof (quantile_first k ltac:(lia)) as E.
  destruct (qle 1 (nth 0 (quantiles k) 0)) eqn:E1; [apply qle_true in E1; lra|].
  destruct (qle (nth 0 (quantiles k) 0) 0) eqn:E2; [reflexivity|apply qle_false in E2; lra].
Qed.

Lemma pin_all_last n k idx : length idx = k -> (2 <= k)%nat ->
  nth (k - 1) (pin_all n k idx) 0%Z = (Z.of_nat n - 1)%Z.
Proof.
  intros Hl Hk. rewrite pin_all_nth by lia. unfold pin.
  pose proof (quantile_last k Hk) as E.
  destruct (qle 1 (nth (k - 1) (quantiles k) 0)) eqn:E1; [reflexivity|apply qle_false in E1; lra].
Qed.

Lemma zmem_true z l : zmem z l = true <-> In z l.
Proof. exact (existsb_eqb Z.eqb Z.eqb_eq z l). Qed.
Lemma zmem_false z l : zmem z l = false <-> ~ In z l.
Proof. rewrite <- zmem_true. destruct (zmem z l); split; congruence. Qed.

Lemma cand_ok_true n used c : cand_ok n used c = true <-> in_range n c /\ ~ In c used.
Proof.
  unfold cand_ok, in_range. rewrite !andb_true_iff, negb_true_iff, zmem_false, Z.leb_le, Z.ltb_lt. tauto.
Qed.

Lemma find_cand_some {fuel} : forall {delta n v used c},
  find_cand fuel delta n v used = Some c -> in_range n c /\ ~ In c used.
Proof.
  induction fuel as [|f IH]; intros delta n v used c H; cbn in H; [discriminate|].
  destruct (cand_ok n used (v - delta)) eqn:E1; [inversion H; subst; apply cand_ok_true; exact E1|].
  destruct (cand_ok n used (v + delta)) eqn:E2; [inversion H; subst; apply cand_ok_true; exact E2|].
  exact (IH _ _ _ _ _ H).
Qed.

(* the search examines every delta in [delta0, delta0 + fuel) in both directions *)
Lemma find_cand_none {fuel} : forall {delta n v used},
  find_cand fuel delta n v used = None ->
  forall d, (delta <= d < delta + Z.of_nat fuel)%Z ->
  cand_ok n used (v - d) = false /\ cand_ok n used (v + d) = false.
Proof.
  induction fuel as [|f IH]; intros delta n v used H d Hd; [lia|]. cbn in H.
  destruct (cand_ok n used (v - delta)) eqn:E1; [discriminate|].
  destruct (cand_ok n used (v + delta)) eqn:E2; [discriminate|].
  destruct (Z.eq_dec d delta) as [->|Hne]; [split; assumption|].
  apply (IH _ _ _ _ H). lia.
Qed.

(* pigeonhole: fewer used indices than positions leaves a free position *)
Lemma free_index n used : (length used < n)%nat -> exists c, in_range n c /\ ~ In c used.
Proof.
  intros Hlen. set (range := map Z.of_nat (seq 0 n)).
  destruct (find (fun c => negb (zmem c used)) range) as [c|] eqn:E.
  - apply find_some in E. destruct E as [Hin Hc]. apply negb_true_iff, zmem_false in Hc.
    exists c. split; [|exact Hc]. subst range. apply in_map_iff in Hin. destruct Hin as [i [<- Hi]].
    apply in_seq in Hi. unfold in_range. lia.
  - exfalso. assert (Hincl : incl range used).
    { intros c Hc. pose proof (find_none _ _ E c Hc) as Hn. apply negb_false_iff, zmem_true in Hn. exact Hn. }
    assert (Hnd : NoDup range).
    { subst range. apply FinFun.Injective_map_NoDup; [intros a b; apply Nat2Z.inj|apply seq_NoDup]. }
    pose proof (NoDup_incl_length Hnd Hincl) as Hl. subst range. rewrite map_length, seq_length in Hl. lia.
Qed.

Lemma find_cand_succeeds n v used : in_range n v -> In v used -> (length used < n)%nat ->
  exists c, find_cand (n - 1) 1 n v used = Some c.
Proof.
  intros Hv Hin Hlen. destruct (free_index n used Hlen) as [c [Hc Hfree]].
  destruct (find_cand (n - 1) 1 n v used) as [c'|] eqn:E; [exists c'; reflexivity|exfalso].
  assert (Hne : c <> v) by (intro; subst; contradiction).
  unfold in_range in *.
  assert (Hok : cand_ok n used c = true) by (apply cand_ok_true; split; assumption).
  destruct (Z_lt_le_dec c v) as [Hlt|Hge].
  - destruct (find_cand_none E (v - c)%Z ltac:(lia)) as [H1 _].
    replace (v - (v - c))%Z with c in H1 by lia. congruence.
  - destruct (find_cand_none E (c - v)%Z ltac:(lia)) as [_ H2].
    replace (v + (c - v))%Z with c in H2 by lia. congruence.
Qed.

Fixpoint nonfirst (seen l : list Z) : nat :=
  match l with
  | [] => 0
  | v :: r => if zmem v seen then S (nonfirst seen r) else nonfirst (v :: seen) r
  end.

Lemma first_uses_count seen l : (length (first_uses seen l) + nonfirst seen l = length l)%nat.
Proof.
  revert seen; induction l as [|v r IH]; intros seen; cbn; [reflexivity|].
  destruct (zmem v seen); cbn; [pose proof (IH seen)|pose proof (IH (v :: seen))]; lia.
Qed.

Lemma first_uses_in seen l v : In v l -> In v seen \/ In v (first_uses seen l).
Proof.
  revert seen; induction l as [|x r IH]; intros seen H; [destruct H|]. cbn.
  destruct (zmem x seen) eqn:E.
  - destruct H as [<-|H]; [left; apply zmem_true; exact E|apply IH; exact H].
  - destruct H as [<-|H]; [right; left; reflexivity|].
    destruct (IH (x :: seen) H) as [[<-|Hs]|Hf]; [right; left; reflexivity|left; exact Hs|right; right; exact Hf].
Qed.

(* what holds of the loop whether or not the search succeeds *)
Lemma repair_go_length n rest : forall seen used, length (repair_go n seen rest used) = length rest.
Proof.
  induction rest as [|v r IH]; intros seen used; cbn [repair_go]; [reflexivity|].
  destruct (zmem v seen); [destruct (find_cand (n - 1) 1 n v used)|]; cbn [length]; rewrite IH; reflexivity.
Qed.

Lemma repair_go_keeps n rest : forall seen used v, In v rest -> In v seen \/ In v (repair_go n seen rest used).
Proof.
  induction rest as [|y r IH]; intros seen used v; cbn [repair_go]; [intros []|].
  intros [<-|Hv]; destruct (zmem y seen) eqn:Ey.
  - left. apply zmem_true. exact Ey.
  - right. left. reflexivity.
  - (* after a repeat, replaced or not, the loop goes on with the same [seen] *)
    destruct (find_cand (n - 1) 1 n y used) as [c|].
    + destruct (IH seen (c :: used) v Hv) as [Hs|Ho]; [left; exact Hs|right; right; exact Ho].
    + destruct (IH seen used v Hv) as [Hs|Ho]; [left; exact Hs|right; right; exact Ho].
  - destruct (IH (y :: seen) used v Hv) as [[<-|Hs]|Ho]; [right; left; reflexivity|left; exact Hs|right; right; exact Ho].
Qed.

(* an output is an input, or an index in range that was free when chosen *)
Lemma repair_go_fresh {n rest} : forall {seen used x}, In x (repair_go n seen rest used) ->
  In x rest \/ (in_range n x /\ ~ In x used).
Proof.
  induction rest as [|v r IH]; intros seen used x; cbn [repair_go]; [intros []|].
  destruct (zmem v seen); [destruct (find_cand (n - 1) 1 n v used) as [c|] eqn:Ec|].
  - (* a repeat replaced by c, which counts as used from then on *)
    intros [<-|Hx]; [right; exact (find_cand_some Ec)|].
    destruct (IH _ _ _ Hx) as [H|[H1 H2]]; [left; right; exact H|].
    right. split; [exact H1|]. intro Hu. apply H2. right; exact Hu.
  - (* a repeat kept for want of a candidate *)
    intros [<-|Hx]; [left; left; reflexivity|].
    destruct (IH _ _ _ Hx) as [H|H]; [left; right; exact H|right; exact H].
  - (* a first use *)
    intros [<-|Hx]; [left; left; reflexivity|].
    destruct (IH _ _ _ Hx) as [H|H]; [left; right; exact H|right; exact H].
Qed.

Lemma repair_go_range n rest seen used : (forall v, In v rest -> in_range n v) ->
  forall x, In x (repair_go n seen rest used) -> in_range n x.
Proof. intros Hr x Hx. destruct (repair_go_fresh Hx) as [H|[H _]]; [exact (Hr x H)|exact H]. Qed.

(* with room left ([used] and the repeats still to come fit in n) the search
   always succeeds; the outputs are then distinct and none was seen before *)
Lemma repair_go_nodup n : forall rest seen used,
  incl seen used -> incl rest used -> (forall v, In v rest -> in_range n v) ->
  (length used + nonfirst seen rest <= n)%nat ->
  NoDup (repair_go n seen rest used) /\ forall x, In x (repair_go n seen rest used) -> ~ In x seen.
Proof.
  induction rest as [|v r IH]; intros seen used Hseen Hrest Hrange Hcap; cbn [repair_go].
  - split; [constructor|intros x []].
  - cbn [nonfirst] in Hcap.
    assert (Hvu : In v used) by (apply Hrest; left; reflexivity).
    assert (Hr' : incl r used) by (intros x Hx; apply Hrest; right; exact Hx).
    assert (Hrg' : forall x, In x r -> in_range n x) by (intros x Hx; apply Hrange; right; exact Hx).
    destruct (zmem v seen) eqn:Ev.
    + destruct (find_cand_succeeds n v used (Hrange v (or_introl eq_refl)) Hvu ltac:(lia)) as [c Hc].
      rewrite Hc. destruct (find_cand_some Hc) as [_ Hcu].
      destruct (IH seen (c :: used)) as [I1 I2]; [apply incl_tl, Hseen|apply incl_tl, Hr'|exact Hrg'|cbn [length]; lia|].
      split.
      * constructor; [|exact I1]. intros Hin. destruct (repair_go_fresh Hin) as [Hcr|[_ Hn]].
        -- exact (Hcu (Hr' c Hcr)).
        -- apply Hn. left; reflexivity.
      * intros x [<-|Hx]; [intro Hs; exact (Hcu (Hseen _ Hs))|exact (I2 x Hx)].
    + apply zmem_false in Ev.
      destruct (IH (v :: seen) used) as [I1 I2]; [apply incl_cons; assumption|exact Hr'|exact Hrg'|exact Hcap|].
      split.
      * constructor; [|exact I1]. intros Hin. exact (I2 v Hin (or_introl eq_refl)).
      * intros x [<-|Hx]; [exact Ev|]. intros Hs. exact (I2 x Hx (or_intror Hs)).
Qed.

(* the repair loop always ends with pairwise distinct in-range indices that
   still contain every original index, provided there are at least as many
   positions as quantiles *)
Theorem repair_distinct n idx :
  (length idx <= n)%nat -> (forall v, In v idx -> in_range n v) ->
  NoDup (repair n idx) /\ length (repair n idx) = length idx /\
  (forall x, In x (repair n idx) -> in_range n x) /\
  (forall v, In v idx -> In v (repair n idx)).
Proof.
  intros Hlen Hrange. unfold repair.
  split; [|split; [apply repair_go_length|split; [apply repair_go_range; exact Hrange|]]].
  - apply repair_go_nodup; [intros x []| |exact Hrange|pose proof (first_uses_count [] idx); lia].
    intros x Hx. destruct (first_uses_in [] idx x Hx) as [[]|H]; exact H.
  - intros v Hv. destruct (repair_go_keeps n idx [] (first_uses [] idx) v Hv) as [[]|H]; exact H.
Qed.

Lemma zinsert_in x l y : In y (zinsert x l) <-> y = x \/ In y l.
Proof.
  induction l as [|z l IH]; cbn; [intuition|].
  destruct (x <=? z)%Z; cbn; [intuition|]. rewrite IH. intuition.
Qed.
Lemma zinsert_length x l : length (zinsert x l) = S (length l).
Proof. induction l as [|z l IH]; cbn; [reflexivity|]. destruct (x <=? z)%Z; cbn; [reflexivity|]. rewrite IH; reflexivity. Qed.

Lemma zinsert_increasing x l : zincreasing l -> ~ In x l -> zincreasing (zinsert x l).
Proof.
  induction l as [|z l IH]; intros Hc Hn; cbn; [exact I|].
  destruct (x <=? z)%Z eqn:E.
  - apply Z.leb_le in E. split; [|exact Hc]. assert (x <> z) by (intro; subst; apply Hn; left; reflexivity). lia.
  - apply Z.leb_gt in E.
    assert (Hi : zincreasing (zinsert x l)).
    { apply IH; [exact (chain_tl Hc)|intro; apply Hn; right; assumption]. }
    destruct l as [|w l]; cbn.
    + split; [exact E|exact I].
    + cbn in Hi. destruct Hc as [Hzw Hc]. destruct (x <=? w)%Z eqn:E2; cbn in Hi |- *.
      * split; [exact E|exact Hi].
      * split; [exact Hzw|exact Hi].
Qed.

Lemma zsort_cons x l : zsort (x :: l) = zinsert x (zsort l).
Proof. reflexivity. Qed.
Lemma zsort_in l y : In y (zsort l) <-> In y l.
Proof. induction l as [|x l IH]; [cbn; tauto|]. rewrite zsort_cons, zinsert_in, IH. cbn. intuition. Qed.
Lemma zsort_length l : length (zsort l) = length l.
Proof. induction l as [|x l IH]; [reflexivity|]. rewrite zsort_cons, zinsert_length, IH. reflexivity. Qed.
Lemma zsort_increasing l : NoDup l -> zincreasing (zsort l).
Proof.
  induction 1 as [|x l Hn Hnd IH]; [exact I|]. rewrite zsort_cons.
  apply zinsert_increasing; [exact IH|]. rewrite zsort_in. exact Hn.
Qed.

(* head / last of a strictly increasing list are its minimum / maximum *)
Lemma zincreasing_hd l m : zincreasing l -> In m l -> (forall x, In x l -> (m <= x)%Z) -> hd 0%Z l = m.
Proof.
  destruct l as [|h t]; intros Hc Hin Hmin; [destruct Hin|]. cbn.
  destruct Hin as [E|Hin]; [exact E|].
  pose proof (chain_head Z.lt Z.lt_trans Hc m Hin). pose proof (Hmin h (or_introl eq_refl)). lia.
Qed.

Lemma zincreasing_last l m : zincreasing l -> In m l -> (forall x, In x l -> (x <= m)%Z) -> last l 0%Z = m.
Proof.
  induction l as [|h t IH]; intros Hc Hin Hmax; [destruct Hin|].
  destruct t as [|h2 t].
  - cbn. destruct Hin as [E|[]]. exact E.
  - change (last (h :: h2 :: t) 0%Z) with (last (h2 :: t) 0%Z). apply IH.
    + exact (chain_tl Hc).
    + destruct Hin as [<-|Hin]; [|exact Hin]. exfalso.
      pose proof (chain_head Z.lt Z.lt_trans Hc h2 (or_introl eq_refl)).
      pose proof (Hmax h2 (or_intror (or_introl eq_refl))). lia.
    + intros x Hx. apply Hmax. right; exact Hx.
Qed.

(* what [take] needs of k indices into n sorted values *)
Definition idx_ok (n k : nat) (idx : list Z) : Prop :=
  zincreasing idx /\ length idx = k /\ (forall i, In i idx -> in_range n i) /\
  ((1 <= k)%nat -> hd 0%Z idx = 0%Z) /\ ((2 <= k)%nat -> last idx 0%Z = (Z.of_nat n - 1)%Z).

Lemma uidx_ok rnd n k : nearest rnd -> (k <= n)%nat -> idx_ok n k (uidx rnd n k).
Proof.
  intros Hn Hkn. split; [apply uidx_increasing; assumption|]. split; [apply uidx_length|]. split; [|split; intros Hk].
  - intros i Hi. apply (In_nth _ _ 0%Z) in Hi. destruct Hi as [j [Hj <-]].
    rewrite uidx_length in Hj. rewrite uidx_nth by exact Hj.
    destruct (linspace_range 0 (nq (n - 1)) k (nth j (linspace 0 (nq (n - 1)) k) 0) (nq_nonneg _)) as [A B];
      [apply nth_In; rewrite linspace_length; exact Hj|].
    rewrite <- nq_raw_nth in A, B by exact Hj. apply nearest_in_range; [exact Hn|lia|exact A|exact B].
  - rewrite hd_nth0, uidx_nth by lia. apply nearest_of_int; [exact Hn|].
    rewrite nq_raw_nth by lia. apply linspace_first. exact Hk.
  - rewrite last_nth, uidx_length, uidx_nth by lia. replace (Z.of_nat n - 1)%Z with (Z.of_nat (n - 1)) by lia.
    apply nearest_of_int; [exact Hn|]. rewrite nq_raw_nth by lia. apply linspace_last. exact Hk.
Qed.

(* rint, pinning, repair and sort make such a vector of ANY k raw positions
   within [0, n-1], whatever np.interp returned *)
Lemma idx_tail_ok rnd n k raws :
  nearest rnd -> (k <= n)%nat -> length raws = k ->
  (forall x, In x raws -> 0 <= x /\ x <= nq (n - 1)) ->
  idx_ok n k (zsort (repair n (pin_all n k (round_all rnd raws)))).
Proof.
  intros Hn Hkn Lraws Rraws. set (r := round_all rnd raws). set (p := pin_all n k r).
  assert (Lr : length r = k) by (subst r; rewrite round_all_length; exact Lraws).
  assert (Lp : length p = k) by (apply pin_all_length; exact Lr).
  assert (Rr : forall x, In x r -> in_range n x).
  { intros x Hx. destruct (round_all_in _ _ _ Hx) as [j [q [Hq ->]]]. destruct (Rraws q Hq).
    apply nearest_in_range; [exact Hn| |assumption|assumption]. destruct raws; [destruct Hq|cbn in Lraws; lia]. }
  destruct (repair_distinct n p) as [D1 [D2 [D3 D4]]]; [lia|exact (fun v => pin_all_range n k r v Rr)|].
  pose proof (zsort_increasing _ D1) as S1.
  assert (S3 : forall i, In i (zsort (repair n p)) -> in_range n i) by (intros i Hi; apply D3, zsort_in, Hi).
  split; [exact S1|]. split; [rewrite zsort_length, D2; exact Lp|]. split; [exact S3|]. split; intros Hk.
  - apply zincreasing_hd; [exact S1| |intros x Hx; destruct (S3 x Hx); lia].
    apply (proj2 (zsort_in _ _)), D4. rewrite <- (pin_all_first n k r Lr Hk). apply nth_In. lia.
  - apply zincreasing_last; [exact S1| |intros x Hx; destruct (S3 x Hx); lia].
    apply (proj2 (zsort_in _ _)), D4. rewrite <- (pin_all_last n k r Lr Hk). apply nth_In. lia.
Qed.

Lemma weighted_idx_ok rnd strict n ws k : nearest rnd -> length ws = n -> (k <= n)%nat ->
  idx_ok n k (weighted_idx rnd strict n ws k).
Proof.
  intros Hn <- Hk. apply idx_tail_ok; [exact Hn|exact Hk|apply wq_raw_length|apply wq_raw_range].
Qed.

Lemma ins_increasing v w l : increasing (map gv l) -> increasing (map gv (ins v w l)).
Proof.
  induction l as [|g r IH]; intros Hc; [exact I|]. cbn [ins].
  destruct (qlt v (gv g)) eqn:E1.
  - apply qlt_true in E1. cbn [map gv]. split; [exact E1|exact Hc].
  - apply qlt_false in E1. destruct (Qeq_bool v (gv g)) eqn:E2.
    + exact Hc.
    + apply Qeq_bool_neq in E2. assert (Hlt : gv g < v) by (destruct (Qlt_le_dec (gv g) v); [assumption|exfalso; apply E2; lra]).
      assert (Hi : increasing (map gv (ins v w r))) by (apply IH; exact (chain_tl Hc)).
      destruct r as [|g2 r2]; [cbn; split; [exact Hlt|exact I]|].
      cbn [map] in Hc. destruct Hc as [H12 Hc]. cbn [ins] in Hi |- *.
      destruct (qlt v (gv g2)); [cbn [map gv] in *; split; [exact Hlt|exact Hi]|].
      destruct (Qeq_bool v (gv g2)); cbn [map gv] in *; (split; [exact H12|exact Hi]).
Qed.

Lemma sort_unique_increasing ps : increasing (map gv (sort_unique ps)).
Proof. induction ps as [|p ps IH]; [exact I|]. cbn. apply ins_increasing. exact IH. Qed.

Definition veq_in (x : Q) (l : list Q) : Prop := exists y, In y l /\ y == x.

Lemma veq_in_self x l : In x l -> veq_in x l.
Proof. intros H. exists x. split; [exact H|reflexivity]. Qed.
Lemma veq_in_cons x y l : veq_in x (y :: l) <-> y == x \/ veq_in x l.
Proof.
  unfold veq_in. cbn [In]. split.
  - intros [z [[<-|Hz] E]]; [left; exact E|right; exists z; split; assumption].
  - intros [E|[z [Hz E]]]; [exists y; split; [left; reflexivity|exact E]|exists z; split; [right; exact Hz|exact E]].
Qed.
(* lists with the same values up to == are empty together *)
Lemma veq_in_nil l l' : (forall x, veq_in x l <-> veq_in x l') -> l = [] -> l' = [].
Proof.
  intros H ->. destruct l' as [|y l']; [reflexivity|].
  destruct (proj2 (H y) (veq_in_self y (y :: l') (or_introl eq_refl))) as [z [[] _]].
Qed.

Lemma ins_values v w l x : veq_in x (map gv (ins v w l)) <-> (v == x \/ veq_in x (map gv l)).
Proof.
  induction l as [|g r IH]; cbn [ins map].
  - cbn [gv]. apply veq_in_cons.
  - destruct (qlt v (gv g)); [cbn [map gv]; apply veq_in_cons|].
    destruct (Qeq_bool v (gv g)) eqn:E2; cbn [map gv]; rewrite !veq_in_cons.
    + apply Qeq_bool_eq in E2. rewrite E2. tauto.
    + rewrite IH. tauto.
Qed.

Lemma sort_unique_values ps x : veq_in x (map gv (sort_unique ps)) <-> veq_in x (map fst ps).
Proof.
  induction ps as [|p ps IH]; [reflexivity|].
  cbn [sort_unique fold_right map]. fold (sort_unique ps). rewrite ins_values, IH, veq_in_cons. reflexivity.
Qed.

(* values of prep = clipped, when the weight vector has the length of the data *)
Definition wlen_ok (vs : list Q) (ws : option (list Q)) : Prop :=
  match ws with Some w => length w = length vs | None => True end.

Lemma map_fst_combine {A B} (a : list A) (b : list B) : length b = length a -> map fst (combine a b) = a.
Proof. revert b; induction a as [|x a IH]; intros [|y b] H; cbn in *; try congruence. f_equal. apply IH. lia. Qed.

Lemma remove_default_values dv ps : map fst (remove_default dv ps) =
  match dv with None => map fst ps | Some d => filter (fun v => negb (Qeq_bool v d)) (map fst ps) end.
Proof.
  destruct dv as [d|]; [|reflexivity]. cbn [remove_default].
  induction ps as [|p ps IH]; cbn; [reflexivity|]. destruct (negb (Qeq_bool (fst p) d)); cbn; rewrite IH; reflexivity.
Qed.

(* both clipping steps map the values and append the bound with weight 0 *)
Lemma clip_lo_values cmin ps : map fst (clip_lo_step cmin ps) =
  match cmin with None => map fst ps | Some lo => map (fun v => qmax v lo) (map fst ps) ++ [lo] end.
Proof. destruct cmin; cbn [clip_lo_step]; [rewrite map_app, !map_map|]; reflexivity. Qed.
Lemma clip_hi_values cmax ps : map fst (clip_hi_step cmax ps) =
  match cmax with None => map fst ps | Some hi => map (fun v => qmin v hi) (map fst ps) ++ [hi] end.
Proof. destruct cmax; cbn [clip_hi_step]; [rewrite map_app, !map_map|]; reflexivity. Qed.

Lemma prep_values vs ws cmin cmax dv : wlen_ok vs ws -> map fst (prep vs ws cmin cmax dv) = clipped vs cmin cmax dv.
Proof.
  intros Hl. unfold prep, clipped, pairs.
  rewrite clip_hi_values, clip_lo_values, remove_default_values, map_fst_combine; [reflexivity|].
  destruct ws; [exact Hl|apply map_length].
Qed.

Lemma qminl_char l m : veq_in m l -> (forall x, In x l -> m <= x) -> qminl l == m.
Proof.
  intros [y [Hy E]] Hall. apply Qle_antisym; [rewrite <- E; apply qminl_le; exact Hy|].
  apply qminl_glb; [intro N; rewrite N in Hy; destruct Hy|exact Hall].
Qed.
Lemma qmaxl_char l m : veq_in m l -> (forall x, In x l -> x <= m) -> qmaxl l == m.
Proof.
  intros [y [Hy E]] Hall. apply Qle_antisym; [|rewrite <- E; apply qmaxl_ge; exact Hy].
  apply qmaxl_lub; [intro N; rewrite N in Hy; destruct Hy|exact Hall].
Qed.

Lemma sorted_first_is_min sv cl : increasing sv -> cl <> [] -> (forall x, veq_in x sv <-> veq_in x cl) ->
  nth 0 sv 0 == qminl cl /\ nth (length sv - 1) sv 0 == qmaxl cl.
Proof.
  intros Hinc Hne Hv.
  assert (Hsv : (0 < length sv)%nat).
  { destruct sv; [|cbn; lia]. elim Hne. exact (veq_in_nil _ _ Hv eq_refl). }
  assert (Hall : forall x, In x cl -> nth 0 sv 0 <= x /\ x <= nth (length sv - 1) sv 0).
  { intros x Hx. destruct (proj2 (Hv x) (veq_in_self x cl Hx)) as [y [Hy Hyx]].
    apply (In_nth _ _ 0) in Hy. destruct Hy as [i [Hi <-]]. rewrite <- Hyx.
    split; apply increasing_nth_le; try assumption; lia. }
  split; symmetry; [apply qminl_char|apply qmaxl_char]; try (intros x Hx; apply Hall; exact Hx);
    apply Hv, veq_in_self, nth_In; lia.
Qed.

Definition two_distinct (cl : list Q) : Prop := exists a b, In a cl /\ In b cl /\ a < b.

Lemma two_distinct_values sv cl : (forall x, veq_in x sv <-> veq_in x cl) -> two_distinct cl -> (2 <= length sv)%nat.
Proof.
  intros Hv [a [b [Ha [Hb Hab]]]].
  destruct (proj2 (Hv a) (veq_in_self a cl Ha)) as [ya [Hya Ea]].
  destruct (proj2 (Hv b) (veq_in_self b cl Hb)) as [yb [Hyb Eb]].
  destruct sv as [|s1 [|s2 sv]]; [destruct Hya| |cbn; lia].
  destruct Hya as [<-|[]]. destruct Hyb as [<-|[]]. lra.
Qed.

Lemma last_default {A} (l : list A) d d' : l <> [] -> last l d = last l d'.
Proof.
  induction l as [|x l IH]; [congruence|]. intros _. destruct l as [|y l]; [reflexivity|].
  change (last (x :: y :: l) d) with (last (y :: l) d). change (last (x :: y :: l) d') with (last (y :: l) d').
  apply IH. discriminate.
Qed.

Lemma take_nth sv idx j : (j < length idx)%nat -> nth j (take sv idx) 0 = nth (Z.to_nat (nth j idx 0%Z)) sv 0.
Proof. intros H. unfold take. rewrite nth_map_lt with (d' := 0%Z) by exact H. reflexivity. Qed.

(* finish: all clauses, given the strictly sorted distinct values *)
Set Implicit Arguments.
Record kp_valid (sv : list Q) (k : nat) (mode : kmode) (kps : list Q) : Prop := {
  kv_increasing : (2 <= length sv)%nat -> increasing kps;
  kv_range : forall x, In x kps -> nth 0 sv 0 <= x /\ x <= nth (length sv - 1) sv 0;
  kv_first : (2 <= k)%nat -> hd 0 kps == nth 0 sv 0;
  kv_last : (2 <= k)%nat -> last kps 0 == nth (length sv - 1) sv 0;
  kv_count_enough : (k <= length sv)%nat -> length kps = k;
  kv_count_few : (length sv < k)%nat -> mode = Quantiles -> kps = sv;
  kv_count_uniform : mode = Uniform -> length kps = k;
  kv_nonempty : kps <> [] -> sv <> [];
  kv_mode : mode <> MOther }.
Unset Implicit Arguments.

Lemma take_valid sv k idx :
  increasing sv -> (k <= length sv)%nat -> idx_ok (length sv) k idx -> kp_valid sv k Quantiles (take sv idx).
Proof.
  intros Hsv Hkn [Hinc [Hlen [Hr [Hhd Hlast]]]]. constructor.
  - intros _. apply take_increasing; assumption.
  - intros x Hx. apply (take_in_bounds sv idx); assumption.
  - intros Hk. rewrite hd_nth0, take_nth by lia. rewrite <- hd_nth0, Hhd by lia. reflexivity.
  - intros Hk. rewrite last_nth, take_length, take_nth by lia. rewrite <- last_nth, Hlast by lia.
    replace (Z.to_nat (Z.of_nat (length sv) - 1)) with (length sv - 1)%nat by lia. reflexivity.
  - intros _. rewrite take_length. exact Hlen.
  - intros H. lia.
  - discriminate.
  - intros Hne E. destruct idx as [|i idx]; [apply Hne; reflexivity|].
    destruct (Hr i (or_introl eq_refl)). rewrite E in *. cbn [length] in *. lia.
  - discriminate.
Qed.

Lemma uniform_valid sv k : increasing sv -> sv <> [] ->
  kp_valid sv k Uniform (linspace (hd 0 sv) (last sv (hd 0 sv)) k).
Proof.
  intros Hsv Hne.
  assert (Ea : hd 0 sv = nth 0 sv 0) by apply hd_nth0.
  assert (Eb : last sv (hd 0 sv) = nth (length sv - 1) sv 0).
  { rewrite <- last_nth. apply last_default. exact Hne. }
  rewrite Eb, Ea.
  assert (Hn1 : (1 <= length sv)%nat) by (destruct sv; [congruence|cbn; lia]).
  assert (Hab : nth 0 sv 0 <= nth (length sv - 1) sv 0) by (apply increasing_nth_le; [exact Hsv|lia|lia]).
  constructor.
  + intros H2. apply linspace_increasing. apply increasing_nth; [exact Hsv|lia|lia].
  + intros x Hx. apply (linspace_range _ _ k); assumption.
  + intros Hk. rewrite hd_nth0. apply linspace_first. lia.
  + intros Hk. rewrite last_nth, linspace_length. apply linspace_last. exact Hk.
  + intros _. apply linspace_length.
  + discriminate.
  + intros _. apply linspace_length.
  + intros _. exact Hne.
  + discriminate.
Qed.

(* fewer distinct values than requested: the values themselves *)
Lemma few_valid sv k : increasing sv -> (length sv < k)%nat -> kp_valid sv k Quantiles sv.
Proof.
  intros Hsv Ek. constructor.
  - intros _. exact Hsv.
  - intros x Hx. apply (In_nth _ _ 0) in Hx. destruct Hx as [i [Hi <-]].
    split; apply increasing_nth_le; try assumption; lia.
  - intros _. rewrite hd_nth0. reflexivity.
  - intros _. rewrite last_nth. reflexivity.
  - intros H; lia.
  - reflexivity.
  - discriminate.
  - tauto.
  - discriminate.
Qed.

(* the three ways [finish] returns *)
Lemma finish_some rnd strict gs k mode weighted red kps :
  finish rnd strict gs k mode weighted red = Some kps ->
  let sv := map gv gs in
  match mode with
  | Quantiles =>
    if (length sv <? k)%nat then kps = sv
    else kps = take sv (if weighted then weighted_idx rnd strict (length sv) (map (reduce red) gs) k
                        else uidx rnd (length sv) k)
  | Uniform => match sv with [] => False | a :: _ => kps = linspace a (last sv a) k end
  | MOther => False
  end.
Proof.
  unfold finish, weighted_quantile. cbv zeta.
  destruct mode; [| |destruct weighted, red; discriminate].
  - destruct (length (map gv gs) <? k)%nat.
    + destruct weighted, red; intros H; inversion H; reflexivity.
    + destruct weighted.
      * destruct (Qeq_bool _ _ && _), red; intros H; inversion H; reflexivity.
      * destruct red; intros H; inversion H; reflexivity.
  - destruct (map gv gs); destruct weighted, red; intros H; inversion H; reflexivity.
Qed.

Lemma finish_valid rnd strict gs k mode weighted red kps :
  nearest rnd -> increasing (map gv gs) ->
  finish rnd strict gs k mode weighted red = Some kps ->
  kp_valid (map gv gs) k mode kps.
Proof.
  intros Hn Hsv H. apply finish_some in H. cbv zeta in H. destruct mode; [| |destruct H].
  - destruct (Nat.ltb_spec (length (map gv gs)) k) as [Ek|Ek]; subst kps; [exact (few_valid _ k Hsv Ek)|].
    apply take_valid; [exact Hsv|exact Ek|]. destruct weighted.
    + apply weighted_idx_ok; [exact Hn|rewrite !map_length; reflexivity|exact Ek].
    + apply uidx_ok; assumption.
  - destruct (map gv gs) as [|a sv'] eqn:E; [destruct H|]. subst kps.
    exact (uniform_valid (a :: sv') k Hsv ltac:(discriminate)).
Qed.

Lemma distinct_values_spec vs ws cmin cmax dv : wlen_ok vs ws ->
  increasing (distinct_values vs ws cmin cmax dv) /\
  forall x, veq_in x (distinct_values vs ws cmin cmax dv) <-> veq_in x (clipped vs cmin cmax dv).
Proof.
  intros Hl. unfold distinct_values. split; [apply sort_unique_increasing|].
  intros x. rewrite sort_unique_values, prep_values by exact Hl. tauto.
Qed.

Lemma ck_valid {rnd strict vs k mode cmin cmax dv ws red kps} :
  nearest rnd -> compute_keypoints rnd strict vs k mode cmin cmax dv ws red = Some kps ->
  kp_valid (distinct_values vs ws cmin cmax dv) k mode kps.
Proof.
  intros Hn H. unfold compute_keypoints in H. unfold distinct_values.
  apply (finish_valid rnd strict _ k mode (is_some ws) red kps Hn); [apply sort_unique_increasing|exact H].
Qed.

Lemma distinct_values_two vs ws cmin cmax dv : wlen_ok vs ws -> two_distinct (clipped vs cmin cmax dv) ->
  (2 <= length (distinct_values vs ws cmin cmax dv))%nat.
Proof.
  intros Hl. apply two_distinct_values, distinct_values_spec, Hl.
Qed.

Lemma distinct_values_nonempty vs ws cmin cmax dv : wlen_ok vs ws ->
  distinct_values vs ws cmin cmax dv <> [] -> clipped vs cmin cmax dv <> [].
Proof.
  intros Hl Hne E. destruct (distinct_values_spec vs ws cmin cmax dv Hl) as [_ Hv].
  apply Hne. apply (veq_in_nil (clipped vs cmin cmax dv)); [intros x; symmetry; apply Hv|exact E].
Qed.

Lemma distinct_values_extremes vs ws cmin cmax dv : wlen_ok vs ws -> clipped vs cmin cmax dv <> [] ->
  let sv := distinct_values vs ws cmin cmax dv in
  nth 0 sv 0 == qminl (clipped vs cmin cmax dv) /\ nth (length sv - 1) sv 0 == qmaxl (clipped vs cmin cmax dv).
Proof.
  intros Hl Hne sv. destruct (distinct_values_spec vs ws cmin cmax dv Hl) as [Hi Hv].
  exact (sorted_first_is_min sv _ Hi Hne Hv).
Qed.

Theorem ck_strictly_increasing rnd strict vs k mode cmin cmax dv ws red kps :
  nearest rnd -> wlen_ok vs ws ->
  compute_keypoints rnd strict vs k mode cmin cmax dv ws red = Some kps ->
  two_distinct (clipped vs cmin cmax dv) -> increasing kps.
Proof.
  intros Hn Hl H H2. apply (kv_increasing (ck_valid Hn H)).
  apply distinct_values_two; assumption.
Qed.

Theorem ck_within_range rnd strict vs k mode cmin cmax dv ws red kps :
  nearest rnd -> wlen_ok vs ws ->
  compute_keypoints rnd strict vs k mode cmin cmax dv ws red = Some kps ->
  forall x, In x kps -> qminl (clipped vs cmin cmax dv) <= x /\ x <= qmaxl (clipped vs cmin cmax dv).
Proof.
  intros Hn Hl H x Hx. pose proof (ck_valid Hn H) as V.
  assert (Hne : clipped vs cmin cmax dv <> []).
  { apply (distinct_values_nonempty vs ws); [exact Hl|]. apply (kv_nonempty V). intro E; rewrite E in Hx; destruct Hx. }
  destruct (distinct_values_extremes vs ws cmin cmax dv Hl Hne) as [E1 E2]. cbn zeta in E1, E2.
  destruct (kv_range V x Hx) as [R1 R2]. lra.
Qed.

Theorem ck_endpoints rnd strict vs k mode cmin cmax dv ws red kps :
  nearest rnd -> wlen_ok vs ws -> (2 <= k)%nat -> clipped vs cmin cmax dv <> [] ->
  compute_keypoints rnd strict vs k mode cmin cmax dv ws red = Some kps ->
  hd 0 kps == qminl (clipped vs cmin cmax dv) /\ last kps 0 == qmaxl (clipped vs cmin cmax dv).
Proof.
  intros Hn Hl Hk Hne H. pose proof (ck_valid Hn H) as V.
  destruct (distinct_values_extremes vs ws cmin cmax dv Hl Hne) as [E1 E2]. cbn zeta in E1, E2.
  rewrite (kv_first V Hk), (kv_last V Hk). split; assumption.
Qed.

(* what the extremes of the clipped data are when clip bounds are given *)
Theorem clipped_max_is_clip_max vs cmin dv hi : qmaxl (clipped vs cmin (Some hi) dv) == hi.
Proof.
  unfold clipped. apply qmaxl_char.
  - apply veq_in_self, in_or_app. right. left. reflexivity.
  - intros x Hx. apply in_app_or in Hx. destruct Hx as [Hx|[<-|[]]]; [|lra].
    apply in_map_iff in Hx. destruct Hx as [y [<- _]]. apply qmin_r.
Qed.

Theorem clipped_min_is_clip_min vs cmax dv lo :
  qminl (clipped vs (Some lo) cmax dv) == match cmax with Some hi => qmin lo hi | None => lo end.
Proof.
  unfold clipped.
  set (v0 := match dv with None => vs | Some d => filter (fun v => negb (Qeq_bool v d)) vs end).
  assert (H1 : forall x, In x (map (fun v => qmax v lo) v0 ++ [lo]) -> lo <= x).
  { intros x Hx. apply in_app_or in Hx. destruct Hx as [Hx|[<-|[]]]; [|lra].
    apply in_map_iff in Hx. destruct Hx as [y [<- _]]. apply qmax_r. }
  destruct cmax as [hi|].
  - apply qminl_char.
    + apply veq_in_self, in_or_app. left. apply in_map_iff. exists lo. split; [reflexivity|].
      apply in_or_app. right. left. reflexivity.
    + intros x Hx. apply in_app_or in Hx. destruct Hx as [Hx|[<-|[]]]; [|apply qmin_r].
      apply in_map_iff in Hx. destruct Hx as [y [<- Hy]]. pose proof (H1 y Hy). qcases; lra.
  - apply qminl_char; [apply veq_in_self, in_or_app; right; left; reflexivity|exact H1].
Qed.

Theorem ck_count rnd strict vs k mode cmin cmax dv ws red kps :
  nearest rnd ->
  compute_keypoints rnd strict vs k mode cmin cmax dv ws red = Some kps ->
  let sv := distinct_values vs ws cmin cmax dv in
  ((k <= length sv)%nat -> length kps = k) /\
  ((length sv < k)%nat -> mode = Quantiles -> kps = sv) /\
  (mode = Uniform -> length kps = k).
Proof.
  intros Hn H sv. pose proof (ck_valid Hn H) as V.
  split; [apply (kv_count_enough V)|]. split; [apply (kv_count_few V)|apply (kv_count_uniform V)].
Qed.

Theorem ck_accepted_by_pwl rnd strict vs k mode cmin cmax dv ws red kps :
  nearest rnd -> wlen_ok vs ws -> (2 <= k)%nat ->
  compute_keypoints rnd strict vs k mode cmin cmax dv ws red = Some kps ->
  two_distinct (clipped vs cmin cmax dv) -> pwl_keypoints_ok kps = true.
Proof.
  intros Hn Hl Hk H H2. pose proof (ck_valid Hn H) as V.
  pose proof (distinct_values_two vs ws cmin cmax dv Hl H2) as Hd.
  unfold pwl_keypoints_ok. apply andb_true_iff. split.
  - apply Nat.leb_le. destruct (le_lt_dec k (length (distinct_values vs ws cmin cmax dv))) as [Hle|Hlt].
    + rewrite (kv_count_enough V Hle). exact Hk.
    + destruct mode.
      * rewrite (kv_count_few V Hlt eq_refl). exact Hd.
      * rewrite (kv_count_uniform V eq_refl). exact Hk.
      * exfalso. exact (kv_mode V eq_refl).
  - apply strictly_inc_b_true. apply (kv_increasing V Hd).
Qed.

(* uniform mode: exactly the equally spaced points between the extremes *)
Theorem ck_uniform_formula rnd strict vs k cmin cmax dv ws red kps :
  wlen_ok vs ws ->
  compute_keypoints rnd strict vs k Uniform cmin cmax dv ws red = Some kps ->
  let a := qminl (clipped vs cmin cmax dv) in let b := qmaxl (clipped vs cmin cmax dv) in
  length kps = k /\ forall j, (j < k)%nat -> nth j kps 0 == a + nq j * ((b - a) / nq (k - 1)).
Proof.
  intros Hl H a b. apply finish_some in H. cbv zeta in H.
  change (map gv (sort_unique (prep vs ws cmin cmax dv))) with (distinct_values vs ws cmin cmax dv) in H.
  destruct (distinct_values vs ws cmin cmax dv) as [|a0 sv'] eqn:Esv; [destruct H|]. subst kps.
  assert (Hne : clipped vs cmin cmax dv <> []).
  { apply (distinct_values_nonempty vs ws); [exact Hl|rewrite Esv; discriminate]. }
  destruct (distinct_values_extremes vs ws cmin cmax dv Hl Hne) as [E1 E2]. cbn zeta in E1, E2.
  rewrite <- last_nth in E2. rewrite Esv in E1, E2. cbn [nth] in E1.
  rewrite (last_default _ 0 a0) in E2 by discriminate.
  split; [apply linspace_length|]. intros j Hj. rewrite linspace_nth by exact Hj.
  subst a b. rewrite E2, E1. reflexivity.
Qed.

(* every group has non-negative weight and at least one member; some group
   has positive weight *)
Definition grp_ok (g : grp) : Prop := 0 <= gw g /\ (1 <= gc g)%nat.
Definition grp_pos (g : grp) : Prop := 0 < gw g.

Lemma ins_ok v w l : 0 <= w -> Forall grp_ok l -> Forall grp_ok (ins v w l).
Proof.
  intros Hw. assert (Hnew : grp_ok (mkg v w 1)) by (split; [exact Hw|apply le_n]).
  induction 1 as [|g r [G1 G2] Hr IH]; cbn [ins]; [constructor; [exact Hnew|constructor]|].
  assert (Hg : grp_ok g) by (split; assumption).
  destruct (qlt v (gv g)); [constructor; [exact Hnew|constructor; assumption]|].
  destruct (Qeq_bool v (gv g)); constructor; try assumption.
  split; cbn [gw gc]; [rewrite Qred_correct; lra|lia].
Qed.

Lemma ins_pos v w l : 0 <= w -> Forall grp_ok l -> 0 < w \/ Exists grp_pos l -> Exists grp_pos (ins v w l).
Proof.
  intros Hw. induction 1 as [|g r [G1 _] Hr IH]; intros Hp; cbn [ins].
  - destruct Hp as [Hp|Hp]; [left; exact Hp|inversion Hp].
  - destruct (qlt v (gv g)); [destruct Hp as [Hp|Hp]; [left; exact Hp|right; exact Hp]|].
    destruct (Qeq_bool v (gv g)).
    + (* v joins g, whose weight becomes gw g + w *)
      assert (Hsum : 0 < w \/ grp_pos g -> grp_pos (mkg (gv g) (Qred (gw g + w)) (S (gc g)))).
      { unfold grp_pos. cbn [gw]. rewrite Qred_correct. intros [H|H]; lra. }
      destruct Hp as [Hp|Hp]; [left; apply Hsum; left; exact Hp|].
      inversion Hp as [? ? Hg|? ? Hr']; subst; [left; apply Hsum; right; exact Hg|right; exact Hr'].
    + destruct Hp as [Hp|Hp]; [right; apply IH; left; exact Hp|].
      inversion Hp as [? ? Hg|? ? Hr']; subst; [left; exact Hg|right; apply IH; right; exact Hr'].
Qed.

Lemma sort_unique_ok ps : Forall (fun p => 0 <= snd p) ps -> Forall grp_ok (sort_unique ps).
Proof. induction 1; cbn; [constructor|apply ins_ok; assumption]. Qed.

Lemma sort_unique_pos ps : Forall (fun p => 0 <= snd p) ps -> Exists (fun p => 0 < snd p) ps ->
  Exists grp_pos (sort_unique ps).
Proof.
  induction 1 as [|p ps Hp Hps IH]; intros He; [inversion He|]. cbn.
  apply ins_pos; [exact Hp|apply sort_unique_ok; exact Hps|].
  inversion He; subst; [left; assumption|right; apply IH; assumption].
Qed.

Lemma qsum_pos l : Forall (fun x => 0 <= x) l -> Exists (fun x => 0 < x) l -> 0 < qsum l.
Proof.
  induction 1 as [|y l Hy Hl IH]; intros He; [inversion He|]. cbn [qsum].
  pose proof (qsum_Forall_nonneg l Hl). inversion He as [? ? Hp|? ? Hp]; subst; [lra|specialize (IH Hp); lra].
Qed.

Lemma reduce_sign red g : grp_ok g -> 0 <= reduce red g /\ (grp_pos g -> 0 < reduce red g).
Proof.
  intros [G1 G2]. unfold grp_pos. destruct red; cbn [reduce]; try (split; [exact G1|exact (fun H => H)]).
  rewrite Qred_correct. assert (0 < nq (gc g)) by (apply nq_pos; lia).
  split; [apply Qle_shift_div_l|intros Hp; apply Qlt_shift_div_l]; lra.
Qed.

Lemma reduced_sum_pos red gs : Forall grp_ok gs -> Exists grp_pos gs -> 0 < qsum (map (reduce red) gs).
Proof.
  intros Hok Hp. rewrite Forall_forall in Hok. apply Exists_exists in Hp. destruct Hp as [g [Hg Hp]].
  apply qsum_pos.
  - apply Forall_forall. intros y Hy. apply in_map_iff in Hy. destruct Hy as [x [<- Hx]]. apply reduce_sign, Hok, Hx.
  - apply Exists_exists. exists (reduce red g). split; [apply in_map; exact Hg|apply reduce_sign; [apply Hok; exact Hg|exact Hp]].
Qed.

Definition weights_ok (vs : list Q) (ws : option (list Q)) (dv : option Q) : Prop :=
  match ws with
  | None => True
  | Some w => (forall x, In x w -> 0 <= x) /\
              exists p, In p (remove_default dv (pairs vs ws)) /\ 0 < snd p
  end.

(* non-negative weights, one of them positive: kept by both clipping steps *)
Definition wpos (ps : list (Q * Q)) : Prop := Forall (fun p => 0 <= snd p) ps /\ Exists (fun p => 0 < snd p) ps.

Lemma wpos_clip (f : Q -> Q) b ps : wpos ps -> wpos (map (fun p => (f (fst p), snd p)) ps ++ [(b, 0)]).
Proof.
  intros [H0 H1]. split.
  - apply Forall_app. split; [apply Forall_map; exact H0|repeat constructor; apply Qle_refl].
  - apply Exists_app. left. apply Exists_map. exact H1.
Qed.

Lemma wpos_clip_lo cmin ps : wpos ps -> wpos (clip_lo_step cmin ps).
Proof. destruct cmin as [lo|]; [apply (wpos_clip (fun v => qmax v lo))|exact (fun H => H)]. Qed.
Lemma wpos_clip_hi cmax ps : wpos ps -> wpos (clip_hi_step cmax ps).
Proof. destruct cmax as [hi|]; [apply (wpos_clip (fun v => qmin v hi))|exact (fun H => H)]. Qed.

Lemma prep_weights vs w cmin cmax dv : weights_ok vs (Some w) dv -> wpos (prep vs (Some w) cmin cmax dv).
Proof.
  intros [Hnn [p0 [Hp0 Hpos]]]. apply wpos_clip_hi, wpos_clip_lo.
  split; [|apply Exists_exists; exists p0; split; assumption]. apply Forall_forall. intros [a b] Hp. apply Hnn.
  assert (Hin : In (a, b) (pairs vs (Some w))) by (destruct dv; [apply filter_In in Hp; tauto|exact Hp]).
  exact (in_combine_r _ _ _ _ Hin).
Qed.

(* when [finish] raises *)
Lemma finish_none_iff rnd strict gs k mode weighted red :
  finish rnd strict gs k mode weighted red = None <->
  mode = MOther \/ (weighted = true /\ red = ROther) \/ (mode = Uniform /\ gs = []) \/
  (mode = Quantiles /\ weighted = true /\ (2 < k)%nat /\ (k <= length gs)%nat /\
   qsum (map (reduce red) gs) == 0).
Proof.
  unfold finish, weighted_quantile. cbv zeta. rewrite map_length. split.
  - destruct mode; [| |left; reflexivity].
    + destruct (Nat.ltb_spec (length gs) k) as [Ek|Ek].
      * (* fewer points than keypoints: only the reduction test can raise *)
        destruct weighted, red; try discriminate. intros _. right; left. split; reflexivity.
      * destruct weighted; [|destruct red; discriminate].
        destruct red; [| |intros _; right; left; split; reflexivity].
        (* RMean, RSum: only a zero weight sum with k > 2 raises *)
        all: destruct (Qeq_bool (qsum (map (reduce _) gs)) 0) eqn:Es; [|discriminate].
        all: destruct (Nat.ltb_spec 2 k) as [H2|H2]; [|discriminate].
        all: intros _; apply Qeq_bool_iff in Es; right; right; right; repeat split; assumption.
    + destruct gs as [|g gs']; [intros _; right; right; left; split; reflexivity|].
      destruct weighted, red; try discriminate. intros _. right; left. split; reflexivity.
  - intros [->|[[-> ->]|[[-> ->]|[-> [-> [H2 [Hk Hz]]]]]]].
    + destruct weighted, red; reflexivity.
    + reflexivity.
    + destruct weighted, red; reflexivity.
    + apply Nat.ltb_ge in Hk. apply Nat.ltb_lt in H2. apply Qeq_bool_iff in Hz. rewrite Hk, Hz, H2.
      destruct red; reflexivity.
Qed.

Theorem ck_no_error rnd strict vs k mode cmin cmax dv ws red :
  wlen_ok vs ws -> mode <> MOther -> (ws <> None -> red <> ROther) ->
  clipped vs cmin cmax dv <> [] -> weights_ok vs ws dv ->
  exists kps, compute_keypoints rnd strict vs k mode cmin cmax dv ws red = Some kps.
Proof.
  intros Hl Hm Hr Hne Hw.
  destruct (compute_keypoints rnd strict vs k mode cmin cmax dv ws red) as [kps|] eqn:E; [exists kps; reflexivity|exfalso].
  apply finish_none_iff in E. destruct E as [E|[[Ew Er]|[[_ Eg]|[_ [Ew [_ [_ Ez]]]]]]].
  - exact (Hm E).
  - apply Hr; [destruct ws; discriminate|exact Er].
  - apply Hne. destruct (distinct_values_spec vs ws cmin cmax dv Hl) as [_ Hv].
    apply (veq_in_nil _ _ Hv). unfold distinct_values. rewrite Eg. reflexivity.
  - destruct ws as [w|]; [|discriminate]. destruct (prep_weights vs w cmin cmax dv Hw) as [P0 P1].
    pose proof (reduced_sum_pos red _ (sort_unique_ok _ P0) (sort_unique_pos _ P0 P1)). lra.
Qed.

(* np.interp's precondition: xp is non-decreasing *)
Lemma wq_from_nondecreasing S : 0 < S -> forall ws acc, (forall w, In w ws -> 0 <= w) ->
  chain Qle (wq_from acc S ws).
Proof.
  intros HS. induction ws as [|w r IH]; intros acc Hnn; [exact I|].
  assert (Hr : forall x, In x r -> 0 <= x) by (intros x Hx; apply Hnn; right; exact Hx).
  specialize (IH (Qred (acc + w)) Hr). destruct r as [|w2 r2]; [exact I|].
  cbn [wq_from] in IH |- *. split; [|exact IH].
  rewrite !Qred_correct. pose proof (Hnn w (or_introl eq_refl)). pose proof (Hr w2 (or_introl eq_refl)).
  unfold Qdiv. apply Qmult_le_compat_r; [lra|]. apply Qinv_le_0_compat. lra.
Qed.

Theorem wquantiles_nondecreasing ws : (forall w, In w ws -> 0 <= w) -> 0 < qsum ws -> chain Qle (wquantiles ws).
Proof. intros Hnn HS. unfold wquantiles. apply wq_from_nondecreasing; assumption. Qed.

Theorem fk_one_cases rnd strict fc vs ws red :
  (fc_num_buckets fc <> 0%nat -> feature_keypoints_one rnd strict fc vs ws red = FSkip) /\
  (fc_num_buckets fc = 0%nat -> forall g, fc_spec fc = KGiven g ->
     feature_keypoints_one rnd strict fc vs ws red = FKeypoints g) /\
  (fc_num_buckets fc = 0%nat -> forall m, fc_spec fc = KMode m ->
     feature_keypoints_one rnd strict fc vs ws red =
     match compute_keypoints rnd strict vs (fc_num_keypoints fc) m (fc_clip_min fc) (fc_clip_max fc)
                             (fc_default fc) ws red with
     | Some kps => FKeypoints kps | None => FError end).
Proof.
  unfold feature_keypoints_one. split; [|split].
  - intros H. apply Nat.eqb_neq in H. rewrite H. reflexivity.
  - intros H g Hg. rewrite H, Hg. reflexivity.
  - intros H m Hm. rewrite H, Hm. reflexivity.
Qed.

Lemma cfk_entry rnd strict fcs features ws red name r :
  In (name, r) (compute_feature_keypoints rnd strict fcs features ws red) ->
  exists vs, In (name, vs) features /\ r = feature_keypoints_one rnd strict (fc_by_name fcs name) vs ws red.
Proof.
  unfold compute_feature_keypoints. intros H. apply in_map_iff in H. destruct H as [[n vs] [E Hin]].
  cbn [fst snd] in E. inversion E; subst. exists vs. split; [exact Hin|reflexivity].
Qed.

(* a computed entry of a numeric feature is compute_keypoints on that
   feature's data with the fields of its (or the default) config *)
Theorem cfk_numeric rnd strict fcs features ws red name kps m :
  In (name, FKeypoints kps) (compute_feature_keypoints rnd strict fcs features ws red) ->
  fc_spec (fc_by_name fcs name) = KMode m ->
  let fc := fc_by_name fcs name in
  exists vs, In (name, vs) features /\
    compute_keypoints rnd strict vs (fc_num_keypoints fc) m (fc_clip_min fc) (fc_clip_max fc)
                      (fc_default fc) ws red = Some kps.
Proof.
  intros H Hm fc. destruct (cfk_entry _ _ _ _ _ _ _ _ H) as [vs [Hin E]]. exists vs. split; [exact Hin|].
  unfold feature_keypoints_one in E. fold fc in E, Hm. rewrite Hm in E.
  destruct (fc_num_buckets fc =? 0)%nat; [|discriminate].
  destruct (compute_keypoints rnd strict vs (fc_num_keypoints fc) m (fc_clip_min fc) (fc_clip_max fc)
                              (fc_default fc) ws red); [inversion E; reflexivity|discriminate].
Qed.

Lemma fc_by_name_set_first fcs name kps : has_fc fcs name = true ->
  fc_by_name (set_first fcs name kps) name = set_spec (fc_by_name fcs name) kps.
Proof.
  induction fcs as [|fc r IH]; cbn; [discriminate|]. intros H.
  destruct (fc_name fc =? name)%nat eqn:E; cbn.
  - change (fc_name (set_spec fc kps)) with (fc_name fc). rewrite E. reflexivity.
  - rewrite E. apply IH. exact H.
Qed.

Lemma fc_by_name_app_missing fcs fc' name : has_fc fcs name = false -> fc_name fc' = name ->
  fc_by_name (fcs ++ [fc']) name = fc'.
Proof.
  induction fcs as [|fc r IH]; cbn; intros H E.
  - rewrite E, Nat.eqb_refl. reflexivity.
  - destruct (fc_name fc =? name)%nat; [discriminate|]. apply IH; assumption.
Qed.

(* after set_feature_keypoints the named config carries the keypoints *)
Theorem set_feature_keypoints_one_spec add fcs name kps :
  has_fc fcs name = true \/ add = true ->
  fc_spec (fc_by_name (set_feature_keypoints_one add fcs name kps) name) = KGiven kps.
Proof.
  intros H. unfold set_feature_keypoints_one. destruct (has_fc fcs name) eqn:E.
  - rewrite fc_by_name_set_first by exact E. reflexivity.
  - destruct H as [H|H]; [discriminate|]. rewrite H.
    rewrite fc_by_name_app_missing; [reflexivity|exact E|reflexivity].
Qed.

Lemma fc_by_name_set_first_other fcs name kps name' : name' <> name ->
  fc_by_name (set_first fcs name kps) name' = fc_by_name fcs name'.
Proof.
  intros Hne. induction fcs as [|fc r IH]; cbn; [reflexivity|].
  destruct (fc_name fc =? name)%nat eqn:E; cbn.
  - change (fc_name (set_spec fc kps)) with (fc_name fc). apply Nat.eqb_eq in E.
    destruct (fc_name fc =? name')%nat eqn:E'; [apply Nat.eqb_eq in E'; congruence|reflexivity].
  - destruct (fc_name fc =? name')%nat; [reflexivity|exact IH].
Qed.

Lemma fc_by_name_app_other fcs fc' name' : fc_name fc' <> name' ->
  fc_by_name (fcs ++ [fc']) name' = fc_by_name fcs name'.
Proof.
  intros Hne. induction fcs as [|fc r IH]; cbn.
  - apply Nat.eqb_neq in Hne. rewrite Hne. reflexivity.
  - destruct (fc_name fc =? name')%nat; [reflexivity|exact IH].
Qed.

Theorem set_feature_keypoints_one_other add fcs name kps name' : name' <> name ->
  fc_by_name (set_feature_keypoints_one add fcs name kps) name' = fc_by_name fcs name'.
Proof.
  intros Hne. unfold set_feature_keypoints_one. destruct (has_fc fcs name).
  - apply fc_by_name_set_first_other; exact Hne.
  - destruct add; [|reflexivity]. apply fc_by_name_app_other. cbn. congruence.
Qed.

Theorem label_keypoints_cases rnd strict lc labels logits ws red :
  (forall g, lc_spec lc = KGiven g -> compute_label_keypoints rnd strict lc labels logits ws red = FKeypoints g) /\
  (forall m, lc_spec lc = KMode m -> logits = true ->
     compute_label_keypoints rnd strict lc labels logits ws red =
     FKeypoints (linspace (-2#1) (2#1) (lc_num_keypoints lc))) /\
  (forall m, lc_spec lc = KMode m -> logits = false ->
     compute_label_keypoints rnd strict lc labels logits ws red =
     match compute_keypoints rnd strict (label_values labels) (lc_num_keypoints lc) m (lc_output_min lc)
                             (lc_output_max lc) None (label_weights labels ws) red with
     | Some kps => FKeypoints kps | None => FError end).
Proof.
  unfold compute_label_keypoints. split; [|split].
  - intros g Hg. rewrite Hg. reflexivity.
  - intros m Hm Hl. rewrite Hm, Hl. reflexivity.
  - intros m Hm Hl. rewrite Hm, Hl. reflexivity.
Qed.

Theorem logits_keypoints_valid k : (2 <= k)%nat ->
  pwl_keypoints_ok (linspace (-2#1) (2#1) k) = true /\ length (linspace (-2#1) (2#1) k) = k.
Proof.
  intros Hk. split; [|apply linspace_length]. unfold pwl_keypoints_ok. apply andb_true_iff. split.
  - apply Nat.leb_le. rewrite linspace_length. exact Hk.
  - apply strictly_inc_b_true. apply linspace_increasing. reflexivity.
Qed.
