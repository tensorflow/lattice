(* C03 x C10: the values with which the premade builders (the build_xxx functions of premade_lib)
   create their constrained variables satisfy the C03 layer invariants, so the
   "initial value is feasible" hypotheses of the reachable-feasibility theorems
   of Proofs/Premade.v are discharged by PROOF from the validity of the
   configuration alone.  The builders' initial values are written as functions of
   the configuration, on top of the C10 models of the library initialisers
   (Model/LatticeInit.v, Model/PWLInit.v, Model/KFLInit.v) and of the C06 categorical
   projection applied in CategoricalCalibration.build.

   Which constraint families the invariants cover: lat_inv is monotonicity along
   the flagged dimensions and the two output bounds ONLY.  Unimodalities, trusts,
   dominances, joint monotonicities are not part of it (and the linear
   initialiser does violate trapezoid trusts / dominances in some
   configurations: known findings D6, D24, D25, D63 of property C10). *)
From TFL Require Import Model.Premade Proofs.Premade.
From TFL Require Model.KFLInit.
From TFL Require Import Model.LatticeInit Model.PWLInit
     Proofs.LatticeInit Proofs.LatticeInitFixed Proofs.PWLInit Proofs.CategoricalInit.
From TFL Require Import Proofs.LatticeSpec Proofs.LatticeSpecFacts Proofs.LatticeFinalize Proofs.LatticeMono.
From TFL Require Import Model.PWLProject Proofs.PWLProject.
From TFL Require Import Model.LinearProject Proofs.PartialOrder Proofs.TopoSort Proofs.LinearProject.
From Coq Require Import Permutation.
Open Scope Q_scope.

(* premade_lib._output_range, third and fourth component (output_init_min,
   output_init_max).  oi = model_config.output_initialization (np.min / np.max);
   kfl = the model is a lattice model with parameterization 'kronecker_factored'
   (then kfl_lib.default_init_params replaces output_initialization). *)
Definition premade_init_range (r : layer_range) (kfl : bool) (oi : list Q) : Q * Q :=
  match r with
  | InputToLattice s => (0, qn s - 1)
  | ModelOutput lo hi => if kfl then KFLInit.kfl_default_init_params lo hi else (qminl oi, qmaxl oi)
  | InputToFinalCalibration => (0, 1)
  end.

(* the one thing verify_config does NOT check: a user-given output_initialization
   lies inside [output_min, output_max] (see refuted_* below) *)
Definition oi_in_bounds (r : layer_range) (oi : list Q) : Prop :=
  match r with
  | ModelOutput lo hi => oi <> [] /\ forall x, In x oi -> within lo hi x
  | _ => True
  end.

(* build_lattice_layer (all_vertices):
   LinearInitializer(lattice_sizes, monotonicities, unimodalities, output_min=init_min, output_max=init_max) *)
Definition premade_lattice_init (sizes : list nat) (monos unis : list Z) (units : nat)
           (r : layer_range) (oi : list Q) : tens :=
  linear_init sizes (fst (premade_init_range r false oi)) (snd (premade_init_range r false oi))
              (Some monos) (Some unis) units.

(* build_multi_unit_calibration_layers:
   UniformOutputInitializer(init_min, init_max, monotonicity, keypoints) -> one kernel column *)
Definition premade_pwl_init (kps : list Q) (mono : Z) (r : layer_range) (oi : list Q) : list Q :=
  pwl_linear_init_col (length kps) (fst (premade_init_range r false oi)) (snd (premade_init_range r false oi))
                      mono (Some kps).

(* the constraint configuration PWLCalibration.build derives from the layer arguments *)
Definition pwl_layer_cfg (kps : list Q) (mono conv : Z) (omin omax : option Q) (clamp_min clamp_max : bool)
           (iters : nat) : pwl_cfg :=
  mkPwl mono conv (fst (convert_constraints omin clamp_min)) (fst (convert_constraints omax clamp_max))
        (snd (convert_constraints omin clamp_min)) (snd (convert_constraints omax clamp_max))
        (kp_lengths kps) iters.

(* build_output_calibration_layer: Constant(np.ediff1d(oi, to_begin=oi[0])) *)
Definition ediff1d (oi : list Q) : list Q :=
  match oi with [] => [] | a :: r => a :: map2 (fun b a => b - a) r oi end.

(* PWLCalibration.build: missing_init = (_output_init_min + _output_init_max) / 2 *)
Definition pwl_missing_init (omin omax : option Q) (clamp_min clamp_max : bool) : Q :=
  let '(imin, imax, _, _) := convert_all_constraints omin omax clamp_min clamp_max in (imin + imax) * (1#2).

(* CategoricalCalibration.build: the initializer is wrapped in the constraint
   whenever a constraint object exists (a bound or a non-empty pair list) *)
Definition cat_build_init (ps : pairs) (lo hi : option Q) (raw : list Q) : list Q :=
  match ps, lo, hi with
  | [], None, None => raw
  | _, _, _ => cat_con ps lo hi raw
  end.

(* build_linear_layer / build_linear_combination_layer: Constant(1.0 / n) *)
Definition premade_linear_init (n : nat) : list Q := repeat (1 / qn n) n.

Lemma qminl_in_range (l : list Q) lo hi : l <> [] -> (forall x, In x l -> within lo hi x) ->
  qminl l <= qmaxl l /\ within lo hi (qminl l) /\ within lo hi (qmaxl l).
Proof. intros Hne H. destruct l as [|a r]; [congruence|].
  pose proof (qminl_le (a :: r) a (or_introl eq_refl)). pose proof (qmaxl_ge (a :: r) a (or_introl eq_refl)).
  split. lra. split; split; intros b Hb.
  - apply qminl_glb. congruence. intros x Hx. destruct (H x Hx) as [A _]. apply A. exact Hb.
  - destruct (H a (or_introl eq_refl)) as [_ A]. specialize (A b Hb). lra.
  - destruct (H a (or_introl eq_refl)) as [A _]. specialize (A b Hb). lra.
  - apply qmaxl_lub. congruence. intros x Hx. destruct (H x Hx) as [_ A]. apply A. exact Hb. Qed.

(* the premade init range is non-empty and inside the layer's output range *)
Lemma premade_init_range_ok r oi : oi_in_bounds r oi ->
  (forall s, r = InputToLattice s -> (1 <= s)%nat) ->
  let imin := fst (premade_init_range r false oi) in
  let imax := snd (premade_init_range r false oi) in
  imin <= imax /\ within (fst (output_range r)) (snd (output_range r)) imin /\
  within (fst (output_range r)) (snd (output_range r)) imax.
Proof. intros Ho Hs imin imax. subst imin imax.
  destruct r as [s|lo hi|]; cbn [premade_init_range output_range oi_in_bounds fst snd] in *.
  - pose proof (qofnat_ge1 s (Hs s eq_refl)). unfold Interp1D.qn, PWLProject.qn in *.
    split. lra. split; split; intros b Hb; inversion Hb; subst; lra.
  - destruct Ho as [Hne Ho]. exact (qminl_in_range oi lo hi Hne Ho).
  - split. lra. split; split; intros b Hb; inversion Hb; subst; lra. Qed.

(* valid LinearInitializer arguments: one entry per dimension, no dimension both
   monotone and unimodal (lattice_lib.verify_hyperparameters) *)
Definition unis_ok (c : lat_cfg) (unis : list Z) : Prop :=
  length unis = length (l_sizes c) /\ forall d, nz (nth d (l_monos c) 0%Z) && nz (nth d unis 0%Z) = false.

(* General form: ANY init range inside the layer's bounds. *)
Lemma lattice_linear_init_inv c ran dyk unis imin imax :
  cfg_valid c -> l_sizes c <> [] -> unis_ok c unis -> imin <= imax ->
  within (l_min c) (l_max c) imin -> within (l_min c) (l_max c) imax ->
  lat_inv (mkLatD c ran dyk (linear_init (l_sizes c) imin imax (Some (l_monos c)) (Some unis) (l_units c)))
          (linear_init (l_sizes c) imin imax (Some (l_monos c)) (Some unis) (l_units c)).
Proof. intros Hc Hne [Hul Hud] Hr [Hlo _] [_ Hhi]. pose proof Hc as (Hs & Hu & Hlm & _).
  assert (Hlen : (1 <= length (l_sizes c))%nat) by (destruct (l_sizes c); [congruence|cbn; lia]).
  destruct (linear_range (l_sizes c) imin imax (Some (l_monos c)) (Some unis) (l_units c) Hs Hu Hlen) as [Hin _];
    cbn [zeros_if_none]; try assumption.
  unfold lat_inv; cbn [ld_cfg]. split; [|split].
  - intros d Hd. apply mono_dims_spec in Hd. destruct Hd as [Hd Hnz].
    apply linear_mono_dim. exact Hr. lia.
    apply configured_mono_dim. cbn [zeros_if_none]. unfold nz. apply negb_true_iff. apply Z.eqb_neq. exact Hnz.
  - destruct (l_min c) as [lo|] eqn:E; [|exact I]. intros i Hv. destruct (Hin i Hv) as [H1 _].
    specialize (Hlo lo eq_refl). unfold l_shape. lra.
  - destruct (l_max c) as [hi|] eqn:E; [|exact I]. intros i Hv. destruct (Hin i Hv) as [_ H1].
    specialize (Hhi hi eq_refl). unfold l_shape. lra. Qed.

(* RandomMonotonicInitializer (RTL lattices, aggregation middle lattice): every
   shuffle order and every sorted sample vector from the init range *)
Definition random_oracle_ok (sizes : list nat) (order : list (list idx)) (samples : list Q) (imin imax : Q) : Prop :=
  Forall2 (@Permutation idx) order (levels sizes) /\
  (forall a b, (a <= b)%nat -> (b < length samples)%nat -> nth a samples 0 <= nth b samples 0) /\
  length samples = length (concat order) /\
  (forall x, In x samples -> imin <= x /\ x <= imax).

Lemma lattice_random_init_inv c ran dyk order samples imin imax :
  cfg_valid c -> random_oracle_ok (l_sizes c) order samples imin imax ->
  within (l_min c) (l_max c) imin -> within (l_min c) (l_max c) imax ->
  lat_inv (mkLatD c ran dyk (random_mono_init (l_sizes c) (l_units c) order samples))
          (random_mono_init (l_sizes c) (l_units c) order samples).
Proof. intros Hc (Ho & Hs & Hl & Hr) [Hlo _] [_ Hhi]. unfold lat_inv; cbn [ld_cfg]. split; [|split].
  - intros d Hd. apply (random_mono_all_dims (l_sizes c) (l_units c) order samples Ho Hs Hl).
    pose proof (cfg_mono_dims_lt c d Hc Hd). unfold l_ud in *. assumption.
  - destruct (l_min c) as [lo|] eqn:E; [|exact I]. intros i Hv.
    destruct (random_mono_in_range (l_sizes c) (l_units c) order samples imin imax Ho Hl Hr i Hv) as [H1 _].
    specialize (Hlo lo eq_refl). lra.
  - destruct (l_max c) as [hi|] eqn:E; [|exact I]. intros i Hv.
    destruct (random_mono_in_range (l_sizes c) (l_units c) order samples imin imax Ho Hl Hr i Hv) as [_ H1].
    specialize (Hhi hi eq_refl). lra. Qed.

(* ---- the premade lattice layers ---- *)
(* what a builder decides about one Lattice layer: its constraint configuration
   (C01 vocabulary), where it sits (-> output range and init range), the
   initialiser: linear with the features' unimodalities (explicit / random /
   Crystals ensembles, CalibratedLattice) or random monotonic with its two
   oracles (RTL, aggregation) *)
Inductive lat_init_kind :=
| LKLinear (unis : list Z)
| LKRandomMono (order : list (list idx)) (samples : list Q).
Record lat_spec := mkLatS {
  ls_cfg : lat_cfg; ls_ran : bool; ls_dyk : tens -> tens;
  ls_range : layer_range; ls_oi : list Q; ls_kind : lat_init_kind }.

Definition lat_spec_init (s : lat_spec) : tens :=
  let c := ls_cfg s in
  match ls_kind s with
  | LKLinear unis => premade_lattice_init (l_sizes c) (l_monos c) unis (l_units c) (ls_range s) (ls_oi s)
  | LKRandomMono order samples => random_mono_init (l_sizes c) (l_units c) order samples
  end.
Definition lat_spec_desc (s : lat_spec) : lat_desc := mkLatD (ls_cfg s) (ls_ran s) (ls_dyk s) (lat_spec_init s).

(* validity of the configuration; NO statement about the initial kernel *)
Definition lat_spec_ok (s : lat_spec) : Prop :=
  let c := ls_cfg s in
  cfg_valid c /\ block_ok c (ls_ran s) /\ ~ trap_mono_cond_with_edgeworth c /\ l_sizes c <> [] /\
  l_min c = fst (output_range (ls_range s)) /\ l_max c = snd (output_range (ls_range s)) /\
  oi_in_bounds (ls_range s) (ls_oi s) /\
  match ls_kind s with
  | LKLinear unis => unis_ok c unis
  | LKRandomMono order samples =>
      random_oracle_ok (l_sizes c) order samples
        (fst (premade_init_range (ls_range s) false (ls_oi s))) (snd (premade_init_range (ls_range s) false (ls_oi s)))
  end.

(* a lattice-input range [0, z - 1] with ordered ends belongs to a size z >= 1 *)
Lemma range_size_ok r : (forall a b, fst (output_range r) = Some a -> snd (output_range r) = Some b -> a <= b) ->
  forall z, r = InputToLattice z -> (1 <= z)%nat.
Proof. intros Hb z ->. cbn [output_range fst snd] in Hb. specialize (Hb _ _ eq_refl eq_refl).
  destruct z; [|lia]. assert (E : Interp1D.qn 0 - 1 == -(1)) by reflexivity. lra. Qed.

Lemma lat_range_size_ok c r : cfg_valid c -> l_min c = fst (output_range r) -> l_max c = snd (output_range r) ->
  forall z, r = InputToLattice z -> (1 <= z)%nat.
Proof. intros (_ & _ & _ & _ & _ & _ & _ & Hb) E1 E2. apply range_size_ok. intros a b Ea Eb.
  rewrite E1, E2, Ea, Eb in Hb. lra. Qed.

Theorem init_feasible_lattice s : lat_spec_ok s -> lat_inv (lat_spec_desc s) (lat_spec_init s).
Proof. intros (Hc & _ & _ & Hne & E1 & E2 & Ho & Hk).
  destruct (premade_init_range_ok (ls_range s) (ls_oi s) Ho (lat_range_size_ok _ _ Hc E1 E2)) as (Hr & Hlo & Hhi).
  rewrite <- E1, <- E2 in Hlo, Hhi.
  unfold lat_spec_desc, lat_spec_init. destruct (ls_kind s) as [unis|order samples].
  - unfold premade_lattice_init. apply lattice_linear_init_inv; assumption.
  - apply (lattice_random_init_inv _ _ _ _ _ _ _ Hc Hk Hlo Hhi). Qed.

Lemma lat_spec_desc_ok s : lat_spec_ok s -> lat_desc_ok (lat_spec_desc s).
Proof. intros H. pose proof (init_feasible_lattice s H) as Hi. destruct H as (Hc & Hb & Hg & _).
  split. exact Hc. split. exact Hb. split. exact Hg. exact Hi. Qed.

Theorem reachable_feasible_lattice_from_init ss ops : (forall s, In s ss -> lat_spec_ok s) ->
  forall st, In st (run (map lat_var (map lat_spec_desc ss)) ops) -> Forall2 lat_inv (map lat_spec_desc ss) st.
Proof. intros H. apply reachable_feasible_lattice.
  apply all_map. intros s Hs. apply lat_spec_desc_ok, H, Hs. Qed.

(* General form: the library's linear initialiser (equal heights: kps = None,
   equal slopes: kps = Some keypoints) with the LAYER's monotonicity and ANY
   init range inside the constrained bounds.  The bounds clause is proved even
   inside the D2 class (monotone and convex). *)
Lemma pwl_linear_init_inv c n nk imin imax kps :
  imin <= imax -> (2 <= nk)%nat -> kps_ok nk kps ->
  (p_cmin c <> BNone -> p_min c <= imin) -> (p_cmax c <> BNone -> imax <= p_max c) ->
  pwl_inv (mkPwlD c n (pwl_linear_init_col nk imin imax (p_mono c) kps))
          (pwl_linear_init_col nk imin imax (p_mono c) kps).
Proof. intros Hr Hn Hk Hlo Hhi.
  pose proof (col_direction nk imin imax (p_mono c) kps Hr Hn Hk) as Hdir.
  pose proof (vals_range nk imin imax (p_mono c) kps Hr Hn Hk) as Hrange.
  unfold pwl_inv; cbn [pd_cfg]. split; [|split].
  - intros E. apply Forall_forall. intros h Hh. specialize (Hdir h Hh). rewrite E in Hdir. exact Hdir.
  - intros E. apply Forall_forall. intros h Hh. specialize (Hdir h Hh). rewrite E in Hdir. exact Hdir.
  - intros _. split; intros Hb; apply Forall_forall; intros v Hv; destruct (Hrange v Hv) as [A B].
    + specialize (Hlo Hb). lra.
    + specialize (Hhi Hb). lra. Qed.

(* ---- np.ediff1d: the output calibrator's Constant initialiser ---- *)
Definition nondecreasing (l : list Q) : Prop := forall i, (S i < length l)%nat -> nth i l 0 <= nth (S i) l 0.

Lemma cumsum_ediff : forall r prev acc, acc == prev ->
  Forall2 Qeq (cumsum_from acc (map2 (fun b a => b - a) r (prev :: r))) r.
Proof. induction r as [|x r IH]; intros prev acc E; cbn [map2 cumsum_from]. constructor.
  constructor. lra. apply IH. lra. Qed.
Lemma keypoint_outputs_ediff oi : Forall2 Qeq (keypoint_outputs (ediff1d oi)) oi.
Proof. unfold keypoint_outputs, cumsum, ediff1d. destruct oi as [|a r]; cbn [cumsum_from]. constructor.
  constructor. lra. apply cumsum_ediff. lra. Qed.
Lemma ediff_heights : forall r a, nondecreasing (a :: r) -> Forall (fun h => 0 <= h) (map2 (fun b a => b - a) r (a :: r)).
Proof. induction r as [|x r IH]; intros a H; cbn [map2]. constructor. constructor.
  - specialize (H 0%nat). cbn in H. specialize (H ltac:(lia)). lra.
  - apply IH. intros i Hi. apply (H (S i)). cbn in *. lia. Qed.

Lemma pwl_ediff_init_inv c n oi : p_mono c = 1%Z -> nondecreasing oi ->
  (p_cmin c <> BNone -> forall x, In x oi -> p_min c <= x) -> (p_cmax c <> BNone -> forall x, In x oi -> x <= p_max c) ->
  pwl_inv (mkPwlD c n (ediff1d oi)) (ediff1d oi).
Proof. intros Em Hs Hlo Hhi. unfold pwl_inv; cbn [pd_cfg]. split; [|split].
  - intros _. destruct oi as [|a r]; cbn [ediff1d tl]. constructor. apply ediff_heights. exact Hs.
  - intros E. rewrite Em in E. discriminate.
  - intros _. split; intros Hb.
    + apply (qleq_Forall _ oi). intros x y E H; lra. apply qleq_sym, keypoint_outputs_ediff.
      apply Forall_forall. exact (Hlo Hb).
    + apply (qleq_Forall _ oi). intros x y E H; lra. apply qleq_sym, keypoint_outputs_ediff.
      apply Forall_forall. exact (Hhi Hb). Qed.

(* ---- the premade PWL calibrators ---- *)
(* PKUniform            input calibrators: UniformOutputInitializer(premade init range, monotonicity, keypoints)
   PKLayerDefault       'equal_heights' with the layer's own init range (aggregation middle calibrators)
   PKOutputCalibration  Constant(ediff1d(output_initialization)), monotonicity 1, no clamps *)
Inductive pwl_init_kind := PKUniform | PKLayerDefault | PKOutputCalibration.
Record pwl_spec := mkPwlS {
  ps_kps : list Q; ps_mono : Z; ps_conv : Z; ps_clamp_min : bool; ps_clamp_max : bool; ps_iters : nat;
  ps_range : layer_range; ps_oi : list Q; ps_kind : pwl_init_kind }.

Definition pwl_spec_cfg (s : pwl_spec) : pwl_cfg :=
  pwl_layer_cfg (ps_kps s) (ps_mono s) (ps_conv s) (fst (output_range (ps_range s))) (snd (output_range (ps_range s)))
                (ps_clamp_min s) (ps_clamp_max s) (ps_iters s).
Definition pwl_spec_init (s : pwl_spec) : list Q :=
  match ps_kind s with
  | PKUniform => premade_pwl_init (ps_kps s) (ps_mono s) (ps_range s) (ps_oi s)
  | PKLayerDefault =>
      let '(imin, imax, _, _) := convert_all_constraints (fst (output_range (ps_range s))) (snd (output_range (ps_range s)))
                                                         (ps_clamp_min s) (ps_clamp_max s) in
      pwl_linear_init_col (length (ps_kps s)) imin imax (ps_mono s) None
  | PKOutputCalibration => ediff1d (ps_oi s)
  end.
Definition pwl_spec_desc (s : pwl_spec) : pwl_desc := mkPwlD (pwl_spec_cfg s) (length (ps_kps s) - 1) (pwl_spec_init s).

Definition z3 (z : Z) : Prop := z = (-1)%Z \/ z = 0%Z \/ z = 1%Z.
(* validity of the configuration; NO statement about the initial kernel.  The
   output calibrator is the one place where verify_config leaves something
   open: output_initialization must be sorted and inside the output bounds. *)
Definition pwl_spec_ok (s : pwl_spec) : Prop :=
  (2 <= length (ps_kps s))%nat /\ (forall l, In l (kp_lengths (ps_kps s)) -> 0 < l) /\
  z3 (ps_mono s) /\ z3 (ps_conv s) /\
  (ps_clamp_min s = true \/ ps_clamp_max s = true -> ps_mono s <> 0%Z) /\
  (forall a b, fst (output_range (ps_range s)) = Some a -> snd (output_range (ps_range s)) = Some b -> a <= b) /\
  match ps_kind s with
  | PKUniform => oi_in_bounds (ps_range s) (ps_oi s)
  | PKLayerDefault => True
  | PKOutputCalibration => ps_mono s = 1%Z /\ nondecreasing (ps_oi s) /\
      forall x, In x (ps_oi s) -> within (fst (output_range (ps_range s))) (snd (output_range (ps_range s))) x
  end.

(* a constrained end of the layer's configuration is the configured end of its output range *)
Lemma pwl_spec_cfg_bounds s :
  (p_cmin (pwl_spec_cfg s) <> BNone -> fst (output_range (ps_range s)) = Some (p_min (pwl_spec_cfg s))) /\
  (p_cmax (pwl_spec_cfg s) <> BNone -> snd (output_range (ps_range s)) = Some (p_max (pwl_spec_cfg s))).
Proof. unfold pwl_spec_cfg, pwl_layer_cfg; cbn [p_cmin p_cmax p_min p_max].
  split; [destruct (fst (output_range (ps_range s)))|destruct (snd (output_range (ps_range s)))]; cbn; congruence. Qed.

Lemma pwl_spec_valid s : pwl_spec_ok s -> pwl_valid (pwl_spec_cfg s) (length (ps_kps s) - 1).
Proof. intros (Hn & Hl & Hm & Hc & Hcl & Hb & _). destruct (pwl_spec_cfg_bounds s) as [Bmin Bmax].
  unfold pwl_valid, pwl_spec_cfg, pwl_layer_cfg; cbn [p_lengths p_mono p_conv p_cmin p_cmax p_min p_max].
  split. lia. split. apply kp_lengths_length. split. apply Forall_forall. exact Hl.
  split. exact Hm. split. exact Hc. split.
  - intros H1 H2. exact (Hb _ _ (Bmin H1) (Bmax H2)).
  - intros H. apply Hcl. destruct H as [H|H]; [left|right].
    + destruct (fst (output_range (ps_range s))); cbn in H; [|discriminate]. destruct (ps_clamp_min s); [reflexivity|discriminate].
    + destruct (snd (output_range (ps_range s))); cbn in H; [|discriminate]. destruct (ps_clamp_max s); [reflexivity|discriminate]. Qed.

Theorem init_feasible_pwl s : pwl_spec_ok s -> pwl_inv (pwl_spec_desc s) (pwl_spec_init s).
Proof. intros H. pose proof H as (Hn & Hl & Hm & Hc & Hcl & Hb & Hk). destruct (pwl_spec_cfg_bounds s) as [Bmin Bmax].
  assert (Hkp : forall b, kps_ok (length (ps_kps s)) (if b : bool then Some (ps_kps s) else None)).
  { intros [|]; cbn. split. reflexivity. exact Hl. exact I. }
  unfold pwl_spec_desc, pwl_spec_init. destruct (ps_kind s).
  - (* UniformOutputInitializer *)
    destruct (premade_init_range_ok (ps_range s) (ps_oi s) Hk (range_size_ok _ Hb)) as (Hr & [Hlo _] & [_ Hhi]).
    unfold premade_pwl_init.
    apply (pwl_linear_init_inv (pwl_spec_cfg s) _ _ _ _ (Some (ps_kps s)) Hr Hn (Hkp true)); intros Hne.
    apply Hlo, Bmin, Hne. apply Hhi, Bmax, Hne.
  - (* layer default: equal heights over the layer's init range *)
    pose proof (convert_range (fst (output_range (ps_range s))) (snd (output_range (ps_range s)))
                              (ps_clamp_min s) (ps_clamp_max s) Hb) as Hcv.
    destruct (convert_all_constraints _ _ _ _) as [[[imin imax] k1] k2]. destruct Hcv as (Hr & Hlo & Hhi).
    apply (pwl_linear_init_inv (pwl_spec_cfg s) _ _ _ _ None Hr Hn (Hkp false)); intros Hne.
    apply Hlo, Bmin, Hne. apply Hhi, Bmax, Hne.
  - (* output calibrator *)
    destruct Hk as (Em & Hs & Hin).
    apply (pwl_ediff_init_inv (pwl_spec_cfg s)); [exact Em|exact Hs| |]; intros Hne x Hx; destruct (Hin x Hx) as [A B].
    apply A, Bmin, Hne. apply B, Bmax, Hne. Qed.

Lemma pwl_spec_desc_ok s : pwl_spec_ok s -> pwl_desc_ok (pwl_spec_desc s).
Proof. intros H. split. exact (pwl_spec_valid s H). exact (init_feasible_pwl s H). Qed.

Theorem reachable_feasible_pwl_from_init ss ops : (forall s, In s ss -> pwl_spec_ok s) ->
  ops_shaped (list Q) pwl_desc pwl_shape (map pwl_spec_desc ss) ops ->
  forall st, In st (run (map pwl_var (map pwl_spec_desc ss)) ops) -> Forall2 pwl_inv (map pwl_spec_desc ss) st.
Proof. intros H. apply reachable_feasible_pwl.
  apply all_map. intros s Hs. apply pwl_spec_desc_ok, H, Hs. Qed.

(* ---- the learned missing output (feature with a default_value) ---- *)
Definition mo_spec_desc (p : Q * Q * bool * bool) : mo_desc :=
  let '(lo, hi, cmn, cmx) := p in mkMoD lo hi (pwl_missing_init (Some lo) (Some hi) cmn cmx).
Definition mo_spec_ok (p : Q * Q * bool * bool) : Prop := let '(lo, hi, _, _) := p in lo <= hi.

Theorem init_feasible_missing_output p : mo_spec_ok p -> mo_inv (mo_spec_desc p) (md_init (mo_spec_desc p)).
Proof. destruct p as [[[lo hi] cmn] cmx]. unfold mo_spec_ok, mo_spec_desc, mo_inv, pwl_missing_init; cbn. intros H. lra. Qed.

Theorem reachable_feasible_missing_output_from_init ps ops : (forall p, In p ps -> mo_spec_ok p) ->
  forall st, In st (run (map mo_var (map mo_spec_desc ps)) ops) -> Forall2 mo_inv (map mo_spec_desc ps) st.
Proof. intros H. apply reachable_feasible_missing_output.
  apply all_map. intros p Hp. apply H in Hp. split. destruct p as [[[lo hi] cmn] cmx]; exact Hp. exact (init_feasible_missing_output p Hp). Qed.

Record cat_spec := mkCatS { cs_pairs : pairs; cs_range : layer_range; cs_n : nat; cs_raw : list Q }.
Definition cat_spec_init (s : cat_spec) : list Q :=
  cat_build_init (cs_pairs s) (fst (output_range (cs_range s))) (snd (output_range (cs_range s))) (cs_raw s).
Definition cat_spec_desc (s : cat_spec) : cat_desc :=
  mkCatD (cs_pairs s) (fst (output_range (cs_range s))) (snd (output_range (cs_range s))) (cs_n s) (cat_spec_init s).
(* acyclic pairs over existing buckets; the initializer returned one value per bucket *)
Definition cat_spec_ok (s : cat_spec) : Prop :=
  acyclic (cs_pairs s) /\ (forall i j, In (i, j) (cs_pairs s) -> (i < cs_n s)%nat /\ (j < cs_n s)%nat) /\
  length (cs_raw s) = cs_n s.

Lemma cat_build_init_cases ps lo hi raw :
  cat_build_init ps lo hi raw = cat_con ps lo hi raw \/ (ps = [] /\ lo = None /\ hi = None /\ cat_build_init ps lo hi raw = raw).
Proof. destruct ps, lo, hi; auto. Qed.

(* the projection applied in build() lands in the invariant for EVERY raw value of the right
   length (cat_con_inv): the RandomUniform draw need not even be inside the range; without a
   constraint object there is nothing to satisfy *)
Lemma cat_spec_init_ok s : cat_spec_ok s -> cat_inv (cat_spec_desc s) (cat_spec_init s) /\ length (cat_spec_init s) = cs_n s.
Proof. intros (Hac & Hr & Hl). unfold cat_spec_init.
  destruct (cat_build_init_cases (cs_pairs s) (fst (output_range (cs_range s))) (snd (output_range (cs_range s))) (cs_raw s))
    as [-> | (Ep & El & Eh & ->)].
  - exact (cat_con_inv (cat_spec_desc s) (cs_raw s) Hac Hr Hl).
  - split; [|exact Hl]. unfold cat_inv; cbn [cat_spec_desc cd_pairs cd_lo cd_hi]. rewrite Ep, El, Eh.
    split. intros i j []. intros x _. split; intros b Hb; discriminate. Qed.

Theorem init_feasible_categorical s : cat_spec_ok s -> cat_inv (cat_spec_desc s) (cat_spec_init s).
Proof. intros H. apply cat_spec_init_ok. exact H. Qed.

Lemma cat_spec_desc_ok s : cat_spec_ok s -> cat_desc_ok (cat_spec_desc s).
Proof. intros H. pose proof (init_feasible_categorical s H) as Hi. destruct H as (Hac & Hr & _).
  split. exact Hac. split. exact Hr. exact Hi. Qed.

Theorem reachable_feasible_categorical_from_init ss ops : (forall s, In s ss -> cat_spec_ok s) ->
  ops_shaped (list Q) cat_desc (fun d w => length w = cd_n d) (map cat_spec_desc ss) ops ->
  forall st, In st (run (map cat_var (map cat_spec_desc ss)) ops) -> Forall2 cat_inv (map cat_spec_desc ss) st.
Proof. intros H. apply reachable_feasible_categorical.
  apply all_map. intros s Hs. apply cat_spec_desc_ok, H, Hs. Qed.

Lemma premade_linear_weight_nonneg n i : 0 <= nth i (premade_linear_init n) 0.
Proof. unfold premade_linear_init. destruct (Nat.lt_ge_cases i n) as [H|H].
  - rewrite nth_indep with (d' := 1 / qn n) by (rewrite repeat_length; exact H). rewrite nth_repeat.
    unfold Qdiv. rewrite Qmult_1_l. apply Qinv_le_0_compat. apply qofnat_nonneg.
  - rewrite nth_overflow by (rewrite repeat_length; exact H). lra. Qed.

(* a weighted average: non-negative, sum one (the hypotheses of C03_bounded_linear) *)
Lemma premade_linear_init_average n : (1 <= n)%nat ->
  length (premade_linear_init n) = n /\ (forall q, In q (premade_linear_init n) -> 0 <= q) /\
  qsum (premade_linear_init n) == 1.
Proof. intros Hn. unfold premade_linear_init. split. apply repeat_length. split.
  - intros q Hq. apply repeat_spec in Hq. subst q. unfold Qdiv. rewrite Qmult_1_l. apply Qinv_le_0_compat. apply qofnat_nonneg.
  - rewrite qsum_repeat. pose proof (qn_pos n Hn). field. lra. Qed.

(* the sign part of the Linear invariant: no input is configured decreasing
   (_monotonicities_from_feature_configs yields 0 / 1 only; decreasing features
   get a decreasing calibrator and an increasing linear weight) *)
Lemma linear_init_inv rt c n : (forall i, nth i (lc_monos c) 0%Z <> (-1)%Z) ->
  lin_inv (mkLinD rt c n (premade_linear_init n)) (premade_linear_init n).
Proof. intros H i. cbn [nd_cfg]. split. intros _. apply premade_linear_weight_nonneg.
  intros E. destruct (H i E). Qed.

(* build_linear_layer (weighted_average or not) and build_linear_combination_layer *)
Definition premade_linear_monos (feats : list fmono) (weighted_average : bool) : list Z :=
  if weighted_average then repeat 1%Z (length feats) else map lattice_dim_mono feats.
Lemma premade_linear_monos_not_decreasing feats wa i : nth i (premade_linear_monos feats wa) 0%Z <> (-1)%Z.
Proof. destruct (nth_in_or_default i (premade_linear_monos feats wa) 0%Z) as [H|E]; [|rewrite E; discriminate].
  revert H. generalize (nth i (premade_linear_monos feats wa) 0%Z). intros z H. unfold premade_linear_monos in H. destruct wa.
  - apply repeat_spec in H. subst z. discriminate.
  - apply in_map_iff in H. destruct H as [[m|[|p ps]] [<- _]]; cbn [lattice_dim_mono]; try discriminate.
    destruct (m =? 0)%Z; discriminate. Qed.

Lemma premade_linear_monos_one feats wa i : (i < length feats)%nat ->
  wa = true \/ lattice_dim_mono (nth i feats (MNum 0)) = 1%Z -> nth i (premade_linear_monos feats wa) 0%Z = 1%Z.
Proof. intros Hi H. unfold premade_linear_monos. destruct wa.
  - apply nth_repeat_lt. exact Hi.
  - destruct H as [H|H]; [discriminate|]. rewrite (nth_map_lt _ _ i _ (MNum 0)) by exact Hi. exact H. Qed.

Record lin_spec := mkLinS { ns_rt : Q -> Q; ns_cfg : lin_cfg; ns_n : nat }.
Definition lin_spec_desc (s : lin_spec) : lin_desc := mkLinD (ns_rt s) (ns_cfg s) (ns_n s) (premade_linear_init (ns_n s)).
Definition lin_spec_ok (s : lin_spec) : Prop :=
  lin_valid (ns_cfg s) (ns_n s) /\ forall i, nth i (lc_monos (ns_cfg s)) 0%Z <> (-1)%Z.

Theorem init_feasible_linear s : lin_spec_ok s -> lin_inv (lin_spec_desc s) (premade_linear_init (ns_n s)).
Proof. intros [_ H]. apply linear_init_inv. exact H. Qed.

Theorem reachable_feasible_linear_from_init ss ops : (forall s, In s ss -> lin_spec_ok s) ->
  ops_shaped (list Q) lin_desc (fun d w => length w = nd_n d) (map lin_spec_desc ss) ops ->
  forall st, In st (run (map lin_var (map lin_spec_desc ss)) ops) -> Forall2 lin_inv (map lin_spec_desc ss) st.
Proof. intros H. apply reachable_feasible_linear.
  apply all_map. intros s Hs. apply H in Hs. split. exact (proj1 Hs). exact (init_feasible_linear s Hs). Qed.

(* The hypotheses are satisfiable; what happens without them *)
(* ---- lattice: CalibratedLattice under an output calibrator (linear initialiser,
   second dimension unimodal), a bounded model without output calibrator, an RTL
   lattice with the random monotonic initialiser ---- *)
Definition ex_lat_lin : lat_spec :=
  mkLatS (mkLat [2; 3]%nat 1 [1; 0]%Z [] [] (Some 0) (Some 1)) true (fun K => K)
         InputToFinalCalibration [] (LKLinear [0; 1]%Z).
Definition ex_lat_out : lat_spec :=
  mkLatS (mkLat [2; 2]%nat 1 [1; 1]%Z [] [] (Some (-(2))) (Some 2)) true (fun K => K)
         (ModelOutput (Some (-(2))) (Some 2)) [-(2); -(1); 0; 1; 2] (LKLinear [0; 0]%Z).
Definition ex_lat_rtl : lat_spec :=
  mkLatS (mkLat [2; 2]%nat 2 [1; 0]%Z [] [] (Some 0) (Some 1)) true (fun K => K)
         InputToFinalCalibration [] (LKRandomMono (levels [2; 2]%nat) [0; 1#4; 1#2; 1]).

Ltac in_cases H := repeat (destruct H as [<-|H]; [try lia; try lra; auto|]); try destruct H.
Ltac nth_cases d :=
  destruct d as [|d]; [|destruct d as [|d]; [|destruct d as [|d]; [|destruct d as [|d]; [|try (destruct d)]]]];
  try reflexivity.

Lemma ex_cfg_ok sizes units monos lo hi : (forall s, In s sizes -> (2 <= s)%nat) -> (1 <= units)%nat ->
  length monos = length sizes -> (forall m, In m monos -> m = 0%Z \/ m = 1%Z) -> lo < hi ->
  cfg_valid (mkLat sizes units monos [] [] (Some lo) (Some hi)).
Proof. intros. unfold cfg_valid, all_trusts; cbn. repeat split; auto; try (intros; contradiction). Qed.

(* a Lattice layer with monotonicity flags and both bounds only, Dykstra stage the identity, whatever its
   place, output_initialization and initialiser *)
Lemma ex_lat_ok sizes units monos lo hi r oi k : (forall s, In s sizes -> (2 <= s)%nat) -> (1 <= units)%nat ->
  length monos = length sizes -> (forall m, In m monos -> m = 0%Z \/ m = 1%Z) -> lo < hi -> sizes <> [] ->
  output_range r = (Some lo, Some hi) -> oi_in_bounds r oi ->
  match k with
  | LKLinear unis => unis_ok (mkLat sizes units monos [] [] (Some lo) (Some hi)) unis
  | LKRandomMono order samples =>
      random_oracle_ok sizes order samples (fst (premade_init_range r false oi)) (snd (premade_init_range r false oi))
  end ->
  lat_spec_ok (mkLatS (mkLat sizes units monos [] [] (Some lo) (Some hi)) true (fun K => K) r oi k).
Proof. intros Hs Hu Hl Hm Hlt Hne Er Ho Hk. unfold lat_spec_ok; cbn [ls_cfg ls_ran ls_range ls_oi ls_kind l_sizes l_min l_max].
  split. apply ex_cfg_ok; assumption. split. left; reflexivity. split. intros [H _]; apply H; reflexivity.
  split. exact Hne. rewrite Er. split. reflexivity. split. reflexivity. split. exact Ho. exact Hk. Qed.

(* the model's last layer: two increasing dimensions, linear initialiser, output_initialization inside the bounds *)
Lemma ex_lat_output_ok sizes lo hi oi : (forall s, In s sizes -> (2 <= s)%nat) -> length sizes = 2%nat -> lo < hi ->
  oi <> [] -> (forall x, In x oi -> lo <= x <= hi) ->
  lat_spec_ok (mkLatS (mkLat sizes 1 [1; 1]%Z [] [] (Some lo) (Some hi)) true (fun K => K)
                      (ModelOutput (Some lo) (Some hi)) oi (LKLinear [0; 0]%Z)).
Proof. intros Hs Hl Hlt Hne Hoi. apply ex_lat_ok.
  - exact Hs.
  - apply le_n.
  - symmetry. exact Hl.
  - intros m H; in_cases H.
  - exact Hlt.
  - intros E. rewrite E in Hl. discriminate Hl.
  - reflexivity.
  - split. exact Hne. intros x Hx. destruct (Hoi x Hx). split; intros b Hb; inversion Hb; subst; assumption.
  - split. symmetry. exact Hl. intros d. nth_cases d. Qed.

Example ex_lat_lin_ok : lat_spec_ok ex_lat_lin.
Proof. apply ex_lat_ok.
  - intros s H; in_cases H.
  - apply le_n.
  - reflexivity.
  - intros m H; in_cases H.
  - lra.
  - discriminate.
  - reflexivity.
  - exact I.
  - split. reflexivity. intros d. nth_cases d. Qed.
Example ex_lat_out_ok : lat_spec_ok ex_lat_out.
Proof. apply ex_lat_output_ok.
  - intros s H; in_cases H.
  - reflexivity.
  - lra.
  - discriminate.
  - intros x H; in_cases H. Qed.
Example ex_lat_rtl_ok : lat_spec_ok ex_lat_rtl.
Proof. apply ex_lat_ok.
  - intros s H; in_cases H.
  - lia.
  - reflexivity.
  - intros m H; in_cases H.
  - lra.
  - discriminate.
  - reflexivity.
  - exact I.
  - cbn [premade_init_range fst snd]. split; [|split; [|split]].
    + induction (levels [2; 2]%nat); constructor; auto.
    + intros a b Hab Hb. cbn in Hb.
      do 4 (destruct b as [|b]; [do 4 (destruct a as [|a]; [cbn; first [lra|lia]|]); lia|]). lia.
    + reflexivity.
    + intros x Hx. cbn in Hx. in_cases Hx. Qed.
(* the kernels the three builders start from *)
Example ex_lat_values :
  (lat_spec_init ex_lat_lin [0; 0; 0]%nat == 1#2 /\ lat_spec_init ex_lat_lin [0; 1; 0]%nat == 0 /\
   lat_spec_init ex_lat_lin [1; 2; 0]%nat == 1) /\
  (lat_spec_init ex_lat_out [0; 0; 0]%nat == -(2) /\ lat_spec_init ex_lat_out [1; 1; 0]%nat == 2) /\
  (lat_spec_init ex_lat_rtl [0; 0; 1]%nat == 0 /\ lat_spec_init ex_lat_rtl [1; 0; 1]%nat == 1#2 /\
   lat_spec_init ex_lat_rtl [1; 1; 0]%nat == 1).
Proof. repeat split; vm_compute; reflexivity. Qed.

(* ---- PWL: a decreasing input calibrator of a 3-vertex lattice dimension, a
   middle calibrator, the output calibrator of a model bounded by [-2, 2] ---- *)
Definition ex_pwl_in : pwl_spec := mkPwlS [0; 1; 3] (-1) 0 false false 8 (InputToLattice 3) [] PKUniform.
Definition ex_pwl_mid : pwl_spec := mkPwlS [-(1); 0; 1] 1 0 false false 8 (InputToLattice 2) [] PKLayerDefault.
Definition ex_pwl_outc : pwl_spec :=
  mkPwlS [0; 1#2; 1] 1 0 false false 8 (ModelOutput (Some (-(2))) (Some 2)) [-(2); 0; 2] PKOutputCalibration.
Lemma ex_pwl_common kps mono r oi k : (2 <= length kps)%nat -> (forall l, In l (kp_lengths kps) -> 0 < l) -> z3 mono ->
  (forall a b, fst (output_range r) = Some a -> snd (output_range r) = Some b -> a <= b) ->
  match k with
  | PKUniform => oi_in_bounds r oi
  | PKLayerDefault => True
  | PKOutputCalibration => mono = 1%Z /\ nondecreasing oi /\ forall x, In x oi -> within (fst (output_range r)) (snd (output_range r)) x
  end -> pwl_spec_ok (mkPwlS kps mono 0 false false 8 r oi k).
Proof. intros. unfold pwl_spec_ok; cbn. repeat split; auto. right; left; reflexivity. intros [E|E]; discriminate. Qed.
Example ex_pwl_in_ok : pwl_spec_ok ex_pwl_in.
Proof. apply ex_pwl_common. cbn; lia. intros l H; cbn in H; in_cases H. left; reflexivity.
  intros a b Ha Hb; inversion Ha; inversion Hb; subst. vm_compute; discriminate. exact I. Qed.
Example ex_pwl_mid_ok : pwl_spec_ok ex_pwl_mid.
Proof. apply ex_pwl_common. cbn; lia. intros l H; cbn in H; in_cases H. right; right; reflexivity.
  intros a b Ha Hb; inversion Ha; inversion Hb; subst. vm_compute; discriminate. exact I. Qed.
Example ex_pwl_outc_ok : pwl_spec_ok ex_pwl_outc.
Proof. apply ex_pwl_common. cbn; lia. intros l H; cbn in H; in_cases H. right; right; reflexivity.
  intros a b Ha Hb; inversion Ha; inversion Hb; subst. lra.
  split. reflexivity. split. intros i Hi; cbn in Hi. nth_cases i; cbn; try lra; lia.
  intros x H. split; intros b Hb; inversion Hb; subst; cbn in H; in_cases H. Qed.
Example ex_pwl_values :
  pwl_spec_init ex_pwl_in = [2; -(2#3); -(4#3)] /\ pwl_spec_init ex_pwl_mid = [0; 1#2; 1#2] /\
  qleq (pwl_spec_init ex_pwl_outc) [-(2); 2; 2].
Proof. split. vm_compute; reflexivity. split. vm_compute; reflexivity. repeat constructor; vm_compute; reflexivity. Qed.

(* ---- categorical: a RandomUniform draw that violates the chain 0 <= 1 <= 2 and is
   even outside the range is repaired by build() ---- *)
Definition ex_cat : cat_spec := mkCatS [(0, 1); (1, 2)]%nat (InputToLattice 2) 3 [7#8; -(1#4); 1#8].
Example ex_cat_ok : cat_spec_ok ex_cat.
Proof. split; [|split].
  - apply (acyclic_rank _ (fun x => x)). intros a b H. cbn in H. destruct H as [H|[H|[]]]; inversion H; subst; lia.
  - intros i j H. cbn in H. destruct H as [H|[H|[]]]; inversion H; subst; cbn; lia.
  - reflexivity. Qed.
Example ex_cat_value : exists r, cat_spec_init ex_cat = r /\ nth 0 r 0 <= nth 1 r 0 /\ nth 1 r 0 <= nth 2 r 0 /\
  0 <= nth 0 r 0 /\ nth 2 r 0 <= 1.
Proof. eexists. split. vm_compute. reflexivity. cbn. repeat split; apply Qle_bool_iff; reflexivity. Qed.

(* ---- linear: the weighted average over three features, two of them monotone ---- *)
Definition ex_lin : lin_spec :=
  mkLinS (fun q => q) (mkLin (premade_linear_monos [MNum 1; MNum (-1); MPairs []] false) [] [] [None; None; None] [None; None; None] 0) 3.
Example ex_lin_ok : lin_spec_ok ex_lin.
Proof. split; [|intros i; apply premade_linear_monos_not_decreasing].
  apply (lin_valid_no_dominance [1; 1; 0]%Z). intros i. nth_cases i; auto. Qed.

(* ---- FINDING: verify_config does not relate output_initialization to
   output_min / output_max.  Without [oi_in_bounds] (resp. sortedness for the
   output calibrator) the freshly built layer violates its own constraints:
   CalibratedLatticeConfig(output_min=0, output_max=1, output_initialization=[-5, 5])
   starts from a lattice kernel with entries -5 and 5; with output_calibration=True
   and output_initialization=[1, 0] the output calibrator starts decreasing;
   CalibratedLinearConfig(output_min=0, output_max=1, output_initialization=[-5, 5])
   starts its input calibrators at outputs -5 .. 5. ---- *)
Definition bad_lat : lat_spec :=
  mkLatS (mkLat [2; 2]%nat 1 [1; 1]%Z [] [] (Some 0) (Some 1)) true (fun K => K)
         (ModelOutput (Some 0) (Some 1)) [-(5); 5] (LKLinear [0; 0]%Z).
Lemma refuted_lattice_init_outside_bounds :
  let c := ls_cfg bad_lat in
  cfg_valid c /\ block_ok c (ls_ran bad_lat) /\ ~ trap_mono_cond_with_edgeworth c /\ l_sizes c <> [] /\
  l_min c = fst (output_range (ls_range bad_lat)) /\ l_max c = snd (output_range (ls_range bad_lat)) /\
  unis_ok c [0; 0]%Z /\ ls_oi bad_lat <> [] /\
  ~ lat_inv (lat_spec_desc bad_lat) (lat_spec_init bad_lat).
Proof. cbv zeta. unfold bad_lat; cbn [ls_cfg ls_ran ls_range ls_oi ls_kind]. split.
  { apply ex_cfg_ok; try reflexivity; try lia; try lra. intros s H; in_cases H. intros m H; in_cases H. }
  split. left; reflexivity. split. intros [H _]; apply H; reflexivity. split. discriminate.
  split. reflexivity. split. reflexivity. split. { split. reflexivity. intros d. nth_cases d. }
  split. discriminate. intros (_ & Hlo & _). cbn [lat_spec_desc ld_cfg l_min l_shape l_sizes l_units lower_ok] in Hlo.
  specialize (Hlo [0; 0; 0]%nat ltac:(repeat constructor)). vm_compute in Hlo. apply Hlo. reflexivity. Qed.

Definition bad_outc (oi : list Q) : pwl_spec :=
  mkPwlS [0; 1] 1 0 false false 8 (ModelOutput (Some 0) (Some 1)) oi PKOutputCalibration.
Lemma refuted_output_calibrator_init :
  ~ pwl_inv (pwl_spec_desc (bad_outc [1; 0])) (pwl_spec_init (bad_outc [1; 0])) /\
  ~ pwl_inv (pwl_spec_desc (bad_outc [-(5); 5])) (pwl_spec_init (bad_outc [-(5); 5])).
Proof. split.
  - intros (H & _). specialize (H eq_refl). cbn in H. inversion H as [|h l Hh _]; subst. lra.
  - intros (_ & _ & H). destruct H as [H _]. { intros [_ E]. apply E. reflexivity. }
    specialize (H ltac:(discriminate)). cbn in H. inversion H as [|h l Hh _]; subst. lra. Qed.

Definition bad_pwl_in : pwl_spec := mkPwlS [0; 1; 2] 1 0 false false 8 (ModelOutput (Some 0) (Some 1)) [-(5); 5] PKUniform.
Lemma refuted_linear_model_calibrator_init : ~ pwl_inv (pwl_spec_desc bad_pwl_in) (pwl_spec_init bad_pwl_in).
Proof. intros (_ & _ & H). destruct H as [H _]. { intros [_ E]. apply E. reflexivity. }
  specialize (H ltac:(discriminate)). vm_compute in H. inversion H as [|h l Hh _]; subst. apply Hh. reflexivity. Qed.
