(* Simplex interpolation: theory of Model/LatticeInterp.v's simplex_unit.
   The computation is a walk over the descending-sorted (residual, dimension)
   pairs:  out = sum_j (r_(j) - r_(j+1)) * K[corner + e_s1 + ... + e_sj].
   Everything about the value is derived from what inserting ONE pair into a
   sorted list does to the walk: a pair tied with the previous residual moves
   the corner (insert_top), a pair with residual 0 changes nothing
   (insert_zero), the value is monotone in the inserted residual when the
   kernel is (insert_mono); the order of ties never matters (walk_tie). *)
From Coq Require Import Permutation Qround.
From TFL Require Export Proofs.LatticeHyper.
Open Scope Q_scope.

Definition bump (v : idx) (d : nat) : idx := upd v d (S (nth d v 0%nat)).

Fixpoint walk (K : tens) (prev : Q) (v : idx) (l : list (Q * nat)) : Q :=
  match l with
  | [] => prev * K v
  | (r, d) :: l' => (prev - r) * K v + walk K r (bump v d) l'
  end.

Lemma bump_comm v a b : bump (bump v a) b = bump (bump v b) a.
Proof. destruct (Nat.eq_dec a b) as [->|H]. reflexivity. unfold bump.
  rewrite (nth_upd_other v a b) by exact H. rewrite (nth_upd_other v b a) by auto. apply upd_comm. exact H. Qed.

Lemma walk_prev_eq K p p' v l : p == p' -> walk K p v l == walk K p' v l.
Proof. intros H. destruct l as [|[r d] l]; cbn [walk]; rewrite H; reflexivity. Qed.

(* equivalence of orderings that differ only in the order of ties *)
Inductive tie_eq : list (Q * nat) -> list (Q * nat) -> Prop :=
| te_refl l : tie_eq l l
| te_cons a l l' : tie_eq l l' -> tie_eq (a :: l) (a :: l')
| te_swap a b l : fst a == fst b -> tie_eq (a :: b :: l) (b :: a :: l)
| te_trans l1 l2 l3 : tie_eq l1 l2 -> tie_eq l2 l3 -> tie_eq l1 l3.

Lemma tie_eq_sym l l' : tie_eq l l' -> tie_eq l' l.
Proof. induction 1. apply te_refl. apply te_cons; assumption. apply te_swap; symmetry; assumption.
  eapply te_trans; eassumption. Qed.

Lemma tie_eq_perm l l' : tie_eq l l' -> Permutation l l'.
Proof. induction 1. apply Permutation_refl. apply perm_skip; assumption. apply perm_swap.
  eapply Permutation_trans; eassumption. Qed.

Global Instance qle_proper : Proper (Qeq ==> Qeq ==> eq) qle := Qleb_comp.

Lemma walk_tie K l l' : tie_eq l l' -> forall prev v, walk K prev v l == walk K prev v l'.
Proof. induction 1 as [l|[r d] l l' H IH|[ra da] [rb db] l H|l1 l2 l3 H1 IH1 H2 IH2]; intros prev v.
  - reflexivity.
  - cbn [walk]. rewrite IH. reflexivity.
  - cbn [walk fst] in *. rewrite (bump_comm v db da). rewrite (walk_prev_eq K ra rb _ l H). rewrite H. ring.
  - rewrite IH1. apply IH2. Qed.

Lemma insert_tie x l l' : tie_eq l l' -> tie_eq (insert_desc x l) (insert_desc x l').
Proof. induction 1 as [l|a l l' H IH|a b l H|l1 l2 l3 H1 IH1 H2 IH2].
  - apply te_refl.
  - cbn [insert_desc]. destruct (qle (fst a) (fst x)). apply te_cons, te_cons; exact H. apply te_cons; exact IH.
  - cbn [insert_desc]. rewrite H. destruct (qle (fst b) (fst x)).
    apply te_cons, te_swap; exact H. apply te_swap; exact H.
  - eapply te_trans; eassumption. Qed.

(* two elements that both go in front of l *)
Lemma front_tie a b l : tie_eq (if qle (fst b) (fst a) then a :: b :: l else b :: a :: l)
                               (if qle (fst a) (fst b) then b :: a :: l else a :: b :: l).
Proof. destruct (qle (fst b) (fst a)) eqn:E1, (qle (fst a) (fst b)) eqn:E2; try apply te_refl.
  apply qle_true in E1, E2. apply te_swap. lra. apply qle_false in E1, E2. lra. Qed.

Lemma insert_comm a b : forall s, tie_eq (insert_desc a (insert_desc b s)) (insert_desc b (insert_desc a s)).
Proof. induction s as [|c s IH]. apply (front_tie a b []).
  cbn [insert_desc]. destruct (qle (fst c) (fst b)) eqn:Ecb, (qle (fst c) (fst a)) eqn:Eca; cbn [insert_desc]; rewrite ?Ecb, ?Eca.
  - apply (front_tie a b (c :: s)).
  - apply qle_true in Ecb. apply qle_false in Eca. destruct (qle (fst b) (fst a)) eqn:E1.
    apply qle_true in E1. lra. apply te_refl.
  - apply qle_false in Ecb. apply qle_true in Eca. destruct (qle (fst a) (fst b)) eqn:E1.
    apply qle_true in E1. lra. apply te_refl.
  - apply te_cons. exact IH. Qed.

(* the sorted order depends on the order of the input only through ties *)
Lemma sort_perm l l' : Permutation l l' -> tie_eq (sort_desc l) (sort_desc l').
Proof. induction 1; cbn [sort_desc fold_right].
  - apply te_refl.
  - apply insert_tie. assumption.
  - apply insert_comm.
  - eapply te_trans; eassumption. Qed.

Lemma insert_perm a s : Permutation (insert_desc a s) (a :: s).
Proof. induction s as [|c s IH]; cbn [insert_desc]. apply Permutation_refl.
  destruct (qle (fst c) (fst a)). apply Permutation_refl.
  eapply Permutation_trans. apply perm_skip; exact IH. apply perm_swap. Qed.
Lemma sort_is_perm l : Permutation (sort_desc l) l.
Proof. induction l as [|a l IH]; cbn [sort_desc fold_right]. apply Permutation_refl.
  eapply Permutation_trans. apply insert_perm. apply perm_skip; exact IH. Qed.

(* descending chains below prev, ending above 0 *)
Fixpoint chain (prev : Q) (l : list (Q * nat)) : Prop :=
  match l with [] => 0 <= prev | (r, _) :: l' => r <= prev /\ chain r l' end.

Lemma chain_nonneg : forall l prev, chain prev l -> 0 <= prev.
Proof. induction l as [|[r d] l IH]; intros prev H; cbn in H. exact H. destruct H as [H1 H2]. pose proof (IH r H2). lra. Qed.

Lemma insert_chain : forall s prev a, chain prev s -> 0 <= fst a -> fst a <= prev -> chain prev (insert_desc a s).
Proof. induction s as [|[c dc] s IH]; intros prev [r d] H H0 H1; cbn [fst] in *; cbn [insert_desc fst].
  - cbn. split; assumption.
  - destruct H as [Hc Hs]. destruct (qle c r) eqn:E.
    + apply qle_true in E. cbn. tauto.
    + apply qle_false in E. cbn [chain]. split. exact Hc. apply IH; cbn [fst]; try assumption. lra. Qed.

(* pairs with residuals in [0, 1] *)
Definition rng (l : list (Q * nat)) : Prop := Forall (fun p : Q * nat => 0 <= fst p /\ fst p <= 1) l.

Lemma sort_chain l : rng l -> chain 1 (sort_desc l).
Proof. induction 1 as [|a l Ha H IH]; cbn [sort_desc fold_right]. cbn; lra. apply insert_chain; tauto. Qed.

Lemma insert_front r d s prev : chain prev s -> prev <= r -> insert_desc (r, d) s = (r, d) :: s.
Proof. destruct s as [|[c dc] s]; cbn [insert_desc fst]. reflexivity.
  intros [H _] Hr. assert (Hc : c <= r) by lra. apply qle_true in Hc. rewrite Hc. reflexivity. Qed.

Lemma chain_sort_id : forall l prev, chain prev l -> sort_desc l = l.
Proof. induction l as [|[r d] l IH]; intros prev H. reflexivity. destruct H as [_ H].
  cbn [sort_desc fold_right]. fold (sort_desc l). rewrite (IH r H). apply (insert_front r d l r H), Qle_refl. Qed.

(* an element tied with prev goes first and has weight zero *)
Lemma insert_top K s prev v r d : chain prev s -> r == prev ->
  walk K prev v (insert_desc (r, d) s) == walk K prev (bump v d) s.
Proof. intros H E. rewrite (insert_front r d s prev H) by lra. cbn [walk].
  rewrite (walk_prev_eq K r prev _ s E). rewrite E. ring. Qed.

Lemma walk_zero K : forall l prev v, chain prev l -> prev <= 0 -> walk K prev v l == 0.
Proof. induction l as [|[r d] l IH]; intros prev v H Hp; cbn [walk].
  - cbn in H. assert (E : prev == 0) by lra. rewrite E. ring.
  - destruct H as [H1 H2]. pose proof (chain_nonneg l r H2).
    rewrite (IH r _ H2) by lra. assert (E : prev == 0) by lra. assert (E' : r == 0) by lra. rewrite E, E'. ring. Qed.

Lemma insert_zero K : forall s prev v r d, chain prev s -> r == 0 ->
  walk K prev v (insert_desc (r, d) s) == walk K prev v s.
Proof. induction s as [|[c dc] s IH]; intros prev v r d H E; cbn [insert_desc fst].
  - cbn [walk]. rewrite E. ring.
  - destruct H as [Hc Hs]. destruct (qle c r) eqn:Q.
    + apply qle_true in Q. pose proof (chain_nonneg s c Hs).
      cbn [walk]. rewrite !(walk_zero K s c) by (try exact Hs; lra).
      assert (Ec : c == 0) by lra. rewrite E, Ec. ring.
    + cbn [walk]. rewrite (IH c (bump v dc) r d Hs E). reflexivity. Qed.

Lemma insert_eqv K d t t' : t == t' -> forall s prev v,
  walk K prev v (insert_desc (t, d) s) == walk K prev v (insert_desc (t', d) s).
Proof. intros E. induction s as [|[c dc] s IH]; intros prev v; cbn [insert_desc fst].
  - cbn [walk]. rewrite E. reflexivity.
  - rewrite E. destruct (qle c t'); cbn [walk].
    rewrite E. reflexivity. rewrite IH. reflexivity. Qed.

(* vertices reached by the walk stay inside the lattice *)
Definition wok (sizes : list nat) (v : idx) (l : list (Q * nat)) : Prop :=
  valid sizes v /\ NoDup (map snd l) /\ forall d, In d (map snd l) -> (S (nth d v 0%nat) < nth d sizes 0%nat)%nat.

Lemma wok_perm sizes v l l' : Permutation l l' -> wok sizes v l -> wok sizes v l'.
Proof. intros P [Hv [Hn Hd]]. pose proof (Permutation_map snd P) as P'. split; [exact Hv|split].
  eapply Permutation_NoDup; eassumption. intros d Hin. apply Hd. eapply Permutation_in. apply Permutation_sym; exact P'. exact Hin. Qed.

Lemma wok_step {sizes v r d l} : wok sizes v ((r, d) :: l) ->
  valid sizes v /\ (S (nth d v 0%nat) < nth d sizes 0%nat)%nat /\ wok sizes (bump v d) l.
Proof. intros [Hv [Hn Hd]]. cbn [map snd] in *. inversion Hn; subst.
  assert (Hb : (S (nth d v 0%nat) < nth d sizes 0%nat)%nat) by (apply Hd; left; reflexivity).
  split; [exact Hv|split; [exact Hb|]]. split; [apply upd_valid; assumption|split; [assumption|]].
  intros d' Hin. unfold bump. rewrite nth_upd_other. apply Hd; right; exact Hin. intros ->. contradiction. Qed.

Lemma wok_tail sizes v a l : wok sizes v (a :: l) -> wok sizes v l.
Proof. intros [Hv [Hn Hd]]. cbn [map] in *. inversion Hn; subst. split; [exact Hv|split; [assumption|]].
  intros d Hin. apply Hd. right; exact Hin. Qed.

(* raising a coordinate that still has the lower corner's value keeps a corner a corner *)
Lemma corner_of_bump : forall c v d, corner_of c v -> nth d v 0%nat = nth d c 0%nat -> corner_of c (bump v d).
Proof. intros c v d H. revert d. induction H as [|cd cs i H IH|cd cs i H IH]; intros d E.
  - destruct d; exact co_nil.
  - destruct d as [|d]; unfold bump; cbn [nth upd].
    + apply co_hi. exact H.
    + apply co_lo. apply (IH d). exact E.
  - destruct d as [|d]; unfold bump; cbn [nth upd] in *.
    + lia.
    + apply co_hi. apply (IH d). exact E. Qed.

Lemma corner_of_self c : corner_of c c.
Proof. induction c; constructor; assumption. Qed.

(* the vertices visited by a walk over pairs with distinct dimensions are corners of the cell *)
Lemma walk_corner_bounds K c lo hi : (forall i, corner_of c i -> lo <= K i /\ K i <= hi) ->
  forall l prev v, chain prev l -> NoDup (map snd l) -> corner_of c v ->
  (forall d, In d (map snd l) -> nth d v 0%nat = nth d c 0%nat) ->
  lo * prev <= walk K prev v l /\ walk K prev v l <= hi * prev.
Proof. intros HK. induction l as [|[r d] l IH]; intros prev v Hc Hn Hv Hd; cbn [walk].
  - destruct (HK v Hv). cbn in Hc. split; nra.
  - destruct Hc as [H1 H2]. cbn [map snd] in Hn, Hd. inversion Hn; subst. destruct (HK v Hv).
    destruct (IH r (bump v d) H2 H4 (corner_of_bump c v d Hv (Hd d (or_introl eq_refl)))) as [A B].
    { intros d' Hin. unfold bump. rewrite nth_upd_other. exact (Hd d' (or_intror Hin)). intros ->. contradiction. }
    split; nra. Qed.

Lemma insert_mono sizes K d : knondecr sizes K d ->
  forall s prev v t t', chain prev s -> wok sizes v ((t, d) :: s) -> t <= t' -> t' <= prev ->
  walk K prev v (insert_desc (t, d) s) <= walk K prev v (insert_desc (t', d) s).
Proof. intros HK. induction s as [|[c dc] s IH]; intros prev v t t' Hc Hw Htt Hp; cbn [insert_desc fst];
  destruct (wok_step Hw) as [Hv [Hb _]]; pose proof (HK v Hv Hb : K v <= K (bump v d)) as Kv.
  - cbn [walk]. nra.
  - destruct Hc as [Hc Hs].
    assert (Hw' : wok sizes v ((c, dc) :: (t, d) :: s)) by (eapply wok_perm; [apply perm_swap|exact Hw]).
    destruct (wok_step Hw') as [_ [_ Hw1]].
    destruct (qle c t) eqn:Q1, (qle c t') eqn:Q2.
    + cbn [walk]. nra.
    + apply qle_true in Q1. apply qle_false in Q2. lra.
    + apply qle_false in Q1. apply qle_true in Q2. cbn [walk].
      pose proof (IH c (bump v dc) t c Hs Hw1 ltac:(lra) ltac:(lra)) as M.
      rewrite (insert_top K s c (bump v dc) c d Hs ltac:(reflexivity)) in M.
      rewrite (bump_comm v dc d) in M. nra.
    + apply qle_false in Q1. apply qle_false in Q2. cbn [walk].
      pose proof (IH c (bump v dc) t t' Hs Hw1 Htt ltac:(lra)). lra. Qed.

(* the walk as the code performs it: over flat indices, by cumulative strides *)
Fixpoint walk_flat (g : Z -> Q) (f : Q * nat -> Z) (prev : Q) (ix : Z) (l : list (Q * nat)) : Q :=
  match l with
  | [] => prev * g ix
  | a :: l' => (prev - fst a) * g ix + walk_flat g f (fst a) (ix + f a) l'
  end.

(* pad-left-1 / pad-right-0 / subtract, cumsum, gather, multiply, reduce_sum *)
Lemma literal_walk g f : forall sorted p acc o,
  qsum (map2 Qmult (map g (cumsumZ acc (o :: map f sorted)))
                   (map2 Qminus (p :: map fst sorted) (map fst sorted ++ [0])))
  == walk_flat g f p (acc + o) sorted.
Proof. induction sorted as [|a l IH]; intros p acc o.
  - cbn. ring.
  - cbn [map app cumsumZ map2 qsum walk_flat]. cbn [map cumsumZ] in IH. rewrite (IH (fst a) (acc + o)%Z (f a)). ring. Qed.

Definition stf (sizes : list nat) : Q * nat -> Z := fun p => Z.of_nat (nth (snd p) (strides sizes) 0%nat).
Definition moffset (sizes : list nat) (z : list Q) : Z :=
  if all2 sizes then 0%Z else zdot (lower_corner sizes z) (strides sizes).
Definition mres (sizes : list nat) (z : list Q) : list Q :=
  if all2 sizes then z else map2 (fun xd c => xd - inject_Z c) z (lower_corner sizes z).
Definition mcorner (sizes : list nat) (z : list Q) : idx :=
  if all2 sizes then map (fun _ => 0%nat) z else map Z.to_nat (lower_corner sizes z).
Definition mpairs (sizes : list nat) (z : list Q) : list (Q * nat) :=
  combine (mres sizes z) (seq 0 (length (mres sizes z))).

Lemma simplex_unit_clip clip sizes g x :
  simplex_unit clip sizes g x = simplex_unit false sizes g (if clip then clip_onto sizes x else x).
Proof. destruct clip; reflexivity. Qed.

Lemma simplex_unit_walk_flat sizes g z :
  simplex_unit false sizes g z == walk_flat g (stf sizes) 1 (moffset sizes z) (sort_desc (mpairs sizes z)).
Proof. unfold simplex_unit. rewrite rsum_qsum.
  change (map (fun p : Q * nat => Z.of_nat (nth (snd p) (strides sizes) 0%nat))) with (map (stf sizes)).
  rewrite literal_walk. rewrite Z.add_0_l. reflexivity. Qed.

Lemma flat_bump : forall sizes v d, valid sizes v -> (S (nth d v 0%nat) < nth d sizes 0%nat)%nat ->
  flat sizes (bump v d) = (flat sizes v + nth d (strides sizes) 0%nat)%nat.
Proof. intros sizes v d H. revert d. induction H as [|s sh k r Hk Hr IH]; intros d Hd.
  - destruct d; cbn in Hd; lia.
  - destruct d as [|d]; unfold bump; cbn [nth upd flat strides].
    + fold (prodn sh). lia.
    + fold (prodn sh). cbn [nth] in Hd. specialize (IH d Hd). unfold bump in IH. rewrite IH. lia. Qed.

(* what the gather g reads at the flat index of a vertex is the tensor's value there *)
Definition gk (sizes : list nat) (g : Z -> Q) (K : tens) : Prop :=
  forall i, valid sizes i -> g (Z.of_nat (flat sizes i)) == K i.

Lemma walk_flat_walk sizes g K : gk sizes g K ->
  forall l prev v, wok sizes v l -> walk_flat g (stf sizes) prev (Z.of_nat (flat sizes v)) l == walk K prev v l.
Proof. intros Hg. induction l as [|[r d] l IH]; intros prev v Hw.
  - cbn. destruct Hw as [Hv _]. rewrite (Hg v Hv). reflexivity.
  - destruct (wok_step Hw) as [Hv [Hb Hw']]. cbn [walk_flat walk fst]. rewrite (Hg v Hv).
    change (stf sizes (r, d)) with (Z.of_nat (nth d (strides sizes) 0%nat)). rewrite <- Nat2Z.inj_add, <- (flat_bump sizes v d Hv Hb). rewrite (IH r _ Hw'). reflexivity. Qed.

(* z_d = c_d + r_d with 0 <= r_d <= 1 and c_d, c_d + 1 both lattice indices *)
Inductive dec : list nat -> idx -> list Q -> list Q -> Prop :=
| dec_nil : dec [] [] [] []
| dec_cons s ss c cs r rs z zs : (S c < s)%nat -> 0 <= r -> r <= 1 -> z == qn c + r -> dec ss cs rs zs ->
    dec (s :: ss) (c :: cs) (r :: rs) (z :: zs).

Lemma dec_valid {sizes c rs z} : dec sizes c rs z -> valid sizes c.
Proof. induction 1; constructor; auto. lia. Qed.
Lemma dec_length {sizes c rs z} : dec sizes c rs z -> length rs = length sizes.
Proof. induction 1; cbn; congruence. Qed.
Lemma dec_clength {sizes c rs z} : dec sizes c rs z -> length c = length sizes.
Proof. intros D. apply valid_length, (dec_valid D). Qed.
Lemma dec_nth {sizes c rs z} : dec sizes c rs z -> forall d, (d < length sizes)%nat ->
  (S (nth d c 0%nat) < nth d sizes 0%nat)%nat /\ 0 <= nth d rs 0 /\ nth d rs 0 <= 1 /\ nth d z 0 == qn (nth d c 0%nat) + nth d rs 0.
Proof. induction 1; intros d Hd; cbn in Hd. lia. destruct d; cbn [nth]. tauto. apply IHdec. lia. Qed.

Lemma dec_set {sizes c rs z} : dec sizes c rs z -> forall d cd t, (S cd < nth d sizes 0%nat)%nat -> 0 <= t -> t <= 1 ->
  dec sizes (upd c d cd) (set_nth d t rs) (set_nth d (qn cd + t) z).
Proof. induction 1 as [|s ss c cs r rs z zs Hc H0 H1 Hz D IH]; intros d cd t Hcd T0 T1. destruct d; exact dec_nil.
  destruct d as [|d]; cbn [upd set_nth nth] in *; constructor; auto. reflexivity. Qed.

Lemma corner_of_valid : forall c i, corner_of c i -> forall sizes rs z, dec sizes c rs z -> valid sizes i.
Proof. induction 1; intros sizes rs z D; inversion D; subst; constructor; eauto; lia. Qed.

Lemma map_snd_combine_seq : forall (rs : list Q) k, map snd (combine rs (seq k (length rs))) = seq k (length rs).
Proof. induction rs as [|r rs IH]; intros k; cbn. reflexivity. f_equal. apply IH. Qed.

Lemma combine_range : forall (rs : list Q) k, Forall (fun r => 0 <= r /\ r <= 1) rs -> rng (combine rs (seq k (length rs))).
Proof. induction rs as [|r rs IH]; intros k H; cbn. constructor. inversion H; subst. constructor; auto. apply IH; assumption. Qed.

Lemma dec_rng {sizes c rs z} : dec sizes c rs z -> rng (combine rs (seq 0 (length rs))).
Proof. intros D. apply combine_range. induction D; constructor; auto. Qed.

Lemma dec_wok {sizes c rs z} : dec sizes c rs z -> wok sizes c (combine rs (seq 0 (length rs))).
Proof. intros H. split; [exact (dec_valid H)|]. rewrite map_snd_combine_seq. split. apply seq_NoDup.
  intros d Hd. apply in_seq in Hd. rewrite (dec_length H) in Hd. apply (dec_nth H d). lia. Qed.

(* the simplex formula of the cell with lower corner c at residuals rs *)
Definition scell (K : tens) (c : idx) (rs : list Q) : Q :=
  walk K 1 c (sort_desc (combine rs (seq 0 (length rs)))).

Lemma dec_sorted {sizes c rs z} : dec sizes c rs z ->
  chain 1 (sort_desc (combine rs (seq 0 (length rs)))) /\ wok sizes c (sort_desc (combine rs (seq 0 (length rs)))).
Proof. intros D. split. apply sort_chain. exact (dec_rng D).
  eapply wok_perm. apply Permutation_sym, sort_is_perm. exact (dec_wok D). Qed.

Lemma qtrunc_floor x : 0 <= x -> (0 <= qtrunc x)%Z /\ inject_Z (qtrunc x) <= x /\ x < inject_Z (qtrunc x) + 1.
Proof. intros H. assert (E : qtrunc x = Qfloor x).
  { destruct x as [n d]. unfold qtrunc, Qfloor. cbn [Qnum Qden]. apply Z.quot_div_nonneg.
    unfold Qle in H; cbn in H. lia. lia. }
  rewrite E. split; [|split].
  - destruct x as [n d]. unfold Qfloor. apply Z.div_pos. unfold Qle in H; cbn in H; lia. lia.
  - apply Qfloor_le.
  - pose proof (Qlt_floor x) as L. rewrite inject_Z_plus in L. exact L. Qed.

(* the corner is trunc z, except in the last cell, whose upper end has residual 1 *)
Lemma corner_1d s z : (2 <= s)%nat -> 0 <= z -> z <= qn s - 1 ->
  let cz := Z.min (qtrunc z) (Z.of_nat s - 2) in
  (0 <= cz)%Z /\ (S (Z.to_nat cz) < s)%nat /\ 0 <= z - inject_Z cz /\ z - inject_Z cz <= 1 /\
  z == qn (Z.to_nat cz) + (z - inject_Z cz).
Proof. intros Hs H0 H1 cz. destruct (qtrunc_floor z H0) as [T0 [T1 T2]].
  assert (C0 : (0 <= cz)%Z) by (unfold cz; lia).
  assert (Eq : qn (Z.to_nat cz) == inject_Z cz) by (unfold qn; rewrite Z2Nat.id by exact C0; reflexivity).
  assert (Es : inject_Z (Z.of_nat s - 2) == qn s - 2) by (unfold qn, Zminus; rewrite inject_Z_plus; reflexivity).
  split; [exact C0|split; [unfold cz; lia|]].
  destruct (Z.min_spec (qtrunc z) (Z.of_nat s - 2)) as [[Hlt E]|[Hge E]]; fold cz in E; rewrite E in *.
  - repeat split; lra.
  - rewrite Zle_Qle in Hge. repeat split; lra. Qed.

Lemma model_dec : forall sizes z, sizes_ok sizes -> inr sizes z ->
  dec sizes (map Z.to_nat (lower_corner sizes z)) (map2 (fun xd c => xd - inject_Z c) z (lower_corner sizes z)) z /\
  zdot (lower_corner sizes z) (strides sizes) = Z.of_nat (flat sizes (map Z.to_nat (lower_corner sizes z))).
Proof. intros sizes z Hs Hr. induction Hr as [|s zd ss zs [H0 H1] Hr IH].
  - split. constructor. reflexivity.
  - inversion Hs; subst. destruct (IH H4) as [D E].
    destruct (corner_1d s zd H3 H0 H1) as [C0 [C1 [C2 [C3 C4]]]].
    unfold lower_corner in *. cbn [map2 map strides zdot flat]. split.
    + constructor; assumption.
    + rewrite E. fold (prodn ss). rewrite Nat2Z.inj_add, Nat2Z.inj_mul, Z2Nat.id by exact C0. reflexivity. Qed.

Lemma all2_dec : forall sizes z, all2 sizes = true -> inr sizes z ->
  dec sizes (map (fun _ => 0%nat) z) z z /\ flat sizes (map (fun _ => 0%nat) z) = 0%nat.
Proof. intros sizes z Ha Hr. induction Hr as [|s zd ss zs [H0 H1] Hr IH].
  - split. constructor. reflexivity.
  - cbn [all2 forallb] in Ha. apply andb_true_iff in Ha. destruct Ha as [E Ha]. apply Nat.eqb_eq in E. subst s.
    destruct (IH Ha) as [D F]. cbn [map flat]. split.
    + constructor; try assumption. lia. rewrite qn_0. ring.
    + rewrite F. lia. Qed.

(* in both code paths: a decomposition of the point, and the flat index of its corner *)
Lemma mcell_dec sizes z : sizes_ok sizes -> inr sizes z ->
  dec sizes (mcorner sizes z) (mres sizes z) z /\ moffset sizes z = Z.of_nat (flat sizes (mcorner sizes z)).
Proof. intros Hs Hr. unfold mcorner, mres, moffset. destruct (all2 sizes) eqn:Ha.
  - destruct (all2_dec sizes z Ha Hr) as [D F]. rewrite F. split; [exact D|reflexivity].
  - apply model_dec; assumption. Qed.

(* The model's output on an in-range point is the simplex formula of the cell
   it selects, and that cell contains the point. *)
Lemma simplex_unit_scell sizes g K z : sizes_ok sizes -> inr sizes z -> gk sizes g K ->
  dec sizes (mcorner sizes z) (mres sizes z) z /\
  simplex_unit false sizes g z == scell K (mcorner sizes z) (mres sizes z).
Proof. intros Hs Hr Hg. destruct (mcell_dec sizes z Hs Hr) as [D F]. split. exact D.
  rewrite simplex_unit_walk_flat, F. apply walk_flat_walk. exact Hg. apply (dec_sorted D). Qed.

Lemma S_perm K v l l' : Permutation l l' -> walk K 1 v (sort_desc l) == walk K 1 v (sort_desc l').
Proof. intros P. apply walk_tie. apply sort_perm. exact P. Qed.
Lemma S_one K v r d l : rng l -> r == 1 -> walk K 1 v (sort_desc ((r, d) :: l)) == walk K 1 (bump v d) (sort_desc l).
Proof. intros Hl E. cbn [sort_desc fold_right]. apply insert_top. apply sort_chain; exact Hl. exact E. Qed.
Lemma S_zero K v r d l : rng l -> r == 0 -> walk K 1 v (sort_desc ((r, d) :: l)) == walk K 1 v (sort_desc l).
Proof. intros Hl E. cbn [sort_desc fold_right]. apply insert_zero. apply sort_chain; exact Hl. exact E. Qed.

(* convex combination of the corner values of the cell, hence of all kernel values *)
Theorem scell_corner_bounds sizes K c rs z lo hi : dec sizes c rs z ->
  (forall i, corner_of c i -> lo <= K i /\ K i <= hi) -> lo <= scell K c rs /\ scell K c rs <= hi.
Proof. intros D HK. destruct (dec_sorted D) as [C [_ [Hn _]]].
  destruct (walk_corner_bounds K c lo hi HK _ 1 c C Hn (corner_of_self c) (fun _ _ => eq_refl)). unfold scell. lra. Qed.

Theorem scell_bounds sizes K c rs z lo hi : dec sizes c rs z -> (forall i, valid sizes i -> lo <= K i /\ K i <= hi) ->
  lo <= scell K c rs /\ scell K c rs <= hi.
Proof. intros D HK. apply (scell_corner_bounds sizes K c rs z lo hi D). intros i Hi. eapply HK, corner_of_valid; eassumption. Qed.

(* any tie-breaking of the sort gives the same value *)
Theorem scell_tie_invariant K c rs s' : Permutation s' (combine rs (seq 0 (length rs))) -> chain 1 s' ->
  walk K 1 c s' == scell K c rs.
Proof. intros P C. unfold scell. rewrite <- (chain_sort_id s' 1 C) at 1. apply S_perm. exact P. Qed.

(* c, rs, t related position-wise by t = c + r, r in {0,1} *)
Inductive ir : idx -> list Q -> idx -> Prop :=
| ir_nil : ir [] [] []
| ir_zero c cs r rs ts : r == 0 -> ir cs rs ts -> ir (c :: cs) (r :: rs) (c :: ts)
| ir_one c cs r rs ts : r == 1 -> ir cs rs ts -> ir (c :: cs) (r :: rs) (S c :: ts).

Lemma ir_rng : forall cs rs ts, ir cs rs ts -> forall k, rng (combine rs (seq k (length rs))).
Proof. induction 1 as [|c cs r rs ts E H IH|c cs r rs ts E H IH]; intros k; cbn [length seq combine].
  constructor. all: constructor; [cbn [fst]; rewrite E; lra|apply IH]. Qed.

(* the pairs of rs, wherever they sort among further pairs l, only move the corner from c to t *)
Lemma S_int K : forall cs rs ts, ir cs rs ts -> forall pre l, rng l ->
  walk K 1 (pre ++ cs) (sort_desc (combine rs (seq (length pre) (length rs)) ++ l)) == walk K 1 (pre ++ ts) (sort_desc l).
Proof. induction 1 as [|c cs r rs ts E H IH|c cs r rs ts E H IH]; intros pre l Hl. reflexivity.
  - cbn [length seq combine app]. rewrite S_zero; [|apply Forall_app; split; [eapply ir_rng; exact H|exact Hl]|exact E].
    specialize (IH (pre ++ [c]) l Hl). rewrite app_length, Nat.add_1_r, <- !app_assoc in IH. exact IH.
  - cbn [length seq combine app]. rewrite S_one; [|apply Forall_app; split; [eapply ir_rng; exact H|exact Hl]|exact E].
    unfold bump. rewrite nth_middle, upd_app_here.
    specialize (IH (pre ++ [S c]) l Hl). rewrite app_length, Nat.add_1_r, <- !app_assoc in IH. exact IH. Qed.

(* two decompositions qn a + ra = qn b + rb of one coordinate: the same cell, or
   neighbouring cells with the point on their common face *)
Lemma qn_split a b ra rb : (a <= b)%nat -> ra <= 1 -> 0 <= rb -> qn a + ra == qn b + rb ->
  (a = b /\ ra == rb) \/ (b = S a /\ ra == 1 /\ rb == 0).
Proof. intros L A1 B0 E. destruct (Nat.eq_dec a b) as [->|N]. left. split; [reflexivity|lra].
  right. destruct (Nat.eq_dec b (S a)) as [->|N']. rewrite qn_S in E. repeat split; lra.
  pose proof (qn_lt (S a) b ltac:(lia)) as Q1. rewrite qn_S in Q1. lra. Qed.

(* an integer coordinate has residual 0 or 1 *)
Lemma qn_res k c r : 0 <= r -> r <= 1 -> qn k == qn c + r -> (k = c /\ r == 0) \/ (k = S c /\ r == 1).
Proof. intros R0 R1 E. destruct (Nat.le_gt_cases c k) as [L|L].
  - destruct (qn_split c k r 0 L R1 ltac:(lra) ltac:(lra)) as [[-> Er]|[-> [Er _]]].
    left; split; [reflexivity|exact Er]. right; split; [reflexivity|exact Er].
  - pose proof (qn_lt k c L). lra. Qed.

Lemma dec_vertex_ir : forall sizes c rs t, dec sizes c rs (map qn t) -> ir c rs t.
Proof. intros sizes c rs t. revert sizes c rs.
  induction t as [|t0 t IH]; intros sizes c rs D; inversion D as [|s ss cc cs rr rs' z zs Hc R0 R1 E D']; subst. constructor.
  destruct (qn_res t0 cc rr R0 R1 E) as [[-> Er]|[-> Er]].
  apply ir_zero. exact Er. apply (IH _ _ _ D'). apply ir_one. exact Er. apply (IH _ _ _ D'). Qed.

Theorem scell_vertex K sizes c rs t : dec sizes c rs (map qn t) -> scell K c rs == K t.
Proof. intros D. pose proof (S_int K c rs t (dec_vertex_ir _ _ _ _ D) [] [] (Forall_nil _)) as E.
  rewrite app_nil_r in E. unfold scell. rewrite E. cbn. ring. Qed.

Fixpoint drop_nth {A} (d : nat) (l : list A) : list A :=
  match l, d with
  | [], _ => []
  | _ :: r, O => r
  | x :: r, S d' => x :: drop_nth d' r
  end.

Lemma drop_nth_Forall {A} (P : A -> Prop) : forall l d, Forall P l -> Forall P (drop_nth d l).
Proof. induction l as [|x l IH]; intros d H; destruct d; cbn [drop_nth]; auto; inversion H; subst; auto. Qed.

(* the pair of dimension d, whatever its residual, pulled to the front of the pair list *)
Lemma pairs_pull : forall (rs : list Q) k d t, (d < length rs)%nat ->
  Permutation (combine (set_nth d t rs) (seq k (length (set_nth d t rs))))
              ((t, (k + d)%nat) :: drop_nth d (combine rs (seq k (length rs)))).
Proof. induction rs as [|r rs IH]; intros k d t H; cbn in H. lia.
  destruct d as [|d]; cbn [set_nth length seq combine drop_nth].
  - rewrite Nat.add_0_r. apply Permutation_refl.
  - eapply perm_trans. apply perm_skip, IH. lia. rewrite <- Nat.add_succ_comm. apply perm_swap. Qed.

(* the sorted pairs of the other dimensions *)
Definition others (d : nat) (rs : list Q) : list (Q * nat) := sort_desc (drop_nth d (combine rs (seq 0 (length rs)))).

Section OneDim.
  Variables (sizes : list nat) (K : tens) (d : nat) (c : idx) (rs z : list Q).
  Hypothesis D : dec sizes c rs z.
  Hypothesis Hd : (d < length sizes)%nat.

  (* the cell formula when dimension d is decomposed as cell index cd, residual t *)
  Definition F (cd : nat) (t : Q) : Q := scell K (upd c d cd) (set_nth d t rs).

  Lemma F_walk cd t : F cd t == walk K 1 (upd c d cd) (insert_desc (t, d) (others d rs)).
  Proof. unfold F, scell. rewrite (S_perm K _ _ _ (pairs_pull rs 0 d t ltac:(rewrite (dec_length D); exact Hd))).
    reflexivity. Qed.

  Lemma others_chain : chain 1 (others d rs).
  Proof. apply sort_chain, drop_nth_Forall. exact (dec_rng D). Qed.

  Lemma F_ext cd t t' : t == t' -> F cd t == F cd t'.
  Proof. intros E. rewrite !F_walk. apply insert_eqv. exact E. Qed.

  (* residual 1 in cell cd is residual 0 in cell cd + 1 *)
  Lemma F_face cd : F cd 1 == F (S cd) 0.
  Proof. rewrite !F_walk.
    rewrite (insert_top K _ 1 _ 1 d others_chain), (insert_zero K _ 1 _ 0 d others_chain) by reflexivity.
    unfold bump. rewrite nth_upd_same, upd_upd by (rewrite (dec_clength D); exact Hd). reflexivity. Qed.

  (* the value depends on the coordinate qn cd + t only *)
  Lemma F_eq_le a b ra rb : (a <= b)%nat -> ra <= 1 -> 0 <= rb -> qn a + ra == qn b + rb -> F a ra == F b rb.
  Proof. intros L A1 B0 E. destruct (qn_split a b ra rb L A1 B0 E) as [[<- R]|[-> [R1 R0]]].
    apply F_ext; exact R. rewrite (F_ext a ra 1 R1), (F_ext (S a) rb 0 R0). apply F_face. Qed.

  Lemma F_eq a b ra rb : 0 <= ra -> ra <= 1 -> 0 <= rb -> rb <= 1 -> qn a + ra == qn b + rb -> F a ra == F b rb.
  Proof. intros A0 A1 B0 B1 E. destruct (Nat.le_ge_cases a b) as [L|L].
    apply F_eq_le; assumption. symmetry. apply F_eq_le; try assumption. symmetry; exact E. Qed.

  Lemma wokF cd t : (S cd < nth d sizes 0%nat)%nat -> 0 <= t -> t <= 1 -> wok sizes (upd c d cd) ((t, d) :: others d rs).
  Proof. intros Hcd T0 T1. eapply wok_perm; [|exact (dec_wok (dec_set D d cd t Hcd T0 T1))].
    eapply perm_trans. apply pairs_pull. rewrite (dec_length D); exact Hd.
    apply perm_skip, Permutation_sym, sort_is_perm. Qed.

  Hypothesis HK : knondecr sizes K d.

  Lemma F_mono cd t t' : (S cd < nth d sizes 0%nat)%nat -> 0 <= t -> t <= t' -> t' <= 1 -> F cd t <= F cd t'.
  Proof. intros Hcd H0 Htt H1. rewrite !F_walk.
    apply (insert_mono sizes K d HK _ 1 _ t t' others_chain (wokF cd t Hcd H0 ltac:(lra)) Htt H1). Qed.

  Lemma F_le : forall n cd t t', (S (cd + n) < nth d sizes 0%nat)%nat -> 0 <= t -> t <= 1 -> 0 <= t' -> t' <= 1 ->
    (n = 0%nat -> t <= t') -> F cd t <= F (cd + n) t'.
  Proof. induction n as [|n IH]; intros cd t t' Hcd H0 H1 H0' H1' Hn.
    - rewrite Nat.add_0_r in *. apply F_mono; auto.
    - assert (A : F cd t <= F cd 1) by (apply F_mono; [lia|lra|lra|lra]).
      assert (C : F (S cd) 0 <= F (S cd + n) t') by (apply IH; [lia|lra|lra|lra|lra|intros; lra]).
      rewrite <- Nat.add_succ_comm. rewrite (F_face cd) in A. lra. Qed.

  Theorem F_all cd cd' t t' : (S cd < nth d sizes 0%nat)%nat -> (S cd' < nth d sizes 0%nat)%nat ->
    0 <= t -> t <= 1 -> 0 <= t' -> t' <= 1 -> qn cd + t <= qn cd' + t' -> F cd t <= F cd' t'.
  Proof. intros Hcd Hcd' H0 H1 H0' H1' Hle. destruct (Nat.le_gt_cases cd cd') as [L|L].
    - replace cd' with (cd + (cd' - cd))%nat in * by lia. apply F_le; try assumption.
      intros E. rewrite E, Nat.add_0_r in Hle. lra.
    - (* the same point, on the face between the two cells *)
      pose proof (qn_lt cd' cd L). rewrite (F_eq cd cd' t t'); try assumption. apply Qle_refl. lra. Qed.
End OneDim.

Lemma set_nth_ext (rs rs' : list Q) d : length rs = length rs' ->
  (forall j, j <> d -> (j < length rs)%nat -> nth j rs 0 = nth j rs' 0) -> rs' = set_nth d (nth d rs' 0) rs.
Proof. intros Hl H. apply nth_ext with (d := 0) (d' := 0). rewrite set_nth_length; auto.
  intros n Hn. destruct (Nat.eq_dec n d) as [->|N]. rewrite nth_set_nth_same by lia. reflexivity.
  rewrite nth_set_nth_other by auto. symmetry. apply H; lia. Qed.

Lemma upd_ext (c c' : idx) d : length c = length c' ->
  (forall j, j <> d -> (j < length c)%nat -> nth j c 0%nat = nth j c' 0%nat) -> c' = upd c d (nth d c' 0%nat).
Proof. intros Hl H. apply nth_ext with (d := 0%nat) (d' := 0%nat). rewrite upd_length; auto.
  intros n Hn. destruct (Nat.eq_dec n d) as [->|N]. rewrite nth_upd_same by lia. reflexivity.
  rewrite nth_upd_other by auto. symmetry. apply H; lia. Qed.

(* monotone for every pair of points that differ in dimension d *)
Theorem scell_monotone K sizes d c rs z c' rs' z' :
  dec sizes c rs z -> dec sizes c' rs' z' -> (d < length sizes)%nat ->
  (forall j, j <> d -> (j < length sizes)%nat -> nth j c 0%nat = nth j c' 0%nat /\ nth j rs 0 = nth j rs' 0) ->
  nth d z 0 <= nth d z' 0 -> knondecr sizes K d -> scell K c rs <= scell K c' rs'.
Proof. intros D D' Hd Hoth Hle HK.
  pose proof (dec_length D) as Lr. pose proof (dec_clength D) as Lc.
  assert (Er : rs' = set_nth d (nth d rs' 0) rs)
    by (apply set_nth_ext; [rewrite (dec_length D'); exact Lr|intros j Hj Hl; apply Hoth; [exact Hj|lia]]).
  assert (Ec : c' = upd c d (nth d c' 0%nat))
    by (apply upd_ext; [rewrite (dec_clength D'); exact Lc|intros j Hj Hl; apply Hoth; [exact Hj|lia]]).
  destruct (dec_nth D d Hd) as [B1 [B2 [B3 B4]]]. destruct (dec_nth D' d Hd) as [B1' [B2' [B3' B4']]].
  pose proof (F_all sizes K d c rs z D Hd HK _ _ _ _ B1 B1' B2 B3 B2' B3' ltac:(lra)) as M.
  unfold F in M. rewrite upd_self, set_nth_self, <- Ec, <- Er in M. exact M. Qed.

(* the point with z_d = c_d + 1 may be decomposed from either side of the face *)
Theorem scell_face K sizes d c rs z : dec sizes c rs z -> (d < length sizes)%nat ->
  (S (S (nth d c 0%nat)) < nth d sizes 0%nat)%nat ->
  scell K c (set_nth d 1 rs) == scell K (bump c d) (set_nth d 0 rs).
Proof. intros D Hd _. pose proof (F_face sizes K d c rs z D Hd (nth d c 0%nat)) as E.
  unfold F in E. rewrite upd_self in E. exact E. Qed.
