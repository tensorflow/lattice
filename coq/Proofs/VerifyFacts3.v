(* Property C16, the integral-float reading of the correspondence glue
   (Harness/H_C16.v: q_integral / norm_num / norm_nums / norm_trusts / rmap).

   The canonicalisers of utils.py test membership with ==, so a float equal to
   an accepted int (1.0, 0.0, -1.0) is accepted and returned as it is; the
   glue therefore reads every canonicaliser output through norm_num before
   conv_zs / conv_trusts / conv_scalar type it.  This file shows that
     1. norm_num does not change any == test against an int (so every
        membership test the model's glue makes on the value is unchanged);
     2. a canonical scalar is never "stuck" after norm_num (the reason for the
        normalisation: PWLCalibration(monotonicity=1.0) has a typed model);
     3. the canonical-range statements of Proofs/VerifyLink.v hold for the
        normalised reading that decide_lattice / decide_linear / decide_pwl /
        decide_kfl / decide_cdf actually use. *)
From Coq Require Import ZArith QArith List Bool.
From TFL Require Import Harness.H_C16 Proofs.Canon Proofs.VerifyFacts Proofs.VerifyLink.
Import ListNotations.
Open Scope Z_scope.

Lemma q_integral_eq q z : q_integral q = Some z -> (q == inject_Z z)%Q.
Proof.
  unfold q_integral. destruct (Pos.eqb (Qden (Qred q)) 1) eqn:E; [|discriminate].
  intros H. injection H as <-. apply Pos.eqb_eq in E.
  rewrite <- (Qred_correct q) at 1. destruct (Qred q) as [n d]. cbn in *. subst d. reflexivity.
Qed.

Lemma q_integral_of_int q k : Qred (inject_Z k) = inject_Z k -> (q == inject_Z k)%Q -> q_integral q = Some k.
Proof. intros X H. unfold q_integral. rewrite (Qred_complete _ _ H), X. reflexivity. Qed.

(* 1. == against an int is not changed by the normalisation *)
Lemma norm_num_py_eq_int w k : py_eq (norm_num w) (VInt k) = py_eq w (VInt k).
Proof.
  destruct w; try reflexivity. cbn [norm_num]. destruct (q_integral q) as [z|] eqn:E; [|reflexivity].
  cbn. symmetry. apply Qeqb_comp; [apply q_integral_eq, E|reflexivity].
Qed.
Lemma norm_num_in3 w : in3 (norm_num w) = in3 w.
Proof. unfold in3, py_in. cbn [existsb]. rewrite !norm_num_py_eq_int. reflexivity. Qed.
Lemma norm_num_in2 w : in2 (norm_num w) = in2 w.
Proof. unfold in2, py_in. cbn [existsb]. rewrite !norm_num_py_eq_int. reflexivity. Qed.
Lemma norm_num_none w : w = VNone -> norm_num w = VNone.
Proof. intros ->. reflexivity. Qed.
Lemma norm_num_canonical w : w = VNone \/ in3 w = true -> norm_num w = VNone \/ in3 (norm_num w) = true.
Proof. intros [->|H]; [left; reflexivity|right; rewrite norm_num_in3; exact H]. Qed.

(* 2. a canonical scalar (None or a member of {-1, 0, 1} under ==) is typed
      after the normalisation, whatever its Python type (bool, int, float) *)
Lemma in3_float_integral q : in3 (VFloat q) = true -> exists k, q_integral q = Some k.
Proof.
  unfold in3, py_in. cbn [existsb]. rewrite !orb_true_iff. cbn.
  intros [H|[H|[H|H]]]; [| | |discriminate]; apply Qeq_bool_iff in H; eexists;
    (apply q_integral_of_int; [|exact H]); reflexivity.
Qed.
Lemma canonical_scalar_typed w : (w = VNone \/ in3 w = true) -> exists o, conv_scalar (Ok (norm_num w)) = CVal o.
Proof.
  intros [->|H]; [exists None; reflexivity|].
  destruct w; try (cbn in H; discriminate).
  - eexists; reflexivity.
  - eexists; reflexivity.
  - destruct (in3_float_integral q H) as [k E]. exists (Some k). cbn [norm_num]. rewrite E. reflexivity.
Qed.
Lemma monotonicity_never_stuck v ad w : canonicalize_monotonicity v ad = Ok w ->
  exists o, conv_scalar (rmap norm_num (canonicalize_monotonicity v ad)) = CVal o.
Proof. intros E. rewrite E. cbn [rmap]. apply canonical_scalar_typed. apply (gen_monotonicity_range v ad w E). Qed.
Lemma convexity_never_stuck v w : canonicalize_convexity v = Ok w ->
  exists o, conv_scalar (rmap norm_num (canonicalize_convexity v)) = CVal o.
Proof. intros E. rewrite E. cbn [rmap]. apply canonical_scalar_typed. apply (gen_convexity_range v w E). Qed.
(* the spelling of the audit: monotonicity = 1.0 and convexity = 0.0 are typed 1 and 0 *)
Example float_spellings_typed :
  conv_scalar (rmap norm_num (canonicalize_monotonicity (VFloat 1) (VBool true))) = CVal (Some 1) /\
  conv_scalar (rmap norm_num (canonicalize_convexity (VFloat 0))) = CVal (Some 0) /\
  conv_scalar (canonicalize_monotonicity (VFloat 1) (VBool true)) = CStuck.
Proof. repeat split; vm_compute; reflexivity. Qed.

(* 3. canonical ranges of the normalised reading *)
Lemma link_monotonicity_norm v ad o : conv_scalar (rmap norm_num (canonicalize_monotonicity v ad)) = CVal o ->
  oz o = -1 \/ oz o = 0 \/ oz o = 1.
Proof.
  intros H. destruct (canonicalize_monotonicity v ad) as [w| |e] eqn:Ec; cbn [rmap] in H; try (cbn in H; discriminate).
  apply (link_scalar_range (norm_num w) o); [|exact H]. apply norm_num_canonical, (gen_monotonicity_range v ad w Ec).
Qed.
Lemma link_convexity_norm v o : conv_scalar (rmap norm_num (canonicalize_convexity v)) = CVal o ->
  oz o = -1 \/ oz o = 0 \/ oz o = 1.
Proof.
  intros H. destruct (canonicalize_convexity v) as [w| |e] eqn:Ec; cbn [rmap] in H; try (cbn in H; discriminate).
  apply (link_scalar_range (norm_num w) o); [|exact H]. apply norm_num_canonical, (gen_convexity_range v w Ec).
Qed.

Lemma norm_mono_entry ad y : mono_entry ad y -> mono_entry ad (norm_num y).
Proof.
  intros [Hr Hn]. split; [apply norm_num_canonical, Hr|rewrite norm_num_py_eq_int; exact Hn].
Qed.

Lemma link_monotonicities_norm v ad ms :
  conv_zs (rmap norm_nums (canonicalize_monotonicities v ad)) = CVal (Some ms) ->
  (forall m, In m ms -> m = 0 \/ m = 1 \/ m = -1) /\
  (py_truthy ad = false -> forall m, In m ms -> m = 0 \/ m = 1).
Proof.
  intros H. destruct (canonicalize_monotonicities v ad) as [w| |e] eqn:Ec; cbn [rmap] in H; try (cbn in H; discriminate).
  destruct (gen_monotonicities_range v ad w Ec) as [->|(ys & -> & _ & HF)]; [discriminate|].
  apply (conv_zs_range ad (map norm_num ys) ms); [|exact H].
  apply Forall_map, (Forall_impl _ (norm_mono_entry ad)), HF.
Qed.

Lemma norm_trust_canonical e : canonical_trust_entry e -> canonical_trust_entry (norm_trust e).
Proof.
  intros (a & b & d & -> & H). exists a, b, (norm_num d). split; [reflexivity|]. rewrite norm_num_in2. exact H.
Qed.
Lemma link_trusts_norm v ts : conv_trusts (rmap norm_trusts (canonicalize_trust v)) = CVal ts ->
  forall a b d, In (a, b, d) ts -> d = 1 \/ d = -1.
Proof.
  intros H. destruct (canonicalize_trust v) as [w| |e] eqn:Ec; cbn [rmap] in H; try (cbn in H; discriminate).
  destruct (gen_trust_range v w Ec) as [->|(ys & -> & _ & HF)]; [injection H as <-; intros a b d []|].
  apply (conv_trusts_range (map norm_trust ys) ts); [|exact H].
  apply Forall_map, (Forall_impl _ norm_trust_canonical), HF.
Qed.

(* the Lattice bridge for the reading decide_lattice uses *)
Lemma canonical_accepted_lattice_cfg_valid_norm vm ve vt c units :
  conv_zs (rmap norm_nums (canonicalize_monotonicities vm (VBool false))) = CVal (l_monos c) ->
  conv_trusts (rmap norm_trusts (canonicalize_trust ve)) = CVal (l_edge c) ->
  conv_trusts (rmap norm_trusts (canonicalize_trust vt)) = CVal (l_trap c) ->
  accepts_lattice c = true -> (1 <= units)%nat ->
  LatticeSpec.cfg_valid (conv_lattice c units).
Proof.
  intros Hm He Ht Hacc Hu. apply accepted_lattice_cfg_valid; try assumption.
  - intros ms m E Hin. rewrite E in Hm. destruct (link_monotonicities_norm _ _ _ Hm) as [_ X].
    apply (X eq_refl m Hin).
  - intros a b d Hin. apply in_app_or in Hin. destruct Hin as [Hin|Hin].
    + apply (link_trusts_norm ve _ He a b d Hin).
    + apply (link_trusts_norm vt _ Ht a b d Hin).
Qed.
